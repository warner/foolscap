(* C06 -- Remote peers can reach only objects they were given or can name.
   Property theorems only; model in lib/Reach.v (on the translated gen/ReachGen.v), proofs in lib/ReachProofs.v;
   second layer (dispatcher assembled from the statement-by-statement translation gen/ReachDispGen.v; reference arguments):
   lib/ReachDeep.v, lib/ReachDeepProofs.v. *)
From Coq Require Import ZArith List String Bool.
Import ListNotations.
Require Import Verif.lib.PyLite Verif.gen.ReachGen Verif.gen.ReachDispGen Verif.lib.Reach Verif.lib.ReachProofs
  Verif.lib.ReachDeep Verif.lib.ReachDeepProofs Verif.lib.ReachPipe Verif.lib.ReachPipeProofs.
Local Open Scope Z_scope.

(* SCOPE OF THE ONE-STEP THEOREMS BELOW (review 2, item 1).  `step w st (Msg ..)` of lib/Reach.v looks the id up and delivers the
   call in ONE step.  The code does not: CallUnslicer resolves the id to the object while the bytes are PARSED, the method runs
   when Broker.doNextCall DELIVERS the queued InboundDelivery in a later reactor turn.  Every theorem below that speaks about
   `step .. (Msg ..)`, `run`, `xstep .. (XMsg ..)` therefore describes a call that arrives while nothing is queued on its
   connection and is delivered before the next call is parsed (one call per segment and turn; C06_atomic_is_parse_then_deliver
   makes that precise).  They do NOT transfer to calls pipelined in one segment.  The general statements -- over ALL
   interleavings of parses and delivery turns -- are in the section "parse and delivery are two steps" at the end of this file:
   C06_calls_pipelined, C06_exports_were_granted_pipelined, C06_sent_justified_pipelined, C06_classes_pipelined,
   C06_translated_history_pipelined; what is FALSE in general is C06_held_at_delivery_refuted.  The statements about one call's
   PARSE given the tables at that moment (obj_call / xobj_call: C06_translated_dispatch, C06_delivered_values_justified,
   C06_classes_any_arguments, C06_proxies_and_dials_justified, C06_unheld_id_inert, C06_gift_gate) are unaffected. *)

(* "a peer can cause code to run only on (a) [the broker's name lookup / release entry points: id 0] ... (b) objects that
   were explicitly sent to it over that same connection and not yet released, and only through methods exposed for
   remote use": whatever an inbound call enters is either one of the RIBroker methods of this connection's broker, or the
   object / callable this connection's export table holds under that very id -- and then only the attribute
   "remote_" ++ <method name>, which must exist and, if the object declares a RemoteInterface, be part of it *)
Theorem C06_calls : forall w st c req clid m args st' r e,
  step w st (Msg c req clid m args) = (st', r) -> r_out r = Enter e ->
  c_alive (get_conn st c) = true /\
  ((clid = 0 /\ exists s, m = MStr s /\ In s broker_methods /\ e = EBroker (remote_prefix ++ s)) \/
   (clid < 0 /\ exists o, exported st c clid o /\ e = ECallable o) \/
   (0 < clid /\ exists o s, exported st c clid o /\ m = MStr s /\ e = EObj o (remote_prefix ++ s) /\
        In (remote_prefix ++ s)%string (o_attrs (w_obj w o)) /\
        (forall l, iface_of w (s_decl st) o = Some l -> In s l))).
Proof. exact calls_sound. Qed.
Print Assumptions C06_calls.

(* "only through methods exposed for remote use", per instance: the RemoteInterface an object exposes is the one its class
   declares or else the one declared on the instance itself (zope directlyProvides / alsoProvides; translated:
   getInterface() evaluates getRemoteInterface(self) per instance), and only its methods are entered ... *)
Theorem C06_instance_interface_enforced : forall w st c req clid m args st' r o a l,
  step w st (Msg c req clid m args) = (st', r) -> r_out r = Enter (EObj o a) ->
  match o_iface (w_obj w o) with Some l' => Some l' | None => zget o (s_decl st) end = Some l ->
  exists s, m = MStr s /\ a = (remote_prefix ++ s)%string /\ In s l.
Proof. exact instance_interface_enforced. Qed.
Print Assumptions C06_instance_interface_enforced.

(* ... and what an instance exposes is changed only by a declaration on that very instance: no use of any other object
   (another instance of the same class, a subclass instance, on any connection, in any order) affects it *)
Theorem C06_declaration_origin : forall w h st o l,
  zget o (s_decl (fst (run w st h))) = Some l -> In (o, l) (s_decl st) \/ In (Declare o (Some l)) h.
Proof. exact decl_origin. Qed.
Print Assumptions C06_declaration_origin.

(* "only through methods exposed for remote use": the prefix is the one read from Referenceable.doRemoteCall, and the
   broker exposes exactly the three RIBroker methods *)
Theorem C06_remote_prefix : forall w st c req clid m args st' r,
  step w st (Msg c req clid m args) = (st', r) ->
  (forall o a, r_out r = Enter (EObj o a) -> String.prefix "remote_" a = true) /\
  (forall a, r_out r = Enter (EBroker a) -> String.prefix "remote_" a = true).
Proof. exact entered_attr_prefixed. Qed.
Print Assumptions C06_remote_prefix.

Theorem C06_broker_surface :
  broker_methods = ["getReferenceByName"; "decref"; "decgift"]%string /\
  broker_remote_attrs = map (fun m => remote_prefix ++ m)%string ["decref"; "decgift"; "getReferenceByName"]%string.
Proof. exact broker_methods_pinned. Qed.
Print Assumptions C06_broker_surface.

(* "explicitly sent to it over that same connection and not yet released", over all histories: every entry of a
   connection's export table in a reachable state has a positive reference count, an id that is not 0 and that the
   connection's counter has already passed (ids are never guessed ahead or reused), and was emitted as a my-reference on
   that same connection *)
Theorem C06_exports_were_granted : forall w h st rs c clid o rc,
  run w init h = (st, rs) -> zget clid (c_exports (get_conn st c)) = Some (o, rc) ->
  0 < rc /\ clid <> 0 /\ Z.abs clid < c_next (get_conn st c) /\ In (c, clid, o) (sent_of rs).
Proof. exact exports_were_granted. Qed.
Print Assumptions C06_exports_were_granted.

(* ... and a my-reference is emitted only when the application sends that object on that connection, or when that
   connection's peer named it ("(a) objects it names by their unguessable registered name") *)
Theorem C06_sent_justified : forall w st e st' r c clid o,
  step w st e = (st', r) -> In (c, clid, o) (r_sent r) ->
  (exists sw, e = Grant c o sw) \/
  (exists req n, e = Msg c req broker_clid (MStr "getReferenceByName") [ABytes (MStr n)] /\ req <> 0 /\
                 lookup_name w st n = Some o).
Proof. exact sent_justified. Qed.
Print Assumptions C06_sent_justified.

(* name lookup yields only registered objects, or what the application's lookup handler serves at that moment *)
Theorem C06_names : forall w st n o,
  lookup_name w st n = Some o ->
  In (n, o) (s_n2r st) \/ (sget n (s_n2r st) = None /\ sget n (s_h st) = Some o).
Proof. exact names_sound. Qed.
Print Assumptions C06_names.

(* ... where, over all histories, every entry of the name table was put there by registerReference or by the first send of
   the object (its unguessable URL); a handler's answer never enters the table (translated: handler_answers_cached = false) *)
Theorem C06_names_origin : forall w h st n o,
  In (n, o) (s_n2r (fst (run w st h))) -> In (n, o) (s_n2r st) \/ exists e, In e h /\ names_event n o e.
Proof. exact names_origin. Qed.
Print Assumptions C06_names_origin.

(* ... so a name that was only ever served by a handler stops resolving -- on every connection -- as soon as the handler
   stops serving it (Revoke / HandlerOff), however often it was looked up before and although the object is still alive *)
(* n <> "": names_event's third clause lets the model's placeholder name "" enter the table through any name lookup (see
   lib/ReachProofs.v names_event and the witness empty_name_enters_by_lookup); nothing is claimed about the name "". *)
Theorem C06_revoked_name_refused : forall w h st n,
  st = fst (run w init h) -> n <> ""%string ->
  (forall e, In e h -> forall o, ~ names_event n o e) -> sget n (s_h st) = None ->
  lookup_name w st n = None.
Proof. exact revoked_name_refused. Qed.
Print Assumptions C06_revoked_name_refused.

(* tub.unregisterReference REVOKES a registered name (review 2, item 2; a model whose Unregister is a no-op violates it): for an
   object registered under n, afterwards the name table has no entry for n, the object has no name, only the lookup handler could
   still answer n, every other name resolves as before, no connection's table changes ... *)
Theorem C06_unregister_revokes : forall w st o n,
  zget o (s_r2n st) = Some n -> is_some (sget n (s_n2r st)) = true ->
  let st' := fst (step w st (Unregister o)) in
  sget n (s_n2r st') = None /\ zget o (s_r2n st') = None /\ lookup_name w st' n = sget n (s_h st) /\
  (forall n', n' <> n -> lookup_name w st' n' = lookup_name w st n') /\
  s_a st' = s_a st /\ s_b st' = s_b st.
Proof. exact unregister_revokes. Qed.
Print Assumptions C06_unregister_revokes.

(* ... and the name stays refused on every connection, whatever happens afterwards, until the application publishes it again or
   its handler serves it *)
Theorem C06_unregistered_name_stays_refused : forall w st o n h,
  zget o (s_r2n st) = Some n -> is_some (sget n (s_n2r st)) = true -> n <> ""%string ->
  (forall e, In e h -> forall o', ~ names_event n o' e) ->
  let st2 := fst (run w (fst (step w st (Unregister o))) h) in
  sget n (s_h st2) = None -> lookup_name w st2 n = None.
Proof. exact unregistered_name_stays_refused. Qed.
Print Assumptions C06_unregistered_name_stays_refused.

(* the excluded region (is_some (sget n (s_n2r st)) = false): an object only the lookup HANDLER ever answered; unregisterReference
   does nothing there (the code raises KeyError) and the name resolves for as long as the handler serves it (C06_revoked_name_refused) *)
Theorem C06_unregister_handler_name_refuted :
  exists w st o n, zget o (s_r2n st) = Some n /\ is_some (sget n (s_n2r st)) = false /\
                   lookup_name w (fst (step w st (Unregister o))) n = Some o.
Proof. exact unregister_handler_name_refuted. Qed.
Print Assumptions C06_unregister_handler_name_refuted.

(* "unguessable": names the Tub invents carry NAMEBITS (translated: 160) >= 128 bits, all of them taken from the OS entropy
   source (translated: generateSwissnumber is base32 of os.urandom(bits // 8) and nothing else; any other source fails closed).
   The harness complements this with a peer-side state-recovery attack on the real generator that must fail. *)
Theorem C06_swissnum_bits : 128 <= NAMEBITS /\ swissnum_source = OsEntropy.
Proof. exact swissnum_bits. Qed.
Print Assumptions C06_swissnum_bits.

(* "it can cause instances to be created only of classes explicitly registered for pass-by-copy" *)
Theorem C06_classes : forall w st c req clid m args st' r cls,
  step w st (Msg c req clid m args) = (st', r) -> In cls (r_inst r) ->
  exists n, In (ACopyable n) args /\ sget n (s_copy st) = Some cls.
Proof. exact classes_sound. Qed.
Print Assumptions C06_classes.

(* ... where the registry holds what importing foolscap registered (translated key set) and what registerRemoteCopy added to
   the GLOBAL registry: a registration into a private registry (RegisterCopyPriv, also an empty one) never gets there
   (translated default-registry test: DefaultIfNone) *)
Theorem C06_registry_origin : forall w h n cls,
  sget n (s_copy (fst (run w init h))) = Some cls -> In n copyable_names \/ In (RegisterCopy n cls) h.
Proof. exact registry_origin. Qed.
Print Assumptions C06_registry_origin.

(* ... and what the DEFINITION of an application class registers (metaclass RemoteCopyClass.__init__, translated:
   metaclass_registers; define_class is the list of registration events a class statement amounts to): "only of classes
   EXPLICITLY registered" -- a class that opts out (copytype = None, or ""), or that gives no copytype (the definition fails), is
   registered under no name, whatever its typeToCopy (the name it is SENT as) and whatever registry it names ... *)
Theorem C06_optout_class_not_registered : forall ttc priv em cls,
  define_class CtNone ttc priv em cls = [] /\ define_class CtAbsent ttc priv em cls = [] /\
  define_class (CtStr ""%string) ttc priv em cls = [].
Proof. exact optout_class_not_registered. Qed.
Print Assumptions C06_optout_class_not_registered.

(* ... it leaves every state as it is ... *)
Theorem C06_optout_class_inert : forall w st ttc priv em cls,
  run w st (define_class CtNone ttc priv em cls) = (st, []).
Proof. exact optout_class_inert. Qed.
Print Assumptions C06_optout_class_inert.

(* ... and every other class definition is ONE registration, under the class's own non-empty copytype (never its typeToCopy), into
   the registry the class names; what such a registration does is RegisterCopy / RegisterCopyPriv above *)
Theorem C06_class_definition_registers_copytype_only : forall ct ttc priv em cls e,
  In e (define_class ct ttc priv em cls) ->
  exists n, ct = CtStr n /\ n <> ""%string /\ e = (if priv then RegisterCopyPriv n cls em else RegisterCopy n cls).
Proof. exact class_definition_registers_copytype_only. Qed.
Print Assumptions C06_class_definition_registers_copytype_only.

(* the set of OPEN types is closed: everything accepted below the top level is plain data or one of the four reference
   forms, nothing that names code; the top level accepts call / answer / error only *)
Theorem C06_open_types_closed :
  forallb (fun k => mem_type k data_types) open_types = true /\
  forallb (fun t => negb (mem_type [t] open_types))
          ["instance"; "class"; "module"; "function"; "method"; "call"; "answer"; "error"; "copyable"]%string = true /\
  top_types = [["answer"]; ["call"]; ["error"]]%string.
Proof. exact open_types_closed_all. Qed.
Print Assumptions C06_open_types_closed.

(* "every other object id, name, method name or class name fails that request": a call that entered anything used only
   registered OPEN types, registered copyable names and your-references its own connection resolves *)
Theorem C06_bad_argument_never_enters : forall w st c req clid m args st' r e,
  step w st (Msg c req clid m args) = (st', r) -> r_out r = Enter e -> clid <> 0 ->
  (forall t, In (AOpen t) args -> mem_type [t] open_types = true) /\
  (forall n, In (ACopyable n) args -> exists cls, sget n (s_copy st) = Some cls) /\
  (forall k, In (AYourRef k) args -> k = 0 \/ exists o, exported st c k o).
Proof. exact bad_argument_never_enters. Qed.
Print Assumptions C06_bad_argument_never_enters.

(* "... without side effects".  FULL statement: "every other object id, name, method name or class name fails THAT REQUEST and
   changes nothing".  Proved: _partial -- a request answered with an error (Reject) or arriving on a dead connection changes
   none of the tables of lib/Reach.v (name tables, registry, declarations, both export tables, counters) and emits no reference;
   and every faulty request IS answered that way unless it is a protocol error (C06_dropped_only_for_protocol_error,
   C06_unknown_yourref_fails_only_that_request).  What is still missing is ONLY the state outside those tables
   (C06_refusal_pure_full_refuted, known finding oracle/refused-request-left-proxy-or-dial): a request refused because of a LATER
   argument has already created a proxy / dialled a gift / instantiated a registered class.
   A call entering an application object changes no table; other top-level sequences change nothing. *)
Theorem C06_refusal_pure_partial : forall w st c req clid m args st' r,
  step w st (Msg c req clid m args) = (st', r) -> r_out r = Reject \/ r_out r = Dead -> st' = st /\ r_sent r = [].
Proof. exact refusal_pure. Qed.
Print Assumptions C06_refusal_pure_partial.

(* "every other object id ... fails THAT request", for a your-reference ARGUMENT naming an id the connection's table does not hold
   (since the fix 0058e18; before it the KeyError escaped and the whole connection was dropped): exactly that request is
   refused, the connection stays, no table changes, nothing is sent *)
Theorem C06_unknown_yourref_fails_only_that_request : forall w st c req clid m args st' r k,
  step w st (Msg c req clid m args) = (st', r) -> clid <> 0 -> c_alive (get_conn st c) = true ->
  In (AYourRef k) args -> k <> 0 -> zget k (c_exports (get_conn st c)) = None ->
  (forall k', In (AYourRef k') args -> 0 <= k') ->
  r_out r = Reject /\ st' = st /\ r_sent r = [] /\ c_alive (get_conn st' c) = true.
Proof. exact unknown_yourref_fails_only_that_request. Qed.
Print Assumptions C06_unknown_yourref_fails_only_that_request.

(* ... and the ONLY inbound call that still costs the peer its connection is a protocol error -- a NEG token inside a
   your-reference (checkToken: BananaError).  Unknown ids, names, classes, OPEN types, method names that are not UTF-8 never do. *)
Theorem C06_dropped_only_for_protocol_error : forall w st c req clid m args st' r,
  step w st (Msg c req clid m args) = (st', r) -> r_out r = Aborted ->
  clid <> 0 /\ exists k, In (AYourRef k) args /\ k < 0.
Proof. exact dropped_only_for_protocol_error. Qed.
Print Assumptions C06_dropped_only_for_protocol_error.

Theorem C06_dropped_local : forall w st c req clid m args st' r,
  step w st (Msg c req clid m args) = (st', r) -> r_out r = Aborted ->
  st' = set_conn st c (drop_conn (get_conn st c)) /\ r_sent r = [].
Proof. exact aborted_local. Qed.
Print Assumptions C06_dropped_local.

Theorem C06_plain_call_pure : forall w st c req clid m args st' r,
  step w st (Msg c req clid m args) = (st', r) ->
  (exists o a, r_out r = Enter (EObj o a)) \/ (exists o, r_out r = Enter (ECallable o)) -> st' = st /\ r_sent r = [].
Proof. exact plain_call_pure. Qed.
Print Assumptions C06_plain_call_pure.

Theorem C06_top_level_pure : forall w st c t st' r,
  step w st (TopMsg c t) = (st', r) -> st' = st /\ r_inst r = [] /\ r_sent r = [] /\ (r_out r = Reject \/ r_out r = Dead).
Proof. exact top_level_pure. Qed.
Print Assumptions C06_top_level_pure.

(* "ids learned on one connection are meaningless on another": an id this connection's table does not hold is refused
   without effect, whatever the other connection's table holds under it *)
Theorem C06_foreign_clid_refused : forall w st c req clid m args,
  clid <> 0 -> c_alive (get_conn st c) = true -> zget clid (c_exports (get_conn st c)) = None ->
  step w st (Msg c req clid m args) = (st, res0 Reject).
Proof. exact foreign_clid_refused. Qed.
Print Assumptions C06_foreign_clid_refused.

(* the other connection's table is neither read nor written by anything that does not happen on it *)
Theorem C06_other_table_is_a_frame : forall w st e c' x,
  on_conn e <> Some c' ->
  step w (set_conn st c' x) e = (set_conn (fst (step w st e)) c' x, snd (step w st e)).
Proof. exact step_frame. Qed.
Print Assumptions C06_other_table_is_a_frame.

(* non-interference over all interleaved histories: two histories that agree on connection c's own events (and on
   copyable registrations) but differ arbitrarily in what happens on the other connection -- grants, releases, inbound
   messages, drops -- and in the Tub's name table, give c the same export table and the same outcome for every one of
   c's messages.  Name lookups are excluded: the name table is Tub-wide by design (C06_names covers them). *)
Theorem C06_conn_local : forall w c h1 h2 s1 s2,
  same_view c s1 s2 -> no_lookup_on c h1 -> no_lookup_on c h2 -> proj c h1 = proj c h2 ->
  same_view c (fst (run w s1 h1)) (fst (run w s2 h2)) /\
  results_on c h1 (snd (run w s1 h1)) = results_on c h2 (snd (run w s2 h2)).
Proof. exact id_locality. Qed.
Print Assumptions C06_conn_local.

(* ============================== round 5: the translated dispatch path ==============================
   "id lookup or Violation", "remote_ prefix dispatch", "only through methods exposed for remote use":
   obj_call_T is assembled from the Gallina terms that translate/g_reachdisp.py produces, statement by statement, from
   Broker.getMyReferenceByCLID, CallUnslicer.receiveChild (stages 1 and 2), Broker._doCall, Referenceable.doRemoteCall and
   YourReferenceUnslicer.receiveClose.  On every well-kinded table it IS the hand-written dispatcher all theorems above are about. *)
Theorem C06_translated_dispatch : forall w copy cn clid m args,
  kinds_ok w cn -> clid <> 0 -> obj_call_T w copy cn clid m args = obj_call w copy cn clid m args.
Proof. exact obj_call_T_eq. Qed.
Print Assumptions C06_translated_dispatch.

(* "callable-by-reference": in every state any history leads to, negative ids denote bound methods / functions and positive
   ids Referenceables (so the well-kindedness above is no restriction) *)
Theorem C06_negative_ids_are_callables : forall w h st rs c k o rc,
  run w init h = (st, rs) -> zget k (c_exports (get_conn st c)) = Some (o, rc) ->
  (k < 0 -> o_kind (w_obj w o) = KCallable) /\ (0 < k -> o_kind (w_obj w o) = KObj).
Proof. exact kinds_reachable. Qed.
Print Assumptions C06_negative_ids_are_callables.

(* "not yet released": the translated Broker.remote_decref (with the translated ReferenceableTracker.decref inside) is the
   model's decref, and it forgets the object in myReferenceByPUID exactly when it forgets the id in myReferenceByCLID *)
Theorem C06_translated_decref : forall cn k n, decref_T cn k n = decref cn k n.
Proof. exact decref_T_eq. Qed.
Print Assumptions C06_translated_decref.

Theorem C06_decref_both_tables : forall (ex : list (Z * (Z * Z))) k n byclid bypuid o rc,
  gen_remote_decref tracker_decref ex (puid_table ex) k n = XOk (byclid, bypuid) -> zget k ex = Some (o, rc) ->
  (zget k byclid = None <-> zget o bypuid = None).
Proof. exact decref_both_tables. Qed.
Print Assumptions C06_decref_both_tables.

(* "(a) objects it names by their unguessable registered name": Tub._assignName and Tub.getReferenceForName, translated statement by
   statement (one lookup handler), are the model's assign_name / found_name for all inputs *)
Theorem C06_translated_assign_name : forall st o pref sw, assign_name_T st o pref sw = assign_name st o pref sw.
Proof. exact assign_name_T_eq. Qed.
Print Assumptions C06_translated_assign_name.

Theorem C06_translated_name_lookup : forall w st n, found_name_T w st n = found_name w st n.
Proof. exact found_name_T_eq. Qed.
Print Assumptions C06_translated_name_lookup.

(* end to end: on every history the machine that runs the translated code and the model agree, state by state and result by
   result; every history-level theorem above therefore speaks about the translated code *)
Theorem C06_translated_history : forall w h, run_T w init h = run w init h.
Proof. exact run_T_eq. Qed.
Print Assumptions C06_translated_history.

(* ============================== round 5: reference arguments ==============================
   A call may carry (my-reference k) -- the peer's own object -- and (their-reference g url) -- a gift -- among its arguments.
   SIMULATION: if such a call enters anything, the core model makes the same step for the call without them; so C06_calls,
   C06_instance_interface_enforced, C06_classes, C06_bad_argument_never_enters hold for calls with arbitrary arguments. *)
Theorem C06_reference_arguments_simulate : forall w x c req clid m xs x' r e,
  all_kinds_ok w (xs_core x) -> clid <> 0 ->
  xstep w x (XMsg c req clid m xs) = (x', r) -> r_out (xr_core r) = Enter e ->
  step w (xs_core x) (Msg c req clid m (strip xs)) = (xs_core x', xr_core r).
Proof. exact xcall_simulates. Qed.
Print Assumptions C06_reference_arguments_simulate.

(* "a peer can cause code to run only on ...", for what the entered code is HANDED: position by position, a local object only
   for a your-reference this connection's own table resolves (never for a my-reference: that yields a proxy of this
   connection for the peer's object; never for a gift: that yields what the dial returned), the Broker only for id 0, a fresh
   instance only of a registered class *)
Theorem C06_delivered_values_justified : forall ag w copy cn clid m xs e,
  r_out (xr_core (xobj_call ag w copy cn clid m xs)) = Enter e ->
  Forall2 (justified copy (c_exports cn)) xs (xr_argv (xobj_call ag w copy cn clid m xs)).
Proof. exact xcall_argv_justified. Qed.
Print Assumptions C06_delivered_values_justified.

Theorem C06_classes_any_arguments : forall ag w copy cn clid m xs cls,
  In cls (r_inst (xr_core (xobj_call ag w copy cn clid m xs))) ->
  exists n, In (XA (ACopyable n)) xs /\ sget n copy = Some cls.
Proof. exact xcall_classes. Qed.
Print Assumptions C06_classes_any_arguments.

(* a gift makes the Tub dial only when gifts are accepted, only the URLs the message itself carries; proxies are created
   only for the message's own my-references; and a call with a gift enters nothing unless gifts are accepted and the dial
   succeeded *)
Theorem C06_proxies_and_dials_justified : forall ag w copy cn clid m xs,
  (forall k, In k (xr_yours (xobj_call ag w copy cn clid m xs)) -> In (XMyRef k) xs) /\
  (forall g u, In (g, u) (xr_dial (xobj_call ag w copy cn clid m xs)) -> ag = true /\ exists ok, In (XTheirRef g u ok) xs).
Proof. exact xcall_effects_justified. Qed.
Print Assumptions C06_proxies_and_dials_justified.

(* "every other object id ... fails that request without side effects", with arbitrary arguments: an id this connection's
   table does not hold is refused AT THE ID -- nothing is instantiated, no proxy is created, nothing is dialled *)
Theorem C06_unheld_id_inert : forall ag w copy cn clid m xs,
  clid <> 0 -> zget clid (c_exports cn) = None ->
  xobj_call ag w copy cn clid m xs = {| xr_core := res0 Reject; xr_argv := []; xr_yours := []; xr_dial := [] |}.
Proof. exact xcall_unheld_id_inert. Qed.
Print Assumptions C06_unheld_id_inert.

Theorem C06_gift_gate : forall ag w copy cn clid m xs e g u ok,
  r_out (xr_core (xobj_call ag w copy cn clid m xs)) = Enter e -> In (XTheirRef g u ok) xs -> ag = true /\ ok = true.
Proof. exact xcall_gift_gate. Qed.
Print Assumptions C06_gift_gate.

(* "... without side effects", against the whole Tub + both brokers: entered or refused, with whatever arguments, a call to an
   application object leaves name table, registry, declarations and BOTH export tables alone (or drops its own connection),
   and never touches the other connection's proxy table *)
Theorem C06_tables_unchanged_any_arguments : forall w x c req clid m xs x' r,
  clid <> 0 -> xstep w x (XMsg c req clid m xs) = (x', r) ->
  (r_out (xr_core r) <> Aborted /\ xs_core x' = xs_core x) \/
  (r_out (xr_core r) = Aborted /\ xs_core x' = set_conn (xs_core x) c (drop_conn (get_conn (xs_core x) c))).
Proof. exact xcall_tables_unchanged. Qed.
Print Assumptions C06_tables_unchanged_any_arguments.

Theorem C06_other_proxies_unchanged : forall w x c req clid m xs x' r c',
  c' <> c -> xstep w x (XMsg c req clid m xs) = (x', r) -> get_yours x' c' = get_yours x c'.
Proof. exact xcall_other_proxies_unchanged. Qed.
Print Assumptions C06_other_proxies_unchanged.

(* FULL statement "a refused request changes nothing at all in the broker": REFUTED for the faithful model (witness replayed on
   the real code by the harness, signature oracle/refused-request-left-proxy-or-dial): arguments are unsliced before the
   request is known to be deliverable, so a request refused because of a LATER argument has already created a proxy in its own
   connection's yourReferenceByCLID, made the Tub dial the gift's URL and instantiated a registered class.  What IS unchanged
   is stated by C06_refusal_pure_partial / C06_tables_unchanged_any_arguments. *)
Theorem C06_refusal_pure_full_refuted :
  exists w x c req clid m xs x' r,
    xstep w x (XMsg c req clid m xs) = (x', r) /\ r_out (xr_core r) = Reject /\
    xs_core x' = xs_core x /\
    get_yours x c = [] /\ get_yours x' c = [5] /\ xr_dial r = [(1, UForeign)] /\ r_inst (xr_core r) = [-1].
Proof. exact refusal_pure_full_refuted. Qed.
Print Assumptions C06_refusal_pure_full_refuted.

(* ============================== review 2: parse and delivery are two steps ==============================
   lib/ReachPipe.v: `PE (Msg ..)` PARSES a call (id -> object, interface, arguments; a resolved call is appended to the
   connection's FIFO queue with the RESOLVED object), `PDeliver c` is one turn of Broker.doNextCall (the head of c's queue runs:
   the method is entered, remote_decref / remote_getReferenceByName take effect NOW; the getattr of doRemoteCall happens here too: a
   call resolved to an object that lacks "remote_"+name is queued with d_ok = false and its turn fails the request); a dropped
   connection abandons its queue.
   Histories are arbitrary interleavings of parses, delivery turns and all other events, on both connections. *)

(* "a peer can cause code to run only on (a) ... (b) objects that were explicitly sent to it over that same connection and not
   yet released, and only through methods exposed for remote use" -- the HONEST statement: whatever any delivery enters was
   resolved by the parse of a call that arrived earlier on the same connection, and AT THAT MOMENT (state after the prefix h1)
   the connection was alive and the call was addressed to id 0 with one of the three RIBroker methods, or to an id its export
   table held then, through "remote_"+name, present, and part of the interface the object exposed then. *)
Theorem C06_calls_pipelined : forall w h ps rs r e,
  prun w pinit h = (ps, rs) -> In r rs -> pr_out r = Out (Enter e) ->
  exists h1 h2 c req clid m args,
    h = h1 ++ PE (Msg c req clid m args) :: h2 /\ In (PDeliver c) h2 /\
    let st := p_st (fst (prun w pinit h1)) in
    c_alive (get_conn st c) = true /\
    ((clid = 0 /\ exists s, m = MStr s /\ In s broker_methods /\ e = EBroker (remote_prefix ++ s)) \/
     (clid < 0 /\ exists o, exported st c clid o /\ e = ECallable o) \/
     (0 < clid /\ exists o s, exported st c clid o /\ m = MStr s /\ e = EObj o (remote_prefix ++ s) /\
          In (remote_prefix ++ s)%string (o_attrs (w_obj w o)) /\
          (forall l, iface_of w (s_decl st) o = Some l -> In s l))).
Proof. exact pipe_calls. Qed.
Print Assumptions C06_calls_pipelined.

(* ... and code is entered by delivery turns only, namely what the head of that connection's queue was resolved to *)
Theorem C06_entered_by_delivery_only : forall w ps pe ps' r e,
  pstep w ps pe = (ps', r) -> pr_out r = Out (Enter e) ->
  exists c d q, pe = PDeliver c /\ pq ps c = d :: q /\ d_ent d = e /\ c_alive (get_conn (p_st ps) c) = true /\ d_ok d = true.
Proof. exact pstep_enter. Qed.
Print Assumptions C06_entered_by_delivery_only.

(* FALSE in general (and false of the real code; replayed by the harness, signature oracle/released-id-entered-when-pipelined):
   "the id is held when the method is ENTERED".  The peer is granted an object, then sends decref and a call to it in one
   segment; both are parsed before either is delivered, and remote_hi runs on an object whose id is no longer in the table. *)
Theorem C06_held_at_delivery_refuted :
  exists w h1 ps1 rs1 ps2 r,
    prun w pinit h1 = (ps1, rs1) /\ pstep w ps1 (PDeliver CA) = (ps2, r) /\
    pr_out r = Out (Enter (EObj 1 "remote_hi")) /\
    c_exports (get_conn (p_st ps1) CA) = [] /\ c_alive (get_conn (p_st ps1) CA) = true.
Proof. exact held_at_delivery_refuted. Qed.
Print Assumptions C06_held_at_delivery_refuted.

(* every state the two-step machine reaches is a state of lib/Reach.v (each delivery changes the tables exactly as the broker
   call it stands for, taken at delivery time), so the table invariants hold over all schedules:
   "explicitly sent to it over that same connection and not yet released" *)
Theorem C06_exports_were_granted_pipelined : forall w h ps rs c clid o rc,
  prun w pinit h = (ps, rs) -> zget clid (c_exports (get_conn (p_st ps) c)) = Some (o, rc) ->
  0 < rc /\ clid <> 0 /\ Z.abs clid < c_next (get_conn (p_st ps) c) /\ In (c, clid, o) (psent_of rs).
Proof. exact pipe_exports_were_granted. Qed.
Print Assumptions C06_exports_were_granted_pipelined.

Theorem C06_negative_ids_are_callables_pipelined : forall w h ps rs c k o rc,
  prun w pinit h = (ps, rs) -> zget k (c_exports (get_conn (p_st ps) c)) = Some (o, rc) ->
  (k < 0 -> o_kind (w_obj w o) = KCallable) /\ (0 < k -> o_kind (w_obj w o) = KObj).
Proof. exact pipe_kinds_reachable. Qed.
Print Assumptions C06_negative_ids_are_callables_pipelined.

(* a my-reference is emitted only when the application sends the object, or when a name lookup is DELIVERED and the name
   resolves at that moment *)
Theorem C06_sent_justified_pipelined : forall w ps pe ps' r c clid o,
  pstep w ps pe = (ps', r) -> In (c, clid, o) (pr_sent r) ->
  (exists sw, pe = PE (Grant c o sw)) \/
  (pe = PDeliver c /\ exists d q n, pq ps c = d :: q /\ d_fx d = FxLookup n /\ d_req d <> 0 /\ lookup_name w (p_st ps) n = Some o).
Proof. exact pipe_sent_justified. Qed.
Print Assumptions C06_sent_justified_pipelined.

(* instances are created while a call is parsed, only of classes registered at that moment under the names the call carries *)
Theorem C06_classes_pipelined : forall w ps pe ps' r cls,
  pstep w ps pe = (ps', r) -> In cls (pr_inst r) ->
  exists c req clid m args n, pe = PE (Msg c req clid m args) /\ In (ACopyable n) args /\ sget n (s_copy (p_st ps)) = Some cls.
Proof. exact pipe_classes. Qed.
Print Assumptions C06_classes_pipelined.

(* the two-step machine built from the TRANSLATED dispatcher, remote_decref, _assignName and getReferenceForName is this machine,
   on every schedule *)
Theorem C06_translated_history_pipelined : forall w h, prun_T w pinit h = prun w pinit h.
Proof. exact prun_T_eq. Qed.
Print Assumptions C06_translated_history_pipelined.

(* what lib/Reach.v's one-step `step (Msg ..)` IS: the parse followed at once by a delivery turn, on a connection with nothing
   queued -- same tables, same instantiations, same references sent, same thing entered (a refusal comes from the parse, or --
   missing attribute -- from the delivery turn) *)
Theorem C06_atomic_is_parse_then_deliver : forall w ps c req clid m args ps1 r1 ps2 r2 st' r,
  pq ps c = [] ->
  pstep w ps (PE (Msg c req clid m args)) = (ps1, r1) -> pstep w ps1 (PDeliver c) = (ps2, r2) ->
  step w (p_st ps) (Msg c req clid m args) = (st', r) ->
  p_st ps2 = st' /\ (forall c', pq ps2 c' = pq ps c') /\ r_inst r = pr_inst r1 /\ r_sent r = pr_sent r2 /\ pr_sent r1 = [] /\
  match r_out r with
  | Enter e => pr_out r1 = Queued /\ pr_out r2 = Out (Enter e)
  | Reject => (pr_out r1 = Out Reject /\ pr_out r2 = Idle) \/ (pr_out r1 = Queued /\ pr_out r2 = Out Reject)
  | o => pr_out r1 = Out o /\ pr_out r2 = Idle
  end.
Proof. exact atomic_msg. Qed.
Print Assumptions C06_atomic_is_parse_then_deliver.
