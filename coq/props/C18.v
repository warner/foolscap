(* C18 -- Logging never fails the caller, stays bounded, and its files read back.
   Property theorems only; proofs live in lib/LogBufProofs.v, LogOrderProofs.v, LogJsonProofs.v, LogFileProofs.v,
   LogFmtProofs.v, LogReentProofs.v, LogDiskProofs.v; the model lib/LogBuf.v interprets the constants and shape facts
   translated from logging/{log,levels,incident,flogfile,publish}.py into gen/LogBufGen.v.
   Review 2 (second strangers' review): (1) the event number is of any kind (e_numk) and the sort key of the snapshot /
   the catch-up batch is translated; the incident / catch-up theorems carry the exact guard nohost with the refuted side
   stated; (2) field preservation for ANY event dict, format events included; (3) per-line read-back theorems without a
   hypothesis on the whole file; (4) the incident file theorem covers both reporters, the limit of C18_msg_total
   (BaseException) is stated, every proof here is `exact`. *)
From Coq Require Import ZArith List Bool Lia Sorting.Sorted Sorting.Permutation.
Import ListNotations.
Require Import Verif.lib.PyLite Verif.gen.LogBufGen Verif.lib.LogBuf Verif.lib.LogBufProofs.
Require Import Verif.lib.LogDisk Verif.lib.LogDiskProofs.
Require Import Verif.gen.LogJsonGen Verif.lib.LogJson Verif.lib.LogJsonProofs Verif.lib.LogFileProofs Verif.lib.LogOrderProofs.
Require Import Verif.lib.LogFmt Verif.lib.LogFmtProofs Verif.lib.LogReent Verif.lib.LogReentProofs.
Local Open Scope Z_scope.

(* "Emitting a log event never raises ..." : every msg() call -- also one whose _msg raises (uncomparable level,
   unhashable facility, failing str(), negative size limit, failing incident reporter) -- returns a number.
   (By the form of msg(): the model's `step` is total because msg's two handlers -- translated fact msg_catch_all, matched
   literally: `except Exception` around _msg, bare `except: pass` around the replacement event -- leave no path on which an
   exception escapes; what _msg itself can raise on hostile values is the oracle's part.
   LIMIT of "never raises" (review 2, finding 4): the outer handler is `except Exception` (log.py msg), not a bare except:
   a BaseException that is not an Exception -- KeyboardInterrupt / SystemExit / GeneratorExit raised by a __str__ /
   __repr__ of a logged value or by an immediate observer -- is NOT caught and escapes msg().  The model's `raised` flag
   stands for Exception subclasses only; the oracle replays a __str__ raising KeyboardInterrupt as an observation.) *)
Theorem C18_msg_total : forall c s o, is_call o = true -> exists n, snd (step c s o) = Some n.
Proof. exact msg_total. Qed.
Print Assumptions C18_msg_total.

(* "... and returns strictly increasing event numbers, whatever objects are passed": over any history the numbers
   handed out by the logger are exactly seq+1, seq+2, ... *)
Theorem C18_numbers_exact : forall c ops s, autos ops (snd (run c s ops)) = zrange (s_seq s + 1) (count_auto ops).
Proof. exact autos_exact. Qed.
Print Assumptions C18_numbers_exact.

Theorem C18_numbers_strictly_increase : forall c ops s,
  StronglySorted Z.lt (autos ops (snd (run c s ops))) /\ Forall (fun n => s_seq s < n) (autos ops (snd (run c s ops))).
Proof. exact numbers_strictly_increase. Qed.
Print Assumptions C18_numbers_strictly_increase.

(* "memory stays bounded (each facility/level history holds at most its configured number of events ...":
   (1) right after an event on (facility, level) that buffer holds at most its limit, namely the most recent events,
       and no other buffer changed -- for EVERY cfg c, i.e. also when the incident handling raises (c_fault c);
   (2) over ANY history (limits may be changed at any time) no buffer ever exceeds the largest configured limit.
   Full statement "length <= current limit at all times" is NOT what the code does: set_buffer_size only records the
   new limit (translated fact set_buffer_size_trims = false, Example ex_bounded), the buffer shrinks at its next event. *)
Theorem C18_buffer_within_limit_after_event : forall c sz b i e,
  0 <= limit_of sz (e_fac e) (e_lvl e) ->
  let q := buf_get (x_bufs (add_event c sz b i e)) (e_fac e) (e_lvl e) in
  Z.of_nat (List.length q) <= limit_of sz (e_fac e) (e_lvl e) /\
  (exists k, q = skipn k (buf_get b (e_fac e) (e_lvl e) ++ [e])) /\
  (forall f l, (f, l) <> (e_fac e, e_lvl e) -> buf_get (x_bufs (add_event c sz b i e)) f l = buf_get b f l).
Proof. exact after_event_within_limit. Qed.
Print Assumptions C18_buffer_within_limit_after_event.

Theorem C18_buffers_bounded : forall M c ops,
  DEFAULT_SIZELIMIT <= M -> Forall (op_limit_le M) ops ->
  forall f l, Z.of_nat (List.length (buf_get (s_bufs (fst (run c init ops))) f l)) <= M.
Proof. exact buffers_bounded_from_init. Qed.
Print Assumptions C18_buffers_bounded.

(* the same over histories in which the synchronous incident handling fails (c_fault: the qualifier raises, or
   incident_declared raises because the incident directory is gone / a custom reporter raises) and in which that
   fault, the reporter kind or the qualifier are switched in mid-history (segments).  True because the translated
   stage order of add_event trims BEFORE the qualifier runs: an exception out of the qualifier cannot skip the trim. *)
Theorem C18_buffers_bounded_under_incident_faults : forall M segs,
  DEFAULT_SIZELIMIT <= M -> Forall (fun cs => Forall (op_limit_le M) (snd cs)) segs ->
  forall f l, Z.of_nat (List.length (buf_get (s_bufs (run_segs init segs)) f l)) <= M.
Proof. exact buffers_bounded_segs_from_init. Qed.
Print Assumptions C18_buffers_bounded_under_incident_faults.

(* "... each remote subscriber at most its queue limit with a bounded number in flight) and subscribers see an
   order-preserving subsequence": for every schedule of sends / queue turns / acknowledgements / failures *)
Theorem C18_subscriber_bounded : forall ops,
  let s := sub_run MAX_QUEUE_SIZE MAX_IN_FLIGHT ops in
  Z.of_nat (List.length (q_queue s)) <= MAX_QUEUE_SIZE /\ 0 <= q_inflight s <= MAX_IN_FLIGHT /\
  subseq (q_delivered s) (q_emitted s) /\ subseq (q_delivered s ++ q_queue s) (q_emitted s).
Proof. exact subscriber_bounded_real. Qed.
Print Assumptions C18_subscriber_bounded.

(* the same for any limits (the correspondence also runs Subscription subclasses with small limits) *)
Theorem C18_subscriber_bounded_any_limits : forall maxq maxfl ops, 0 <= maxq -> 0 <= maxfl ->
  let s := sub_run maxq maxfl ops in
  Z.of_nat (List.length (q_queue s)) <= maxq /\ 0 <= q_inflight s <= maxfl /\
  subseq (q_delivered s) (q_emitted s) /\ subseq (q_delivered s ++ q_queue s) (q_emitted s).
Proof. exact subscriber_bounded. Qed.
Print Assumptions C18_subscriber_bounded_any_limits.

(* "an incident file contains its triggering event and everything that was buffered, and one unrepresentable event
   never prevents other events or later incidents from being recorded": whenever an event of incident level is added
   while no recording is in progress -- WHATEVER the buffers hold (e_ok arbitrary: non-text keys, cycles, huge
   integers, deep nesting ...; numbers of ANY kind the sort key is total on: integers and, since 7a22019, every other
   object -- 'x', None, 1.5, a list, an instance: NumOdd) and whatever happened before -- add_event does not raise and
     NonTrailing: the published file is  trigger :: buffered events sorted by the translated key,
     Trailing:    a timed reporter holds exactly those lines (published by C18_incident_trailing below).
   FULL STRENGTH in e_ok; rests on the translated fact serialize_total = true (three-stage fallback in flogfile).
   EXACT GUARD in the numbers (review 2, finding 1: the model's e_num : Z used to exclude num='x', on which the real
   code lost the incident): nohost = no buffered event's number is an object on which isinstance(num, int) ITSELF
   raises.  That guard is needed and sharp: C18_incident_lost_when_sort_raises is the other side, true of the real
   code (replayed: num = an object whose __class__ property raises; reported, signature oracle/incident-lost-hostile-num).
   The sort key is the TRANSLATED one (incident_sort_key, read from incident.py; catchup_sort_key from publish.py): were
   the key `a['num']` again, the proofs below would no longer build and the model would predict the loss
   (C18_raw_sort_key_loses_incidents). *)
Theorem C18_one_bad_event_harmless : forall c sz b i e,
  c_fault c = NoFault -> c_qual c = true -> incident_level <= e_lvl e -> i_rep i = None -> i_zombie i = false ->
  0 <= limit_of sz (e_fac e) (e_lvl e) ->
  let a := add_event c sz b i e in
  nohost (x_bufs a) ->
  x_raised a = false /\
  (c_trailing c = false ->
     i_files (x_inc a) = i_files i ++ [e :: sort_by_num (all_buffered (x_bufs a))] /\
     i_recorded (x_inc a) = i_recorded i + 1 /\ i_junk (x_inc a) = i_junk i /\ i_rep (x_inc a) = None) /\
  (c_trailing c = true ->
     i_rep (x_inc a) = Some (mkRep e (sort_by_num (all_buffered (x_bufs a))) TRAILING_EVENT_LIMIT true) /\
     i_junk (x_inc a) = i_junk i).
Proof. exact incident_recorded. Qed.
Print Assumptions C18_one_bad_event_harmless.

(* outside the guard: one buffered number on which isinstance(.., int) raises and the incident is lost -- _msg raises
   (msg turns that into an internal-error event), nothing is published, the NonTrailing reporter's files are abandoned,
   the trailing reporter stays subscribed without a timer: it absorbs later triggers until its event quota
   (TRAILING_EVENT_LIMIT) ends it, and only then publishes *)
Theorem C18_incident_lost_when_sort_raises : forall c sz b i e,
  c_fault c = NoFault -> c_qual c = true -> incident_level <= e_lvl e -> i_rep i = None -> i_zombie i = false ->
  0 <= limit_of sz (e_fac e) (e_lvl e) ->
  let a := add_event c sz b i e in
  existsb is_hostile (all_buffered (x_bufs a)) = true ->
  x_raised a = true /\ i_files (x_inc a) = i_files i /\ i_recorded (x_inc a) = i_recorded i /\
  (c_trailing c = false -> i_junk (x_inc a) = i_junk i + 1 /\ i_rep (x_inc a) = None) /\
  (c_trailing c = true -> i_rep (x_inc a) = Some (mkRep e [] TRAILING_EVENT_LIMIT false)).
Proof. exact incident_lost_when_sort_raises. Qed.
Print Assumptions C18_incident_lost_when_sort_raises.

(* the regression statement for the key before 7a22019 (provable whichever key is translated): with `a['num']` the
   history  msg('a', num='x'); msg('b'); msg('trigger', level=BAD); msg('later', level=BAD)  loses both incidents.  On this
   tree the same history records both (Example ex_odd_num_recorded, corpus/C18/noninteger_num.json). *)
Theorem C18_raw_sort_key_loses_incidents : incident_sort_key = KeyRaw ->
  let s := fst (run (mkCfg true false NoFault) init (odd_history NumOdd)) in
  i_files (s_inc s) = [] /\ i_recorded (s_inc s) = 0 /\ i_junk (s_inc s) = 2.
Proof. exact raw_sort_key_loses_incidents. Qed.
Print Assumptions C18_raw_sort_key_loses_incidents.

(* the file's lines are a permutation of what was buffered, ordered by the translated key: the integer-numbered events in
   event-number order, the others (key -1: before every non-negative number) in the order the buffers hold them; the
   trigger is among them *)
Theorem C18_incident_complete : forall l,
  (forall x, In x (sort_by_num l) <-> In x l) /\ StronglySorted num_le (sort_by_num l) /\
  StronglySorted int_num_le (sort_by_num l) /\
  filter (fun x => negb (is_int x)) (sort_by_num l) = filter (fun x => negb (is_int x)) l.
Proof. exact incident_complete. Qed.
Print Assumptions C18_incident_complete.

Theorem C18_trigger_is_buffered : forall c sz b i e,
  1 <= limit_of sz (e_fac e) (e_lvl e) -> In e (buf_get (x_bufs (add_event c sz b i e)) (e_fac e) (e_lvl e)).
Proof. exact trigger_buffered. Qed.
Print Assumptions C18_trigger_is_buffered.

(* trailing events: up to TRAILING_EVENT_LIMIT later events are appended in order (each one that can be encoded: all of
   them on this tree), then the timer publishes  trigger :: buffered ++ trailing *)
Theorem C18_incident_trailing : forall evs i r,
  i_rep i = Some r -> Z.of_nat (List.length evs) <= r_remaining r ->
  fold_left trailing_event evs i =
    mkInc (Some (mkRep (r_trigger r) (r_lines r ++ filter enc evs) (r_remaining r - Z.of_nat (List.length evs)) (r_timer r)))
          (i_zombie i) (i_declared i) (i_recorded i) (i_files i) (i_junk i).
Proof. exact trailing_fold. Qed.
Print Assumptions C18_incident_trailing.

Theorem C18_incident_timer_publishes : forall c s r,
  i_rep (s_inc s) = Some r -> r_timer r = true ->
  i_files (s_inc (fst (step c s Timer))) = i_files (s_inc s) ++ [r_trigger r :: r_lines r] /\
  i_recorded (s_inc (fst (step c s Timer))) = i_recorded (s_inc s) + 1 /\ i_rep (s_inc (fst (step c s Timer))) = None.
Proof. exact timer_publishes. Qed.
Print Assumptions C18_incident_timer_publishes.

(* over ANY history in which no call passes a num= on which isinstance(.., int) raises (op_not_hostile: every other num=
   is allowed) no incident is ever abandoned (.flog / .flog.bz2.tmp left behind) ... *)
Theorem C18_nothing_abandoned : forall c ops, Forall op_not_hostile ops -> i_junk (s_inc (fst (run c init ops))) = 0.
Proof. exact nothing_abandoned_from_init. Qed.
Print Assumptions C18_nothing_abandoned.

(* ... and the guard is needed: the full statement is refuted by the model, and by the real code on the same history
   (Example ex_hostile_num_lost; oracle witness family "hostile") *)
Theorem C18_nothing_abandoned_refuted : exists c ops, i_junk (s_inc (fst (run c init ops))) <> 0.
Proof. exact nothing_abandoned_refuted_hostile. Qed.
Print Assumptions C18_nothing_abandoned_refuted.

(* independent of the form of serialize_to_json_utf8: valid for every history whose buffered events can be encoded *)
Theorem C18_incident_recorded_when_encodable : forall c sz b i e,
  c_fault c = NoFault -> c_qual c = true -> incident_level <= e_lvl e -> i_rep i = None -> i_zombie i = false ->
  0 <= limit_of sz (e_fac e) (e_lvl e) ->
  let a := add_event c sz b i e in
  nohost (x_bufs a) -> enc e = true -> forallb enc (all_buffered (x_bufs a)) = true ->
  x_raised a = false /\
  (c_trailing c = false -> i_files (x_inc a) = i_files i ++ [e :: sort_by_num (all_buffered (x_bufs a))]) /\
  (c_trailing c = true ->
     i_rep (x_inc a) = Some (mkRep e (sort_by_num (all_buffered (x_bufs a))) TRAILING_EVENT_LIMIT true)).
Proof. exact incident_recorded_guarded. Qed.
Print Assumptions C18_incident_recorded_when_encodable.

(* "each remote subscriber at most its queue limit" also for subscribers that ask for catch-up, whatever the buffers
   hold (far more than MAX_QUEUE_SIZE events included): the catch-up batch -- everything buffered, ordered by the
   translated key of publish.py (integer numbers in number order) -- goes straight to the observer; queue and in-flight
   counter start empty and stay within their limits.  Same exact guard as for incidents (nohost); outside it the
   subscriber is handed NO catch-up batch (C18_catchup_lost_when_sort_raises: subscribe() raises after registering). *)
Theorem C18_subscriber_bounded_after_catchup : forall catch_up b ops,
  let '(s0, direct, raised) := sub_subscribe catch_up b in
  let s := fold_left (sub_step MAX_QUEUE_SIZE MAX_IN_FLIGHT) ops s0 in
  q_queue s0 = [] /\ q_inflight s0 = 0 /\
  (catch_up = true -> nohost b ->
     raised = false /\ Permutation direct (all_buffered b) /\ StronglySorted (key_le catchup_sort_key) direct /\
     StronglySorted int_num_le direct) /\
  Z.of_nat (List.length (q_queue s)) <= MAX_QUEUE_SIZE /\ 0 <= q_inflight s <= MAX_IN_FLIGHT /\
  subseq (q_delivered s ++ q_queue s) (q_emitted s).
Proof. exact subscriber_bounded_after_catchup_real. Qed.
Print Assumptions C18_subscriber_bounded_after_catchup.

Theorem C18_catchup_lost_when_sort_raises : forall b,
  existsb is_hostile (all_buffered b) = true -> sub_subscribe true b = (sub_init, [], true).
Proof. exact catchup_lost_when_sort_raises. Qed.
Print Assumptions C18_catchup_lost_when_sort_raises.

(* "Every event that is written to a log or incident file can be read back", the COMPRESSION layer only (the records are
   opaque here; what a record reads back as is C18_event_reads_back / C18_file_reads_back / C18_logfile_events_read_back /
   C18_incident_file_reads_back below): every writer compresses according to the name get_events will see.  flogtool
   filter -- into a new file or in place (written as NAME.tmp, then renamed), plain or .bz2, any --above /
   --strip-facility selection -- yields a file get_events can open, holding exactly the records it kept; the same for
   LogFileObserver files.  Rests on the translated facts filter_codec_from / logfile_codec_from = FinalName. *)
Theorem C18_filter_codec_matches : forall above strip final_bz2 inplace recs,
  filter_run above strip final_bz2 inplace recs = Some (filter (filter_keep above strip) recs).
Proof. exact filter_reads_back. Qed.
Print Assumptions C18_filter_codec_matches.

Theorem C18_logfile_codec_matches : forall name_bz2 recs, logfile_written name_bz2 recs = Some recs.
Proof. exact logfile_reads_back. Qed.
Print Assumptions C18_logfile_codec_matches.

(* "... one unrepresentable event never prevents other events or later incidents from being recorded", at the grain of
   single reactor iterations (lib/LogBuf.v `iterate`: several calls before the eventual queue runs, an observer calling
   from inside the queue's batch, calls due in the instant of the trailing timer).
   A trigger emitted while NO reporter is recording -- in particular between stop_recording and finished_recording of the
   previous incident, whatever is still being closed (f_closing) -- starts an incident of its own.  Rests on the
   translated fact active_cleared_at = AtStop (the reporter stops claiming to be active when it unsubscribes). *)
Theorem C18_trigger_in_window_recorded : forall c f fac lvl ok rp id,
  c_fault c = NoFault -> c_qual c = true -> i_rep (s_inc (f_s f)) = None ->
  incident_level <= lvl -> cmpZ threshold_drop_cmp lvl (threshold_of (s_thr (f_s f)) fac) = false ->
  0 <= limit_of (s_sizes (f_s f)) fac lvl -> nohost (s_bufs (f_s f)) ->
  let e := mkEv (s_seq (f_s f) + 1) fac lvl ok id NumInt in
  let '(f', r, n) := fcall c f (Msg None fac lvl ok rp id) in
  r = Some (e_num e) /\ f_closing f' = f_closing f /\ n = [] /\
  (c_trailing c = true -> exists lines, i_rep (s_inc (f_s f')) = Some (mkRep e lines TRAILING_EVENT_LIMIT true)) /\
  (c_trailing c = false -> exists lines, i_files (s_inc (f_s f')) = i_files (s_inc (f_s f)) ++ [e :: lines]).
Proof. exact trigger_in_window_recorded. Qed.
Print Assumptions C18_trigger_in_window_recorded.

(* What the code does with a trigger-level event emitted WHILE a reporter is recording (by design: new_trigger is the
   documented overlap hook): it does not start an incident, it is an ordinary trailing event of the running incident ... *)
Theorem C18_trigger_absorbed_by_running_incident : forall c b i e r,
  i_rep i = Some r ->
  declare_incident c b i e = (mkInc (i_rep i) (i_zombie i) (i_declared i + 1) (i_recorded i) (i_files i) (i_junk i), false).
Proof. exact absorbed_by_running_incident. Qed.
Print Assumptions C18_trigger_absorbed_by_running_incident.

(* ... and as such subject to the reporter's documented limits (TRAILING_EVENT_LIMIT events, TRAILING_DELAY seconds): two
   histories, replayed on the real code, in which such an event is dropped: (1) it is the 101st event after the first
   trigger; (2) it is emitted by a call that runs just before the trailing timer in the same reactor iteration.  These
   are NOT violations of C18 (the property speaks of an incident's OWN trigger and of what was buffered). *)
Theorem C18_absorbed_trigger_subject_to_limits :
  (exists its, let f := fst (iterations (mkCfg true true NoFault) fine_init its) in
               f_closing f = [] /\ i_rep (s_inc (f_s f)) = None /\ i_declared (s_inc (f_s f)) = 2 /\
               i_recorded (s_inc (f_s f)) = 1 /\ in_some_file (s_inc (f_s f)) 101 = false) /\
  (exists its, let f := fst (iterations (mkCfg true true NoFault) fine_init its) in
               f_closing f = [] /\ i_rep (s_inc (f_s f)) = None /\ i_declared (s_inc (f_s f)) = 2 /\
               i_recorded (s_inc (f_s f)) = 1 /\ in_some_file (s_inc (f_s f)) 1 = false).
Proof. exact absorbed_trigger_subject_to_limits. Qed.
Print Assumptions C18_absorbed_trigger_subject_to_limits.

(* ===================================================================== round 5: the JSON layer inside the model *)
(* lib/LogJson.v models json.dumps + ExtendedEncoder, _make_jsonable, _last_resort and the try / except chain of
   serialize_to_json_utf8 over ALL Python values of its universe (None, bool, int of any size, float, text, opaque objects
   whose repr works / raises / raises unreprably, Failures, lists, tuples, dicts with keys of any kind, containers that
   contain themselves, nesting of any depth), parameterised by the TRANSLATED facts of gen/LogJsonGen.v (which exception
   classes each `except` selects, container / key / scalar type lists, the integer bound, the depth) and by the
   interpreter's budgets L (recursion depth of the C encoder and of Python frames, largest printable integer). *)

(* "... one unrepresentable event never prevents other events ... from being recorded": writing a line NEVER raises,
   whatever the object, for every interpreter whose budgets admit what _last_resort leaves (lims_ok; cpython_ok) *)
Theorem C18_serialize_never_raises : forall L o, lims_ok L -> exists j, serialize L o = Ok j.
Proof. exact serialize_total. Qed.
Print Assumptions C18_serialize_never_raises.

Theorem C18_budgets_of_cpython_admitted : lims_ok cpython.
Proof. exact cpython_ok. Qed.
Print Assumptions C18_budgets_of_cpython_admitted.

(* "Every event that is written to a log or incident file can be read back with the same number, level and message":
   whichever of the three stages produced the line (first try, sanitised copy, last-resort record), the "d" member of
   what json.loads returns carries the event's num, level and message -- for every event dict with text keys (kwargs),
   an integer number and level below 2^64 (small_int; Example ex_huge_num_lost: the bound is needed) and a text message,
   whatever else it holds *)
Theorem C18_event_reads_back : forall L from rx e n l m j,
  is_event e n l m -> serialize L (wrap from rx e) = Ok j ->
  exists d, event_of_line j = Some d /\ view3 d = fields n l m.
Proof. exact event_fields_survive. Qed.
Print Assumptions C18_event_reads_back.

(* the trigger inside the header of an incident file ({"header": {"type", "trigger": EVENT, ..}}: one level deeper) *)
Theorem C18_trigger_reads_back : forall L ty more e n l m j,
  is_event e n l m -> serialize L (header ty e more) = Ok j ->
  exists d, trigger_of_header j = Some d /\ view3 d = fields n l m.
Proof. exact trigger_fields_survive. Qed.
Print Assumptions C18_trigger_reads_back.

(* (review 2, finding 2) the two theorems above speak of events with a text 'message' and integer number / level
   (is_event).  An event logged with format= has NO 'message' key, a level may be a float, a number any object.  What
   the three stages preserve of ANY event dict: every member whose value is a JSON scalar (None, bool, float, text,
   integer below 2^64: `stable`), under whatever text key -- number, level, message, format string, named arguments *)
Theorem C18_event_field_reads_back : forall L from rx e kv s v j0 j,
  is_event_dict e kv -> pfield s kv = Some v -> stable v j0 -> serialize L (wrap from rx e) = Ok j ->
  exists d, event_of_line j = Some d /\ jfield s d = Some j0.
Proof. exact event_field_survives. Qed.
Print Assumptions C18_event_field_reads_back.

Theorem C18_trigger_field_reads_back : forall L ty more e kv s v j0 j,
  is_event_dict e kv -> pfield s kv = Some v -> stable v j0 -> serialize L (header ty e more) = Ok j ->
  exists d, trigger_of_header j = Some d /\ jfield s d = Some j0.
Proof. exact trigger_field_survives. Qed.
Print Assumptions C18_trigger_field_reads_back.

(* a format event: number, level, format string and every scalar named argument read back.  NOT preserved: the TEXT that
   format_message renders, when a named argument needed the fallback encoder -- it reads back as its replacement record
   (Example ex_format_arg_replaced: `%(x)s` shows the record where the emitted event showed str(x)); the property's
   "same ... message" holds for the format string and the scalar arguments only.  PARTIAL with respect to rendering. *)
Theorem C18_format_event_reads_back : forall L from rx e n l f args jn jl jf j,
  is_format_event e n l f args -> stable n jn -> stable l jl -> stable f jf ->
  serialize L (wrap from rx e) = Ok j ->
  exists d, event_of_line j = Some d /\ jfield K_num d = Some jn /\ jfield K_level d = Some jl /\ jfield K_format d = Some jf /\
            Forall (fun a => forall ja, stable (snd a) ja -> jfield (fst a) d = Some ja) args.
Proof. exact format_event_fields_survive. Qed.
Print Assumptions C18_format_event_reads_back.

(* (review 2, finding 3) a whole file LINE BY LINE: no write raises, one line per event in order, and every line reads
   back what its OWN event warrants (line_ok: number / level / message of an is_event, every scalar member of any event
   dict) -- whatever the other lines hold.  C18_file_reads_back below is the all-lines corollary of round 5. *)
Theorem C18_file_lines_read_back : forall L from rx (evs : list pv), lims_ok L ->
  exists js, write_lines L from rx evs = Some js /\ Forall2 line_ok evs js.
Proof. exact file_lines_read_back. Qed.
Print Assumptions C18_file_lines_read_back.

(* a whole file written with serialize_wrapper: no write raises and get_events yields every event, in order *)
Theorem C18_file_reads_back : forall L from rx (evs : list (pv * (Z * Z * Z))), lims_ok L ->
  Forall (fun x => is_event (fst x) (fst (fst (snd x))) (snd (fst (snd x))) (snd (snd x))) evs ->
  exists js, write_lines L from rx (map fst evs) = Some js /\
             map line_view js = map (fun x => Some (fields (fst (fst (snd x))) (snd (fst (snd x))) (snd (snd x)))) evs.
Proof. exact file_reads_back. Qed.
Print Assumptions C18_file_reads_back.

(* the layers composed: a LogFileObserver file (plain or .bz2) of the logger model's events reads back completely ... *)
Theorem C18_logfile_events_read_back : forall L (payload : event -> pv) (msg : event -> Z) from rx name_bz2 (evs : list event),
  lims_ok L -> (forall x, In x evs -> is_event (payload x) (e_num x) (e_lvl x) (msg x)) ->
  exists js, write_lines L from rx (map payload evs) = Some js /\
             read_back name_bz2 (write_codec logfile_codec_from name_bz2 false) js = Some js /\
             map line_view js = map (ev_fields msg) evs.
Proof. exact logfile_events_read_back. Qed.
Print Assumptions C18_logfile_events_read_back.

(* the same line by line, without any hypothesis on the events *)
Theorem C18_logfile_lines_read_back : forall L (payload : event -> pv) from rx name_bz2 (evs : list event), lims_ok L ->
  exists js, write_lines L from rx (map payload evs) = Some js /\
             read_back name_bz2 (write_codec logfile_codec_from name_bz2 false) js = Some js /\
             Forall2 (fun x j => line_ok (payload x) j) evs js.
Proof. exact logfile_lines_read_back. Qed.
Print Assumptions C18_logfile_lines_read_back.

(* ... and "an incident file contains its triggering event and everything that was buffered", down to what a reader gets,
   for BOTH reporters (review 2, finding 4: the default reporter is the trailing one; the round-5 statement required
   c_trailing = false) and LINE BY LINE (finding 3): the lines written at the moment of the trigger are a permutation of
   everything buffered, the trigger among them; NonTrailing publishes  trigger :: lines  at once, the trailing reporter
   holds them and C18_incident_trailing / C18_incident_timer_publishes publish  trigger :: lines ++ later events;
   the header line reads back the trigger (number / level / message of an is_event; every scalar member of any event
   dict), each event line reads back what its own event warrants.  Guard: nohost (exact, see above). *)
Theorem C18_incident_file_reads_back : forall L (payload : event -> pv) from rx ty c sz b i e, lims_ok L ->
  c_fault c = NoFault -> c_qual c = true -> incident_level <= e_lvl e -> i_rep i = None -> i_zombie i = false ->
  1 <= limit_of sz (e_fac e) (e_lvl e) ->
  let a := add_event c sz b i e in
  nohost (x_bufs a) ->
  exists lines,
    (c_trailing c = false -> i_files (x_inc a) = i_files i ++ [e :: lines]) /\
    (c_trailing c = true -> i_rep (x_inc a) = Some (mkRep e lines TRAILING_EVENT_LIMIT true)) /\
    In e lines /\ Permutation lines (all_buffered (x_bufs a)) /\
    (exists jh, serialize L (header ty (payload e) []) = Ok jh /\
       (forall n l m, is_event (payload e) n l m -> exists d, trigger_of_header jh = Some d /\ view3 d = fields n l m) /\
       (forall kv s v j0, is_event_dict (payload e) kv -> pfield s kv = Some v -> stable v j0 ->
          exists d, trigger_of_header jh = Some d /\ jfield s d = Some j0)) /\
    (exists js, write_lines L from rx (map payload lines) = Some js /\ Forall2 (fun x j => line_ok (payload x) j) lines js).
Proof. exact incident_file_reads_back. Qed.
Print Assumptions C18_incident_file_reads_back.

(* ===================================================================== round 5: subscribers, end to end *)
(* "... with a bounded number in flight": the remote calls that are neither acknowledged nor failed (q_outstanding)
   never exceed the counter, which never exceeds MAX_IN_FLIGHT *)
Theorem C18_subscriber_window : forall ops,
  let s := sub_run MAX_QUEUE_SIZE MAX_IN_FLIGHT ops in 0 <= q_outstanding s <= q_inflight s /\ q_inflight s <= MAX_IN_FLIGHT.
Proof. exact subscriber_window_real. Qed.
Print Assumptions C18_subscriber_window.

(* "subscribers see an order-preserving subsequence": logger and Subscription composed.  After ANY history `pre` a
   subscriber arrives (with or without catch-up); during ANY further history `ops` the logger hands Subscription.send
   exactly the events that reach the immediate observers (run_sends: thresholds, failing _msg and its internal-error
   replacement included), interleaved in ANY way with queue turns, acknowledgements and failures.  Then what the
   subscriber has been given -- catch-up batch, then delivered, then still queued -- is in event-number order, the
   catch-up part (numbers <= the counter at subscription) entirely before the live part (numbers above it), the live part
   a subsequence of what was emitted, and the catch-up batch everything that was buffered.
   (auto_only: calls that pass num= explicitly are excluded -- the logger does not order foreign numbers.) *)
Theorem C18_subscriber_sees_ordered : forall c pre ops sops catch_up maxq maxfl,
  0 <= maxq -> 0 <= maxfl -> Forall auto_only pre -> Forall auto_only ops ->
  let s0 := fst (run c init pre) in
  sends_of sops = map e_num (run_sends c s0 ops) ->
  let q0 := fst (fst (sub_subscribe catch_up (s_bufs s0))) in
  let direct := snd (fst (sub_subscribe catch_up (s_bufs s0))) in
  let q := fold_left (sub_step maxq maxfl) sops q0 in
  snd (sub_subscribe catch_up (s_bufs s0)) = false /\
  StronglySorted Z.le (map e_num direct ++ q_delivered q ++ q_queue q) /\
  Forall (fun n => n <= s_seq s0) (map e_num direct) /\
  Forall (fun n => s_seq s0 < n) (q_delivered q ++ q_queue q) /\
  subseq (q_delivered q ++ q_queue q) (sends_of sops) /\
  (catch_up = true -> Permutation direct (all_buffered (s_bufs s0))).
Proof. exact subscriber_sees_ordered. Qed.
Print Assumptions C18_subscriber_sees_ordered.

(* what immediate observers are handed over any history of logger-numbered calls: numbers never decrease (an event and
   the internal-error event that replaces it share a number) and all lie above the counter at the start *)
Theorem C18_sends_in_number_order : forall c ops s, Forall auto_only ops ->
  StronglySorted Z.le (map e_num (run_sends c s ops)) /\ Forall (fun n => s_seq s < n) (map e_num (run_sends c s ops)).
Proof. exact run_sends_sorted. Qed.
Print Assumptions C18_sends_in_number_order.

(* ===================================================================== round 5: rendering *)
(* "rendering an event to text never raises": lib/LogFmt.v models format_message -- key normalisation, the selection of
   format string and arguments with its asserts and conversions, the % operator (either outcome), the fallback with
   repr() of a non-text message and its own guard -- over event dicts whose keys are text, utf-8 bytes, undecodable bytes
   or anything else and whose values are text, bytes (decodable or not), argument sequences, or objects whose repr works
   or raises.  FULL STRENGTH on this tree: no hypothesis on the dict.  Rests on the translated fact
   fmt_keys_outside_try = false (8594ad6 moved `e = ensure_dict_str_keys(e)` inside the try) and on the handler classes. *)
Theorem C18_format_total : forall pct e, exists o, format_message pct e = Ok o.
Proof. exact format_total_all. Qed.
Print Assumptions C18_format_total.

(* independent of where that statement sits: total on every dict whose keys are text or utf-8 bytes *)
Theorem C18_format_total_textlike_keys : forall pct e,
  fmt_keys_outside_try = false \/ keys_textlike e -> exists o, format_message pct e = Ok o.
Proof. exact format_total. Qed.
Print Assumptions C18_format_total_textlike_keys.

(* the repaired defect as a regression statement: were the normalisation outside the try again, these two dicts would
   escape (TypeError / UnicodeDecodeError).  They are fixed witnesses of the oracle (corpus/C18/format_nontext_key.json,
   signature oracle/format-raises-nontext-key). *)
Theorem C18_format_unguarded_keys_escape : fmt_keys_outside_try = true ->
  (forall pct, format_message pct [(FKOther, FVText 10)] = Raise ETypeError) /\
  (forall pct, format_message pct [(FKBytes 11 false, FVText 10); (FKText N_message, FVText 12)] = Raise EValueError).
Proof. exact format_unguarded_keys_escape. Qed.
Print Assumptions C18_format_unguarded_keys_escape.

(* ===================================================================== round 5: re-entrant calls *)
(* "... returns strictly increasing event numbers, whatever objects are passed" when a call of msg() causes further
   calls of msg() while it runs (an observer that logs, a __str__ / __repr__ that logs): lib/LogReent.v, call trees of any
   shape.  msg() takes its number from the translated Count.next before anything else, so the numbers returned, listed in
   the order in which the calls START, are exactly seq+1, seq+2, ...: strictly increasing, every call made from inside
   a call returns more than that call, and whatever is called afterwards returns more than the whole tree. *)
Theorem C18_reentrant_numbers_exact : forall c seq, all_auto c = true ->
  rcall seq c = (seq + Z.of_nat (size c), seq + 1, zrange (seq + 1) (size c)).
Proof. exact reentrant_numbers_exact. Qed.
Print Assumptions C18_reentrant_numbers_exact.

Theorem C18_reentrant_numbers_increase : forall c seq, all_auto c = true ->
  let '(seq', ret, rets) := rcall seq c in
  StronglySorted Z.lt rets /\ Forall (fun n => seq < n <= seq') rets /\ ret = seq + 1 /\ hd 0 rets = ret.
Proof. exact reentrant_numbers_increase. Qed.
Print Assumptions C18_reentrant_numbers_increase.

(* ===================================================================== round 7: on disk when msg() returns *)
(* "an incident file contains its triggering event and everything that was buffered" -- already at the moment the
   triggering log.msg() returns (the qualifier runs synchronously in add_event so that log.msg('abandon ship', level=BAD)
   followed by the death of the process leaves a report): incident_declared does not raise (for the exact guard nohost,
   see C18_incident_lost_when_sort_raises for the other side), and what a second reader finds of the uncompressed file
   (lib/LogDisk.v: what was written before the last flush, the order of writes and flushes TRANSLATED from
   incident_declared) is the magic line, the header with the trigger and every buffered event, in the order of
   C18_incident_complete; for a trailing reporter these are exactly the lines it holds and later publishes.  Both
   reporters.  Trailing events are not claimed: trailing_event does not flush (they reach the disk when the reporter
   finishes, C18_incident_trailing).  Modelled, not verified: a flush hands the bytes to the operating system (death of
   the process, not of the machine). *)
Theorem C18_incident_on_disk_at_return : forall c b i trig, nohost b ->
  snd (incident_declared c b i trig) = false /\
  on_disk_at_return b trig = full_report trig (sort_by_num (all_buffered b)) /\
  (forall x, In x (all_buffered b) -> In (LEvent x) (on_disk_at_return b trig)) /\
  In (LHeader trig) (on_disk_at_return b trig) /\
  (c_trailing c = true -> exists r, i_rep (fst (incident_declared c b i trig)) = Some r /\
                                    on_disk_at_return b trig = full_report (r_trigger r) (r_lines r)).
Proof. exact incident_on_disk_at_return. Qed.
Print Assumptions C18_incident_on_disk_at_return.

(* non-vacuity: a snapshot of two events, trigger included, under the translated order *)
Example ex_on_disk_at_return :
  f1_durable (f1_run incident_f1_ops 9 [4; 9]) = [LMagic; LHeader 9; LEvent 4; LEvent 9].
Proof. reflexivity. Qed.

(* whatever the order of writes and flushes: the disk holds a prefix of what was written; an order that ends with a
   flush leaves everything on disk *)
Theorem C18_disk_is_prefix_of_written : forall (A : Type) ops (trig : A) snap,
  exists rest, f1_written (f1_run ops trig snap) = f1_durable (f1_run ops trig snap) ++ rest.
Proof. exact f1_durable_prefix. Qed.
Print Assumptions C18_disk_is_prefix_of_written.

Theorem C18_flush_last_complete : forall (A : Type) ops (trig : A) snap,
  f1_durable (f1_run (ops ++ [F1Flush]) trig snap) = f1_written (f1_run (ops ++ [F1Flush]) trig snap).
Proof. exact f1_flush_last. Qed.
Print Assumptions C18_flush_last_complete.

(* the other side (seeded change C18-r7s2: the flush moved in front of the loop that copies the history): header on disk,
   the whole snapshot -- the triggering event with it -- not; without any flush nothing is guaranteed.  Fixed oracle
   witnesses: harness/c18.py durable_histories, signature oracle/incident-not-on-disk-at-return. *)
Theorem C18_early_flush_loses_snapshot : forall (A : Type) (trig : A) snap,
  f1_durable (f1_run [F1Magic; F1Header; F1Flush; F1Snapshot] trig snap) = [LMagic; LHeader trig] /\
  f1_written (f1_run [F1Magic; F1Header; F1Flush; F1Snapshot] trig snap) = full_report trig snap.
Proof. exact f1_early_flush_loses_snapshot. Qed.
Print Assumptions C18_early_flush_loses_snapshot.
