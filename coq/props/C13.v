(* C13 -- Both ends of a negotiation reach the same decision or both fail.
   Property theorems only; proofs live in lib/NegotiateProofs.v, NegSplitProofs.v, NegCodecProofs.v, NegWireProofs.v, NegRefineProofs.v. *)
From Coq Require Import ZArith List String.
Require Import Verif.lib.PyLite Verif.gen.NegotiateGen Verif.lib.Negotiate Verif.lib.NegotiateProofs Verif.lib.NegSplit Verif.lib.NegSplitProofs.
Require Import Verif.lib.NegCodec Verif.gen.NegCodecGen Verif.lib.NegCodecProofs Verif.lib.NegWire Verif.lib.NegWireProofs Verif.lib.NegRefineProofs.
Import ListNotations.
Local Open Scope Z_scope.

(* exactly one of two endpoints with distinct tub ids acts as decider *)
Theorem C13_one_decider : forall a b, ep_id a <> ep_id b -> masters a b = 1%nat.
Proof. exact one_decider. Qed.
Print Assumptions C13_one_decider.

(* "either both switch to the RPC protocol with identical parameters ... or both abandon the connection with a negotiation error".
   The full two-way statement
     forall a b oa ob, ep_id a <> ep_id b -> negotiate a b = (oa, ob) ->
       (exists p, oa = Banana p /\ ob = Banana p /\ agreed a b p) \/ (exists w1 w2, oa = Failed w1 /\ ob = Failed w2)
   is FALSE of the code and of the faithful model: sendDecision sends the decision block and switches to the RPC protocol at once
   (the version-1 protocol has no acknowledgement), so when the non-decider refuses the decision the decider already has its
   Broker and only sees the connection being lost (known finding oracle/decider-switched-before-refusal; the witness below is
   replayed on the real code on every run: both ends version 3..3, table 1..1, table 1 differs) *)
Theorem C13_agreement_two_way_refuted :
  exists a b oa ob, ep_id a <> ep_id b /\ implements_own_range a /\ implements_own_range b /\ negotiate a b = (oa, ob) /\
    ~ ((exists p, oa = Banana p /\ ob = Banana p) \/ (exists w1 w2, oa = Failed w1 /\ ob = Failed w2)) /\
    oa = SwitchedThenLost {| p_version := 3; p_vocab := 1 |} /\ ob = Failed "NegotiationError".
Proof. exact agreement_two_way_refuted. Qed.
Print Assumptions C13_agreement_two_way_refuted.

(* WEAKER than the property text, and what does hold for any two endpoints with distinct ids (no invariant assumed): both switch
   with identical parameters -- the highest common version, the highest common vocabulary index, matching table hash --, or both
   abandon before anything was created, or the DECIDER ALONE has switched (with the highest common version and table) and then
   loses the connection while the non-decider abandons.  Never the non-decider alone, never two different sets of parameters.
     both_switched m s om os        := exists p, om = Banana p /\ os = Banana p /\ agreed m s p
     both_abandoned om os           := exists w1 w2, om = Failed w1 /\ os = Failed w2
     decider_switched_alone m s om os := exists p w, om = SwitchedThenLost p /\ os = Failed w /\ best_params m s p *)
Theorem C13_agreement : forall a b oa ob,
  ep_id a <> ep_id b -> negotiate a b = (oa, ob) ->
  both_switched a b oa ob \/ both_abandoned oa ob \/
  (i_am_master (ep_id a) (ep_id b) = true /\ decider_switched_alone a b oa ob) \/
  (i_am_master (ep_id b) (ep_id a) = true /\ decider_switched_alone b a ob oa).
Proof. exact agreement. Qed.
Print Assumptions C13_agreement.

(* ... and failure is not chosen when the two sides are compatible *)
Theorem C13_success_when_compatible : forall a b,
  ep_id a <> ep_id b ->
  (exists v, in_range (ep_vmin a) (ep_vmax a) v /\ in_range (ep_vmin b) (ep_vmax b) v) ->
  (exists i, in_range (ep_vocmin a) (ep_vocmax a) i /\ in_range (ep_vocmin b) (ep_vocmax b) i) ->
  (forall i, ep_hash a i = ep_hash b i) ->
  implements_own_range a -> implements_own_range b ->     (* the class invariant asserted by Negotiation.__init__ *)
  exists p, negotiate a b = (Banana p, Banana p).
Proof. exact success_when_compatible. Qed.
Print Assumptions C13_success_when_compatible.

(* the translated best_overlap returns the greatest common element or raises iff disjoint *)
Theorem C13_best_overlap_spec : forall a b c d,
  (forall v, best_overlap a b c d = Ok v <-> (v = Z.min b d /\ a <= v /\ c <= v)) /\
  ((exists t, best_overlap a b c d = Exc t) <-> (forall v, ~ (a <= v <= b /\ c <= v <= d))).
Proof. exact best_overlap_spec. Qed.
Print Assumptions C13_best_overlap_spec.

(* oversized negotiation input is refused, stated over the verdict TRANSLATED from dataReceived (0 = refuse): a terminator beyond
   4096 bytes is refused; without a terminator the buffer is refused exactly from 4096 + 4 bytes on (4097..4099 are kept: a
   terminator that starts within the cap may still be completed by the next packet) *)
Theorem C13_header_cap :
  (forall eoh buflen, 4096 < eoh -> header_verdict eoh buflen = 0) /\
  (forall buflen, header_verdict (-1) buflen = 0 <-> 4100 <= buflen).
Proof. exact header_cap_verdict. Qed.
Print Assumptions C13_header_cap.

(* "... for all chunkings of the negotiation bytes": the block splitter of Negotiation.dataReceived
   (limits translated from the source) extracts the same header blocks, reaches the same verdict and hands
   the same bytes to the RPC layer for every way of splitting the byte stream into packets, whatever the
   phase handlers accept *)
Theorem C13_split_chunk_independent : forall (ok : list Z -> bool) k (cs cs' : list (list Z)), List.concat cs = List.concat cs' ->
  nfeed_all ok (NWait [] (S k)) cs = nfeed_all ok (NWait [] (S k)) cs'.
Proof. exact split_chunk_independent. Qed.
Print Assumptions C13_split_chunk_independent.

(* feeding packet by packet equals feeding the whole stream at once *)
Theorem C13_split_incremental_is_whole : forall (ok : list Z -> bool) k (cs : list (list Z)),
  nfeed_all ok (NWait [] (S k)) cs = nfeed ok (NWait [] (S k)) (List.concat cs).
Proof. exact split_incremental_is_whole. Qed.
Print Assumptions C13_split_incremental_is_whole.

(* "Malformed, oversized ... negotiation input only ever ends that connection attempt" -- the oversize verdict itself, read from
   Negotiation.dataReceived by symbolic execution of the statements between the terminator search and the split (any arrangement
   of the tests translates), is exactly: refuse iff the terminator lies beyond 4096 bytes or is absent with 4096 + 4 bytes buffered;
   wait iff it is absent; split otherwise.  It depends on nothing but the position of the terminator and the bytes buffered. *)
Theorem C13_header_verdict : forall eoh buflen, header_verdict eoh buflen = header_spec eoh buflen.
Proof. exact header_verdict_spec. Qed.

Print Assumptions C13_header_verdict.

(* ===================== round 5 ===================== *)

(* "For ANY two endpoints, exactly one of them acts as decider": never two; none exactly when the two ids are equal *)
Theorem C13_decider_count : forall a b, masters a b = (if list_eqb (ep_id a) (ep_id b) then 0 else 1)%nat.
Proof. exact decider_count. Qed.
Print Assumptions C13_decider_count.

Theorem C13_no_decider_iff_equal_ids : forall a b, masters a b = 0%nat <-> ep_id a = ep_id b.
Proof. exact no_decider_iff_equal_ids. Qed.
Print Assumptions C13_no_decider_iff_equal_ids.

(* ... in which case both ends fail (both wait for a decision; the attempt ends by the negotiation timeout) *)
Theorem C13_equal_ids_both_fail : forall a b, ep_id a = ep_id b -> exists w, negotiate a b = (Failed w, Failed w).
Proof. exact equal_ids_both_fail. Qed.
Print Assumptions C13_equal_ids_both_fail.

(* "either both switch ... with identical parameters ... or both abandon the connection with a negotiation error", EXACTLY: for any
   two endpoints with distinct ids that implement the versions they offer (asserted by Negotiation.__init__),
   (1) both get the same parameters (highest common version, highest common table, equal hash) iff the ranges meet and the highest
       common table has the same hash on both sides (compatible);
   (2) if the ranges do not meet -- the failure happens BEFORE a decision is sent (C13_decision_sent_iff) -- both abandon and each
       failure is a negotiation error (NegotiationError or RemoteNegotiationError; the loss of a connection is not one);
   (3) if the ranges meet but the two are not compatible -- the decision IS sent and the non-decider refuses it -- the non-decider
       abandons with NegotiationError and the decider has already switched with the highest common version and table: it ends
       SwitchedThenLost, NOT with a negotiation error.  (3) is where the code departs from the property text: see
       C13_agreement_two_way_refuted (region inhabited: refused_decision_example; (2) inhabited: no_decision_example) *)
Theorem C13_agreement_exact : forall a b,
  ep_id a <> ep_id b -> implements_own_range a -> implements_own_range b ->
  (compatible a b -> exists p, negotiate a b = (Banana p, Banana p) /\ agreed a b p) /\
  (~ ranges_meet a b -> exists w1 w2, negotiate a b = (Failed w1, Failed w2) /\ negotiation_error w1 /\ negotiation_error w2) /\
  (ranges_meet a b -> ~ compatible a b ->
     exists p, best_params a b p /\ decider_first a b (negotiate a b) = (SwitchedThenLost p, Failed "NegotiationError")).
Proof. exact agreement_exact. Qed.
Print Assumptions C13_agreement_exact.

(* the decider sends a decision exactly when both pairs of ranges meet *)
Theorem C13_decision_sent_iff : forall m s, (exists d, master_decide m s = Ok d) <-> ranges_meet m s.
Proof. exact decision_sent_iff. Qed.
Print Assumptions C13_decision_sent_iff.

(* "both abandon the connection with a negotiation error" happens exactly when the failure precedes the decision; "both switch"
   exactly when the two are compatible; in between lies the refused decision *)
Theorem C13_both_abandon_iff_no_decision : forall a b,
  ep_id a <> ep_id b -> implements_own_range a -> implements_own_range b ->
  ((exists w1 w2, negotiate a b = (Failed w1, Failed w2)) <-> ~ ranges_meet a b) /\
  ((exists p, negotiate a b = (Banana p, Banana p)) <-> compatible a b).
Proof. exact both_abandon_iff_no_decision. Qed.
Print Assumptions C13_both_abandon_iff_no_decision.

(* "the highest protocol version both support", against a decider that does NOT follow the protocol: the full statement
     forall s d p, implements_own_range s -> slave_accept s d = Ok p -> in_range (ep_vmin s) (ep_vmax s) (p_version p)
   is FALSE of the faithful model (and of the code: replayed on every run, reported as a note): the non-decider checks the
   decided version only against the accept methods its class has *)
Theorem C13_slave_checks_own_range_refuted :
  exists s d p, implements_own_range s /\ ~ in_range (ep_vmin s) (ep_vmax s) (d_version d) /\ slave_accept s d = Ok p /\ p_version p = d_version d.
Proof. exact slave_checks_own_range_refuted. Qed.
Print Assumptions C13_slave_checks_own_range_refuted.

(* ... whereas a decider that follows the protocol always decides inside the other side's ranges *)
Theorem C13_honest_decision_in_range : forall m s d,
  master_decide m s = Ok d -> in_range (ep_vmin s) (ep_vmax s) (d_version d) /\ in_range (ep_vocmin s) (ep_vocmax s) (d_vocab d).
Proof. exact honest_decision_in_range. Qed.
Print Assumptions C13_honest_decision_in_range.

(* the message codec, TRANSLATED from Negotiation.sendBlock / parseLines: every block the code can emit (keys lower-case
   without ':' / CR, values without CR and without leading blanks, valid UTF-8), followed by ANY bytes, is cut by the receiver
   at its own end -- the first terminator of the stream -- and parses back to exactly the block that was sent *)
Theorem C13_block_round_trip : forall d rest,
  d <> [] -> canonical d -> Forall wf_pair d ->
  exists wire, sendBlock d = Ok wire /\
    find_term (wire ++ rest) = Some (List.length (header_of d)) /\
    firstn (List.length (header_of d)) (wire ++ rest) = header_of d /\
    skipn (List.length (header_of d) + 4) (wire ++ rest) = rest /\
    parseLines (header_of d) = Ok d.
Proof. exact block_round_trip. Qed.
Print Assumptions C13_block_round_trip.

(* composed with the block splitter (bytes -> blocks -> dict), for EVERY packetisation of the stream: the phase handler is given
   exactly the header of the block, once, and the bytes behind it are left for the next phase *)
Theorem C13_deliver_any_chunking : forall (ok : list Z -> bool) d rest (cs : list (list Z)),
  d <> [] -> canonical d -> Forall wf_pair d -> (List.length (header_of d) <= cap)%nat ->
  List.concat cs = wire_of d ++ rest ->
  nfeed_all ok (NWait [] 1) cs = if ok (header_of d) then (NPass, [header_of d], rest) else (NDead, [header_of d], []).
Proof. exact deliver_any_chunking. Qed.
Print Assumptions C13_deliver_any_chunking.

Theorem C13_deliver_round_trip : forall d rest,
  d <> [] -> canonical d -> Forall wf_pair d -> (List.length (header_of d) <= cap)%nat -> deliver d rest = Ok (d, rest).
Proof. exact deliver_round_trip. Qed.
Print Assumptions C13_deliver_round_trip.

(* "Malformed ... negotiation input": on ARBITRARY bytes the translated parseLines returns a block or raises ValueError /
   UnicodeDecodeError, nothing else; both are caught by the catch-all of dataReceived *)
Theorem C13_parse_total : forall header,
  (exists d, parseLines header = Ok d) \/ parseLines header = Exc "ValueError" \/ parseLines header = Exc "UnicodeDecodeError".
Proof. exact parse_total. Qed.
Print Assumptions C13_parse_total.

(* every key the sender stores in a hello / decision / error block is one the receiving methods look up (all read from the source) *)
Theorem C13_keys_written_are_read :
  In hello_key_version_range_written hello_keys_read /\
  In hello_key_vocab_range_written hello_keys_read /\
  In hello_key_tubid_written hello_keys_read /\
  In error_key hello_keys_read /\
  In decision_key_version_written decision_keys_read /\
  In decision_key_vocab_written decision_keys_read /\
  In error_key decision_keys_read.
Proof. exact keys_written_are_read. Qed.
Print Assumptions C13_keys_written_are_read.

(* "out-of-order negotiation input", by content: a decision where a hello is expected, and a hello where the decision is
   expected, are refused with the negotiation error *)
Theorem C13_decision_where_hello_expected : forall hf me m offer ver dec,
  decide_wire hf m offer ver = Ok dec -> eval_hello_wire me (fst dec) = Exc "NegotiationError".
Proof. exact decision_where_hello_expected. Qed.
Print Assumptions C13_decision_where_hello_expected.

Theorem C13_hello_where_decision_expected : forall hf me e, accept_wire hf me (hello_block e) = Exc "NegotiationError".
Proof. exact hello_where_decision_expected. Qed.
Print Assumptions C13_hello_where_decision_expected.

(* a refusal reaches the other side as the remote negotiation error in both phases, for every receiver that has the accept method
   of the version stamped on error blocks -- and every class of this tree has it *)
Theorem C13_error_block_understood : forall hf me (msg : list Z),
  let blk := dset (dset [] decision_key_version_written (fmt_d error_block_version)) error_key msg in
  eval_hello_wire me blk = Exc "RemoteNegotiationError" /\
  (ep_accepts me error_block_version = true -> accept_wire hf me blk = Exc "RemoteNegotiationError").
Proof. exact error_block_understood. Qed.
Print Assumptions C13_error_block_understood.

Theorem C13_error_block_version_has_accept_method : In error_block_version class_accept_versions.
Proof. exact error_block_version_has_accept_method. Qed.
Print Assumptions C13_error_block_version_has_accept_method.

(* "Malformed, oversized or out-of-order negotiation input only ever ends that connection attempt": the phase machine whose
   dispatch, input guard and error report are TRANSLATED from Negotiation.dataReceived.  A header block in ANY legal state,
   whatever the handler makes of it, (a) is not looked at, or (b) advances along the legal order, or (c) ends the attempt:
   the object is dead, nothing else changes, and the peer is told in the way that fits the send phase reached *)
Theorem C13_block_advances_or_ends : forall s v, legal s ->
  let s' := on_block s v in
  s' = s \/
  (ns_dead s' = false /\ ns_recv s <= ns_recv s' /\ ns_send s <= ns_send s' /\ (ns_recv s < ns_recv s' \/ ns_switched s' = true)
   /\ ns_client s' = ns_client s) \/
  (ns_dead s' = true /\ ns_switched s' = ns_switched s /\ ns_recv s' = ns_recv s /\ ns_client s' = ns_client s /\
   ns_send s <= ns_send s' /\ ns_report s' = error_report (ns_send s')).
Proof. exact block_advances_or_ends. Qed.
Print Assumptions C13_block_advances_or_ends.

(* every state reached from a fresh client or server object by any sequence of blocks is legal ... *)
Theorem C13_legal_run : forall c vs, legal (run_blocks (init_state c) vs).
Proof. exact legal_run_from_init. Qed.
Print Assumptions C13_legal_run.

(* ... in legal states the `assert 0` arm of the dispatch is never taken ... *)
Theorem C13_dispatch_total_on_legal : forall s, legal s -> ns_dead s = false -> dispatch (ns_recv s) (ns_client s) <> 4.
Proof. exact dispatch_total_on_legal. Qed.
Print Assumptions C13_dispatch_total_on_legal.

(* ... and once the attempt has ended nothing that arrives later changes anything *)
Theorem C13_ended_stays_ended : forall s vs, ns_dead s = true -> run_blocks s vs = s.
Proof. exact ended_stays_ended. Qed.
Print Assumptions C13_ended_stays_ended.

(* every store to receive_phase / send_phase anywhere in the class is one the machine knows *)
Theorem C13_phase_stores_known :
  Forall (fun mv => In (snd mv) [ph_ENCRYPTED; ph_DECIDING; ph_ABANDONED]) receive_phase_stores /\
  Forall (fun mv => In (snd mv) [ph_ENCRYPTED; ph_DECIDING; ph_BANANA]) send_phase_stores.
Proof. exact phase_stores_known. Qed.
Print Assumptions C13_phase_stores_known.

(* ===================== round 5, follow-up ===================== *)

(* the size guard of the splitter model IS the verdict translated from Negotiation.dataReceived: one step of `drain` refuses, waits
   or splits exactly as header_verdict says for (buffer.find(terminator), len(buffer)); the chunk-independence theorems above are
   therefore about the translated guard *)
Theorem C13_drain_test_is_header_verdict : forall (ok : list Z -> bool) f buf k,
  drain ok (S f) buf (S k) =
    let v := header_verdict (eoh_of buf) (Z.of_nat (List.length buf)) in
    if (v =? 0)%Z then (NDead, [], [])
    else if (v =? 1)%Z then (NWait buf (S k), [], [])
    else let e := Z.to_nat (eoh_of buf) in
         let hdr := firstn e buf in
         if ok hdr then let '(s, bs, p) := drain ok f (skipn (e + 4) buf) k in (s, hdr :: bs, p)
         else (NDead, [hdr], []).
Proof. exact drain_test_is_header_verdict. Qed.
Print Assumptions C13_drain_test_is_header_verdict.

(* int("%d" % n) = n for every integer (the model of int() is tied to Python's by the correspondence) *)
Theorem C13_py_int_fmt_d : forall n, py_int (fmt_d n) = Ok n.
Proof. exact py_int_fmt_d. Qed.
Print Assumptions C13_py_int_fmt_d.

(* bytes -> blocks -> dict -> fields -> decision, end to end: for every rendering hf of table hashes as distinct blank-free ASCII
   tokens, and any two endpoints whose ids are well-formed block values and whose blocks fit the 4096-byte cap, the negotiation
   carried out over the wire -- sendBlock, the receiver's terminator search and cap, parseLines, str.split, int, the key look-ups --
   gives both ends exactly what the record-level model gives them *)
Theorem C13_wire_negotiate_eq : forall hf, token_fmt hf -> forall a b, wire_ok hf a b -> wire_ok hf b a ->
  wire_negotiate hf a b = negotiate a b.
Proof. exact wire_negotiate_eq. Qed.
Print Assumptions C13_wire_negotiate_eq.

(* ... so the exact three-way statement holds of the bytes: identical parameters (highest common version, highest common table, equal
   hash) exactly when the two are compatible; both abandon, each with a negotiation error, when the ranges do not meet (no decision
   block is written); when a decision block is written and refused, the decider has already switched and only loses the connection *)
Theorem C13_wire_agreement_exact : forall hf, token_fmt hf -> forall a b, wire_ok hf a b -> wire_ok hf b a ->
  ep_id a <> ep_id b -> implements_own_range a -> implements_own_range b ->
  (compatible a b -> exists p, wire_negotiate hf a b = (Banana p, Banana p) /\ agreed a b p) /\
  (~ ranges_meet a b -> exists w1 w2, wire_negotiate hf a b = (Failed w1, Failed w2) /\ negotiation_error w1 /\ negotiation_error w2) /\
  (ranges_meet a b -> ~ compatible a b ->
     exists p, best_params a b p /\ decider_first a b (wire_negotiate hf a b) = (SwitchedThenLost p, Failed "NegotiationError")).
Proof. exact wire_agreement_exact. Qed.
Print Assumptions C13_wire_agreement_exact.
