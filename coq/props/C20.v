(* C20 -- FURLs and connection hints parse totally, reversibly and in bounded time.
   Property theorems only; proofs live in lib/RegexProofs.v, lib/FurlProofs.v, lib/TorStateProofs.v, lib/ConnectorProofs.v and
   lib/Connect{All,Late,Tor}Proofs.v.  The patterns, constants and shape facts (gen/FurlGen.v) are re-translated from the
   source on every run. *)
From Coq Require Import ZArith NArith List String.
Import ListNotations.
Require Import Verif.lib.PyLite Verif.lib.Regex Verif.lib.RegexProofs Verif.lib.FurlPrim Verif.gen.FurlGen Verif.lib.Utf8 Verif.lib.Furl Verif.lib.FurlProofs.
Require Import Verif.lib.Connector Verif.lib.ConnectorProofs Verif.lib.ConnectAll Verif.lib.ConnectAllProofs.
Require Import Verif.lib.TorState Verif.lib.TorStateProofs.
Require Import Verif.lib.ConnectLateProofs Verif.lib.ConnectTor Verif.lib.ConnectTorProofs.
Local Open Scope Z_scope.

(* "Parsing a FURL either yields (tub id, hints, name) ... or raises the documented bad-FURL error".
   DEVIATION, stated precisely: decode_furl has two error classes and BadFURLError is NOT a subclass of ValueError.
   Read strictly (BadFURLError only) the sentence is refuted: C20_decode_strict_refuted.  The library's tested behaviour
   (test_sturdyref.py asserts ValueError("unknown FURL prefix") for a string without the pb://..@../.. shape;
   Tub.getConnectionInfoForFURL catches (ValueError, BadFURLError)) makes ValueError the documented error for strings that
   are not FURLs at all, so the theorem proved is: no outcome other than a triple, BadFURLError or ValueError
   (this theorem is a case split on decode_furl's structure; what the triple and the two errors mean is
   C20_decode_error_classes, C20_decode_wf, C20_decode_encode) *)
Theorem C20_decode_total : forall s,
  (exists t hs n, decode_furl s = Ok (t, hs, n)) \/ decode_furl s = Exc "BadFURLError" \/ decode_furl s = Exc "ValueError".
Proof. exact decode_total. Qed.
Print Assumptions C20_decode_total.

(* which inputs get which error: ValueError exactly when the translated pattern finds no FURL in the string, BadFURLError
   exactly when it finds one whose (cut) tub id is not base32 or one of whose hints is empty *)
Theorem C20_decode_error_classes : forall s,
  (decode_furl s = Exc "ValueError" <-> re_apply AUTH_STURDYREF_RE AUTH_STURDYREF_RE_method s = None) /\
  (decode_furl s = Exc "BadFURLError" <->
   exists c, re_apply AUTH_STURDYREF_RE AUTH_STURDYREF_RE_method s = Some c /\
     (is_base32 (firstn TUBID_CUT (group_or_nil 1 c)) = false \/
      existsb str_is_nil (let hs := split_on HINT_SEP (group_or_nil 2 c) in match hs with [[]] => [] | _ => hs end) = true)).
Proof. exact decode_error_classes. Qed.
Print Assumptions C20_decode_error_classes.

(* documentation of the strict reading (BadFURLError only): refuted by "pb://a/n", on the real code too.  NOT a finding:
   upstream's own test (test_sturdyref.py) asserts ValueError for a string that is not a FURL and its caller
   (Tub.getConnectionInfoForFURL) catches (ValueError, BadFURLError), so ValueError is the documented error here *)
Theorem C20_decode_strict_refuted : exists s, decode_furl s = Exc "ValueError".
Proof. exact decode_strict_refuted. Qed.
Print Assumptions C20_decode_strict_refuted.

(* ... also when the FURL is offered as bytes (six.ensure_str = strict UTF-8 decoding): the only further outcome is
   UnicodeDecodeError, which is a ValueError *)
Theorem C20_decode_bytes_total : forall b,
  (exists t hs n, decode_furl_bytes b = Ok (t, hs, n)) \/ decode_furl_bytes b = Exc "BadFURLError" \/
  decode_furl_bytes b = Exc "ValueError" \/ decode_furl_bytes b = Exc "UnicodeDecodeError".
Proof. exact decode_bytes_total. Qed.
Print Assumptions C20_decode_bytes_total.

(* ... and the UTF-8 bytes of a str decode exactly like the str (every Python str without lone surrogates) *)
Theorem C20_decode_bytes_is_decode_str : forall s, forallb scalarb s = true -> decode_furl_bytes (utf8 s) = decode_furl s.
Proof. exact decode_bytes_is_decode_str. Qed.
Print Assumptions C20_decode_bytes_is_decode_str.

(* "... such that re-encoding gives an equivalent FURL": whatever decode_furl returns decodes, after
   encode_furl, to the same triple *)
Theorem C20_decode_encode : forall s t hs n,
  decode_furl s = Ok (t, hs, n) -> decode_furl (encode_furl t hs n) = Ok (t, hs, n).
Proof. exact decode_encode. Qed.
Print Assumptions C20_decode_encode.

(* the same from the encoder's side, under the stated well-formedness: a non-empty base32 tub id of
   at most TUBID_CUT characters, hints non-empty without ',' and '/', a non-empty name without newline *)
Theorem C20_decode_encode_wf : forall t hs n,
  (t <> [] /\ (List.length t <= TUBID_CUT)%nat /\ is_base32 t = true /\
   Forall (fun h => h <> [] /\ ~ In HINT_SEP h /\ ~ In 47 h) hs /\ n <> [] /\ ~ In 10 n) ->
  decode_furl (encode_furl t hs n) = Ok (t, hs, n).
Proof. exact decode_encode_wf. Qed.
Print Assumptions C20_decode_encode_wf.

(* ... and every decoded triple is well-formed in that sense *)
Theorem C20_decode_wf : forall s t hs n, decode_furl s = Ok (t, hs, n) ->
  t <> [] /\ (List.length t <= TUBID_CUT)%nat /\ is_base32 t = true /\
  Forall (fun h => h <> [] /\ ~ In HINT_SEP h /\ ~ In 47 h) hs /\ n <> [] /\ ~ In 10 n.
Proof. exact decode_wf. Qed.
Print Assumptions C20_decode_wf.

(* "two references compare equal exactly when tub id and name are equal" (SturdyRef.__eq__ over the
   translated _distinguishers), equal references hash alike, TubRef identity is the tub id *)
Theorem C20_sturdy_eq : forall a b, sref_eqb a b = true <-> (sr_tub a = sr_tub b /\ sr_name a = sr_name b).
Proof. exact sturdy_eq. Qed.
Print Assumptions C20_sturdy_eq.

Theorem C20_sturdy_hash : forall a b, sref_eqb a b = true -> sref_key a = sref_key b.
Proof. exact sturdy_hash. Qed.
Print Assumptions C20_sturdy_hash.

(* ... also for references that ARRIVE as copies: the attributes SturdyRef.setCopyableState takes from the peer's
   state (translated) include every attribute identity depends on, and C20_sturdy_eq holds for all records *)
Theorem C20_copy_carries_identity : forall f, In f sturdyref_distinguishers -> In f sturdyref_copied_fields.
Proof. exact copy_carries_identity. Qed.
Print Assumptions C20_copy_carries_identity.

(* ordering (SturdyRef.__lt__ compares the same translated _distinguishers tuples): for references that have a tub id and a
   name -- everything built from a FURL -- `<` never raises and exactly one of a < b, a == b, b < a holds *)
Theorem C20_sturdy_lt_trichotomy : forall a b,
  ((exists t, sr_tub a = Some t) /\ (exists n, sr_name a = Some n)) ->
  ((exists t, sr_tub b = Some t) /\ (exists n, sr_name b = Some n)) ->
  exists x y, sref_ltb a b = Ok x /\ sref_ltb b a = Ok y /\
    ((x = true /\ sref_eqb a b = false /\ y = false) \/ (x = false /\ sref_eqb a b = true /\ y = false) \/
     (x = false /\ sref_eqb a b = false /\ y = true)).
Proof. exact sturdy_lt_trichotomy. Qed.
Print Assumptions C20_sturdy_lt_trichotomy.

Theorem C20_tubref_eq : forall a b, tubref_eqb a b = true <-> sr_tub a = sr_tub b.
Proof. exact tubref_eq. Qed.
Print Assumptions C20_tubref_eq.

(* "Classifying a connection hint ... ends in an endpoint or the documented invalid-hint error - never
   another exception", for all registered handler sets (type name -> foolscap's tcp / tor / i2p handler, the i2p
   handler with or without a default port, or ANY third-party plugin given by what its hint_to_endpoint returns /
   raises), all address filters, all strings.  The only hypothesis is on third-party plugins: each must itself answer
   with an endpoint or InvalidHintError (see C20_hint_exception_origin for what happens otherwise) *)
Theorem C20_hint_total : forall (handlers : list (str * hkind)) (nonpublic : str -> bool) (loc : str),
  Forall (fun h => match snd h with
                   | KPlugin f => forall x, (exists e, f x = Ok e) \/ f x = Exc "InvalidHintError"
                   | _ => True
                   end) handlers ->
  (exists e, get_endpoint handlers nonpublic loc = Ok e) \/ get_endpoint handlers nonpublic loc = Exc "InvalidHintError".
Proof. exact hint_total_all. Qed.
Print Assumptions C20_hint_total.

(* the i2p handler (form of commit 733f931, translated): an I2P hint always gives an endpoint, whose port is the hint's own
   non-zero port, else the handler's default port (None without one) *)
Theorem C20_i2p_port_choice : forall dflt hint,
  i2p_hint_to_endpoint I2P_POPS_PORT dflt hint = Exc "InvalidHintError" \/
  exists host pn, i2p_hint_to_endpoint I2P_POPS_PORT dflt hint = Ok (EpI2p host pn) /\ (pn = dflt \/ exists v, pn = Some v /\ v <> 0).
Proof. exact i2p_port_choice. Qed.
Print Assumptions C20_i2p_port_choice.

(* ... for ALL handler sets the dispatch (legacy conversion, colon test, lookup) raises nothing itself: any other
   exception is the one that the handler registered for the hint's type raised on that hint ... *)
Theorem C20_hint_exception_origin : forall handlers nonpublic loc e,
  get_endpoint handlers nonpublic loc = Exc e ->
  e = "InvalidHintError"%string \/
  exists hint kd, convert_legacy_hint loc = Ok hint /\
                  lookup_handler (take_until HINT_TYPE_SEP hint) handlers = Some kd /\
                  hint_to_endpoint nonpublic kd hint = Exc e.
Proof. exact (hint_exception_origin I2P_POPS_PORT). Qed.
Print Assumptions C20_hint_exception_origin.

(* ... and foolscap's own handlers raise nothing but InvalidHintError, except the pre-733f931 i2p handler with a default port *)
Theorem C20_builtin_handler_exceptions : forall nonpublic kd hint e,
  (match kd with KPlugin _ => False | _ => True end) ->
  hint_to_endpoint nonpublic kd hint = Exc e ->
  e = "InvalidHintError"%string \/ (e = "TypeError"%string /\ I2P_POPS_PORT = false /\ exists d, kd = KI2p (Some d)).
Proof. exact (builtin_exceptions I2P_POPS_PORT). Qed.
Print Assumptions C20_builtin_handler_exceptions.

(* "Classifying a connection hint always terminates ... and ends in an endpoint or the documented invalid-hint error",
   for a Tor handler whose Tor is NOT there: the handler (connections/tor.py _Common.hint_to_endpoint, its five steps in
   the order translated from the source) run against a Tor that is ready / still starting / fails with any exception.
   The classification is by the string alone -- with a ready Tor the handler is the classification of C20_hint_total ... *)
Theorem C20_tor_ready_is_classification : forall nonpublic hint,
  tor_handler nonpublic TorReady hint = Done (tor_hint_to_endpoint nonpublic hint).
Proof. exact tor_ready_is_classification. Qed.
Print Assumptions C20_tor_ready_is_classification.

(* ... a hint that is rejected is rejected at once whatever the Tor does: no waiting for a launch that may take for
   ever, no launch / connection error in place of InvalidHintError ... *)
Theorem C20_tor_invalid_whatever_tor : forall nonpublic st hint,
  tor_hint_to_endpoint nonpublic hint = Exc "InvalidHintError" -> tor_handler nonpublic st hint = Done (Exc "InvalidHintError").
Proof. exact tor_invalid_whatever_tor. Qed.
Print Assumptions C20_tor_invalid_whatever_tor.

(* ... every outcome, for all hints and all states of the Tor: the outcome is a function of (classification, Tor); it is
   `Waiting` / the Tor's own exception only for a hint that IS an endpoint once the Tor is there ... *)
Theorem C20_tor_outcome_table : forall nonpublic st hint,
  tor_handler nonpublic st hint =
  match tor_hint_to_endpoint nonpublic hint with
  | Ok ep => match st with TorReady => Done (Ok ep) | TorStarting => Waiting | TorFails e => Done (Exc e) end
  | Exc _ => Done (Exc "InvalidHintError")
  end.
Proof. exact tor_outcome_table. Qed.
Print Assumptions C20_tor_outcome_table.

(* WEAKENING, stated precisely.  The property says "ends in an endpoint or the documented invalid-hint error - never another
   exception".  For a Tor handler whose Tor cannot be had that sentence is NOT what is proved and is not true of the code:
   with TorFails e an accepted hint ends in the Tor's OWN exception e -- the launch / control-connection error, any class
   (C20_tor_fails_own_exception; read strictly the sentence is refuted: C20_tor_never_another_exception_refuted, witness
   "tor:a.b:80" with a launch that fails with RuntimeError, replayed on the real handlers by oracle_tor_states / the
   tor-state correspondence).  What IS proved in its place is exception ORIGIN (below: an exception of the handler is
   InvalidHintError or the very exception its Tor failed with, never a third one, and never the Tor's for a hint that is
   rejected) plus CONTAINMENT in the connector (C20_hint_status_is_own, C20_settled_status_is_final, C20_tor_down_reported:
   the exception becomes that hint's "failed to connect" status and the other hints are unaffected).  This is not reported as
   a finding: "the Tor is not available" is not a property of the hint, and InvalidHintError would be the wrong answer *)
Theorem C20_tor_exception_origin : forall nonpublic st hint e,
  tor_handler nonpublic st hint = Done (Exc e) -> e = "InvalidHintError"%string \/ st = TorFails e.
Proof. exact tor_exception_origin. Qed.
Print Assumptions C20_tor_exception_origin.

Theorem C20_tor_fails_own_exception : forall nonpublic e hint,
  tor_handler nonpublic (TorFails e) hint =
  match tor_hint_to_endpoint nonpublic hint with Ok _ => Done (Exc e) | Exc _ => Done (Exc "InvalidHintError") end.
Proof. exact tor_fails_own_exception. Qed.
Print Assumptions C20_tor_fails_own_exception.

Theorem C20_tor_never_another_exception_refuted : exists nonpublic st hint e,
  tor_handler nonpublic st hint = Done (Exc e) /\ e <> "InvalidHintError"%string.
Proof. exact tor_strict_total_refuted. Qed.
Print Assumptions C20_tor_never_another_exception_refuted.

(* ... and the order of the steps matters (regression, seeded change C20-r6s1): were the handler to get its Tor going
   before it looks at the hint, an invalid hint would wait as long as the Tor takes and end in the Tor's exception *)
Theorem C20_tor_wait_first_refuted : exists nonpublic hint,
  tor_hint_to_endpoint nonpublic hint = Exc "InvalidHintError" /\
  tor_handler_gen TOR_STEPS_WAIT_FIRST nonpublic TorStarting hint = Waiting /\
  tor_handler_gen TOR_STEPS_WAIT_FIRST nonpublic (TorFails "RuntimeError") hint = Done (Exc "RuntimeError").
Proof. exact tor_wait_first_refuted. Qed.
Print Assumptions C20_tor_wait_first_refuted.

(* "... always terminates in time proportional to its length": for each of the four translated hint
   patterns, applied the way the source applies it, the backtracking matcher takes at most
   hint_K * (|s| + 1) steps on EVERY subject s *)
Theorem C20_hint_linear : forall p meth,
  In (p, meth) [(OLD_STYLE_HINT_RE, OLD_STYLE_HINT_RE_method); (NEW_STYLE_HINT_RE, NEW_STYLE_HINT_RE_method);
                (TOR_HINT_RE, TOR_HINT_RE_method); (I2P_HINT_RE, I2P_HINT_RE_method)] ->
  forall s, (re_steps p meth s <= hint_K * (N.of_nat (List.length s) + 1))%N.
Proof. exact hint_linear. Qed.
Print Assumptions C20_hint_linear.

(* the generic form: any pattern accepted by the static analysis and tried at position 0 only *)
Theorem C20_linear_analysis_sound : forall p meth Kb, linear_bound p meth = Some Kb ->
  forall s, (re_steps p meth s <= Kb * (N.of_nat (List.length s) + 1))%N.
Proof. exact linear_bound_sound. Qed.
Print Assumptions C20_linear_analysis_sound.

(* FURL matching: "time proportional to its length" is REFUTED for decode_furl on the current tree (AUTH_STURDYREF_RE is
   unanchored and applied with .search(): known finding oracle/furl-quadratic), and the growth is characterised
   from both sides.
   full-strength statement:  exists K, forall s, re_steps AUTH_STURDYREF_RE AUTH_STURDYREF_RE_method s <= K * (|s| + 1)
   (1) refuted for every constant K *)
Theorem C20_furl_linear_refuted : forall K : N, exists s,
  (K * (N.of_nat (List.length s) + 1) < re_steps AUTH_STURDYREF_RE AUTH_STURDYREF_RE_method s)%N.
Proof. exact furl_linear_refuted. Qed.
Print Assumptions C20_furl_linear_refuted.

(* (2) the witness family, for every size: "pb://" k times costs at least (5/2) k (k - 1) steps *)
Theorem C20_furl_quadratic_lower : forall k,
  (5 * N.of_nat k * N.of_nat k <= 2 * re_steps AUTH_STURDYREF_RE AUTH_STURDYREF_RE_method (pb_repeat k) + 5 * N.of_nat k)%N.
Proof. exact furl_search_lower. Qed.
Print Assumptions C20_furl_quadratic_lower.

(* (3) upper bound on every subject: quadratic ... *)
Theorem C20_furl_steps_bounded_partial : forall s,
  (re_steps AUTH_STURDYREF_RE AUTH_STURDYREF_RE_method s
   <= (N.of_nat (List.length s) + 1) * (furl_K * (N.of_nat (List.length s) + 1) + 1))%N.
Proof. exact furl_steps_bounded. Qed.
Print Assumptions C20_furl_steps_bounded_partial.

(* (4) ... and precisely: linear in the length times the NUMBER OF OCCURRENCES OF THE SCHEME "pb://" in the subject *)
Theorem C20_furl_steps_by_occurrences : forall s,
  (re_steps AUTH_STURDYREF_RE AUTH_STURDYREF_RE_method s
   <= 6 * (N.of_nat (List.length s) + 1) + occ ENC_PREFIX s * (furl_K * (N.of_nat (List.length s) + 1)))%N.
Proof. exact furl_steps_by_occurrences. Qed.
Print Assumptions C20_furl_steps_by_occurrences.

(* (5) so a FURL in which the scheme occurs at most once (what a Tub prints, unless a hint or a registered name itself
   contains "pb://") is matched in linear time *)
Theorem C20_furl_single_scheme_linear : forall s, (occ ENC_PREFIX s <= 1)%N ->
  (re_steps AUTH_STURDYREF_RE AUTH_STURDYREF_RE_method s <= (furl_K + 6) * (N.of_nat (List.length s) + 1))%N.
Proof. exact furl_single_scheme_linear. Qed.
Print Assumptions C20_furl_single_scheme_linear.

(* (6) the anchored alternative (a leading `^`, or .match()) is linear on every subject with the same constant; it accepts
   fewer strings (FurlProofs.anchoring_changes_language), which is why the finding is left to the maintainers *)
Theorem C20_furl_anchored_linear : forall meth s,
  (re_steps (anchored AUTH_STURDYREF_RE) meth s <= furl_K * (N.of_nat (List.length s) + 1))%N /\
  (re_steps AUTH_STURDYREF_RE MMatch s <= furl_K * (N.of_nat (List.length s) + 1))%N.
Proof. exact (fun meth s => conj (furl_anchored_linear meth s) (furl_match_linear s)). Qed.
Print Assumptions C20_furl_anchored_linear.

(* per-hint error containment (TubConnector.connectToAll with its callback chain, _connectionFailed, checkForFailure,
   failed; model lib/ConnectAll.v), for ALL hint lists (duplicates included) and ALL behaviours of the individual
   hints -- an endpoint that is dialled (HPending), a handler that has not answered when the reactor is idle (HWaiting: a Tor
   handler whose Tor is starting, TorState.Waiting), an endpoint whose connect() fails at once, or get_endpoint failing with
   ANY exception (InvalidHintError or the handler's own):
   (1) every hint of the FURL is considered, whatever any hint does *)
Theorem C20_every_hint_tried : forall beh hints h, In h hints -> In h (attempted (connect_all beh hints)).
Proof. exact every_hint_tried. Qed.
Print Assumptions C20_every_hint_tried.

(* (2) a hint that yields a live endpoint is dialled, a hint whose handler is still waiting is held -- no exception raised for
   another hint prevents it (is_pending o = true iff o is HPending or HWaiting) ... *)
Theorem C20_usable_hint_dialled : forall beh hints h, In h hints -> is_pending (beh h) = true -> In h (pending (connect_all beh hints)).
Proof. exact usable_hint_dialled. Qed.
Print Assumptions C20_usable_hint_dialled.

(* ... validHints holds exactly the hints for which get_endpoint gave an endpoint (dialled, or connect() failed at once) ... *)
Theorem C20_valid_hints : forall beh hints h,
  (In h (valid (connect_all beh hints)) -> gives_endpoint (beh h) = true) /\
  (In h hints -> gives_endpoint (beh h) = true -> In h (valid (connect_all beh hints))).
Proof. exact (fun beh hints h => conj (valid_only_endpoints beh hints h) (endpoints_are_valid beh hints h)). Qed.
Print Assumptions C20_valid_hints.

(* ... so a WAITING hint sits in pendingConnections but not in validHints, its status is the one get_endpoint / the handler
   set, the connector is active and has reported nothing *)
Theorem C20_waiting_hint_held : forall beh hints h, In h hints -> beh h = HWaiting ->
  let r := connect_all beh hints in
  In h (pending r) /\ ~ In h (valid r) /\ status_of h (statuses r) = Some SResolving /\
  active r = true /\ failed_calls r = 0%nat.
Proof. exact waiting_hint_held. Qed.
Print Assumptions C20_waiting_hint_held.

(* (3) ... and every hint ends with the status that its OWN outcome determines *)
Theorem C20_hint_status_is_own : forall beh hints h, In h hints ->
  status_of h (statuses (connect_all beh hints)) = Some (expected_status (beh h)).
Proof. exact status_is_own. Qed.
Print Assumptions C20_hint_status_is_own.

(* (4) the connector neither stalls nor reports twice: either a connection attempt is running and nothing has been reported
   (the connect timer bounds the wait: C20_no_stall), or failed() -- Tub.connectionFailed, which answers every waiting
   getReference -- ran exactly once before connect() returned; `usable` (the flag of Connector.v's GetRef event: some hint is
   dialled OR waited for) decides *)
Theorem C20_connect_all_outcome : forall beh hints,
  let r := connect_all beh hints in
  (usable beh hints = true /\ pending r <> [] /\ active r = true /\ failed_calls r = 0%nat) \/
  (usable beh hints = false /\ pending r = [] /\ active r = false /\ failed_calls r = 1%nat).
Proof. exact connect_all_outcome. Qed.
Print Assumptions C20_connect_all_outcome.

(* (5) AFTER connect() has returned (the asynchronous path).  Late events, in any order and number: the Deferred of a waiting
   hint fires at last (LResolve h o: endpoint pending / connect() fails / the handler fails), a pending connect() fails
   (LConnFail), the connect timer fires (LTimeout: connectionTimedOut -> shutdown -> d.cancel() for every pending Deferred ->
   _remove / _connectionFailed with the cancellation error cx h -> failed()).  For ALL hint lists, behaviours, schedules and
   cancellation errors: either nothing has been reported, the connector is active (timer armed) and something is pending, or
   failed() ran EXACTLY once and nothing is pending -- never twice, never "inactive but unreported" *)
Theorem C20_late_outcome : forall cx beh hints evs,
  let r := run_late cx evs (connect_all beh hints) in
  (active r = true /\ failed_calls r = 0%nat /\ pending r <> []) \/
  (active r = false /\ failed_calls r = 1%nat /\ pending r = []).
Proof. exact late_outcome. Qed.
Print Assumptions C20_late_outcome.

(* (6) ... and once the connect timer has fired the failure HAS been reported, exactly once (the time bound is C20_no_stall's) *)
Theorem C20_timeout_reports : forall cx beh hints evs,
  let r := run_late cx (evs ++ [LTimeout]) (connect_all beh hints) in
  active r = false /\ failed_calls r = 1%nat /\ pending r = [].
Proof. exact timeout_reports. Qed.
Print Assumptions C20_timeout_reports.

(* (7) a hint whose handler never answers: held, and nothing reported, until the timer fires -- whatever the other hints do
   meanwhile; then cancelled (status of the cancellation error: "abandoned" for CancelledError), failure NegotiationError *)
Theorem C20_waiting_forever : forall cx beh hints h evs,
  In h hints -> beh h = HWaiting -> (forall o, ~ In (LResolve h o) evs) ->
  let r := run_late cx evs (connect_all beh hints) in
  (active r = true /\ failed_calls r = 0%nat /\ In h (pending r) /\ ~ In h (valid r) /\
   status_of h (statuses r) = Some SResolving) \/
  (In LTimeout evs /\ active r = false /\ failed_calls r = 1%nat /\ pending r = [] /\
   status_of h (statuses r) = Some (classify (cx h)) /\ reason r = Some "NegotiationError"%string).
Proof. exact waiting_forever. Qed.
Print Assumptions C20_waiting_forever.

(* (8) a hint that was settled when connect() returned keeps the status of its OWN outcome whatever happens later *)
Theorem C20_settled_status_is_final : forall cx beh hints h evs, In h hints -> is_pending (beh h) = false ->
  status_of h (statuses (run_late cx evs (connect_all beh hints))) = Some (expected_status (beh h)).
Proof. exact settled_status_is_final. Qed.
Print Assumptions C20_settled_status_is_final.

(* THE COMPOSITION of the Tor handler (the C20_tor_ theorems above) with the connector: tor_beh nonpublic st epb h is what the connector sees of
   the hint h when it is handled by a Tor handler in state st (Waiting -> HWaiting, endpoint -> what its connect() does, epb h;
   exception -> passed through by get_endpoint).
   (9) a hint list containing a Tor hint h whose Tor NEVER comes up (the other hints: anything; the late schedule: anything in
   which h's Deferred does not fire): reported exactly once when the timer has fired, nothing left pending; a hint the handler
   rejects is "bad hint" from the start and stays so; a hint it accepts was held (pending, NOT valid, nothing reported when
   connect() returned) and ends cancelled, the failure being NegotiationError *)
Theorem C20_tor_never_up_reported : forall nonpublic epb cx beh hints h evs,
  In h hints -> beh h = tor_beh nonpublic TorStarting epb h -> (forall o, ~ In (LResolve h o) evs) ->
  let r0 := connect_all beh hints in
  let r := run_late cx (evs ++ [LTimeout]) r0 in
  active r = false /\ failed_calls r = 1%nat /\ pending r = [] /\
  match tor_hint_to_endpoint nonpublic h with
  | Exc _ => status_of h (statuses r0) = Some SBadHint /\ status_of h (statuses r) = Some SBadHint
  | Ok _ => In h (pending r0) /\ ~ In h (valid r0) /\ active r0 = true /\ failed_calls r0 = 0%nat /\
            status_of h (statuses r0) = Some SResolving /\
            status_of h (statuses r) = Some (classify (cx h)) /\ reason r = Some "NegotiationError"%string
  end.
Proof. exact tor_never_up_reported. Qed.
Print Assumptions C20_tor_never_up_reported.

(* (10) a Tor that is DOWN (fails with e): the hint is settled when the reactor is idle, with the status of InvalidHintError
   resp. of the Tor's own exception, for good.  (Here the Tor's exception is taken as the hint's outcome AT reactor idle; the
   statuses, validHints as a set and the counters do not depend on that, the ORDER in which failures reach failureReason does:
   see (10') for the real order) *)
Theorem C20_tor_down_reported : forall nonpublic epb cx beh hints h e evs,
  In h hints -> beh h = tor_beh nonpublic (TorFails e) epb h ->
  let r := run_late cx evs (connect_all beh hints) in
  ~ In h (pending (connect_all beh hints)) /\
  status_of h (statuses r) = Some (match tor_hint_to_endpoint nonpublic h with Ok _ => classify e | Exc _ => SBadHint end).
Proof. exact tor_down_reported. Qed.
Print Assumptions C20_tor_down_reported.

(* (10') the same in the order of the real reactor turns: a Tor handler answers an ACCEPTED hint through its observer list, in a
   later turn even when the Tor has already failed (or is there) -- when connect() returns the hint is waiting and the Tor's
   exception arrives as a late event, after the synchronous outcomes of all other hints.  Whatever happens in between (anything but
   the timer) and afterwards, the hint ends with the status of the Tor's own exception; generally (C20_late_resolution) with the
   status of whatever failure its handler answers late *)
Theorem C20_late_resolution : forall cx beh hints h evs1 o evs2,
  In h hints -> beh h = HWaiting -> (forall o', ~ In (LResolve h o') evs1) -> ~ In LTimeout evs1 -> is_pending o = false ->
  status_of h (statuses (run_late cx (evs1 ++ LResolve h o :: evs2) (connect_all beh hints))) = Some (expected_status o).
Proof. exact late_resolution. Qed.
Print Assumptions C20_late_resolution.

Theorem C20_tor_down_reported_late : forall nonpublic epb cx beh hints h e ep evs1 evs2,
  In h hints -> tor_hint_to_endpoint nonpublic h = Ok ep -> beh h = HWaiting ->
  (forall o', ~ In (LResolve h o') evs1) -> ~ In LTimeout evs1 ->
  status_of h (statuses (run_late cx (evs1 ++ LResolve h (tor_beh nonpublic (TorFails e) epb h) :: evs2) (connect_all beh hints)))
    = Some (classify e).
Proof. exact tor_down_reported_late. Qed.
Print Assumptions C20_tor_down_reported_late.

(* (11) a FURL all of whose hints are rejected by the Tor handler is answered before connect() returns, whatever the Tor does *)
Theorem C20_tor_all_rejected_answered_at_once : forall nonpublic st epb beh hints,
  (forall h, In h hints -> beh h = tor_beh nonpublic st epb h /\ tor_hint_to_endpoint nonpublic h = Exc "InvalidHintError"%string) ->
  let r := connect_all beh hints in
  failed_calls r = 1%nat /\ active r = false /\ pending r = [].
Proof. exact tor_all_rejected_answered_at_once. Qed.
Print Assumptions C20_tor_all_rejected_answered_at_once.

(* "... so an untrusted FURL (for example one received as a gift) cannot stall ... the process": on a Tub whose peers never
   answer, after ANY history of getReference calls (FURLs with or without a usable hint, for any tub ids) and passage of
   time, every getReference is answered once the connect timeout has passed -- with the order of "store the connector" and
   "connect()" that is translated from Tub.getBrokerForTubRef, and the translated CONNECTION_TIMEOUT *)
Theorem C20_no_stall : forall evs,
  waiters (cstep connector_stored_before_connect CONNECTION_TIMEOUT
             (crun connector_stored_before_connect CONNECTION_TIMEOUT evs) (Advance CONNECTION_TIMEOUT)) = [].
Proof. exact no_stall_translated. Qed.
Print Assumptions C20_no_stall.

(* ... and a FURL with a usable hint for a tub that has no running connector starts a connection attempt, whatever
   FURLs for that tub were seen before *)
Theorem C20_attempt_starts : forall evs t,
  let s := crun connector_stored_before_connect CONNECTION_TIMEOUT evs in
  ~ (exists dl, In (t, dl) (live s)) ->
  In (next s) (started (cstep connector_stored_before_connect CONNECTION_TIMEOUT s (GetRef t true))).
Proof. exact attempt_starts_translated. Qed.
Print Assumptions C20_attempt_starts.
