(* C05 -- A connection is bound to a TubID only if the peer proved that identity.
   Property theorems only; proofs live in lib/Identity*Proofs.v.  Everything is stated for an arbitrary type of
   certificates and an arbitrary function tubid_of (the hash): no property of the hash is used.  `evaluate`,
   `session`, `step` are built from the fragments of negotiate.py / pb.py / referenceable.py translated into
   gen/IdentityGen.v on every run. *)
From Coq Require Import ZArith List String Bool.
Import ListNotations.
Require Import Verif.lib.PyLite Verif.gen.NegotiateGen Verif.lib.Negotiate Verif.lib.NegBytes Verif.gen.IdentityGen
               Verif.lib.NegSplit Verif.lib.Identity Verif.lib.IdentityProofs Verif.lib.IdentityBytes Verif.lib.IdentityBytesProofs
               Verif.lib.NegCodec Verif.gen.NegCodecGen Verif.lib.NegWire Verif.lib.IdentityBytesReal Verif.lib.IdentityBytesRealProofs
               Verif.lib.IdentityKeys Verif.lib.IdentityKeysProofs Verif.lib.IdentityComposeProofs.
Local Open Scope Z_scope.

(* "A connection is registered as 'the connection to Tub X' only if the TLS peer presented a certificate whose
   hash is X; a client additionally never accepts a peer other than the Tub named in the FURL it dialled":
   one end's evaluation of the peer's hello passes only then *)
Theorem C05_bound : forall (cert : Type) (tubid_of : cert -> list Z) r me tgt c claimed t m,
  evaluate cert tubid_of r me tgt c claimed = Accept t m ->
  exists crt, c = Some crt /\ tubid_of crt = t /\ claimed = Some t /\ (r = Client -> t = tgt) /\ t <> [] /\
              m = i_am_master me t.
Proof. exact evaluate_bound. Qed.
Print Assumptions C05_bound.

(* ... and the TubRef the Broker is created with and stored under (switchToBanana -> Tub.brokerAttached) is the hash
   of that certificate; for a client it is the dialled id *)
Theorem C05_registered_key_proven : forall (cert : Type) (tubid_of : cert -> list Z) r me tgt c claimed t m,
  evaluate cert tubid_of r me tgt c claimed = Accept t m ->
  exists crt, c = Some crt /\ tubid_of crt = attach_key (is_client r) tgt t /\
              (r = Client -> attach_key (is_client r) tgt t = tgt).
Proof. exact attach_key_proven. Qed.
Print Assumptions C05_registered_key_proven.

(* "Any mismatch between claimed identity, presented certificate and expected identity aborts the negotiation":
   no certificate, no / empty claim, claim different from the certificate's hash, or (client) claim different from
   the dialled id -- each rejects; and nothing else does *)
Theorem C05_mismatch_rejects : forall (cert : Type) (tubid_of : cert -> list Z) r me tgt c claimed,
  mismatch cert tubid_of r tgt c claimed -> exists w, evaluate cert tubid_of r me tgt c claimed = Reject w.
Proof. exact mismatch_rejects. Qed.
Print Assumptions C05_mismatch_rejects.

Theorem C05_accept_iff_no_mismatch : forall (cert : Type) (tubid_of : cert -> list Z) r me tgt c claimed,
  (exists t m, evaluate cert tubid_of r me tgt c claimed = Accept t m) <-> ~ mismatch cert tubid_of r tgt c claimed.
Proof. exact accept_iff_no_mismatch. Qed.
Print Assumptions C05_accept_iff_no_mismatch.

(* "... only if the TLS peer PRESENTED [= proved possession of] a certificate whose hash is X": the identity is taken from
   the leaf certificate of the handshake (crypto.peerFromTransport, as read from crypto.py); whatever further
   certificates the peer sends along (other Tubs' public certificates) never matter *)
Theorem C05_identity_is_leaf : forall (cert : Type) (tubid_of : cert -> list Z) r me tgt (p : presented cert) claimed t m,
  handle_hello cert tubid_of r me tgt p claimed = Accept t m ->
  exists crt, leaf p = Some crt /\ tubid_of crt = t /\ claimed = Some t /\ (r = Client -> t = tgt) /\ t <> [] /\
              m = i_am_master me t.
Proof. exact handle_hello_bound. Qed.
Print Assumptions C05_identity_is_leaf.

Theorem C05_extra_certificates_irrelevant : forall (cert : Type) (tubid_of : cert -> list Z) r me tgt l e1 e2 claimed,
  handle_hello cert tubid_of r me tgt {| leaf := l; extras := e1 |} claimed =
  handle_hello cert tubid_of r me tgt {| leaf := l; extras := e2 |} claimed.
Proof. exact extras_irrelevant. Qed.
Print Assumptions C05_extra_certificates_irrelevant.

(* "Any mismatch ... aborts the negotiation without creating a usable connection", against a peer that does not stop:
   for every sequence of header blocks (hellos, decisions, error blocks, junk) in every chunking -- in particular
   blocks that arrive after a hello was rejected but before the connection is gone -- every key ever given to
   Tub.brokerAttached is the hash of the leaf certificate of that transport and, on a client, the dialled id *)
Theorem C05_peer_keeps_sending : forall (cert : Type) (tubid_of : cert -> list Z) r my tgt (p : presented cert)
                                        (chunks : list (list blk)) k,
  In k (n_attached (recv_all cert tubid_of r my tgt p chunks)) ->
  exists crt, leaf p = Some crt /\ tubid_of crt = k /\ (r = Client -> k = tgt).
Proof. exact recv_attach_proven. Qed.
Print Assumptions C05_peer_keeps_sending.

(* both ends of one connection attempt, for every combination of presented certificates, claimed ids, dialled id and
   requested id: whatever either end ever registers is proven by the certificate that end saw (client: and is the
   dialled id); what remains at quiescence was registered *)
Theorem C05_session_bound : forall (cert : Type) (tubid_of : cert -> list Z) (s : session_cfg cert) oc os,
  session cert tubid_of s = (oc, os) ->
  (forall k, ever oc = Some k ->
       k = dialled s /\ proven cert tubid_of (leaf (pres_c s)) k /\ claim_c s = Some k /\ requested s = srv_id s) /\
  (forall k, ever os = Some k -> proven cert tubid_of (leaf (pres_s s)) k /\ claim_s s = Some k /\ requested s = srv_id s) /\
  (forall k, final oc = Some k -> ever oc = Some k) /\
  (forall k, final os = Some k -> ever os = Some k).
Proof. exact session_bound. Qed.
Print Assumptions C05_session_bound.

(* "... aborts the negotiation without creating a usable connection": a mismatch seen by either end, or a request for
   a Tub the listener does not serve, leaves no connection on either side, and the end that saw it never had one *)
Theorem C05_mismatch_no_connection : forall (cert : Type) (tubid_of : cert -> list Z) (s : session_cfg cert) oc os,
  session cert tubid_of s = (oc, os) ->
  (requested s <> srv_id s \/ requested s = [] \/
   mismatch cert tubid_of Client (dialled s) (leaf (pres_c s)) (claim_c s) \/
   mismatch cert tubid_of Server [] (leaf (pres_s s)) (claim_s s)) ->
  final oc = None /\ final os = None /\
  (mismatch cert tubid_of Client (dialled s) (leaf (pres_c s)) (claim_c s) -> ever oc = None) /\
  (mismatch cert tubid_of Server [] (leaf (pres_s s)) (claim_s s) -> ever os = None).
Proof. exact session_mismatch_no_connection. Qed.
Print Assumptions C05_mismatch_no_connection.

(* the checks are not vacuous: two honest distinct Tubs do get connected, each under the other's id *)
Theorem C05_honest_pair_connects : forall (cert : Type) (tubid_of : cert -> list Z) (s : session_cfg cert) ca cb,
  leaf (pres_c s) = Some cb -> tubid_of cb = srv_id s -> claim_c s = Some (srv_id s) ->
  leaf (pres_s s) = Some ca -> tubid_of ca = cl_id s -> claim_s s = Some (cl_id s) ->
  dialled s = srv_id s -> requested s = srv_id s ->
  cl_id s <> srv_id s -> cl_id s <> [] -> srv_id s <> [] ->
  session cert tubid_of s = (obs_connected (srv_id s), obs_connected (cl_id s)).
Proof. exact session_honest. Qed.
Print Assumptions C05_honest_pair_connects.

(* the Tub's table after ANY history of negotiation attempts (arbitrary certificates and claims, decisions arriving or
   not, old connections dropped or not), detachments and loopback requests: every entry is backed by the certificate
   of its own transport (or is the Tub's loopback under its own id), and there is one entry per id *)
Theorem C05_table_invariant : forall (cert : Type) (tubid_of : cert -> list Z) my (evs : list (event cert)),
  Forall (justified cert tubid_of my) (run cert tubid_of my evs) /\ NoDup (map fst (run cert tubid_of my evs)).
Proof. exact table_invariant. Qed.
Print Assumptions C05_table_invariant.

(* "(and getReference on a FURL naming X succeeds over it) only if ...": the Broker that serves getReference(FURL
   naming X) runs over a transport whose certificate hashes to X *)
Theorem C05_getReference_proven : forall (cert : Type) (tubid_of : cert -> list Z) my (evs : list (event cert)) x c,
  get_broker cert (run cert tubid_of my evs) x = Some c ->
  (conn_loop cert c = true /\ x = my) \/ (conn_loop cert c = false /\ proven cert tubid_of (conn_cert cert c) x).
Proof. exact getref_proven. Qed.
Print Assumptions C05_getReference_proven.

(* inbound references: a my-reference carrying a URL is accepted only if the URL names the connection's tub id, hence
   only if the connection's certificate hashes to the id in the URL *)
Theorem C05_inbound_url : forall k url_id, accept_inbound_ref k url_id = true <-> url_id = k.
Proof. exact inbound_url_rule. Qed.
Print Assumptions C05_inbound_url.

Theorem C05_inbound_ref_proven : forall (cert : Type) (tubid_of : cert -> list Z) my (evs : list (event cert)) x c u,
  get_broker cert (run cert tubid_of my evs) x = Some c -> conn_loop cert c = false ->
  accept_inbound_ref x u = true -> proven cert tubid_of (conn_cert cert c) u.
Proof. exact inbound_ref_proven. Qed.
Print Assumptions C05_inbound_ref_proven.

(* "(and getReference on a FURL naming X succeeds over it) only if ...", request by request: for every history of
   getReference calls made before startService (queued) and after it, the answer delivered to a request was obtained for
   that request's own FURL -- over the Tub.brokers entry of the tub id it names (which C05_getReference_proven ties to the
   leaf certificate) and asking the peer for the name it names *)
Theorem C05_getReference_answers_own_request : forall (evs : list gr_event) r a,
  In (r, a) (g_delivered (gr_run evs)) ->
  exists f, In (r, f) (g_log (gr_run evs)) /\ a_key a = f_tub f /\ a_name a = f_name f /\
            (forall f', In (r, f') (g_log (gr_run evs)) -> f' = f).
Proof. exact gr_answers_match. Qed.
Print Assumptions C05_getReference_answers_own_request.

(* the same with several lookups pending at once and connections -- also inbound ones from the Tubs being dialled
   ("crossed connections") -- completing, failing and going away in every order: a lookup for X is only ever answered with a
   Broker whose transport's leaf certificate hashes to X *)
Theorem C05_pending_lookups_answered_by_proven_connections :
  forall (cert : Type) (tubid_of : cert -> list Z) my (evs : list (tevent cert)),
  table_ok cert tubid_of my (t_tab cert (trun cert tubid_of my evs)) /\
  (forall n x c, In (n, x, Some c) (t_ans cert (trun cert tubid_of my evs)) ->
     (conn_loop cert c = true /\ x = my) \/ (conn_loop cert c = false /\ proven cert tubid_of (conn_cert cert c) x)).
Proof. exact tub_answers_proven. Qed.
Print Assumptions C05_pending_lookups_answered_by_proven_connections.

(* ---------------------------------------------------------------------------------------------------------------------
   ROUND 5: the same statements over RAW BYTES.  brecv_all is Negotiation.dataReceived from the first byte of the
   connection (PLAINTEXT phase): block splitter (header_verdict, translated), phase dispatch (translated),
   handlePLAINTEXTServer / handlePLAINTEXTClient (translated statement by statement, incl. the listener's lookup and the
   redirect branch), handleENCRYPTED, the translated identity checks, handleDECIDING, switchToBanana's key.
   The header parser (D, parse, has_error, claimed_of), UTF-8 decoding (decode), every non-identity check (pre_chk, post_chk,
   decision_chk) and the listener's redirect table are universally quantified: nothing is assumed about them.  The
   C05_real_* corollaries instantiate them with the translated parseLines (strict UTF-8) and the wire-level checks of C13. *)
Notation brecv cert tubid_of decode D parse has_error claimed_of pre_chk post_chk decision_chk redirect :=
  (brecv_all cert tubid_of decode D parse has_error claimed_of pre_chk post_chk decision_chk redirect) (only parsing).

(* "A connection is registered as 'the connection to Tub X' only if the TLS peer presented a certificate whose hash is X; a
   client additionally never accepts a peer other than the Tub named in the FURL it dialled" -- for ARBITRARY BYTES in ANY
   chunking, sent by a peer that never stops, also after errors *)
Theorem C05_bytes_attach_proven :
  forall (cert : Type) (tubid_of : cert -> list Z) decode (D : Type) parse has_error claimed_of pre_chk post_chk decision_chk redirect
         r my tgt (p : presented cert) (chunks : list (list Z)) k,
  In k (b_attached (brecv cert tubid_of decode D parse has_error claimed_of pre_chk post_chk decision_chk redirect r my tgt p chunks)) ->
  exists crt, leaf p = Some crt /\ tubid_of crt = k /\ (r = Client -> k = tgt).
Proof. exact bytes_attach_proven. Qed.
Print Assumptions C05_bytes_attach_proven.

(* "Any mismatch ... aborts the negotiation without creating a usable connection": no Tub.brokerAttached before a hello passed
   evaluateNegotiationVersion1's identity checks -- if a key was registered, one of the header blocks received on this very
   connection parsed, carried no error, passed the earlier checks, and its my-tub-id passed the identity checks against the
   leaf certificate (hence, by C05_identity_is_leaf, no mismatch of claim, certificate and dialled id) *)
Theorem C05_bytes_no_attach_before_identity :
  forall (cert : Type) (tubid_of : cert -> list Z) decode (D : Type) parse has_error claimed_of pre_chk post_chk decision_chk redirect
         r my tgt (p : presented cert) (chunks : list (list Z)),
  b_attached (brecv cert tubid_of decode D parse has_error claimed_of pre_chk post_chk decision_chk redirect r my tgt p chunks) <> [] ->
  exists hdr d t m, parse hdr = Ok d /\ has_error d = false /\ pre_chk d = Ok tt /\
                    handle_hello cert tubid_of r my tgt p (claimed_of d) = Accept t m.
Proof. exact bytes_no_attach_before_identity. Qed.
Print Assumptions C05_bytes_no_attach_before_identity.

(* one transport is registered under at most one key, and under none while it is still negotiating *)
Theorem C05_bytes_at_most_one_attach :
  forall (cert : Type) (tubid_of : cert -> list Z) decode (D : Type) parse has_error claimed_of pre_chk post_chk decision_chk redirect
         r my tgt (p : presented cert) (chunks : list (list Z)),
  let st := brecv cert tubid_of decode D parse has_error claimed_of pre_chk post_chk decision_chk redirect r my tgt p chunks in
  (List.length (b_attached st) <= 1)%nat /\ (b_phase st <> RP PhBanana -> b_attached st = []).
Proof. intros. exact (bytes_at_most_one_attach cert tubid_of decode D parse has_error claimed_of pre_chk post_chk decision_chk redirect r my tgt p chunks). Qed.
Print Assumptions C05_bytes_at_most_one_attach.

(* in the PLAINTEXT phase (before TLS) nothing the peer says is believed: no identity stored, nothing registered; listeners
   with redirects are covered (redirect is arbitrary) *)
Theorem C05_bytes_plaintext_knows_nothing :
  forall (cert : Type) (tubid_of : cert -> list Z) decode (D : Type) parse has_error claimed_of pre_chk post_chk decision_chk redirect
         r my tgt (p : presented cert) (chunks : list (list Z)),
  let st := brecv cert tubid_of decode D parse has_error claimed_of pre_chk post_chk decision_chk redirect r my tgt p chunks in
  b_phase st = RPlaintext -> b_their st = None /\ b_attached st = [].
Proof. intros. exact (bytes_plaintext_knows_nothing cert tubid_of decode D parse has_error claimed_of pre_chk post_chk decision_chk redirect r my tgt p chunks H). Qed.
Print Assumptions C05_bytes_plaintext_knows_nothing.

(* WHAT A REFUSAL DOES ("aborts the negotiation" is: failure recorded + loseConnection(); the object lives on until
   connectionLost).  A header block whose handler raised leaves the receive phase, the unread buffer, the registered keys and
   the record of passed hellos exactly as they were; besides the recorded failure only self.theirTubRef can change, only in the
   ENCRYPTED phase, and only to the hash of this transport's leaf certificate.  In particular after a refused PLAINTEXT block the
   object is in the PLAINTEXT phase again and a second GET / 101 is looked at like the first *)
Theorem C05_bytes_refusal_changes_nothing_but :
  forall (cert : Type) (tubid_of : cert -> list Z) decode (D : Type) parse has_error claimed_of pre_chk post_chk decision_chk redirect
         r my tgt (p : presented cert) st hdr st',
  bhandle cert tubid_of decode D parse has_error claimed_of pre_chk post_chk decision_chk redirect r my tgt p st hdr = (st', true) ->
  b_phase st' = b_phase st /\ b_attached st' = b_attached st /\ b_passed st' = b_passed st /\ b_buf st' = b_buf st /\
  b_fail st' <> None /\
  (b_their st' = b_their st \/
   (b_phase st = RP PhEncrypted /\ exists crt, leaf p = Some crt /\ b_their st' = Some (tubid_of crt))).
Proof. exact refusal_changes_nothing_but. Qed.
Print Assumptions C05_bytes_refusal_changes_nothing_but.

(* ... input alone never ends the object's life (only the hand-over to the Broker or connectionLost do), so after any refusal
   the next chunk goes through the same code ... *)
Theorem C05_bytes_never_abandoned :
  forall (cert : Type) (tubid_of : cert -> list Z) decode (D : Type) parse has_error claimed_of pre_chk post_chk decision_chk redirect
         r my tgt (p : presented cert) (chunks : list (list Z)),
  b_phase (brecv cert tubid_of decode D parse has_error claimed_of pre_chk post_chk decision_chk redirect r my tgt p chunks) <> RP PhAbandoned.
Proof. exact bytes_never_abandoned. Qed.
Print Assumptions C05_bytes_never_abandoned.

Theorem C05_bytes_keeps_reading :
  forall (cert : Type) (tubid_of : cert -> list Z) decode (D : Type) parse has_error claimed_of pre_chk post_chk decision_chk redirect
         r my tgt (p : presented cert) (chunks : list (list Z)) chunk,
  let st := brecv cert tubid_of decode D parse has_error claimed_of pre_chk post_chk decision_chk redirect r my tgt p chunks in
  b_phase st <> RP PhBanana ->
  brecv cert tubid_of decode D parse has_error claimed_of pre_chk post_chk decision_chk redirect r my tgt p (chunks ++ [chunk]) =
  bdrain cert tubid_of decode D parse has_error claimed_of pre_chk post_chk decision_chk redirect
         (S (List.length (b_buf st ++ chunk))) r my tgt p (with_bbuf st (b_buf st ++ chunk)).
Proof. intros. exact (bytes_keeps_reading cert tubid_of decode D parse has_error claimed_of pre_chk post_chk decision_chk redirect r my tgt p chunks chunk H). Qed.
Print Assumptions C05_bytes_keeps_reading.

(* ... and the identity checks apply to every later hello from scratch: what handleENCRYPTED does with a block (refuse / wait for
   the decision / register) depends neither on earlier failures nor on a theirTubRef left behind by an earlier rejected hello.
   (That whatever is registered later is still proven is C05_bytes_attach_proven, which covers every continuation.) *)
Theorem C05_bytes_hello_evaluation_is_memoryless :
  forall (cert : Type) (tubid_of : cert -> list Z) (D : Type) parse has_error claimed_of pre_chk post_chk
         r my tgt (p : presented cert) st1 st2 hdr,
  let h := handle_encrypted cert tubid_of D parse has_error claimed_of pre_chk post_chk r my tgt p in
  b_phase st1 = b_phase st2 -> b_attached st1 = b_attached st2 ->
  snd (h st1 hdr) = snd (h st2 hdr) /\ b_phase (fst (h st1 hdr)) = b_phase (fst (h st2 hdr)) /\
  b_attached (fst (h st1 hdr)) = b_attached (fst (h st2 hdr)) /\
  (snd (h st1 hdr) = false -> b_their (fst (h st1 hdr)) = b_their (fst (h st2 hdr))).
Proof. intros. exact (hello_evaluation_is_memoryless cert tubid_of D parse has_error claimed_of pre_chk post_chk r my tgt p st1 st2 hdr H H0). Qed.
Print Assumptions C05_bytes_hello_evaluation_is_memoryless.

(* the byte-level statements for the REAL checks: parse = the translated Negotiation.parseLines (strict UTF-8), pre / post /
   decision checks = evaluateHello, the decider's vocabulary decision and acceptDecision at wire level (lib/NegWire.v, C13),
   for any endpoint parameters `me` and any table-hash rendering hf *)
Theorem C05_real_attach_proven :
  forall (cert : Type) (tubid_of : cert -> list Z) hf me redirect r my tgt (p : presented cert) (chunks : list (list Z)) k,
  In k (b_attached (real_recv_all hf me cert tubid_of redirect r my tgt p chunks)) ->
  exists crt, leaf p = Some crt /\ tubid_of crt = k /\ (r = Client -> k = tgt).
Proof. exact real_attach_proven. Qed.
Print Assumptions C05_real_attach_proven.

Theorem C05_real_no_attach_before_identity :
  forall (cert : Type) (tubid_of : cert -> list Z) hf me redirect r my tgt (p : presented cert) (chunks : list (list Z)),
  b_attached (real_recv_all hf me cert tubid_of redirect r my tgt p chunks) <> [] ->
  exists hdr d ver t m, parseLines hdr = Ok d /\ dget d error_key = None /\ eval_hello_wire me d = Ok ver /\ forced_chk d = Ok tt /\
                        handle_hello cert tubid_of r my tgt p (dget d hello_key_tubid_written) = Accept t m.
Proof. exact real_no_attach_before_identity. Qed.
Print Assumptions C05_real_no_attach_before_identity.

(* `assert theirTubID` (not executed under python -O): without the asserts the translated checks additionally accept exactly
   the anonymous peer on a listener (no certificate AND no my-tub-id), stored as TubRef(None); every id they accept is still
   the hash of the presented certificate (client: and the dialled id) ... *)
Theorem C05_without_asserts : forall (cert : Type) (tubid_of : cert -> list Z) ic target c claimed r,
  ev1_identity_noassert cert tubid_of ic target c claimed = Ok r ->
  (r = None /\ c = None /\ claimed = None /\ ic = false) \/
  (exists crt t, c = Some crt /\ tubid_of crt = t /\ claimed = Some t /\ r = Some t /\ (ic = true -> t = target)).
Proof. exact ev1_noassert_sound. Qed.
Print Assumptions C05_without_asserts.

(* ... and since crypto.peerFromTransport raises when the peer presented no certificate (peer_from_transport), the anonymous
   case cannot arise: with a certificate the unchecked statements accept only its hash *)
Theorem C05_without_asserts_certificate_still_required : forall (cert : Type) (tubid_of : cert -> list Z) ic target crt claimed r,
  ev1_identity_noassert cert tubid_of ic target (Some crt) claimed = Ok r ->
  r = Some (tubid_of crt) /\ claimed = Some (tubid_of crt) /\ (ic = true -> tubid_of crt = target).
Proof. exact ev1_noassert_with_certificate. Qed.
Print Assumptions C05_without_asserts_certificate_still_required.

(* "(URL inside an inbound reference must carry the connection's tub id)" as a HISTORY: whatever sequence of my-reference
   sequences (with or without URL, for new or already known clids) the peer sends over the connection registered under k,
   every reference-tracker that carries a URL names k -- hence, by C05_getReference_proven, the id its transport's leaf
   certificate hashes to.  ref_step is built on the translated inbound_url_check and known_clid_url_policy. *)
Theorem C05_inbound_reference_history : forall k (ms : list (Z * option (list Z))) clid u,
  In (clid, Some u) (ref_run k ms) -> u = k.
Proof. exact ref_urls_proven. Qed.
Print Assumptions C05_inbound_reference_history.

(* ---------------------------------------------------------------------------------------------------------------------
   THE KEY PATH of "(and getReference on a FURL naming X succeeds over it) only if ...".  Tub.brokers is a dict keyed by TubRef
   objects; everything about the keys is translated into gen/IdentityGen.v: TubRef._distinguishers (what __eq__ compares and
   __hash__ hashes), SturdyRef.getTubRef, TubRef.__init__, Tub._getReference's key, Tub.getBrokerForTubRef's decision,
   evaluateNegotiationVersion1's TubRef(theirTubID).  s is the SturdyRef that SturdyRef(furl) produced (FURL text parsing: C20). *)

(* what "naming X" means: a probe TubRef finds a stored TubRef exactly when their tubID attributes are equal; location hints (and
   the object name) play no part *)
Theorem C05_naming_is_tubid : forall a b, dict_match a b = true <-> sr_tub a = sr_tub b.
Proof. exact dict_match_iff. Qed.
Print Assumptions C05_naming_is_tubid.

(* after ANY history of negotiations (arbitrary certificates, claims, dialled TubRefs with any hints), detachments and lookups: the
   Broker that Tub.brokers finds for the TubRef made from the SturdyRef is stored under a key with the SturdyRef's tub id, and runs over
   a transport whose leaf certificate hashes to that tub id (or is the loopback and the SturdyRef names this very Tub) *)
Theorem C05_getReference_key_proven : forall (cert : Type) (tubid_of : cert -> list Z) my (evs : list (kevent cert)) k c s,
  getReference_broker cert (krun cert tubid_of my evs) s = Some (k, c) ->
  sr_tub k = sr_tub s /\
  ((conn_loop cert c = true /\ sr_tub s = Some my) \/
   (conn_loop cert c = false /\ exists x, sr_tub s = Some x /\ proven cert tubid_of (conn_cert cert c) x)).
Proof. exact getReference_key_proven. Qed.
Print Assumptions C05_getReference_key_proven.

(* two SturdyRefs naming the same tub id -- other hints, other object name -- are served by the same table entry *)
Theorem C05_same_tub_same_broker : forall (cert : Type) (t : ktable cert) s1 s2,
  sr_tub s1 = sr_tub s2 -> getReference_broker cert t s1 = getReference_broker cert t s2.
Proof. exact getReference_same_tub_same_broker. Qed.
Print Assumptions C05_same_tub_same_broker.

(* the client's wrong-Tub test, modelled on tub ids in ev1_identity, is TubRef's own (translated) equality *)
Theorem C05_client_check_is_tubref_eq : forall t target,
  ostr_eqb (Some t) (Some (tub_of target)) = true -> sr_tub target <> None -> tubref_eqb (tubref_of_id t) target = true.
Proof. exact client_check_is_tubref_eq. Qed.
Print Assumptions C05_client_check_is_tubref_eq.

(* ... and conversely -- the SAFETY direction: whatever TubRef's own (translated) __eq__ lets through as "the dialled Tub", the
   id-level test of the translated identity checks lets through too, so `theirTubRef != self.target` refuses at least what
   the model's client test refuses.  No side condition.  (The side condition of the completeness direction is needed:
   IdentityKeysProofs.client_check_side_condition_needed.) *)
Theorem C05_client_check_is_tubref_eq_converse : forall t target,
  tubref_eqb (tubref_of_id t) target = true -> ostr_eqb (Some t) (Some (tub_of target)) = true.
Proof. exact client_check_is_tubref_eq_converse. Qed.
Print Assumptions C05_client_check_is_tubref_eq_converse.

(* ---------------------------------------------------------------------------------------------------------------------
   REVIEW 2.  (1) THE CLOSED WORLD of switchToBanana.  brecv_all starts at Negotiation.connectionMade (b_connection_made), whose
   non-negotiating branch `else: self.switchToBanana({})` is a third path to Tub.brokerAttached besides sendDecision and
   handleDECIDING.  The translator enumerates EVERY mention of switchToBanana / sendDecision / brokerAttached / doNegotiation in the
   package outside test/ (gen/IdentityGen.v: switch_sites, do_negotiation, connection_made_switches) and refuses any it does not
   know; doNegotiation must be the class constant True that nothing stores to.  On such a tree connectionMade registers nothing: *)
Theorem C05_connection_made_registers_nothing : forall r tgt, b_connection_made r tgt = b_init.
Proof. exact bytes_start_is_init. Qed.
Print Assumptions C05_connection_made_registers_nothing.

(* the excluded region: were that branch live, a client would register the dialled id with no hello seen at all *)
Theorem C05_without_negotiation_refuted : forall tgt,
  b_attached (b_connection_made_with true Client tgt) = [tgt] /\ b_passed (b_connection_made_with true Client tgt) = [].
Proof. exact without_negotiation_refuted. Qed.
Print Assumptions C05_without_negotiation_refuted.

(* (2) THE PLAINTEXT GUARDS ARE NOT OPAQUE.  In the PLAINTEXT phase a header block is handled by the translated guard of this end's
   role and by nothing else: passed -> ENCRYPTED phase entered; refused -> exception, everything as before *)
Theorem C05_bytes_plaintext_block_is_the_guard :
  forall (cert : Type) (tubid_of : cert -> list Z) decode (D : Type) parse has_error claimed_of pre_chk post_chk decision_chk redirect
         r my tgt (p : presented cert) st hdr,
  b_phase st = RPlaintext ->
  bhandle cert tubid_of decode D parse has_error claimed_of pre_chk post_chk decision_chk redirect r my tgt p st hdr =
  match plain_guard decode redirect r my hdr with
  | Ok _ => (enter_encrypted st, false)
  | Exc w => (raised st (b_phase st) (b_their st) w, true)
  end.
Proof. exact bhandle_plaintext_exact. Qed.
Print Assumptions C05_bytes_plaintext_block_is_the_guard.

(* for ARBITRARY BYTES in ANY chunking: the object has left the PLAINTEXT phase (TLS started, own hello sent, the peer's hello looked
   at, anything registered) only if one of the blocks received passed this end's plaintext handler *)
Theorem C05_bytes_leaves_plaintext_only_through_guard :
  forall (cert : Type) (tubid_of : cert -> list Z) decode (D : Type) parse has_error claimed_of pre_chk post_chk decision_chk redirect
         r my tgt (p : presented cert) (chunks : list (list Z)),
  b_phase (brecv cert tubid_of decode D parse has_error claimed_of pre_chk post_chk decision_chk redirect r my tgt p chunks) <> RPlaintext ->
  exists hdr, plain_guard decode redirect r my hdr = Ok tt.
Proof. exact bytes_leaves_plaintext_only_through_guard. Qed.
Print Assumptions C05_bytes_leaves_plaintext_only_through_guard.

(* handlePLAINTEXTServer reaches sendPlaintextServerAndStartENCRYPTED exactly when its statements before the listener lookup yield an
   id on which the SESSION model's server_lookup (C05_session_bound, C05_mismatch_no_connection) succeeds; the redirect table never
   makes it accept *)
Theorem C05_server_guard_is_server_lookup : forall decode redirect my hdr,
  plaintext_server_guard decode my redirect hdr = Ok tt <->
  exists req, plaintext_server_requested decode hdr = Ok req /\ server_lookup req my = Ok tt.
Proof. exact server_guard_is_server_lookup. Qed.
Print Assumptions C05_server_guard_is_server_lookup.

(* hence: a listener registers a key only on a connection over which a GET naming this very Tub arrived *)
Theorem C05_bytes_listener_attach_needs_get :
  forall (cert : Type) (tubid_of : cert -> list Z) decode (D : Type) parse has_error claimed_of pre_chk post_chk decision_chk redirect
         my tgt (p : presented cert) (chunks : list (list Z)),
  b_attached (brecv cert tubid_of decode D parse has_error claimed_of pre_chk post_chk decision_chk redirect Server my tgt p chunks) <> [] ->
  exists hdr, plaintext_server_requested decode hdr = Ok my /\ server_lookup my my = Ok tt /\ my <> [].
Proof. exact bytes_listener_attach_needs_get. Qed.
Print Assumptions C05_bytes_listener_attach_needs_get.

Theorem C05_real_listener_attach_needs_get :
  forall (cert : Type) (tubid_of : cert -> list Z) hf me redirect my tgt (p : presented cert) (chunks : list (list Z)),
  b_attached (real_recv_all hf me cert tubid_of redirect Server my tgt p chunks) <> [] ->
  exists hdr, plaintext_server_requested real_decode hdr = Ok my /\ server_lookup my my = Ok tt /\ my <> [].
Proof. exact real_listener_attach_needs_get. Qed.
Print Assumptions C05_real_listener_attach_needs_get.

(* (3) THE JOINTS between the three models.  A key the byte-level receive loop of a transport hands to Tub.brokerAttached is exactly
   this step of the Tub.brokers model (C05_table_invariant, C05_getReference_proven speak about `run` of such steps) ... *)
Theorem C05_bytes_attach_is_table_step :
  forall (cert : Type) (tubid_of : cert -> list Z) decode (D : Type) parse has_error claimed_of pre_chk post_chk decision_chk redirect
         r my tgt (p : presented cert) (chunks : list (list Z)) k t dropped arrives,
  In k (b_attached (brecv cert tubid_of decode D parse has_error claimed_of pre_chk post_chk decision_chk redirect r my tgt p chunks)) ->
  step cert tubid_of my t (Negotiated cert r tgt p (Some k) true dropped) =
    broker_attached cert k {| conn_cert := leaf p; conn_loop := false |} (if dropped then tbl_remove cert k t else t) /\
  (i_am_master my k = true ->
   step cert tubid_of my t (Negotiated cert r tgt p (Some k) arrives dropped) =
    broker_attached cert k {| conn_cert := leaf p; conn_loop := false |} (if dropped then tbl_remove cert k t else t)).
Proof. exact bytes_attach_is_table_step. Qed.
Print Assumptions C05_bytes_attach_is_table_step.

(* ... and this step of the TubRef-keyed model (C05_getReference_key_proven speaks about `krun` of such steps); on a client the key is
   the connector's own TubRef object, whose tub id is k *)
Theorem C05_bytes_attach_is_key_step :
  forall (cert : Type) (tubid_of : cert -> list Z) decode (D : Type) parse has_error claimed_of pre_chk post_chk decision_chk redirect
         r my (target : sref) (p : presented cert) (chunks : list (list Z)) k (t : ktable cert),
  In k (b_attached (brecv cert tubid_of decode D parse has_error claimed_of pre_chk post_chk decision_chk redirect r my (tub_of target) p chunks)) ->
  kstep cert tubid_of my t (KNegotiated cert r target p (Some k) true) =
    k_attached cert (if is_client r then target else tubref_of_id k) {| conn_cert := leaf p; conn_loop := false |} t /\
  (r = Client -> sr_tub target = Some k).
Proof. exact bytes_attach_is_key_step. Qed.
Print Assumptions C05_bytes_attach_is_key_step.
