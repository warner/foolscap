(* C01, object layer: proofs about the Deferred-level receiver of ObjDefer.v.
   - `dstep_sim` / `drun_sim`: for EVERY token stream and every state, a successful run of the Deferred-level machine
     is, after forgetting which values are placeholders / Deferreds (`erase`), a run of the pointer machine;
     firing a Deferred (`complete`, any depth of cascade) changes nothing under `erase`;
   - `dunslice_refines`: what `dunslice` delivers is what the pointer machine delivers;
   - `deferred_sound`: for every term a sender can emit (wide guard: tuples / frozensets whose completion is deferred
     included), if the Deferred-level receiver delivers anything, it delivers exactly the denoted graph. *)
From Coq Require Import ZArith List String Bool Lia.
Import ListNotations.
Require Import Verif.lib.PyLite Verif.gen.BananaGen Verif.gen.SlicersGen Verif.lib.Token Verif.lib.TokenProofs
        Verif.lib.Obj Verif.lib.ObjProofs Verif.lib.ObjDefer.
Local Open Scope Z_scope.

Lemma step_step0 st t st' : step st t = Some st' -> step0 st t = Some st'.
Proof.
  unfold step0. destruct (s_inopen st) as [[[hdr cnt] idx]|] eqn:I; [destruct t; auto|].
  destruct t; auto. unfold step. rewrite I.
  destruct (s_stack st) as [|f r]; [auto|]. destruct (f_open f =? n); [|auto].
  destruct (f_kind f); auto; destruct (frame_hazard f r); auto; discriminate.
Qed.

Lemma run_run0 ts : forall st st', run ts st = Some st' -> run0 ts st = Some st'.
Proof.
  induction ts as [|t r IH]; intros st st' H; cbn [run run0] in *; [exact H|].
  destruct (step st t) as [s1|] eqn:E; [|discriminate]. rewrite (step_step0 _ _ _ E). apply IH. exact H.
Qed.

Lemma run0_app a b st : run0 (a ++ b) st = match run0 a st with Some st' => run0 b st' | None => None end.
Proof. revert st. induction a as [|t a IH]; intros st; cbn [app run0]; [reflexivity|]. destruct (step0 st t); [apply IH|reflexivity]. Qed.

(* translated from ListUnslicer / SetUnslicer / DictUnslicer / TupleUnslicer .update: each returns the value it was
   called with, so every callback of a Deferred sees the object itself *)
Lemma upd_returns_true c : upd_returns c = true.
Proof. destruct c; reflexivity. Qed.

Lemma erase_scope f : is_scope_frame (erase_frame f) = dis_scope_frame f.
Proof. reflexivity. Qed.

Lemma erase_lookup k s : lookup k (map erase_frame s) = dlookup k s.
Proof. unfold lookup, dlookup. induction s as [|f r IH]; [reflexivity|]. cbn [map existsb]. rewrite IH. reflexivity. Qed.

Lemma erase_reg1 ids f : erase_frame (dreg1 ids f) = reg1 ids (erase_frame f).
Proof. unfold dreg1, reg1. rewrite erase_scope. destruct (dis_scope_frame f); reflexivity. Qed.

Lemma erase_reg ids s : map erase_frame (map (dreg1 ids) s) = reg_many ids (map erase_frame s).
Proof. unfold reg_many. rewrite !map_map. apply map_ext. intros f. apply erase_reg1. Qed.

Lemma erase_push v f : erase_frame (dpush v f) = push_item (erase v) (erase_frame f).
Proof. reflexivity. Qed.

Lemma drecv_step st s v st' : drecv st s v = Some st' ->
  match recv (map erase_frame s) (erase v) with
  | Some s' => Some {| s_stack := s'; s_inopen := None; s_counter := d_counter st; s_heap := erase_heap (d_heap st) |}
  | None => None
  end = Some (erase_state st').
Proof.
  unfold drecv. destruct s as [|f r]; [discriminate|]. cbn [map]. unfold recv.
  change (f_kind (erase_frame f)) with (df_kind f). change (f_items (erase_frame f)) with (map erase (df_items f)).
  destruct (df_kind f) eqn:K.
  3,4,6: (* text, bool, decimal *)
    (destruct (df_items f); [|destruct v; discriminate]; destruct v as [[]| |]; try discriminate;
     intros H; inversion H; reflexivity).
  - (* root *) destruct v; try discriminate. intros H; inversion H; reflexivity.
  - (* container *)
    destruct v as [v|k|k]; try discriminate; [|destruct (takes_deferred c (List.length (df_items f))); [|discriminate]];
      intros H; inversion H; reflexivity.
  - discriminate.
  - (* reference *)
    destruct (df_items f); [|destruct v; discriminate]. destruct v as [[]| |]; try discriminate.
    cbn [map erase].
    change (erase_frame f :: map erase_frame r) with (map erase_frame (f :: r)). rewrite erase_lookup.
    destruct (dlookup z (f :: r)); [|discriminate]. destruct (ref_ok z st); [|discriminate]. cbn [andb].
    intros H; inversion H. unfold erase_state. cbn [with_stack d_stack d_inopen d_counter d_heap map]. rewrite erase_push.
    destruct (mem z (d_pend st)); reflexivity.
  - (* vocab *) destruct v as [[]| |]; try discriminate; cbn [erase]; try destruct (word_ok bs); try discriminate;
      intros H; inversion H; reflexivity.
Qed.

Lemma set_nth_erase k v : erase v = VPtr k -> forall l i,
  dvalue_eqb_hole (nth i l (DV VNone)) k = true -> map erase (set_nth i v l) = map erase l.
Proof.
  intros E. induction l as [|a l IH]; intros i H; [destruct i; reflexivity|]. destruct i as [|i]; cbn [set_nth map nth] in *.
  - destruct a; try discriminate. cbn in H. apply Z.eqb_eq in H. subst. rewrite E. reflexivity.
  - rewrite (IH i H). reflexivity.
Qed.

Lemma fill_stack_erase j i k v : erase v = VPtr k -> forall s s' kd,
  fill_stack j i k v s = Some (s', kd) -> map erase_frame s' = map erase_frame s.
Proof.
  intros E. induction s as [|f r IH]; intros s' kd H; cbn [fill_stack] in H; [discriminate|].
  destruct (df_kind f) eqn:K;
    try (destruct (fill_stack j i k v r) as [[r' c']|] eqn:F; [|discriminate]; inversion H; subst; cbn [map]; rewrite (IH _ _ eq_refl); reflexivity).
  destruct (df_count f =? j).
  - destruct (dvalue_eqb_hole (nth i (rev (df_items f)) (DV VNone)) k) eqn:Hh; [|discriminate]. inversion H; subst. cbn [map]. f_equal.
    unfold erase_frame. cbn [df_kind df_open df_count df_items df_refs]. f_equal.
    + symmetry; exact K.
    + rewrite map_rev, (set_nth_erase k v E _ _ Hh), <- map_rev, rev_involutive. reflexivity.
  - destruct (fill_stack j i k v r) as [[r' c']|] eqn:F; [|discriminate]. inversion H; subst. cbn [map]. rewrite (IH _ _ eq_refl). reflexivity.
Qed.

Lemma fill_heap_erase j i k v : erase v = VPtr k -> forall h h' kd,
  fill_heap j i k v h = Some (h', kd) -> erase_heap h' = erase_heap h.
Proof.
  intros E. induction h as [|[a nd] r IH]; intros h' kd H; cbn [fill_heap] in H; [discriminate|].
  destruct (a =? j).
  - destruct (dvalue_eqb_hole (nth i (dn_items nd) (DV VNone)) k) eqn:Hh; [|discriminate]. inversion H; subst.
    unfold erase_heap. cbn [map fst snd]. f_equal. f_equal. unfold erase_node. cbn [dn_kind dn_items]. f_equal.
    apply (set_nth_erase k v E _ _ Hh).
  - destruct (fill_heap j i k v r) as [[r' c']|] eqn:F; [|discriminate]. inversion H; subst.
    unfold erase_heap in *. cbn [map]. rewrite (IH _ _ eq_refl). reflexivity.
Qed.

Theorem complete_erase : forall fuel k st st', complete fuel k st = Some st' -> erase_state st' = erase_state st.
Proof.
  induction fuel as [|fu IH]; intros k st st' H; [discriminate|]. cbn [complete] in H.
  match type of H with (?fire ?v ?cbs ?s0) = _ => set (F := fire) in *; set (st0 := s0) in *; set (cbl := cbs) in * end.
  change (erase_state st) with (erase_state st0).
  assert (G : forall cbs v s s', erase v = VPtr k -> F v cbs s = Some s' -> erase_state s' = erase_state s).
  { induction cbs as [|c rest IHc]; intros v s s' Ev Hf.
    - cbn in Hf. inversion Hf. reflexivity.
    - unfold F in Hf. cbn [F] in Hf. fold F in Hf.
      match type of Hf with match ?m with _ => _ end = _ => destruct m as [[s1 kd]|] eqn:FILL; [|discriminate] end.
      rewrite upd_returns_true in Hf.
      assert (E1 : erase_state s1 = erase_state s).
      { destruct (fill_stack (cb_tgt c) (cb_idx c) k v (d_stack s)) as [[x kd']|] eqn:FS.
        - inversion FILL. unfold erase_state. cbn [d_stack d_inopen d_counter d_heap].
          rewrite (fill_stack_erase _ _ _ _ Ev _ _ _ FS). reflexivity.
        - destruct (fill_heap (cb_tgt c) (cb_idx c) k v (d_heap s)) as [[x kd']|] eqn:FH; [|discriminate].
          inversion FILL. unfold erase_state. cbn [d_stack d_inopen d_counter d_heap].
          rewrite (fill_heap_erase _ _ _ _ Ev _ _ _ FH). reflexivity. }
      destruct kd; try (rewrite <- E1; exact (IHc _ _ _ Ev Hf)).
      (* a tuple / frozenset: one placeholder less, and its own completion if that was the last *)
      all: match type of Hf with (if ?b then _ else _) = _ => destruct b end;
        [match type of Hf with match ?m with _ => _ end = _ => destruct m as [s3|] eqn:C; [|discriminate] end;
         rewrite (IHc _ _ _ Ev Hf), (IH _ _ _ C)|rewrite (IHc _ _ _ Ev Hf)]; exact E1. }
  exact (G cbl (DV (VPtr k)) st0 st' eq_refl H).
Qed.

Lemma top_flag (s : list dframe) :
  match map erase_frame s with [_] => true | _ => false end = match s with [_] => true | _ => false end.
Proof. destruct s as [|a [|b s]]; reflexivity. Qed.

Lemma dseal_leaf_sim f v : dseal_leaf f = Some v -> seal (erase_frame f) = Some (erase v, None).
Proof.
  unfold dseal_leaf, seal. change (f_kind (erase_frame f)) with (df_kind f).
  change (f_items (erase_frame f)) with (map erase (df_items f)). rewrite <- map_rev.
  destruct (df_kind f); try discriminate;
    destruct (rev (df_items f)) as [|a [|b l]]; try discriminate;
    try (destruct a as [a|k|k]; [destruct a|..]; try discriminate);
    intros H; inversion H; reflexivity.
Qed.

Theorem dstep_sim st t st' : dstep st t = Some st' -> step0 (erase_state st) t = Some (erase_state st').
Proof.
  unfold dstep, step0, step. cbn [erase_state s_inopen s_stack s_counter s_heap].
  destruct (d_inopen st) as [[[hdr cnt] idx]|] eqn:Hin.
  - (* index phase *)
    destruct t; try discriminate; [rewrite top_flag| |].
    2,3: (* PING / PONG between OPEN and its index tokens: ignored by both machines *)
      (intros H; inversion H; subst st'; unfold erase_state; rewrite Hin; reflexivity).
    destruct (open_kind _ (idx ++ [bs])) as [[k|]|]; [| |discriminate]; intros H; inversion H; subst st'; clear H; [|reflexivity].
    unfold erase_state. cbn [d_stack d_inopen d_counter d_heap]. f_equal. f_equal.
    destruct (kind_registers k); [|reflexivity].
    cbn [map reg_many]. rewrite erase_reg1. f_equal. fold (reg_many [cnt] (map erase_frame (d_stack st))). rewrite <- erase_reg. reflexivity.
  - destruct t; try discriminate.
    1-3: (intros H; exact (drecv_step _ _ _ _ H)).
    3,4: (intros H; inversion H; subst st'; unfold erase_state; rewrite Hin; reflexivity).
    + (* OPEN *) intros H; inversion H; subst st'. reflexivity.
    + (* CLOSE *)
      destruct (d_stack st) as [|f r] eqn:Hs; [discriminate|]. cbn [map].
      change (f_open (erase_frame f)) with (df_open f). destruct (df_open f =? n); [|discriminate].
      change (f_kind (erase_frame f)) with (df_kind f).
      destruct (df_kind f) eqn:K;
        [discriminate| |
         (* leaves *)
         destruct (dseal_leaf f) as [v|] eqn:S; [|discriminate]; rewrite (dseal_leaf_sim _ _ S); intros H; exact (drecv_step _ _ _ _ H)..|].
      * (* container: whichever way the CLOSE goes (still pending, completed with its cascade, not deferring), the parent
           is handed something that erases to the pointer, in a state that erases to st1 *)
        unfold seal. change (f_kind (erase_frame f)) with (df_kind f). rewrite K.
        change (f_items (erase_frame f)) with (map erase (df_items f)). change (f_count (erase_frame f)) with (df_count f).
        assert (OK : match c with CDict => even_len (rev (map erase (df_items f))) | CCopy _ => even_bytes (rev (map erase (df_items f))) | _ => true end
                     = match c with CDict => even_len (rev (df_items f)) | CCopy _ => even_bytes (map erase (rev (df_items f))) | _ => true end).
        { destruct c; try reflexivity.
          - rewrite !even_len_length, !rev_length, map_length. reflexivity.
          - rewrite map_rev. reflexivity. }
        rewrite OK. clear OK.
        match goal with |- (if ?b then _ else _) = _ -> _ => destruct b; [|discriminate] end.
        set (st1 := {| d_stack := r; d_inopen := None; d_counter := d_counter st;
                       d_heap := d_heap st ++ [(df_count f, {| dn_kind := c; dn_items := rev (df_items f) |})];
                       d_pend := d_pend st; d_cbs := d_cbs st; d_unref := d_unref st |}).
        assert (FIN : forall s2 v, erase v = VPtr (df_count f) -> erase_state s2 = erase_state st1 ->
                        drecv s2 (d_stack s2) v = Some st' ->
                        match recv (map erase_frame r) (VPtr (df_count f)) with
                        | Some r' => Some {| s_stack := r'; s_inopen := None; s_counter := d_counter st;
                                             s_heap := erase_heap (d_heap st) ++ [(df_count f, {| n_kind := c; n_items := rev (map erase (df_items f)) |})] |}
                        | None => None end = Some (erase_state st')).
        { intros s2 v Ev Es H. rewrite <- (drecv_step _ _ _ _ H), Ev.
          change (map erase_frame (d_stack s2)) with (s_stack (erase_state s2)).
          change (d_counter s2) with (s_counter (erase_state s2)). change (erase_heap (d_heap s2)) with (s_heap (erase_state s2)).
          rewrite Es. unfold st1, erase_state, erase_heap. cbn [d_stack d_counter d_heap s_stack s_counter s_heap].
          rewrite map_app. unfold erase_node. cbn [map fst snd dn_kind dn_items]. rewrite map_rev. reflexivity. }
        destruct (defers_c c).
        -- destruct (0 <? unref_get (df_count f) (d_unref st1)).
           ++ intros H. apply (FIN st1 (DDefer (df_count f))); [reflexivity|reflexivity|exact H].
           ++ destruct (complete (S (List.length (d_pend st1))) (df_count f) st1) as [st2|] eqn:C; [|discriminate].
              intros H. apply (FIN st2 (DV (VPtr (df_count f)))); [reflexivity|exact (complete_erase _ _ _ _ C)|exact H].
        -- intros H. apply (FIN st1 (DV (VPtr (df_count f)))); [reflexivity|reflexivity|exact H].
      * (* vocab *)
        change (f_items (erase_frame f)) with (map erase (df_items f)). rewrite !even_len_length, map_length.
        destruct (Nat.even (List.length (df_items f))); [|discriminate]. intros H; inversion H; subst st'. reflexivity.
Qed.

Theorem drun_sim ts : forall st st', drun ts st = Some st' -> run0 ts (erase_state st) = Some (erase_state st').
Proof.
  induction ts as [|t r IH]; intros st st' H; cbn [drun run0] in *; [inversion H; reflexivity|].
  destruct (dstep st t) as [s1|] eqn:E; [|discriminate]. rewrite (dstep_sim _ _ _ E). apply IH. exact H.
Qed.

Definition unslice0 (scoped : bool) (n : Z) (ts : list token) : option (heap * list value) :=
  match run0 ts (init scoped n) with
  | Some st => match s_stack st, s_inopen st with [f], None => Some (s_heap st, rev (f_items f)) | _, _ => None end
  | None => None
  end.

(* whatever the Deferred-level receiver delivers (nothing pending, no placeholder left), the pointer machine delivers:
   EVERY token stream, not only those a sender emits *)
Theorem dunslice_refines scoped n ts r : dunslice scoped n ts = Some r -> unslice0 scoped n ts = Some r.
Proof.
  unfold dunslice, unslice0. destruct (drun ts (dinit scoped n)) as [st|] eqn:R; [|discriminate].
  pose proof (drun_sim _ _ _ R) as S. change (erase_state (dinit scoped n)) with (init scoped n) in S. rewrite S.
  destruct (d_stack st) as [|f [|g s]] eqn:Hs; try discriminate.
  destruct (d_inopen st) eqn:Hi; [discriminate|]. destruct (d_pend st); [|discriminate].
  destruct (forallb node_clean (d_heap st) && forallb is_dv (df_items f)); [|discriminate].
  intros H; inversion H; subst r. unfold erase_state. cbn [s_stack s_inopen s_heap]. rewrite Hs, Hi. cbn [map erase_frame f_items].
  rewrite <- map_rev. reflexivity.
Qed.

Lemma unslice0_of_run scoped n ts vs ids h k :
  run ts (init scoped n) = Some (adv (init scoped n) vs ids h k) -> unslice0 scoped n ts = Some (h, vs).
Proof.
  intros R. rewrite <- (unslice_of_run _ _ _ _ _ _ _ R). unfold unslice0, unslice. rewrite R, (run_run0 _ _ _ R). reflexivity.
Qed.

(* every graph a sender can emit -- tuples and frozensets whose completion is deferred included -- : if the
   Deferred-level receiver delivers an object at all, it is exactly the denoted graph (value, type, sharing).
   What is NOT shown in general is that it does deliver (no refusal, nothing left pending): see props/C01.v. *)
Theorem deferred_sound scoped n t r : wf_obj_wide scoped n t = true ->
  dunslice scoped n (slice n t) = Some r -> r = (heap_of n t, [val_of n t]).
Proof.
  unfold wf_obj_wide, wf_wide. destruct (wf_gen false scoped [] [] n t) as [v|] eqn:W; [|discriminate]. intros _ D.
  apply dunslice_refines in D.
  destruct (run_slice t false n scoped [] [] v (init scoped n) W (okst_init scoped n)) as [R _].
  rewrite (unslice0_of_run _ _ _ _ _ _ _ R) in D. inversion D. reflexivity.
Qed.

Theorem deferred_sound_list scoped n ts v r : wf_list_wide scoped [] [] n ts = Some v ->
  dunslice scoped n (slice_list n ts) = Some r -> r = (heap_list n ts, vals_list n ts).
Proof.
  unfold wf_list_wide. intros W D. apply dunslice_refines in D.
  destruct (run_list ts (Forall_all _ run_slice ts) false n scoped [] [] v (init scoped n) W (okst_init scoped n)) as [R _].
  rewrite (unslice0_of_run _ _ _ _ _ _ _ R) in D. inversion D. reflexivity.
Qed.

Lemma drun_app a b st : drun (a ++ b) st = match drun a st with Some st' => drun b st' | None => None end.
Proof. revert st. induction a as [|t a IH]; intros st; cbn [app drun]; [reflexivity|]. destruct (dstep st t); [apply IH|reflexivity]. Qed.

(* OPEN n and the index strings that select the unslicer of kind k, in one step *)
Definition dopen (k : kind) (n : Z) (st : dstate) : option dstate :=
  match d_inopen st with
  | Some _ => None
  | None =>
    let cnt := d_counter st in
    let stk := {| df_kind := k; df_open := n; df_count := cnt; df_items := []; df_refs := [] |} :: d_stack st in
    Some {| d_stack := if kind_registers k then map (dreg1 [cnt]) stk else stk; d_inopen := None; d_counter := cnt + 1;
            d_heap := d_heap st; d_pend := if defers k then cnt :: d_pend st else d_pend st; d_cbs := d_cbs st; d_unref := d_unref st |}
  end.

Lemma drun_open1 a k n st : (forall top, open_kind top [a] = Some (Some k)) -> drun (TOpen n :: strs [a]) st = dopen k n st.
Proof.
  intros O. unfold dopen. cbn [strs map drun]. unfold dstep at 1. destruct (d_inopen st) as [[[h c] i]|]; [reflexivity|].
  unfold dstep. cbn [d_inopen d_stack d_counter d_heap d_pend d_cbs d_unref app]. rewrite O. reflexivity.
Qed.

Lemma drun_open2 a b k n st : (forall top, open_kind top [a] = Some None) -> (forall top, open_kind top [a; b] = Some (Some k)) ->
  drun (TOpen n :: strs [a; b]) st = dopen k n st.
Proof.
  intros O1 O2. unfold dopen. cbn [strs map drun]. unfold dstep at 1. destruct (d_inopen st) as [[[h c] i]|]; [reflexivity|].
  unfold dstep at 1. cbn [d_inopen d_stack d_counter d_heap d_pend d_cbs d_unref app]. rewrite O1.
  unfold dstep. cbn [d_inopen d_stack d_counter d_heap d_pend d_cbs d_unref app]. rewrite O2. reflexivity.
Qed.

Lemma drun_open_cont c n st : shape_ok c [] = true -> drun (TOpen n :: strs (opentype_of c)) st = dopen (KC c) n st.
Proof.
  intros S. destruct c as [| | | | |nm|nm] eqn:E; [..|apply drun_open2; intros top; [apply open_kind_copy1|apply open_kind_copy2]|];
    apply drun_open1; intros top; apply (open_kind_cont top _ S); discriminate.
Qed.

Lemma drun_opened ot k n body rest st : (forall s, drun (TOpen n :: strs ot) s = dopen k n s) ->
  drun ((TOpen n :: strs ot ++ body) ++ rest) st = match dopen k n st with Some s => drun (body ++ rest) s | None => None end.
Proof.
  intros O. change ((TOpen n :: strs ot ++ body) ++ rest) with (TOpen n :: (strs ot ++ body) ++ rest).
  rewrite <- app_assoc, app_comm_cons, drun_app, O. reflexivity.
Qed.

(* the same run as `drun (slice n t)`, with the opentype strings of containers and references resolved beforehand *)
Fixpoint dwalk (n : Z) (t : obj) (st : dstate) : option dstate :=
  match t with
  | OCont c xs =>
    match dopen (KC c) n st with
    | Some s =>
      match (fix go (m : Z) (l : list obj) (s : dstate) : option dstate :=
               match l with [] => Some s | x :: r => match dwalk m x s with Some s' => go (m + opens x) r s' | None => None end end) (n + 1) xs s with
      | Some s' => dstep s' (TClose n)
      | None => None
      end
    | None => None
    end
  | ORef k => match dopen KRef n st with Some s => drun [TInt k; TClose n] s | None => None end
  | _ => drun (slice n t) st
  end.
Definition dwalk_list := fix go (m : Z) (l : list obj) (s : dstate) : option dstate :=
  match l with [] => Some s | x :: r => match dwalk m x s with Some s' => go (m + opens x) r s' | None => None end end.

(* every scope name in the term is one of call.py's: all that `drun` on the term's tokens needs of well-formedness *)
Fixpoint names_ok (t : obj) : bool :=
  match t with
  | OCont c xs => shape_ok c [] && (fix go (l : list obj) : bool := match l with [] => true | x :: r => names_ok x && go r end) xs
  | _ => true
  end.
Definition names_ok_list := fix go (l : list obj) : bool := match l with [] => true | x :: r => names_ok x && go r end.

Definition PW (t : obj) : Prop := names_ok t = true ->
  forall n st rest, drun (slice n t ++ rest) st = match dwalk n t st with Some s => drun rest s | None => None end.

Lemma drun_slice_list xs : Forall PW xs -> names_ok_list xs = true ->
  forall n st rest, drun (slice_list n xs ++ rest) st = match dwalk_list n xs st with Some s => drun rest s | None => None end.
Proof.
  induction 1 as [|x r Hx _ IH]; intros N n st rest; [reflexivity|].
  cbn [names_ok_list] in N. apply andb_true_iff in N as [N1 N2].
  rewrite slice_list_cons, <- app_assoc, (Hx N1). cbn [dwalk_list]. destruct (dwalk n x st); [apply (IH N2)|reflexivity].
Qed.

Theorem drun_slice : forall t, PW t.
Proof.
  apply obj_ind'.
  - intros t L _ n st rest. destruct t; try discriminate; try apply drun_app.
    cbn [slice dwalk]. rewrite (drun_opened _ KRef); [destruct (dopen KRef n st); [apply drun_app|reflexivity]|].
    intros s. apply drun_open1. intros top. apply (open_kind_leaf top).
  - intros c xs F N n st rest. cbn [names_ok] in N. apply andb_true_iff in N as [N1 N2].
    rewrite slice_cont, (drun_opened _ (KC c)) by (intros s; apply drun_open_cont, N1). cbn [dwalk].
    destruct (dopen (KC c) n st) as [s|]; [|reflexivity]. rewrite <- app_assoc, (drun_slice_list xs F N2).
    fold dwalk_list. destruct (dwalk_list (n + 1) xs s); reflexivity.
Qed.

Lemma wf_names_ok : forall t s sc vis imm n v, wf_gen s sc vis imm n t = Some v -> names_ok t = true.
Proof.
  apply (obj_ind' (fun t => forall s sc vis imm n v, wf_gen s sc vis imm n t = Some v -> names_ok t = true)).
  - intros t L s sc vis imm n v _. destruct t; try discriminate; reflexivity.
  - intros c xs F s sc vis imm n v W. destruct (wf_cont_inv _ _ _ _ _ _ _ _ W) as (w & WL & _ & S & _).
    cbn [names_ok]. rewrite (shape_ok_nil _ _ S). change (names_ok_list xs = true). clear W S. revert WL. generalize (n + 1), (if (sc || is_scope c) && tracked c then n :: vis else vis).
    induction F as [|x r Hx _ IH]; intros m u WL; [reflexivity|].
    rewrite wf_list_cons in WL. destruct (wf_gen s _ u _ m x) as [u1|] eqn:W1; [|discriminate].
    cbn [names_ok_list]. rewrite (Hx _ _ _ _ _ _ W1). exact (IH _ _ WL).
Qed.

Definition dresult (o : option dstate) : option (heap * list value) :=
  match o with
  | Some st =>
    match d_stack st, d_inopen st, d_pend st with
    | [f], None, [] =>
      if forallb node_clean (d_heap st) && forallb is_dv (df_items f)
      then Some (erase_heap (d_heap st), rev (map erase (df_items f))) else None
    | _, _, _ => None
    end
  | None => None
  end.

Theorem dunslice_walk scoped n t : names_ok t = true -> dunslice scoped n (slice n t) = dresult (dwalk n t (dinit scoped n)).
Proof.
  intros N. unfold dunslice. rewrite <- (app_nil_r (slice n t)), (drun_slice t N). destruct (dwalk n t (dinit scoped n)); reflexivity.
Qed.

(* L = []; A = (L,); B = (A,); L.append(B): B is closed while A is still open, completes when A does, and only then
   reaches L -- outside the strict guard, inside the wide one, delivered exactly *)
Definition abl : obj := OTuple [OList [OTuple [ORef 0]]].
Example ex_abl : wf_obj true 0 abl = false /\ wf_obj_wide true 0 abl = true /\
  dunslice true 0 (slice 0 abl) = Some (heap_of 0 abl, [val_of 0 abl]).
Proof. vm_compute. repeat split; reflexivity. Qed.
(* A = (M,); M = [K]; K = ([J], J); J = (A,): K directly holds a reference to J, which is closed and still pending *)
Definition amkj : obj := OTuple [OList [OTuple [OList [OTuple [ORef 0]]; ORef 4]]].
Example ex_amkj : wf_obj_wide true 0 amkj = true /\ dunslice true 0 (slice 0 amkj) = Some (heap_of 0 amkj, [val_of 0 amkj]).
Proof. vm_compute. split; reflexivity. Qed.
(* T = (d, L); d["k"] = T; L.append(T): two callbacks on one Deferred, the second sees what the first returned *)
Definition tdl : obj := OTuple [ODict [(OText [107], ORef 0)]; OList [ORef 0]].
Example ex_tdl : dunslice true 0 (slice 0 tdl) = Some (heap_of 0 tdl, [val_of 0 tdl]).
Proof. vm_compute. reflexivity. Qed.
(* frozenset inside a cycle through a Copyable *)
Example ex_frozen_late :
  let t := OTuple [OCopy nmA [([120], OList [OFrozen [ORef 0; OInt 7]; OSet [OInt 1; OFrozen [ORef 0; OInt 7]]])]] in
  wf_obj_wide true 0 t = true /\ dunslice true 0 (slice 0 t) = Some (heap_of 0 t, [val_of 0 t]).
Proof. vm_compute. split; reflexivity. Qed.

(* the two known findings: the Deferred-level receiver refuses them where the code does (receiveChild) *)
Theorem refuted_copy_attr_deferred : doutcome true 0 (slice 0 witness_copy_attr) = 1.
Proof. vm_compute. reflexivity. Qed.
Theorem refuted_dict_key_deferred : doutcome true 0 (slice 0 witness_dict_key) = 1.
Proof. vm_compute. reflexivity. Qed.
(* progress is not a consequence of the wide guard: a term no Python object graph has (two tuples each of which
   directly holds the other) passes the guard and leaves the receiver waiting for ever / refusing the Deferred at top level *)
Definition wait_cycle : obj := OTuple [OList [OTuple [ORef 0]]; ORef 2].
Theorem progress_needs_more_than_the_guard : wf_obj_wide true 0 wait_cycle = true /\ dunslice true 0 (slice 0 wait_cycle) = None.
Proof. vm_compute. split; reflexivity. Qed.
