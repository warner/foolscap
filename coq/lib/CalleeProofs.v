(* C10: proofs about lib/Callee.v, on the programs of gen/CalleeGen.v.
   Each interpreted program is first given a closed form; together they say that one inbound call appends at most one message and
   leaves the table as it found it (handle_eq).  The per-call theorems are cases of handle_eq, the history theorems an induction
   over it, and the counting statements (`replies`) are read off the exact message list. *)
From Coq Require Import ZArith List String Bool.
Import ListNotations.
Require Import Verif.lib.PyLite Verif.lib.Utf8 Verif.gen.FailureGen Verif.lib.Failure Verif.lib.FailureProofs.
Require Import Verif.gen.CalleeGen Verif.lib.Callee.
Local Open Scope Z_scope.

Lemma the_state_spec e : nameable (d_exc e) = true -> get_state (d_unsafe e) (d_exc e) = Ok (the_state e).
Proof.
  intros N. unfold the_state. destruct (proj2 (get_state_returns_iff (d_unsafe e) (d_exc e)) N) as (fs & G). rewrite G. reflexivity.
Qed.

(* FailureSlicer returns exactly for the classes it can name (get_state_returns_iff): then the `error` handed to send() is written
   in full, and its payload is the state FailureSlicer computed (every property of C10_failure_fits holds of it); otherwise
   getStateToCopy raises inside produce: the connection is dropped *)
Lemma send_error_eq e r s :
  send_error e r s = if nameable (d_exc e) then with_sent s (MError r (the_state e)) else dropped s.
Proof.
  unfold send_error. destruct (nameable (d_exc e)) eqn:N; [rewrite (the_state_spec e N); reflexivity|].
  destruct (failure_unnameable_raises (d_unsafe e) (d_exc e) N) as (t & G). rewrite G. reflexivity.
Qed.

Lemma send_error_up e r s : cup s = true -> (cup (send_error e r s) = true <-> nameable (d_exc e) = true).
Proof. intros U. rewrite send_error_eq. destruct (nameable (d_exc e)); [tauto|reflexivity]. Qed.

Lemma send_answer_up e s : cup s = true -> (cup (send_answer e s) = true <-> d_answer e <> SCrash).
Proof. intros U. unfold send_answer. destruct (d_answer e); cbn [cup with_sent dropped]; split; congruence. Qed.

(* neither message looks at the table, so the entry made on arrival and retired after the message leaves no trace *)
Lemma active_send_error e r s : active (send_error e r s) = active s.
Proof. unfold send_error. destruct (get_state _ _); reflexivity. Qed.

Lemma active_send_answer e s : active (send_answer e s) = active s.
Proof. unfold send_answer. destruct (d_answer e); reflexivity. Qed.

Lemma send_error_entry e r s a : with_active (send_error e r (with_active s a)) (active s) = send_error e r s.
Proof. unfold send_error. destruct (get_state _ _); reflexivity. Qed.

Lemma send_answer_entry e s a : with_active (send_answer e (with_active s a)) (active s) = send_answer e s.
Proof. unfold send_answer. destruct (d_answer e); reflexivity. Qed.

Lemma call_failed_eq e hasd r s : call_failed e hasd r s =
  if r =? 0 then XOk s else
  if is_active r s then XOk (with_active (send_error e r s) (remove1 r (active s))) else XRaise s.
Proof.
  unfold call_failed, callfailed_prog. cbn [run_cs run_c].
  assert (L : (if hasd then match (if d_log_local e then XOk s else XOk s) with XOk s' => XOk s' | o => o end else XOk s) = XOk s)
    by (destruct hasd, (d_log_local e); reflexivity).
  rewrite L. destruct (r =? 0); [reflexivity|]. unfold is_active. destruct (existsb _ (active s)) eqn:A; [|reflexivity].
  rewrite active_send_error, A. reflexivity.
Qed.

Lemma call_finished_eq e s : call_finished e s =
  if d_reqid e =? 0 then XReturn s else
  if is_active (d_reqid e) s && negb (d_schema e && negb (d_result_ok e))
  then XOk (with_active (send_answer e s) (remove1 (d_reqid e) (active s))) else XRaise s.
Proof.
  unfold call_finished, callfinished_prog. cbn [run_fs run_f]. destruct (d_reqid e =? 0); [reflexivity|].
  unfold is_active. destruct (existsb _ (active s)) eqn:A; [|reflexivity].
  destruct (d_schema e); [destruct (d_result_ok e)|]; try reflexivity; rewrite active_send_answer, A; reflexivity.
Qed.

Lemma report_violation_eq e abort s : run_rs e abort report_violation_prog s =
  if abort || (d_reqid e =? 0) then s else
  if is_active (d_reqid e) s then with_active (send_error e (d_reqid e) s) (remove1 (d_reqid e) (active s)) else dropped s.
Proof.
  unfold report_violation_prog. destruct abort; [reflexivity|]. cbn [run_rs run_r orb]. rewrite call_failed_eq.
  destruct (d_reqid e =? 0); [|destruct (is_active _ s)]; reflexivity.
Qed.

Lemma chain_docall e t failing s :
  run_chain e (LBoth KReady :: LCallback KDoCall :: t) failing s = run_chain e t (failing || d_raises e) s.
Proof. destruct failing; reflexivity. Qed.

(* the errbacks catch everything: a failure before or inside _callFinished goes to callFailed, and what callFailed itself raises
   (only for an id that is not in the table) ends in log.err *)
Lemma delivery_chain_eq e s : run_chain e delivery_chain (negb (d_ready e)) s =
  (false, if d_reqid e =? 0 then s else
          if is_active (d_reqid e) s
          then with_active (if must_fail e then send_error e (d_reqid e) s else send_answer e s) (remove1 (d_reqid e) (active s))
          else swallow s).
Proof.
  assert (F : run_chain e [LErrback KFailed; LErrback KLogErr] true s =
              (false, if d_reqid e =? 0 then s else
                      if is_active (d_reqid e) s then with_active (send_error e (d_reqid e) s) (remove1 (d_reqid e) (active s))
                      else swallow s)).
  { cbn [run_chain apply_fun]. rewrite call_failed_eq. destruct (d_reqid e =? 0); [|destruct (is_active _ s)]; reflexivity. }
  unfold delivery_chain, must_fail. rewrite chain_docall. destruct (negb (d_ready e) || d_raises e); cbn [run_chain orb]; [exact F|].
  cbn [apply_fun]. rewrite call_finished_eq. destruct (d_reqid e =? 0); [reflexivity|].
  destruct (is_active _ s); [destruct (d_schema e && negb (d_result_ok e))|]; [exact F|reflexivity|exact F].
Qed.

Lemma handle_eq i s : handle i s =
  if negb (cup s) || (d_reqid (in_env i) =? 0) then s else
  match i with
  | InRejected abort e => if abort then with_active s (d_reqid e :: active s) else send_error e (d_reqid e) s
  | InDelivered e => if must_fail e then send_error e (d_reqid e) s else send_answer e s
  end.
Proof.
  unfold handle. destruct (cup s); [cbn [negb orb]|reflexivity].
  destruct i as [abort e|e]; cbn [in_env]; unfold register, registers_reqid; cbn [andb].
  - rewrite report_violation_eq. destruct (d_reqid e =? 0); cbn [negb]; [rewrite orb_true_r; reflexivity|].
    rewrite orb_false_r. unfold is_active. cbn [active with_active existsb remove1]. rewrite Z.eqb_refl, send_error_entry. reflexivity.
  - rewrite delivery_chain_eq. destruct (d_reqid e =? 0); cbn [negb]; [reflexivity|].
    unfold is_active. cbn [active with_active existsb remove1]. rewrite Z.eqb_refl.
    destruct (must_fail e); [apply send_error_entry|apply send_answer_entry].
Qed.

Lemma handle_one_way i s : d_reqid (in_env i) = 0 -> handle i s = s.
Proof. intros Z. rewrite handle_eq, Z, orb_true_r. reflexivity. Qed.

Lemma handle_rejected abort e s : cup s = true -> d_reqid e <> 0 ->
  handle (InRejected abort e) s = if abort then with_active s (d_reqid e :: active s) else send_error e (d_reqid e) s.
Proof. intros U R. apply Z.eqb_neq in R. rewrite handle_eq, U. cbn [in_env]. rewrite R. reflexivity. Qed.

Lemma handle_delivered e s : cup s = true -> d_reqid e <> 0 ->
  handle (InDelivered e) s = if must_fail e then send_error e (d_reqid e) s else send_answer e s.
Proof. intros U R. apply Z.eqb_neq in R. rewrite handle_eq, U. cbn [in_env]. rewrite R. reflexivity. Qed.

Lemma delivered_inside e s : cup s = true -> d_reqid e <> 0 -> delivery_ok e ->
  handle (InDelivered e) s = with_sent s (if must_fail e then MError (d_reqid e) (the_state e)
                                          else match d_answer e with SViolation => MAnswerAborted (d_reqid e) | _ => MAnswer (d_reqid e) end).
Proof.
  intros U R K. rewrite handle_delivered by assumption. unfold delivery_ok in K. destruct (must_fail e).
  - rewrite send_error_eq, K. reflexivity.
  - unfold send_answer. destruct (d_answer e); [reflexivity|reflexivity|contradiction K; reflexivity].
Qed.

(* what one inbound call must leave behind *)
Definition outcome_ok (r : Z) (expected : nat) (a : list Z) (s s' : cst) : Prop :=
  cup s' = true /\ swallowed s' = swallowed s /\ active s' = a /\
  ((sent s' = sent s /\ expected = 0%nat) \/ (exists m, sent s' = sent s ++ [m] /\ msg_req m = r /\ expected = 1%nat)).

Lemma outcome_with_sent s m : cup s = true -> outcome_ok (msg_req m) 1 (active s) s (with_sent s m).
Proof. intros U. repeat split; [exact U|]. right. exists m. repeat split. Qed.

(* a call that the CallUnslicer rejects after it knows the request id: exactly one `error`, unless it was the caller who
   aborted (then none: the caller knows).  The one condition (rejected_ok): the class of the failure can be named.  None on logging,
   rendering, schema ...: callFailed gets no delivery *)
Theorem rejected_answered_once abort e s : cup s = true -> d_reqid e <> 0 -> rejected_ok abort e ->
  outcome_ok (d_reqid e) (expected_replies (InRejected abort e)) (if abort then d_reqid e :: active s else active s)
             s (handle (InRejected abort e) s).
Proof.
  intros U R N. rewrite handle_rejected by assumption. unfold expected_replies. apply Z.eqb_neq in R. rewrite R, orb_false_r.
  destruct abort.
  - repeat split; [exact U|]. left. split; reflexivity.
  - rewrite send_error_eq, (N eq_refl). apply (outcome_with_sent s (MError _ _) U).
Qed.

(* WHICH reply, and with what in it: one `error` carrying FailureSlicer's state of the Violation; nothing for the caller's ABORT *)
Theorem rejected_reply abort e s : cup s = true -> d_reqid e <> 0 -> rejected_ok abort e ->
  sent (handle (InRejected abort e) s) = sent s ++ reply_of (InRejected abort e).
Proof.
  intros U R N. rewrite handle_rejected by assumption. unfold reply_of. apply Z.eqb_neq in R. rewrite R, orb_false_r.
  destruct abort; [symmetry; apply app_nil_r|]. rewrite send_error_eq, (N eq_refl). reflexivity.
Qed.

(* the guard is exact: the connection survives a rejected call if and only if rejected_ok *)
Theorem rejected_guard_exact abort e s : cup s = true -> d_reqid e <> 0 ->
  (cup (handle (InRejected abort e) s) = true <-> rejected_ok abort e).
Proof.
  intros U R. rewrite handle_rejected by assumption. unfold rejected_ok. destruct abort.
  - split; [discriminate|intros _; exact U].
  - rewrite (send_error_up e _ s U). split; auto.
Qed.

(* a delivery that doNextCall starts (arguments ready or not, method returning or raising, result accepted or not by the
   callee's schema, answer serializable or not, local-failure log on or off, target / arguments formattable or not): exactly
   one `answer` or `error`, the table entry is gone, nothing is swallowed, the connection is up -- provided (delivery_ok) that the
   message that is due can be written: the exception's class can be named when an `error` is due, the AnswerSlicer does not hit a
   non-Violation exception when an `answer` is due (the two known findings) *)
Theorem delivery_answered_once e s : cup s = true -> d_reqid e <> 0 -> delivery_ok e ->
  outcome_ok (d_reqid e) 1 (active s) s (handle (InDelivered e) s).
Proof.
  intros U R K. rewrite delivered_inside by assumption.
  destruct (must_fail e); [|destruct (d_answer e)]; exact (outcome_with_sent s _ U).
Qed.

(* WHICH reply (outcome_ok only counts the messages of a request id: a callee that answered a raising method with an `answer`, or
   whose checkResults accepted everything, would satisfy delivery_answered_once): an `error` exactly when the arguments did not
   become ready, the method raised or the callee's schema rejects the result -- carrying FailureSlicer's state of that exception --
   and otherwise the `answer` (which the caller sees aborted when an AnswerSlicer raised Violation) *)
Theorem reply_kind e s : cup s = true -> d_reqid e <> 0 -> delivery_ok e ->
  sent (handle (InDelivered e) s) = sent s ++
    [if must_fail e then MError (d_reqid e) (the_state e)
     else match d_answer e with SViolation => MAnswerAborted (d_reqid e) | _ => MAnswer (d_reqid e) end].
Proof. intros U R K. rewrite delivered_inside by assumption. reflexivity. Qed.

(* the guard is exact: the connection survives a delivery if and only if delivery_ok -- outside it (an exception whose class
   cannot be named when an `error` is due, a crashing AnswerSlicer when an `answer` is due) the model drops the connection *)
Theorem delivery_guard_exact e s : cup s = true -> d_reqid e <> 0 ->
  (cup (handle (InDelivered e) s) = true <-> delivery_ok e).
Proof.
  intros U R. rewrite handle_delivered by assumption. unfold delivery_ok.
  destruct (must_fail e); [apply send_error_up|apply send_answer_up]; exact U.
Qed.

(* the region delivery_ok excludes when an `error` is due, as a statement of its own (finding
   oracle/sibling-affected/exception-class-without-module): a method raising an exception whose class (or an ancestor) has no module
   name takes the connection down instead of failing its call *)
Theorem unnameable_error_drops_connection e s : cup s = true -> d_reqid e <> 0 -> must_fail e = true ->
  nameable (d_exc e) = false -> cup (handle (InDelivered e) s) = false.
Proof. intros U R M N. rewrite handle_delivered, M, send_error_eq, N by assumption. reflexivity. Qed.

Example ex_unnameable_drops :
  let e := {| d_reqid := 7; d_schema := false; d_ready := true; d_raises := true; d_result_ok := true; d_answer := SOk;
              d_log_local := false; d_repr_raises := false; d_render_raises := false; d_unsafe := false;
              d_exc := {| e_type := Exc "TypeError"%string; e_str := Ok [109]; e_fallback := []; e_stack := [];
                          e_parents := Exc "TypeError"%string |} |} in
  must_fail e = true /\ nameable (d_exc e) = false /\ handle (InDelivered e) cinit0 = {| active := []; sent := []; cup := false; swallowed := 0 |} /\
  (* a one-way call raising the same exception is contained: no error is ever built *)
  handle (InDelivered {| d_reqid := 0; d_schema := false; d_ready := true; d_raises := true; d_result_ok := true; d_answer := SOk;
              d_log_local := false; d_repr_raises := false; d_render_raises := false; d_unsafe := false; d_exc := d_exc e |}) cinit0 = cinit0.
Proof. vm_compute. auto. Qed.

(* one-way calls (reqID 0) are never answered, whatever happens *)
Theorem one_way_never_answered i s : d_reqid (in_env i) = 0 -> sent (handle i s) = sent s.
Proof. intros R. rewrite handle_one_way by exact R. reflexivity. Qed.

(* one-way calls leave NOTHING behind, whatever goes wrong with them and however often request id 0 occurs: rejected while being
   received (the caller's ABORT included: the id was never registered, so there is no table entry to retire), arguments not ready,
   the method raising, a result that could not be serialized (it is never sent): no message, the table untouched, nothing swallowed,
   the connection up.  No condition on d_answer: _callFinished returns before it looks at the result *)
Theorem one_way_contained i s : cup s = true -> d_reqid (in_env i) = 0 ->
  let s' := handle i s in
  cup s' = true /\ sent s' = sent s /\ active s' = active s /\ swallowed s' = swallowed s.
Proof. intros U R. cbn zeta. rewrite handle_one_way by exact R. auto. Qed.

Example ex_one_way :
  let x := {| e_type := Ok [86]; e_str := Ok [109]; e_fallback := []; e_stack := []; e_parents := Ok [] |} in
  let mk rdy rs ans := {| d_reqid := 0; d_schema := true; d_ready := rdy; d_raises := rs; d_result_ok := false; d_answer := ans;
                          d_log_local := true; d_repr_raises := true; d_render_raises := true; d_unsafe := true; d_exc := x |} in
  let s0 := {| active := [4]; sent := [MAnswer 3]; cup := true; swallowed := 0 |} in
  handle_all [InRejected true (mk true false SOk); InRejected false (mk true false SOk); InDelivered (mk false false SOk);
              InDelivered (mk true true SOk); InDelivered (mk true false SCrash)] s0 = s0.
Proof. vm_compute. reflexivity. Qed.

(* the local-failure log is on and the target (or an argument) cannot be formatted (callFailed guards that log entry:
   CLogFailureGuarded) -- the error is sent all the same *)
Theorem unrenderable_delivery_answered e s : cup s = true -> d_reqid e <> 0 -> nameable (d_exc e) = true ->
  d_log_local e = true -> d_repr_raises e = true -> d_raises e = true ->
  let s' := handle (InDelivered e) s in
  sent s' = sent s ++ [MError (d_reqid e) (the_state e)] /\ active s' = active s /\ swallowed s' = swallowed s /\ cup s' = true.
Proof.
  intros U R N _ _ RS. assert (M : must_fail e = true) by (unfold must_fail; rewrite RS, orb_true_r; reflexivity).
  cbn zeta. rewrite handle_delivered, M, send_error_eq, N by assumption. auto.
Qed.

Example ex_unrenderable :
  let e := {| d_reqid := 7; d_schema := false; d_ready := true; d_raises := true; d_result_ok := true; d_answer := SOk;
              d_log_local := true; d_repr_raises := true; d_render_raises := false; d_unsafe := false;
              d_exc := {| e_type := Ok [86]; e_str := Ok [109]; e_fallback := []; e_stack := []; e_parents := Ok [] |} |} in
  List.length (sent (handle (InDelivered e) cinit0)) = 1%nat /\ active (handle (InDelivered e) cinit0) = [] /\
  swallowed (handle (InDelivered e) cinit0) = 0%nat.
Proof. vm_compute. auto. Qed.

(* a non-Violation exception while the answer is serialized drops the connection *)
Theorem answer_crash_drops_connection e s : cup s = true -> d_ready e = true -> d_raises e = false ->
  (d_schema e = false \/ d_result_ok e = true) -> d_reqid e <> 0 -> d_answer e = SCrash ->
  cup (handle (InDelivered e) s) = false.
Proof.
  intros U RD RS SC R A. assert (M : must_fail e = false).
  { unfold must_fail. rewrite RD, RS. destruct SC as [-> | ->]; [reflexivity|apply andb_false_r]. }
  rewrite handle_delivered, M by assumption. unfold send_answer. rewrite A. reflexivity.
Qed.

Definition reqid_of (i : inbound) : Z := d_reqid (in_env i).

Definition inbound_ok (i : inbound) : Prop :=
  reqid_of i <> 0 /\
  match i with
  | InRejected abort e => rejected_ok abort e
  | InDelivered e => delivery_ok e
  end.

(* for histories in which one-way calls (request id 0, any number of them) are mixed with ordinary calls *)
Definition inbound_ok1 (i : inbound) : Prop := reqid_of i = 0 \/ inbound_ok i.

Definition nonzero_ids (ins : list inbound) : list Z := filter (fun r => negb (r =? 0)) (map reqid_of ins).

Lemma handle_all_cons i ins s : handle_all (i :: ins) s = handle_all ins (handle i s).
Proof. reflexivity. Qed.

Lemma handle_all_app pre post s : handle_all (pre ++ post) s = handle_all post (handle_all pre s).
Proof. apply fold_left_app. Qed.

Lemma handle_all_down ins s : cup s = false -> handle_all ins s = s.
Proof. intros D. induction ins as [|i ins IH]; [reflexivity|]. rewrite handle_all_cons, handle_eq, D. exact IH. Qed.

Lemma reply_of_one_way i : reqid_of i = 0 -> reply_of i = [].
Proof. unfold reqid_of. intros Z. destruct i as [abort e|e]; cbn [in_env] in Z; unfold reply_of; rewrite Z, ?orb_true_r; reflexivity. Qed.

Lemma expected_length i : expected_replies i = List.length (reply_of i).
Proof. destruct i as [abort e|e]; unfold expected_replies, reply_of; [destruct (abort || _)|destruct (_ =? 0)]; reflexivity. Qed.

Lemma handle_inside i s : cup s = true -> inbound_ok1 i ->
  cup (handle i s) = true /\ swallowed (handle i s) = swallowed s /\ sent (handle i s) = sent s ++ reply_of i.
Proof.
  intros U [Z|[R K]].
  - rewrite handle_one_way, reply_of_one_way, app_nil_r by exact Z. auto.
  - destruct i as [abort e|e]; unfold reqid_of in R; cbn [in_env] in R.
    + destruct (rejected_answered_once abort e s U R K) as (C & W & _). exact (conj C (conj W (rejected_reply abort e s U R K))).
    + rewrite (delivered_inside e s U R K). unfold reply_of. apply Z.eqb_neq in R. rewrite R. exact (conj U (conj eq_refl eq_refl)).
Qed.

Theorem history_inside ins : forall s, cup s = true -> Forall inbound_ok1 ins ->
  cup (handle_all ins s) = true /\ swallowed (handle_all ins s) = swallowed s /\
  sent (handle_all ins s) = sent s ++ flat_map reply_of ins.
Proof.
  induction ins as [|i ins IH]; intros s U F.
  - cbn. rewrite app_nil_r. auto.
  - inversion F as [|? ? Fi Fr]; subst. destruct (handle_inside i s U Fi) as (C & W & M).
    destruct (IH (handle i s) C Fr) as (C2 & W2 & M2). rewrite handle_all_cons. split; [exact C2|]. split; [congruence|].
    rewrite M2, M. symmetry. apply app_assoc.
Qed.

(* WHICH replies, for whole histories: the exact sequence of messages handed to Broker.send (no NoDup needed: nothing here
   depends on the ids being distinct) -- for every call its `error` (with FailureSlicer's state of its exception) or its `answer` as
   reply_of says, in the order of the history (the order in which the callee concludes the calls: Callee.handle_all), nothing else;
   the connection stays up.  Every hypothesis is exact (delivery_guard_exact, rejected_guard_exact). *)
Theorem history_replies ins : forall s, cup s = true -> Forall inbound_ok1 ins ->
  sent (handle_all ins s) = sent s ++ flat_map reply_of ins /\ cup (handle_all ins s) = true.
Proof. intros s U F. destruct (history_inside ins s U F) as (C & _ & M). exact (conj M C). Qed.

Lemma replies_app r a b : replies r (a ++ b) = (replies r a + replies r b)%nat.
Proof. unfold replies. rewrite filter_app, app_length. reflexivity. Qed.

Lemma replies_reply_of r i : replies r (reply_of i) = if reqid_of i =? r then expected_replies i else 0%nat.
Proof.
  destruct i as [abort e|e]; unfold reply_of, expected_replies, reqid_of, replies; cbn [in_env].
  - destruct (abort || (d_reqid e =? 0)); cbn [filter msg_req]; destruct (_ =? r); reflexivity.
  - destruct (d_reqid e =? 0); [destruct (_ =? r); reflexivity|].
    destruct (must_fail e); [|destruct (d_answer e)]; cbn [filter msg_req]; destruct (_ =? r); reflexivity.
Qed.

Lemma nonzero_ids_cons i ins :
  nonzero_ids (i :: ins) = if reqid_of i =? 0 then nonzero_ids ins else reqid_of i :: nonzero_ids ins.
Proof. unfold nonzero_ids. cbn [map filter]. destruct (reqid_of i =? 0); reflexivity. Qed.

Lemma in_nonzero_ids j ins : In j ins -> reqid_of j <> 0 -> In (reqid_of j) (nonzero_ids ins).
Proof.
  intros J N. unfold nonzero_ids. apply filter_In. split; [apply in_map; exact J|]. apply Z.eqb_neq in N. rewrite N. reflexivity.
Qed.

Lemma replies_absent r ins : ~ In r (nonzero_ids ins) -> replies r (flat_map reply_of ins) = 0%nat.
Proof.
  induction ins as [|i ins IH]; intros N; [reflexivity|]. rewrite nonzero_ids_cons in N. cbn [flat_map].
  destruct (Z.eqb_spec (reqid_of i) 0) as [Z|NZ]; [rewrite (reply_of_one_way i Z); exact (IH N)|].
  rewrite replies_app, replies_reply_of. destruct (Z.eqb_spec (reqid_of i) r) as [E|D]; [contradiction N; left; exact E|].
  apply IH. intros X. apply N. right. exact X.
Qed.

Lemma replies_present ins : NoDup (nonzero_ids ins) -> forall i, In i ins ->
  replies (reqid_of i) (flat_map reply_of ins) = expected_replies i.
Proof.
  induction ins as [|a ins IH]; intros N i I; [destruct I|]. rewrite nonzero_ids_cons in N. cbn [flat_map].
  destruct (Z.eqb_spec (reqid_of a) 0) as [Z|NZ].
  - rewrite (reply_of_one_way a Z). destruct I as [<-|I]; [|exact (IH N i I)].
    rewrite expected_length, (reply_of_one_way a Z), Z. apply replies_absent. unfold nonzero_ids. rewrite filter_In. intros [_ X]. discriminate X.
  - inversion N as [|? ? A N']; subst. rewrite replies_app, replies_reply_of. destruct I as [<-|I].
    + rewrite Z.eqb_refl, (replies_absent _ _ A). apply Nat.add_0_r.
    + rewrite (IH N' i I). destruct (Z.eqb_spec (reqid_of a) (reqid_of i)) as [E|D]; [|reflexivity].
      contradiction A. rewrite E. apply in_nonzero_ids; [exact I|congruence].
Qed.

(* C10_every_call_answered_once_with_one_way: the statement of every_call_answered_once for histories in which any number of
   one-way calls (all with request id 0) occur anywhere among the ordinary ones (distinct non-zero ids): every ordinary call gets
   exactly its replies, every one-way call none, no message is ever addressed to request 0, nothing is swallowed, the connection
   stays up *)
Theorem every_call_answered_once_with_one_way ins : forall s, cup s = true -> Forall inbound_ok1 ins -> NoDup (nonzero_ids ins) ->
  let s' := handle_all ins s in
  cup s' = true /\ swallowed s' = swallowed s /\
  (forall i, In i ins -> replies (reqid_of i) (sent s') = (replies (reqid_of i) (sent s) + expected_replies i)%nat) /\
  (forall r, ~ In r (nonzero_ids ins) -> replies r (sent s') = replies r (sent s)).
Proof.
  intros s U F N. destruct (history_inside ins s U F) as (C & W & M). cbn zeta. rewrite M. split; [exact C|]. split; [exact W|]. split.
  - intros i I. rewrite replies_app, (replies_present ins N i I). reflexivity.
  - intros r I. rewrite replies_app, (replies_absent r ins I). apply Nat.add_0_r.
Qed.

(* C10_every_call_answered_once: for EVERY history of inbound calls with distinct request ids -- rejected by the CallUnslicer or
   delivered; arguments ready or not; method returning or raising anything; result accepted or not; answer serializable or
   not; any logging setting -- every call gets exactly the replies the property promises (one `answer` or `error`; none for a
   call the caller itself aborted), nothing is swallowed and the connection stays up *)
Theorem every_call_answered_once ins : forall s, cup s = true -> Forall inbound_ok ins -> NoDup (map reqid_of ins) ->
  let s' := handle_all ins s in
  cup s' = true /\ swallowed s' = swallowed s /\
  (forall i, In i ins -> replies (reqid_of i) (sent s') = (replies (reqid_of i) (sent s) + expected_replies i)%nat) /\
  (forall r, ~ In r (map reqid_of ins) -> replies r (sent s') = replies r (sent s)).
Proof.
  intros s U F. assert (E : nonzero_ids ins = map reqid_of ins).
  { induction F as [|i ins [R _] _ IH]; [reflexivity|]. apply Z.eqb_neq in R. rewrite nonzero_ids_cons, R, IH. reflexivity. }
  rewrite <- E. apply (every_call_answered_once_with_one_way ins s U). apply (Forall_impl _ (fun i K => or_intror K) F).
Qed.

(* six calls -- answered, rejected by the callee, arguments not ready, result rejected by the schema, aborted by the
   caller (no reply, its table entry stays), answer aborted by a Violation of its slicer *)
Example ex_history :
  let x := {| e_type := Ok [86]; e_str := Ok [109]; e_fallback := []; e_stack := []; e_parents := Ok [] |} in
  let mk r rdy rs sch rok ans := {| d_reqid := r; d_schema := sch; d_ready := rdy; d_raises := rs; d_result_ok := rok; d_answer := ans;
                                    d_log_local := true; d_repr_raises := false; d_render_raises := true; d_unsafe := true; d_exc := x |} in
  let ins := [InDelivered (mk 1 true false false true SOk); InRejected false (mk 2 true false false true SOk);
              InDelivered (mk 3 false false false true SOk); InDelivered (mk 4 true false true false SOk);
              InRejected true (mk 5 true false false true SOk); InDelivered (mk 6 true false false true SViolation)] in
  Forall inbound_ok ins /\ NoDup (map reqid_of ins) /\
  map (fun m => match m with MAnswer r => (0, r) | MAnswerAborted r => (1, r) | MError r _ => (2, r) end) (sent (handle_all ins cinit0))
  = [(0, 1); (2, 2); (2, 3); (2, 4); (1, 6)] /\ active (handle_all ins cinit0) = [5].
Proof.
  cbn zeta. split; [repeat constructor; easy|]. split; [repeat constructor; cbn; intuition discriminate|]. split; vm_compute; reflexivity.
Qed.

(* non-vacuity: one-way calls of every kind (aborted by the caller, rejected by the callee, not ready, raising, fine) between
   ordinary calls *)
Example ex_history_one_way :
  let x := {| e_type := Ok [86]; e_str := Ok [109]; e_fallback := []; e_stack := []; e_parents := Ok [] |} in
  let mk r rdy rs sch rok ans := {| d_reqid := r; d_schema := sch; d_ready := rdy; d_raises := rs; d_result_ok := rok; d_answer := ans;
                                    d_log_local := true; d_repr_raises := false; d_render_raises := true; d_unsafe := true; d_exc := x |} in
  let ins := [InDelivered (mk 1 true false false true SOk); InRejected true (mk 0 true false false true SOk);
              InRejected false (mk 2 true false false true SOk); InRejected false (mk 0 true false false true SOk);
              InDelivered (mk 0 false false false true SOk); InDelivered (mk 3 true true true false SOk);
              InDelivered (mk 0 true true false true SCrash); InRejected true (mk 5 true false false true SOk);
              InDelivered (mk 0 true false false true SOk)] in
  Forall inbound_ok1 ins /\ NoDup (nonzero_ids ins) /\
  map (fun m => match m with MAnswer r => (0, r) | MAnswerAborted r => (1, r) | MError r _ => (2, r) end) (sent (handle_all ins cinit0))
  = [(0, 1); (2, 2); (2, 3)] /\ active (handle_all ins cinit0) = [5].
Proof.
  cbn zeta. split; [repeat (apply Forall_cons || apply Forall_nil); first [left; reflexivity | right; repeat constructor; easy]|].
  split; [vm_compute; repeat constructor; cbn; intuition discriminate|]. split; vm_compute; reflexivity.
Qed.

(* outside the guard -- an `error` is due (for a rejected or a delivered call) and the class cannot be named, or an `answer` is due
   and its slicer crashes -- the one message cannot be written: the connection is dropped *)
Lemma handle_outside i s : cup s = true -> ~ inbound_ok1 i -> handle i s = dropped s.
Proof.
  intros U K. assert (R : reqid_of i <> 0) by (intros Z; apply K; left; exact Z).
  assert (G : ~ match i with InRejected abort e => rejected_ok abort e | InDelivered e => delivery_ok e end)
    by (intros G; apply K; right; exact (conj R G)).
  destruct i as [abort e|e]; unfold reqid_of in R; cbn [in_env] in R.
  - rewrite handle_rejected, send_error_eq by assumption. unfold rejected_ok in G.
    destruct abort; [contradiction G; discriminate|]. destruct (nameable (d_exc e)); [contradiction G|]; reflexivity.
  - rewrite handle_delivered by assumption. unfold delivery_ok in G. destruct (must_fail e).
    + rewrite send_error_eq. destruct (nameable (d_exc e)); [contradiction G|]; reflexivity.
    + unfold send_answer. destruct (d_answer e); [contradiction G; discriminate ..|reflexivity].
Qed.

(* the first call outside the guard ends the history: what was concluded before it has been answered, nothing after it is *)
Theorem history_outside pre i post s : cup s = true -> Forall inbound_ok1 pre -> ~ inbound_ok1 i ->
  let s' := handle_all (pre ++ i :: post) s in
  cup s' = false /\ sent s' = sent s ++ flat_map reply_of pre.
Proof.
  intros U F K. destruct (history_replies pre s U F) as (M & C). cbn zeta.
  rewrite handle_all_app, handle_all_cons, (handle_outside i _ C K), handle_all_down by reflexivity. exact (conj eq_refl M).
Qed.

Theorem history_guard_exact pre e post s : cup s = true -> Forall inbound_ok1 pre -> d_reqid e <> 0 -> ~ delivery_ok e ->
  let s' := handle_all (pre ++ InDelivered e :: post) s in
  cup s' = false /\ sent s' = sent s ++ flat_map reply_of pre.
Proof. intros U F R K. apply (history_outside pre (InDelivered e) post s U F). intros [Z|[_ D]]; [exact (R Z)|exact (K D)]. Qed.

(* non-vacuity of history_guard_exact, and of the guard itself: a fault-free call, then a method raising an exception whose class
   cannot be named, then another fault-free call -- the first is answered, the connection is down, the third gets nothing *)
Example ex_history_outside_guard :
  let ok := {| e_type := Ok [86]; e_str := Ok [109]; e_fallback := []; e_stack := []; e_parents := Ok [] |} in
  let bad := {| e_type := Exc "TypeError"%string; e_str := Ok [109]; e_fallback := []; e_stack := []; e_parents := Exc "TypeError"%string |} in
  let mk r rs x := {| d_reqid := r; d_schema := false; d_ready := true; d_raises := rs; d_result_ok := true; d_answer := SOk;
                      d_log_local := false; d_repr_raises := false; d_render_raises := false; d_unsafe := false; d_exc := x |} in
  Forall inbound_ok1 [InDelivered (mk 1 false ok)] /\ ~ delivery_ok (mk 2 true bad) /\ delivery_ok (mk 2 true ok) /\
  handle_all [InDelivered (mk 1 false ok); InDelivered (mk 2 true bad); InDelivered (mk 3 false ok)] cinit0
    = {| active := []; sent := [MAnswer 1]; cup := false; swallowed := 0 |}.
Proof.
  cbn zeta. split; [constructor; [right; split; easy|constructor]|]. split; [easy|]. split; [reflexivity|vm_compute; reflexivity].
Qed.
