(* C13: what the two ends of a negotiation come to, over lib/Negotiate.v (model) and the translated best_overlap, check_inrange,
   master_cmp and header_verdict of gen/NegotiateGen.v.  Any two endpoints with distinct ids end in one of three ways -- both
   switch with agreed parameters, both abandon, or the decider alone has switched -- told apart, under the class invariant,
   exactly by ranges_meet and compatible; the two-way statement of the property text is refuted. *)
From Coq Require Import ZArith List String Bool Lia.
Import ListNotations.
Require Import Verif.lib.PyLite Verif.gen.NegotiateGen Verif.lib.Negotiate.
Local Open Scope Z_scope.

Lemma best_overlap_cases a b c d :
  (a <= Z.min b d /\ c <= Z.min b d /\ best_overlap a b c d = Ok (Z.min b d)) \/
  ((Z.min b d < a \/ Z.min b d < c) /\ best_overlap a b c d = Exc "NegotiationError").
Proof.
  unfold best_overlap. cbv zeta.
  destruct (Z.ltb_spec (Z.min b d) a); [right; auto|]. destruct (Z.ltb_spec (Z.min b d) c); [right; auto|left; auto].
Qed.

Lemma best_overlap_ok a b c d v :
  best_overlap a b c d = Ok v <-> (v = Z.min b d /\ a <= v /\ c <= v).
Proof.
  destruct (best_overlap_cases a b c d) as [(H1 & H2 & ->)|(H & ->)].
  - split; [intros [= <-]; auto|intros (-> & _); reflexivity].
  - split; [discriminate|intros (-> & H1 & H2); lia].
Qed.

Lemma best_overlap_exc a b c d :
  (exists t, best_overlap a b c d = Exc t) <-> (forall v, ~ (a <= v <= b /\ c <= v <= d)).
Proof.
  destruct (best_overlap_cases a b c d) as [(H1 & H2 & ->)|(H & ->)].
  - split; [intros [t [=]]|intros Hn; destruct (Hn (Z.min b d)); lia].
  - split; [intros _ v; lia|eauto].
Qed.

Lemma best_overlap_tag a b c d t : best_overlap a b c d = Exc t -> t = "NegotiationError"%string.
Proof. destruct (best_overlap_cases a b c d) as [(_ & _ & ->)|(_ & ->)]; [discriminate|intros [= <-]; reflexivity]. Qed.

(* both halves in one statement (C13_best_overlap_spec) *)
Theorem best_overlap_spec a b c d :
  (forall v, best_overlap a b c d = Ok v <-> (v = Z.min b d /\ a <= v /\ c <= v)) /\
  ((exists t, best_overlap a b c d = Exc t) <-> (forall v, ~ (a <= v <= b /\ c <= v <= d))).
Proof. split; [intros v; apply best_overlap_ok | apply best_overlap_exc]. Qed.

Lemma best_overlap_sym a b c d v : best_overlap a b c d = Ok v -> best_overlap c d a b = Ok v.
Proof. intros H%best_overlap_ok. apply best_overlap_ok. lia. Qed.

Lemma best_overlap_sym_exc a b c d t :
  best_overlap a b c d = Exc t -> exists t', best_overlap c d a b = Exc t'.
Proof.
  intros H. apply best_overlap_exc. intros v [H1 H2].
  exact (proj1 (best_overlap_exc a b c d) (ex_intro _ t H) v (conj H2 H1)).
Qed.

Lemma check_inrange_ok a b v : check_inrange a b v = Ok tt <-> a <= v <= b.
Proof.
  unfold check_inrange. destruct (Z.ltb_spec v a); [split; [discriminate|lia]|].
  destruct (Z.gtb_spec v b); [split; [discriminate|lia]|split; [lia|reflexivity]].
Qed.

Lemma str_ltb_irrefl a : str_ltb a a = false.
Proof. induction a as [|x a IH]; cbn [str_ltb]; [reflexivity|]. rewrite Z.ltb_irrefl. exact IH. Qed.

Lemma str_ltb_asym a b : str_ltb a b = true -> str_ltb b a = false.
Proof.
  revert b; induction a as [|x a IH]; intros [|y b]; cbn [str_ltb]; try discriminate; try reflexivity.
  destruct (Z.ltb_spec x y), (Z.ltb_spec y x); try lia; try discriminate; auto.
Qed.

Lemma str_ltb_total a b : a <> b -> str_ltb a b = true \/ str_ltb b a = true.
Proof.
  revert b; induction a as [|x a IH]; intros [|y b] Hne; cbn [str_ltb]; auto; try congruence.
  destruct (Z.ltb_spec x y), (Z.ltb_spec y x); auto; try lia.
  assert (x = y) by lia; subst. apply IH. congruence.
Qed.

Lemma str_ltb_eq_false a b : str_ltb a b = false -> str_ltb b a = false -> a = b.
Proof.
  intros H1 H2. destruct (list_eq_dec Z.eq_dec a b) as [E|N]; [exact E|].
  destruct (str_ltb_total _ _ N) as [H|H]; congruence.
Qed.

Definition order_op (op : cmpop) : bool :=
  match op with CmpGt | CmpGe | CmpLt | CmpLe => true | _ => false end.

Lemma one_decider_op op x y :
  order_op op = true -> x <> y ->
  ((if cmp_eval op x y then 1 else 0) + (if cmp_eval op y x then 1 else 0) = 1)%nat.
Proof.
  intros Hop Hne.
  destruct (str_ltb_total _ _ Hne) as [H|H]; pose proof (str_ltb_asym _ _ H) as H';
    destruct op; try discriminate; cbn [cmp_eval]; rewrite H, H'; reflexivity.
Qed.

Theorem one_decider a b : ep_id a <> ep_id b -> masters a b = 1%nat.
Proof. intros Hne. unfold masters, i_am_master. apply one_decider_op; [reflexivity | exact Hne]. Qed.

(* never two deciders; none exactly when the two ids are equal (both ends then wait for a decision that nobody sends, and the
   attempt ends by the negotiation timeout) *)
Theorem decider_count a b :
  masters a b = (if list_eqb (ep_id a) (ep_id b) then 0 else 1)%nat.
Proof.
  destruct (list_eqb (ep_id a) (ep_id b)) eqn:E.
  - apply list_eqb_eq in E. unfold masters, i_am_master, master_cmp, cmp_eval. rewrite E, str_ltb_irrefl. reflexivity.
  - apply one_decider. intros H. apply list_eqb_eq in H. congruence.
Qed.

Theorem no_decider_iff_equal_ids a b : masters a b = 0%nat <-> ep_id a = ep_id b.
Proof.
  rewrite decider_count, <- list_eqb_eq. destruct (list_eqb (ep_id a) (ep_id b)); split; (reflexivity || discriminate).
Qed.

Theorem equal_ids_both_fail a b : ep_id a = ep_id b -> exists w, negotiate a b = (Failed w, Failed w).
Proof.
  intros E. unfold negotiate, i_am_master, master_cmp, cmp_eval. rewrite E, str_ltb_irrefl. eexists; reflexivity.
Qed.

Definition in_range lo hi v := lo <= v <= hi.

Definition best_common (alo ahi blo bhi v : Z) : Prop :=
  in_range alo ahi v /\ in_range blo bhi v /\
  forall w, in_range alo ahi w -> in_range blo bhi w -> w <= v.

Definition agreed (a b : endpoint) (p : params) : Prop :=
  best_common (ep_vmin a) (ep_vmax a) (ep_vmin b) (ep_vmax b) (p_version p) /\
  best_common (ep_vocmin a) (ep_vocmax a) (ep_vocmin b) (ep_vocmax b) (p_vocab p) /\
  (hash_checked_from_index <= p_vocab p -> ep_hash a (p_vocab p) = ep_hash b (p_vocab p)).

(* what the decider computes on its own: the highest common version and the highest common table *)
Definition best_params (a b : endpoint) (p : params) : Prop :=
  best_common (ep_vmin a) (ep_vmax a) (ep_vmin b) (ep_vmax b) (p_version p) /\
  best_common (ep_vocmin a) (ep_vocmax a) (ep_vocmin b) (ep_vocmax b) (p_vocab p).

(* the class invariant asserted by Negotiation.__init__: every version of the own range has its accept method *)
Definition implements_own_range (e : endpoint) : Prop :=
  forall v, ep_vmin e <= v <= ep_vmax e -> ep_accepts e v = true.

Definition compatible (m s : endpoint) : Prop :=
  (exists v, in_range (ep_vmin m) (ep_vmax m) v /\ in_range (ep_vmin s) (ep_vmax s) v) /\
  (exists i, in_range (ep_vocmin m) (ep_vocmax m) i /\ in_range (ep_vocmin s) (ep_vocmax s) i /\
             (forall j, in_range (ep_vocmin m) (ep_vocmax m) j -> in_range (ep_vocmin s) (ep_vocmax s) j -> j <= i) /\
             (hash_checked_from_index <= i -> ep_hash m i = ep_hash s i)).

(* the two exceptions negotiate.py reports as a failed negotiation (tokens.NegotiationError, RemoteNegotiationError).  The loss of an
   established connection is NOT one of them: an end that has switched and then loses the connection is SwitchedThenLost *)
Definition negotiation_error (t : string) : Prop :=
  t = "NegotiationError"%string \/ t = "RemoteNegotiationError"%string.

(* the two pairs of ranges meet: exactly then the decider SENDS a decision (decision_sent_iff) *)
Definition ranges_meet (a b : endpoint) : Prop :=
  (exists v, in_range (ep_vmin a) (ep_vmax a) v /\ in_range (ep_vmin b) (ep_vmax b) v) /\
  (exists i, in_range (ep_vocmin a) (ep_vocmax a) i /\ in_range (ep_vocmin b) (ep_vocmax b) i).

Lemma best_common_sym alo ahi blo bhi v :
  best_common alo ahi blo bhi v -> best_common blo bhi alo ahi v.
Proof. intros (H1 & H2 & H3). split; [exact H2|split; [exact H1|intros w Hb Ha; apply H3; assumption]]. Qed.

Lemma agreed_sym a b p : agreed a b p -> agreed b a p.
Proof.
  intros (H1 & H2 & H3). split; [apply best_common_sym; exact H1|split; [apply best_common_sym; exact H2|]].
  intros H; symmetry; auto.
Qed.

Lemma best_params_sym a b p : best_params a b p -> best_params b a p.
Proof. intros [H1 H2]; split; apply best_common_sym; assumption. Qed.

Lemma agreed_best_params a b p : agreed a b p -> best_params a b p.
Proof. intros (H1 & H2 & _); split; assumption. Qed.

Lemma compatible_sym m s : compatible m s -> compatible s m.
Proof.
  intros ((v & H1 & H2) & (i & H3 & H4 & H5 & H6)). split; [exists v; auto|].
  exists i. split; [exact H4|split; [exact H3|split; [intros j Ha Hb; apply H5; assumption|intros H; symmetry; auto]]].
Qed.

Lemma ranges_meet_sym a b : ranges_meet a b -> ranges_meet b a.
Proof. intros ((v & H1 & H2) & (i & H3 & H4)). split; [exists v|exists i]; auto. Qed.

Lemma compatible_ranges_meet a b : compatible a b -> ranges_meet a b.
Proof. intros (Hv & (i & H3 & H4 & _)). split; [exact Hv|exists i; auto]. Qed.

Lemma agreed_compatible a b p : agreed a b p -> compatible a b.
Proof.
  intros ((V1 & V2 & _) & (I1 & I2 & I3) & H). split; [exists (p_version p); split; assumption|].
  exists (p_vocab p). split; [exact I1|split; [exact I2|split; [exact I3|exact H]]].
Qed.

(* the highest common table is unique, so a compatible pair agrees on the hash of whichever is found *)
Lemma compatible_hash m s i :
  compatible m s -> best_common (ep_vocmin m) (ep_vocmax m) (ep_vocmin s) (ep_vocmax s) i ->
  hash_checked_from_index <= i -> ep_hash m i = ep_hash s i.
Proof.
  intros (_ & j & Jm & Js & Jmax & Jh) (Im & Is & Imax).
  replace i with j; [exact Jh|apply Z.le_antisymm; auto].
Qed.

Lemma best_overlap_common a b c d v : best_overlap a b c d = Ok v -> best_common a b c d v.
Proof.
  intros (-> & Ha & Hc)%best_overlap_ok. unfold best_common, in_range.
  split; [lia|split; [lia|intros w Hw1 Hw2; lia]].
Qed.

Lemma best_overlap_some a b c d : (exists v, best_overlap a b c d = Ok v) <-> (exists v, in_range a b v /\ in_range c d v).
Proof.
  unfold in_range. destruct (best_overlap_cases a b c d) as [(H1 & H2 & ->)|(H & ->)].
  - split; [intros _; exists (Z.min b d); lia|eauto].
  - split; [intros [v [=]]|intros (v & H1 & H2); lia].
Qed.

Lemma master_decide_ok m s d :
  master_decide m s = Ok d <->
  best_overlap (ep_vmin m) (ep_vmax m) (ep_vmin s) (ep_vmax s) = Ok (d_version d) /\
  best_overlap (ep_vocmin m) (ep_vocmax m) (ep_vocmin s) (ep_vocmax s) = Ok (d_vocab d) /\
  d_hash d = ep_hash m (d_vocab d).
Proof.
  unfold master_decide, eval_hello.
  destruct (best_overlap (ep_vmin m) _ _ _) as [ver|t1]; [|split; [discriminate|intros ([=] & _)]].
  destruct (best_overlap (ep_vocmin m) _ _ _) as [idx|t2]; [|split; [discriminate|intros (_ & [=] & _)]].
  split; [intros [= <-]; auto|destruct d; cbn; intros ([= ->] & [= ->] & ->); reflexivity].
Qed.

Theorem decision_sent_iff m s : (exists d, master_decide m s = Ok d) <-> ranges_meet m s.
Proof.
  unfold ranges_meet. rewrite <- !best_overlap_some. split.
  - intros (d & (E1 & E2 & _)%master_decide_ok). eauto.
  - intros ((v & E1) & (i & E2)). exists {| d_version := v; d_vocab := i; d_hash := ep_hash m i |}.
    apply master_decide_ok. auto.
Qed.

Lemma master_decide_exc m s t : master_decide m s = Exc t -> t = "NegotiationError"%string /\ ~ ranges_meet m s.
Proof.
  intros E. split.
  - revert E. unfold master_decide, eval_hello. destruct (best_overlap (ep_vmin m) _ _ _) eqn:E1.
    + destruct (best_overlap (ep_vocmin m) _ _ _) eqn:E2; [discriminate|]. intros [= <-]. exact (best_overlap_tag _ _ _ _ _ E2).
    + intros [= <-]. exact (best_overlap_tag _ _ _ _ _ E1).
  - intros (d & Ed)%decision_sent_iff. congruence.
Qed.

Lemma master_decide_best m s d : master_decide m s = Ok d -> best_params m s (params_of d) /\ d_hash d = ep_hash m (d_vocab d).
Proof.
  intros (E1 & E2 & Hh)%master_decide_ok. split; [split; apply best_overlap_common; assumption|exact Hh].
Qed.

(* acceptDecisionVersion1's test `vocab_index > 0 and our_hash != vocab_hash` *)
Lemma hash_guard_false i x y :
  (hash_checked_from_index <=? i) && negb (x =? y) = false <-> (hash_checked_from_index <= i -> y = x).
Proof.
  destruct (Z.leb_spec hash_checked_from_index i) as [L|L]; cbn [andb].
  - destruct (Z.eqb_spec x y) as [E|N]; cbn [negb]; split; auto; [discriminate|intros H; elim N; symmetry; auto].
  - split; [intros _ H; lia|reflexivity].
Qed.

Lemma slave_accept_ok s d p :
  slave_accept s d = Ok p -> p = params_of d /\ (hash_checked_from_index <= d_vocab d -> d_hash d = ep_hash s (d_vocab d)).
Proof.
  unfold slave_accept. destruct (negb _); [discriminate|]. destruct (check_inrange _ _ _); [|discriminate].
  destruct (_ && _) eqn:G; [discriminate|]. intros [= <-]. split; [reflexivity|apply hash_guard_false, G].
Qed.

Lemma slave_accept_in_range s d :
  ep_accepts s (d_version d) = true -> in_range (ep_vocmin s) (ep_vocmax s) (d_vocab d) ->
  slave_accept s d = if (hash_checked_from_index <=? d_vocab d) && negb (ep_hash s (d_vocab d) =? d_hash d)
                     then Exc "NegotiationError" else Ok (params_of d).
Proof. intros A R. unfold slave_accept. rewrite A, (proj2 (check_inrange_ok _ _ _) R). reflexivity. Qed.

(* the three ways one attempt can end, seen from the decider m and the other end s *)
Definition both_switched (m s : endpoint) (om os : outcome) : Prop := exists p, om = Banana p /\ os = Banana p /\ agreed m s p.
Definition both_abandoned (om os : outcome) : Prop := exists w1 w2, om = Failed w1 /\ os = Failed w2.
Definition decider_switched_alone (m s : endpoint) (om os : outcome) : Prop :=
  exists p w, om = SwitchedThenLost p /\ os = Failed w /\ best_params m s p.

Lemma run_agreement m s om os :
  run m s = (om, os) ->
  both_switched m s om os \/ both_abandoned om os \/ decider_switched_alone m s om os.
Proof.
  unfold run. destruct (master_decide m s) as [d|tm] eqn:Ed.
  2:{ intros [= <- <-]. right; left. destruct (eval_hello s m); red; eauto. }
  apply master_decide_best in Ed as [Bp Hh].
  destruct (eval_hello s m) as [v0|ts]; [|intros [= <- <-]; right; right; red; eauto].
  destruct (slave_accept s d) as [p|t] eqn:Ea; intros [= <- <-]; [|right; right; red; eauto].
  apply slave_accept_ok in Ea as [-> Hs]. left. exists (params_of d). split; [reflexivity|split; [reflexivity|]].
  destruct Bp as [B1 B2]. split; [exact B1|split; [exact B2|]]. rewrite Hh in Hs. exact Hs.
Qed.

Lemma negotiate_cases a b : ep_id a <> ep_id b ->
  (i_am_master (ep_id a) (ep_id b) = true /\ negotiate a b = run a b) \/
  (i_am_master (ep_id b) (ep_id a) = true /\ i_am_master (ep_id a) (ep_id b) = false /\ negotiate a b = swap (run b a)).
Proof.
  intros Hne. pose proof (one_decider a b Hne) as H. unfold masters in H. unfold negotiate.
  destruct (i_am_master (ep_id a) (ep_id b)), (i_am_master (ep_id b) (ep_id a)); try discriminate; auto.
Qed.

(* "either both switch to the RPC protocol with identical parameters ... or both abandon the connection" is FALSE of the code and
   of the faithful model (agreement_two_way_refuted below); what holds for any two endpoints with distinct ids is the THREE-way
   statement: identical parameters on both sides, or both abandon before anything was created, or -- the non-decider refused after
   the decision had been sent -- the DECIDER ALONE has switched (with the highest common version and table) and then loses the
   connection, while the non-decider abandons with its error.  Never does the non-decider switch alone, never do the two ends run
   with different parameters. *)
Theorem agreement a b oa ob :
  ep_id a <> ep_id b -> negotiate a b = (oa, ob) ->
  both_switched a b oa ob \/ both_abandoned oa ob \/
  (i_am_master (ep_id a) (ep_id b) = true /\ decider_switched_alone a b oa ob) \/
  (i_am_master (ep_id b) (ep_id a) = true /\ decider_switched_alone b a ob oa).
Proof.
  intros Hne E. destruct (negotiate_cases a b Hne) as [[Ma N]|(Mb & _ & N)]; rewrite N in E.
  - destruct (run_agreement _ _ _ _ E) as [H|[H|H]]; auto.
  - assert (E' : run b a = (ob, oa)) by (destruct (run b a); injection E as <- <-; reflexivity).
    destruct (run_agreement _ _ _ _ E') as [(p & -> & -> & Hp)|[(w1 & w2 & -> & ->)|H]].
    + left. exists p. auto using agreed_sym.
    + right; left. red; eauto.
    + auto.
Qed.

Definition ex_a := {| ep_id := [98]; ep_vmin := 1; ep_vmax := 3; ep_vocmin := 0; ep_vocmax := 1;
                      ep_hash := fun i => i * 7; ep_accepts := fun _ => true |}.
Definition ex_b := {| ep_id := [97]; ep_vmin := 2; ep_vmax := 5; ep_vocmin := 1; ep_vocmax := 4;
                      ep_hash := fun i => i * 7; ep_accepts := fun _ => true |}.
Example negotiate_example :
  negotiate ex_a ex_b = (Banana {| p_version := 3; p_vocab := 1 |}, Banana {| p_version := 3; p_vocab := 1 |}).
Proof. vm_compute. reflexivity. Qed.

Example compatible_example : compatible ex_a ex_b /\ implements_own_range ex_a /\ implements_own_range ex_b /\ ep_id ex_a <> ep_id ex_b.
Proof.
  split; [|split; [intros v _; reflexivity|split; [intros v _; reflexivity|discriminate]]].
  split; [exists 3; unfold in_range; cbn; lia|]. exists 1. unfold in_range; cbn.
  split; [lia|split; [lia|split; [intros j; lia|reflexivity]]].
Qed.

(* one run with the class invariant on the non-decider (never the AttributeError of a missing accept method).  All four
   conditions are symmetric in the two ends, so the same holds with m and s exchanged. *)
Inductive run_case (m s : endpoint) : outcome * outcome -> Prop :=
| NoDecision w : ~ ranges_meet m s -> negotiation_error w -> run_case m s (Failed "NegotiationError", Failed w)
| Accepted p : compatible m s -> agreed m s p -> run_case m s (Banana p, Banana p)
| Refused p : ranges_meet m s -> ~ compatible m s -> best_params m s p ->
              run_case m s (SwitchedThenLost p, Failed "NegotiationError").

Lemma run_case_sym m s r : run_case m s r -> run_case s m r.
Proof.
  intros [w NM Hw|p C Ag|p RM NC Bp].
  - apply NoDecision; [intros R; apply NM, ranges_meet_sym, R|exact Hw].
  - apply Accepted; [apply compatible_sym, C|apply agreed_sym, Ag].
  - apply Refused; [apply ranges_meet_sym, RM|intros C; apply NC, compatible_sym, C|apply best_params_sym, Bp].
Qed.

Lemma run_cases m s : implements_own_range s -> run_case m s (run m s).
Proof.
  intros Inv. unfold run. destruct (master_decide m s) as [d|t] eqn:Ed.
  - pose proof (proj1 (decision_sent_iff m s) (ex_intro _ d Ed)) as RM.
    apply master_decide_ok in Ed as (E1 & E2 & Hh).
    unfold eval_hello. rewrite (best_overlap_sym _ _ _ _ _ E1).
    apply best_overlap_common in E1, E2. pose proof E1 as (_ & V & _). pose proof E2 as (_ & I & _).
    rewrite (slave_accept_in_range s d (Inv _ V) I), Hh.
    destruct (_ && _) eqn:G.
    + apply Refused; [exact RM| |split; assumption].
      intros C. rewrite (proj2 (hash_guard_false _ _ _) (compatible_hash m s _ C E2)) in G. discriminate.
    + assert (Ag : agreed m s (params_of d)) by (split; [exact E1|split; [exact E2|apply hash_guard_false, G]]).
      apply Accepted; [exact (agreed_compatible _ _ _ Ag)|exact Ag].
  - apply master_decide_exc in Ed as [-> NM].
    destruct (eval_hello s m) as [v|ts] eqn:Eh; apply NoDecision; try exact NM; [right; reflexivity|].
    left. exact (best_overlap_tag _ _ _ _ _ Eh).
Qed.

(* the outcome of the attempt with the decider's result first *)
Definition decider_first (a b : endpoint) (r : outcome * outcome) : outcome * outcome :=
  if i_am_master (ep_id a) (ep_id b) then r else swap r.

Lemma decider_first_inv a b r x y : decider_first a b r = (x, y) -> r = (x, y) \/ r = (y, x).
Proof. unfold decider_first, swap. destruct (i_am_master _ _), r; cbn [fst snd]; intros [= <- <-]; auto. Qed.

Theorem negotiate_classified a b :
  ep_id a <> ep_id b -> implements_own_range a -> implements_own_range b -> run_case a b (decider_first a b (negotiate a b)).
Proof.
  intros Hne Ia Ib. unfold decider_first. destruct (negotiate_cases a b Hne) as [[-> ->]|(_ & -> & ->)].
  - apply run_cases, Ib.
  - replace (swap (swap (run b a))) with (run b a) by (destruct (run b a); reflexivity). apply run_case_sym, run_cases, Ia.
Qed.

(* "either both switch ... with identical parameters ... or both abandon the connection with a negotiation error", EXACTLY: for every
   two endpoints with distinct ids that satisfy the class invariant,
   (1) both get the same parameters iff the ranges meet and the table chosen has the same hash on both sides (compatible);
   (2) when the ranges do not meet -- the failure happens BEFORE a decision is sent -- both abandon, each with a negotiation error;
   (3) when the ranges meet but the two are not compatible -- the failure happens AFTER the decision was sent -- the non-decider
       abandons with NegotiationError, and the decider has ALREADY switched with the highest common version and table: it ends
       SwitchedThenLost, not with a negotiation error.  (3) is where the real code departs from the property text (known finding
       oracle/decider-switched-before-refusal). *)
Theorem agreement_exact a b :
  ep_id a <> ep_id b -> implements_own_range a -> implements_own_range b ->
  (compatible a b -> exists p, negotiate a b = (Banana p, Banana p) /\ agreed a b p) /\
  (~ ranges_meet a b -> exists w1 w2, negotiate a b = (Failed w1, Failed w2) /\ negotiation_error w1 /\ negotiation_error w2) /\
  (ranges_meet a b -> ~ compatible a b ->
     exists p, best_params a b p /\ decider_first a b (negotiate a b) = (SwitchedThenLost p, Failed "NegotiationError")).
Proof.
  intros Hne Ia Ib. pose proof (negotiate_classified a b Hne Ia Ib) as K.
  remember (decider_first a b (negotiate a b)) as r eqn:E. symmetry in E.
  destruct K as [w NM Hw|p C Ag|p RM NC Bp].
  - split; [intros C; elim NM; apply compatible_ranges_meet, C|]. split; [|intros RM; contradiction].
    intros _. destruct (decider_first_inv _ _ _ _ _ E) as [-> | ->]; do 2 eexists; (split; [reflexivity|]);
      split; (exact Hw || (left; reflexivity)).
  - split; [|split; [intros NM; elim NM; apply compatible_ranges_meet, C|intros _ NC; contradiction]].
    intros _. exists p. split; [|exact Ag]. destruct (decider_first_inv _ _ _ _ _ E) as [-> | ->]; reflexivity.
  - split; [intros C; contradiction|]. split; [intros NM; contradiction|].
    intros _ _. exists p. split; [exact Bp|reflexivity].
Qed.

(* "both abandon the connection with a negotiation error" happens exactly when the failure precedes the decision
   (decision_sent_iff); between that and "both switch" lies the refused decision *)
Theorem both_abandon_iff_no_decision a b :
  ep_id a <> ep_id b -> implements_own_range a -> implements_own_range b ->
  ((exists w1 w2, negotiate a b = (Failed w1, Failed w2)) <-> ~ ranges_meet a b) /\
  ((exists p, negotiate a b = (Banana p, Banana p)) <-> compatible a b).
Proof.
  intros Hne Ia Ib. pose proof (negotiate_classified a b Hne Ia Ib) as K.
  remember (decider_first a b (negotiate a b)) as r eqn:E. symmetry in E.
  destruct K as [w NM Hw|p C Ag|p RM NC Bp].
  - assert (F : exists w1 w2, negotiate a b = (Failed w1, Failed w2))
      by (destruct (decider_first_inv _ _ _ _ _ E) as [-> | ->]; eauto).
    split; split; [intros _; exact NM|intros _; exact F| |intros C; elim NM; apply compatible_ranges_meet, C].
    destruct F as (w1 & w2 & ->). intros (q & [=]).
  - assert (N : negotiate a b = (Banana p, Banana p)) by (destruct (decider_first_inv _ _ _ _ _ E) as [N|N]; exact N).
    rewrite N. split; split; [intros (w1 & w2 & [=])|intros NM; elim NM; apply compatible_ranges_meet, C|intros _; exact C|eauto].
  - destruct (decider_first_inv _ _ _ _ _ E) as [-> | ->];
      (split; split; [intros (w1 & w2 & [=])|intros NM; contradiction|intros (q & [=])|intros C; contradiction]).
Qed.

(* The hypothesis on the accept methods is the class invariant of Negotiation.__init__ (every version of the OWN range has its
   accept method); `forall v, ep_accepts e v = true` would be false of any endpoint modelling the real class *)
Theorem success_when_compatible a b :
  ep_id a <> ep_id b ->
  (exists v, in_range (ep_vmin a) (ep_vmax a) v /\ in_range (ep_vmin b) (ep_vmax b) v) ->
  (exists i, in_range (ep_vocmin a) (ep_vocmax a) i /\ in_range (ep_vocmin b) (ep_vocmax b) i) ->
  (forall i, ep_hash a i = ep_hash b i) ->
  implements_own_range a -> implements_own_range b ->
  exists p, negotiate a b = (Banana p, Banana p).
Proof.
  intros Hne (v & Hva & Hvb) (i & Hia & Hib) Hh Ia Ib.
  destruct (agreement_exact a b Hne Ia Ib) as [S _].
  destruct S as (p & E & _); [|exists p; exact E].
  split; [exists v; auto|]. unfold in_range in *.
  exists (Z.min (ep_vocmax a) (ep_vocmax b)). repeat split; try lia. intros _. apply Hh.
Qed.

(* the two-way statement of the property text -- for two endpoints with distinct ids that satisfy the class invariant, either both
   switch with the same parameters or both abandon -- is FALSE: both ends offer version 3..3 and table 1..1, and their table 1
   differs (the real code: the same ranges, the hash in the decision rewritten in flight; replayed on every run) *)
Definition ex_ra := {| ep_id := [98]; ep_vmin := 3; ep_vmax := 3; ep_vocmin := 1; ep_vocmax := 1;
                       ep_hash := fun i => i * 7 + 1; ep_accepts := fun v => (1 <=? v) && (v <=? 3) |}.
Definition ex_rb := {| ep_id := [97]; ep_vmin := 3; ep_vmax := 3; ep_vocmin := 1; ep_vocmax := 1;
                       ep_hash := fun i => i * 7; ep_accepts := fun v => (1 <=? v) && (v <=? 3) |}.

Lemma ex_r_inv : implements_own_range ex_ra /\ implements_own_range ex_rb /\ ep_id ex_ra <> ep_id ex_rb.
Proof.
  split; [|split; [|discriminate]]; intros v Hv; cbn in *; assert (v = 3) by lia; subst; reflexivity.
Qed.

Theorem agreement_two_way_refuted :
  exists a b oa ob, ep_id a <> ep_id b /\ implements_own_range a /\ implements_own_range b /\ negotiate a b = (oa, ob) /\
    ~ ((exists p, oa = Banana p /\ ob = Banana p) \/ (exists w1 w2, oa = Failed w1 /\ ob = Failed w2)) /\
    oa = SwitchedThenLost {| p_version := 3; p_vocab := 1 |} /\ ob = Failed "NegotiationError".
Proof.
  exists ex_ra, ex_rb. do 2 eexists. destruct ex_r_inv as (Ia & Ib & Hne).
  split; [exact Hne|split; [exact Ia|split; [exact Ib|split; [vm_compute; reflexivity|split; [|split; reflexivity]]]]].
  intros [(p & E & _)|(w1 & w2 & E & _)]; discriminate.
Qed.

(* the refused-decision region of agreement_exact is inhabited, and so is the region where both abandon *)
Example refused_decision_example : ranges_meet ex_ra ex_rb /\ ~ compatible ex_ra ex_rb.
Proof.
  split.
  - split; [exists 3|exists 1]; unfold in_range; cbn; lia.
  - intros (_ & (i & Hi & _ & _ & Hh)). unfold in_range in Hi. cbn in Hi, Hh. assert (i = 1) by lia. subst.
    assert (X : hash_checked_from_index <= 1) by (unfold hash_checked_from_index; lia). specialize (Hh X). discriminate.
Qed.

Definition ex_na := {| ep_id := [98]; ep_vmin := 1; ep_vmax := 2; ep_vocmin := 0; ep_vocmax := 1;
                       ep_hash := fun i => i * 7; ep_accepts := fun v => (1 <=? v) && (v <=? 3) |}.
Definition ex_nb := {| ep_id := [97]; ep_vmin := 3; ep_vmax := 3; ep_vocmin := 0; ep_vocmax := 1;
                       ep_hash := fun i => i * 7; ep_accepts := fun v => (1 <=? v) && (v <=? 3) |}.
Example no_decision_example :
  ~ ranges_meet ex_na ex_nb /\ negotiate ex_na ex_nb = (Failed "NegotiationError", Failed "NegotiationError").
Proof.
  split; [|vm_compute; reflexivity].
  intros ((v & H1 & H2) & _). unfold in_range in *. cbn in *. lia.
Qed.

(* the non-decider checks the decided version only against the accept methods it HAS, not against the range it offered nor
   against the version it computed itself from the decider's hello: a decider that does not follow the protocol can make it
   run a version outside its own range (the class has acceptDecisionVersion1..3 while minVersion = maxVersion = 3) *)
Theorem slave_checks_own_range_refuted :
  exists s d p, implements_own_range s /\ ~ in_range (ep_vmin s) (ep_vmax s) (d_version d) /\ slave_accept s d = Ok p /\ p_version p = d_version d.
Proof.
  exists {| ep_id := [97]; ep_vmin := 3; ep_vmax := 3; ep_vocmin := 0; ep_vocmax := 1; ep_hash := fun i => i * 7;
            ep_accepts := fun v => (1 <=? v) && (v <=? 3) |},
         {| d_version := 1; d_vocab := 1; d_hash := 7 |}.
  eexists. split; [|split; [|split; [vm_compute; reflexivity|reflexivity]]].
  - intros v Hv. cbn in *. assert (v = 3) by lia. subst. reflexivity.
  - unfold in_range. cbn. lia.
Qed.

(* ... whereas what an honest decider sends is always inside the non-decider's own range *)
Theorem honest_decision_in_range m s d :
  master_decide m s = Ok d -> in_range (ep_vmin s) (ep_vmax s) (d_version d) /\ in_range (ep_vocmin s) (ep_vocmax s) (d_vocab d).
Proof. intros [[(_ & V & _) (_ & I & _)] _]%master_decide_best. split; assumption. Qed.

(* The verdict on a header block, read from Negotiation.dataReceived by symbolic execution (whatever the arrangement of the
   tests in the source), equals the specification: refuse when the terminator lies beyond the cap, or is absent although
   cap + slack bytes are buffered (a terminator that starts within the cap can then no longer be completed); wait when it is
   absent; otherwise split there.  The verdict is a function of where the terminator is and of how many bytes are buffered:
   nothing else -- not the packet boundaries, not what follows the block -- enters. *)
Definition header_spec (eoh buflen : Z) : Z :=
  if (negotiation_header_cap <? eoh) || ((eoh =? -1) && (negotiation_header_cap + negotiation_noterm_slack <=? buflen)) then 0
  else if eoh =? -1 then 1 else 2.

Theorem header_verdict_spec eoh buflen : header_verdict eoh buflen = header_spec eoh buflen.
Proof.
  (* by the outcome of the three comparisons, so that the nesting of the tests in the source does not matter *)
  unfold header_verdict, header_spec, negotiation_header_cap, negotiation_noterm_slack.
  destruct (Z.eqb_spec eoh (-1)); destruct (Z.ltb_spec 4096 eoh); destruct (Z.leb_spec 4100 buflen);
    destruct (Z.leb_spec (4096 + 4) buflen); (reflexivity || lia).
Qed.

(* a terminator found beyond 4096 bytes is refused, however much is buffered *)
Theorem header_verdict_beyond_cap eoh buflen : 4096 < eoh -> header_verdict eoh buflen = 0.
Proof.
  intros H. rewrite header_verdict_spec. unfold header_spec, negotiation_header_cap.
  rewrite (proj2 (Z.ltb_lt 4096 eoh) H). reflexivity.
Qed.

Lemma header_verdict_noterm_eq buflen : header_verdict (-1) buflen = if 4100 <=? buflen then 0 else 1.
Proof. reflexivity. Qed.

(* without a terminator (bytes.find gives -1) the buffer is refused exactly from 4096 + 4 bytes on: 4097..4099 bytes are KEPT,
   because a terminator that starts within the cap may still be completed by the next packet *)
Theorem header_verdict_noterm buflen : header_verdict (-1) buflen = 0 <-> 4100 <= buflen.
Proof. rewrite header_verdict_noterm_eq. destruct (Z.leb_spec 4100 buflen); split; (reflexivity || discriminate || lia). Qed.

Theorem header_verdict_noterm_waits buflen : header_verdict (-1) buflen = 1 <-> buflen < 4100.
Proof. rewrite header_verdict_noterm_eq. destruct (Z.leb_spec 4100 buflen); split; (reflexivity || discriminate || lia). Qed.

(* a terminator within the cap is split there, whatever follows it *)
Theorem header_verdict_within_cap eoh buflen : 0 <= eoh <= 4096 -> header_verdict eoh buflen = 2.
Proof.
  intros H. rewrite header_verdict_spec. unfold header_spec, negotiation_header_cap.
  rewrite (proj2 (Z.ltb_ge 4096 eoh)) by apply H. rewrite (proj2 (Z.eqb_neq eoh (-1))) by lia. reflexivity.
Qed.

(* both halves in one statement (C13_header_cap) *)
Theorem header_cap_verdict :
  (forall eoh buflen, 4096 < eoh -> header_verdict eoh buflen = 0) /\
  (forall buflen, header_verdict (-1) buflen = 0 <-> 4100 <= buflen).
Proof. split; [exact header_verdict_beyond_cap | exact header_verdict_noterm]. Qed.

Example header_4097_without_terminator_is_kept : header_verdict (-1) 4097 = 1 /\ header_verdict (-1) 4100 = 0 /\ header_verdict 4097 5000 = 0.
Proof. vm_compute. auto. Qed.
