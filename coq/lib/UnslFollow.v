(* "decoding of the following objects is unaffected", for every unslicer semantics (lib/Unsl.v):
   (1) once the root has absorbed a violation inside an object, the receiver is back at top level exactly at the end of that
       object, with the stack untouched and nothing but PONGs emitted;
   (2) what the receiver does with ANY following tokens depends only on discardCount, the index-phase flag, the unslicer stack,
       the object counter and the vocabulary: the scratch fields of a finished index phase (opentype, inboundObjectCount,
       inboundOpenCount) are never read before they are overwritten.  Two receivers that agree on the former produce the same
       events for every token sequence. *)
From Coq Require Import ZArith List Bool Lia.
Import ListNotations.
Require Import Verif.lib.PyLite Verif.gen.BananaGen Verif.gen.RecvGen Verif.lib.Token Verif.lib.Recv Verif.lib.RecvProofs Verif.lib.Unsl Verif.lib.UnslProofs.
Local Open Scope Z_scope.

Section Follow.
Variable fr : Type.
Variable u_check : fr -> Z -> Z -> oc unit.
Variable u_opener_check : list fr -> Z -> Z -> list (list Z) -> oc unit.
Variable u_do_open : list fr -> list (list Z) -> oc (option fr).
Variable u_start : fr -> Z -> oc fr.
Variable u_child : fr -> uval -> list uevent * oc fr.
Variable u_close : fr -> oc uval.
Variable u_finish : fr -> oc unit.
Variable u_report : fr -> option (list uevent).

Notation uctx := (uctx fr).
Notation uhandle_violation := (uhandle_violation fr u_finish u_report).
Notation uhandle_token := (uhandle_token fr u_child u_finish u_report).
Notation uhandle_close := (uhandle_close fr u_child u_close u_finish u_report).
Notation utok_apply := (utok_apply fr u_check u_opener_check u_do_open u_start u_child u_close u_finish u_report).
Notation uopened := (uopened fr).
Notation utasted := (utasted fr u_check u_opener_check u_finish u_report).
Notation uobject := (uobject fr u_do_open u_start u_child u_finish u_report).
Notation uclause := (uclause fr u_do_open u_start u_child u_close u_finish u_report).
Notation uapply_all := (uapply_all fr u_check u_opener_check u_do_open u_start u_child u_close u_finish u_report).

(* (1) *)
Theorem unsl_rejected_object_ends_at_top ts c c' es :
  List.length (u_stack fr c) = 1%nat -> u_inOpen fr c = false -> stays_discarding (u_discard fr c) ts -> u_discard fr c + udelta_sum ts = 0 ->
  uapply_all c ts = UOk fr c' es ->
  uat_top fr c' /\ u_stack fr c' = u_stack fr c /\ u_vocab fr c' = u_vocab fr c /\ only_pongs es.
Proof.
  intros L IO K Z E.
  destruct (unsl_discard_silent fr u_check u_opener_check u_do_open u_start u_child u_close u_finish u_report ts c c' es IO K E) as (S & I & D & V & P).
  split; [split; [lia|split; [exact I|rewrite S; exact L]]|auto].
Qed.

(* a PING anywhere is answered by exactly one PONG carrying the same number and changes nothing at all *)
Theorem unsl_ping_exact c n : In tok_PING hd_exempt -> utok_apply c tok_PING n [] = UOk fr c [UPong n].
Proof.
  intros HE. unfold Unsl.utok_apply. change (has_body tok_PING) with false. cbv iota.
  unfold Unsl.ustep_nobody_hr. change (tok_PING =? tok_OPEN) with false. cbn [andb].
  assert (X : existsb (Z.eqb tok_PING) hd_exempt = true) by (apply existsb_exists; exists tok_PING; split; [exact HE|apply Z.eqb_refl]).
  rewrite X, orb_true_r.
  change (tok_PING =? tok_CLOSE) with false. change (tok_PING =? tok_ABORT) with false.
  change (tok_PING =? tok_INT) with false. change (tok_PING =? tok_NEG) with false. change (tok_PING =? tok_VOCAB) with false.
  change (tok_PING =? tok_PING) with true. cbv iota. reflexivity.
Qed.

(* the CLOSE count is checked: a CLOSE whose number is not the number of the OPEN that created the innermost unslicer (the root
   has none) is "lost sync" -- the connection is abandoned, nothing is closed.  (Kills the mutant of opt_is that ignores the count.) *)
Theorem unsl_close_count_checked c n top rest : u_stack fr c = top :: rest -> uf_open fr top <> Some n ->
  uhandle_close c n = UFatal fr (ufatal 0).
Proof.
  intros Es NE. unfold Unsl.uhandle_close. rewrite Es.
  assert (X : opt_is (uf_open fr top) n = false).
  { unfold opt_is. destruct (uf_open fr top) as [m|]; [|reflexivity]. destruct (Z.eqb_spec m n); [subst; exfalso; apply NE; reflexivity|reflexivity]. }
  rewrite X. reflexivity.
Qed.

(* ... at token level: nothing being discarded, no index phase pending *)
Theorem unsl_close_token_count_checked c n top rest : existsb (Z.eqb tok_CLOSE) hd_exempt = true ->
  u_discard fr c = 0 -> u_inOpen fr c = false -> u_stack fr c = top :: rest -> uf_open fr top <> Some n ->
  utok_apply c tok_CLOSE n [] = UFatal fr (ufatal 0).
Proof.
  intros HE D IO Es NE. unfold Unsl.utok_apply. change (has_body tok_CLOSE) with false. cbv iota.
  unfold Unsl.ustep_nobody_hr. change (tok_CLOSE =? tok_OPEN) with false. cbn [andb]. rewrite HE, orb_true_r.
  change (tok_CLOSE =? tok_CLOSE) with true. cbv iota. rewrite IO, D. unfold hd_close_fatal. cbn [andb Z.ltb Z.compare].
  rewrite (unsl_close_count_checked c n top rest Es NE). reflexivity.
Qed.

(* and the matching CLOSE is not "lost sync": it reaches receiveClose *)
Theorem unsl_close_matching c n top rest : u_stack fr c = top :: rest -> uf_open fr top = Some n ->
  uhandle_close c n =
  match u_close (uf_st fr top) with
  | OViol => uhandle_violation c false true
  | OBanana => UFatal fr (ufatal 0)
  | OExc k => UFatal fr (ufatal k)
  | OOk obj => match u_finish (uf_st fr top) with
               | OViol => uhandle_violation c false true
               | OBanana => UFatal fr (ufatal 0)
               | OExc k => UFatal fr (ufatal k)
               | OOk _ => uhandle_token (uw_stack fr c (u_discard fr c) rest) obj
               end
  end.
Proof. intros Es EO. unfold Unsl.uhandle_close. rewrite Es, EO. unfold opt_is. rewrite Z.eqb_refl. reflexivity. Qed.

(* (2) *)
Definition set3 (c : uctx) (o : list (list Z)) (a b : Z) : uctx :=
  {| u_discard := u_discard fr c; u_inOpen := u_inOpen fr c; u_opentype := o; u_stack := u_stack fr c; u_objctr := u_objctr fr c;
     u_inbObj := a; u_inbOpen := b; u_vocab := u_vocab fr c |}.

Definition same_but_scratch (c1 c2 : uctx) : Prop :=
  u_discard fr c1 = u_discard fr c2 /\ u_inOpen fr c1 = u_inOpen fr c2 /\ u_stack fr c1 = u_stack fr c2 /\
  u_objctr fr c1 = u_objctr fr c2 /\ u_vocab fr c1 = u_vocab fr c2 /\
  (u_inOpen fr c1 = true -> u_opentype fr c1 = u_opentype fr c2 /\ u_inbObj fr c1 = u_inbObj fr c2 /\ u_inbOpen fr c1 = u_inbOpen fr c2).

Definition hr_rel (r1 r2 : uhr fr) : Prop :=
  match r1, r2 with
  | UOk _ c1 e1, UOk _ c2 e2 => e1 = e2 /\ same_but_scratch c1 c2
  | UFatal _ e1, UFatal _ e2 => e1 = e2
  | _, _ => False
  end.

Definition hr_map (g : uctx -> uctx) (r : uhr fr) : uhr fr := match r with UOk _ c es => UOk fr (g c) es | UFatal _ es => UFatal fr es end.

Lemma sbs_refl c : same_but_scratch c c.
Proof. unfold same_but_scratch. auto 10. Qed.

Lemma sbs_set3 c o a b : u_inOpen fr c = false -> same_but_scratch c (set3 c o a b).
Proof. intros H. unfold same_but_scratch, set3. cbn [u_discard u_inOpen u_stack u_objctr u_vocab u_opentype u_inbObj u_inbOpen]. do 5 (split; [reflexivity|]). intros K. rewrite H in K. discriminate. Qed.

Lemma hr_rel_refl r : hr_rel r r.
Proof. destruct r; cbn; auto using sbs_refl. Qed.

Lemma sbs_eq c1 c2 : same_but_scratch c1 c2 -> u_inOpen fr c1 = true -> c1 = c2.
Proof.
  intros (A & B & C & D & E & F) H. destruct (F H) as (G1 & G2 & G3). destruct c1, c2. cbn in *. subst. reflexivity.
Qed.

Lemma sbs_is_set3 c1 c2 : same_but_scratch c1 c2 -> c2 = set3 c1 (u_opentype fr c2) (u_inbObj fr c2) (u_inbOpen fr c2).
Proof. intros (A & B & C & D & E & F). destruct c1, c2. unfold set3. cbn in *. subst. reflexivity. Qed.

(* the handlers that never look at the scratch fields commute with overwriting them *)
Lemma hv_set3 c o a b io ic : uhandle_violation (set3 c o a b) io ic = hr_map (fun x => set3 x o a b) (uhandle_violation c io ic).
Proof. unfold Unsl.uhandle_violation. cbn [set3 u_stack u_discard]. destruct (uhv_loop _ _ _ _ _ _); reflexivity. Qed.

Lemma upre_map es g r : upre fr es (hr_map g r) = hr_map g (upre fr es r).
Proof. destruct r; reflexivity. Qed.

Lemma token_set3 c o a b v : uhandle_token (set3 c o a b) v = hr_map (fun x => set3 x o a b) (uhandle_token c v).
Proof.
  unfold Unsl.uhandle_token. cbn [set3 u_stack u_discard]. destruct (u_stack fr c) as [|top rest]; [reflexivity|].
  destruct (u_child (uf_st fr top) v) as [es r]. destruct r; try reflexivity.
  change (Unsl.uhandle_violation fr u_finish u_report (set3 c o a b) false false) with (uhandle_violation (set3 c o a b) false false).
  rewrite hv_set3, upre_map. reflexivity.
Qed.

Lemma close_set3 c o a b n : uhandle_close (set3 c o a b) n = hr_map (fun x => set3 x o a b) (uhandle_close c n).
Proof.
  unfold Unsl.uhandle_close. cbn [set3 u_stack u_discard]. destruct (u_stack fr c) as [|top rest]; [reflexivity|].
  destruct (negb _); [reflexivity|].
  destruct (u_close (uf_st fr top)); try reflexivity; try apply hv_set3.
  destruct (u_finish (uf_st fr top)); try reflexivity; try apply hv_set3.
  apply (token_set3 (uw_stack fr c (u_discard fr c) rest)).
Qed.

Lemma hr_map_rel r o a b : (match r with UOk _ c _ => u_inOpen fr c = false | UFatal _ _ => True end) -> hr_rel r (hr_map (fun x => set3 x o a b) r).
Proof. destruct r; cbn; intros H; auto using sbs_set3. Qed.

Lemma hv_inopen c io ic : match uhandle_violation c io ic with UOk _ c' _ => u_inOpen fr c' = u_inOpen fr c | UFatal _ _ => True end.
Proof. unfold Unsl.uhandle_violation. destruct (uhv_loop _ _ _ _ _ _); [reflexivity|exact I]. Qed.

Lemma token_inopen c v : match uhandle_token c v with UOk _ c' _ => u_inOpen fr c' = u_inOpen fr c | UFatal _ _ => True end.
Proof.
  unfold Unsl.uhandle_token. destruct (u_stack fr c) as [|top rest]; [exact I|]. destruct (u_child _ v) as [es r]. destruct r; try exact I; [reflexivity|].
  pose proof (hv_inopen c false false) as H. destruct (uhandle_violation c false false); exact H.
Qed.

Lemma close_inopen c n : match uhandle_close c n with UOk _ c' _ => u_inOpen fr c' = u_inOpen fr c | UFatal _ _ => True end.
Proof.
  unfold Unsl.uhandle_close. destruct (u_stack fr c) as [|top rest]; [exact I|]. destruct (negb _); [exact I|].
  destruct (u_close _); try exact I; try apply hv_inopen. destruct (u_finish _); try exact I; try apply hv_inopen.
  apply (token_inopen (uw_stack fr c (u_discard fr c) rest)).
Qed.

Lemma upre_rel es r1 r2 : hr_rel r1 r2 -> hr_rel (upre fr es r1) (upre fr es r2).
Proof. destruct r1, r2; cbn; intros H; try contradiction; [destruct H as [-> H]; auto|subst; reflexivity]. Qed.

Definition ts_map (g : uctx -> uctx) (t : tasted fr) : tasted fr :=
  match t with TsFatal _ es => TsFatal fr es | TsGo _ c es r => TsGo fr (g c) es r end.

Lemma tasted_set3 c o a b r0 ex ty hdr :
  utasted (set3 c o a b) false r0 ex ty hdr = ts_map (fun x => set3 x o a b) (utasted c false r0 ex ty hdr).
Proof.
  unfold UnslProofs.utasted. destruct (r0 || ex); [reflexivity|]. unfold Unsl.utaste. cbn [set3 u_stack u_inOpen].
  destruct (u_stack fr c) as [|top rest]; [reflexivity|]. destruct (u_check (uf_st fr top) ty hdr); try reflexivity.
  change (Unsl.uhandle_violation fr u_finish u_report (set3 c o a b) (u_inOpen fr c) false) with (uhandle_violation (set3 c o a b) (u_inOpen fr c) false).
  rewrite hv_set3. destruct (uhandle_violation c (u_inOpen fr c) false); reflexivity.
Qed.

Lemma opened_set3 c o a b ty : uopened (set3 c o a b) ty = set3 (uopened c ty) o (if ty =? tok_OPEN then u_objctr fr c else a) b.
Proof. unfold UnslProofs.uopened. destruct (ty =? tok_OPEN); reflexivity. Qed.

Lemma tasted_inopen c1 r0 ex ty hdr x es rej : u_inOpen fr c1 = false -> utasted c1 false r0 ex ty hdr = TsGo fr x es rej -> u_inOpen fr x = false.
Proof.
  intros IO E. destruct (tasted_cases _ _ _ _ _ _ _ _ _ _ _ _ _ _ E) as [(-> & _)|(_ & _ & _ & H)]; [exact IO|].
  unfold UnslProofs.uhv_index in H. destruct (uhandle_violation c1 _ _); [|discriminate]. inversion H; reflexivity.
Qed.

Lemma object_set3 x o a b es rej v : u_inOpen fr x = false -> hr_rel (uobject x es rej v) (uobject (set3 x o a b) es rej v).
Proof.
  intros IX. unfold UnslProofs.uobject. destruct rej; [cbn; split; [reflexivity|apply sbs_set3; exact IX]|].
  apply upre_rel. unfold Unsl.udeliver. cbn [set3 u_inOpen]. rewrite IX.
  change (Unsl.uhandle_token fr u_child u_finish u_report (set3 x o a b)) with (uhandle_token (set3 x o a b)).
  rewrite token_set3. apply hr_map_rel. pose proof (token_inopen x v) as H. destruct (uhandle_token x v); [rewrite H; exact IX|exact I].
Qed.

(* OPEN overwrites inboundOpenCount, and opentype when it is accepted; inboundObjectCount was written by uopened *)
Lemma clause_set3 x o a b es rej ty hdr : (ty = tok_OPEN -> rej = false -> a = u_inbObj fr x) -> (ty <> tok_OPEN -> u_inOpen fr x = false) ->
  hr_rel (uclause x es rej ty hdr) (uclause (set3 x o a b) es rej ty hdr).
Proof.
  intros HA IX. unfold UnslProofs.uclause.
  destruct (Z.eqb_spec ty tok_OPEN) as [->|NO].
  { cbv zeta. cbn [set3 u_discard u_inOpen u_opentype u_stack u_objctr u_inbObj u_inbOpen u_vocab]. destruct rej.
    - destruct (u_inOpen fr x); cbn; (split; [reflexivity|]); unfold same_but_scratch; cbn; repeat split; auto; discriminate.
    - rewrite (HA eq_refl eq_refl). cbn. split; [reflexivity|]. unfold same_but_scratch; cbn; repeat split; auto. }
  specialize (IX NO).
  assert (SAME : forall e, hr_rel (UOk fr x e) (UOk fr (set3 x o a b) e)) by (intros e; cbn; split; [reflexivity|apply sbs_set3; exact IX]).
  destruct (ty =? tok_CLOSE).
  { cbn [set3 u_discard u_inOpen]. destruct (hd_close_fatal _ _); [cbn; reflexivity|].
    destruct (0 <? u_discard fr x); [cbn; split; [reflexivity|apply (sbs_set3 (uw_stack fr x (u_discard fr x - 1) (u_stack fr x))); exact IX]|].
    apply upre_rel. change (Unsl.uhandle_close fr u_child u_close u_finish u_report (set3 x o a b) hdr) with (uhandle_close (set3 x o a b) hdr).
    rewrite close_set3. apply hr_map_rel. pose proof (close_inopen x hdr) as H. destruct (uhandle_close x hdr); [rewrite H; exact IX|exact I]. }
  destruct (ty =? tok_ABORT).
  { destruct rej; [apply SAME|]. destruct hd_abort_in_index; apply upre_rel.
    - unfold UnslProofs.uhv_index. cbn [set3 u_inOpen].
      change (Unsl.uhandle_violation fr u_finish u_report (set3 x o a b) (u_inOpen fr x) false) with (uhandle_violation (set3 x o a b) (u_inOpen fr x) false).
      rewrite hv_set3. destruct (uhandle_violation x (u_inOpen fr x) false) as [c3 es3|es3]; cbn; [|reflexivity].
      split; [reflexivity|]. apply (sbs_set3 (uw_inOpen fr c3 false)). reflexivity.
    - change (Unsl.uhandle_violation fr u_finish u_report (set3 x o a b) false false) with (uhandle_violation (set3 x o a b) false false).
      rewrite hv_set3. apply hr_map_rel. pose proof (hv_inopen x false false) as H. destruct (uhandle_violation x false false); [rewrite H; exact IX|exact I]. }
  destruct (ty =? tok_INT); [apply object_set3; exact IX|]. destruct (ty =? tok_NEG); [apply object_set3; exact IX|].
  destruct (ty =? tok_VOCAB). { cbn [set3 u_vocab]. destruct (uvocab_get (u_vocab fr x) hdr); [apply object_set3; exact IX|cbn; reflexivity]. }
  destruct (ty =? tok_PING); [apply SAME|]. destruct (ty =? tok_PONG); [apply SAME|cbn; reflexivity].
Qed.

(* one token, index phase not pending: the scratch fields do not matter *)
Lemma tok_apply_set3 c o a b ty hdr body : u_inOpen fr c = false ->
  hr_rel (utok_apply c ty hdr body) (utok_apply (set3 c o a b) ty hdr body).
Proof.
  intros IO. destruct (has_body ty) eqn:HB.
  - rewrite !(utok_apply_body _ _ _ _ _ _ _ _ _ _ _ _ _ HB). cbn [set3 u_inOpen u_discard]. rewrite IO, tasted_set3.
    destruct (utasted c false _ false ty hdr) as [|x es rej] eqn:ET; cbn [ts_map]; [reflexivity|].
    apply object_set3. apply (tasted_inopen _ _ _ _ _ _ _ _ IO ET).
  - unfold Unsl.utok_apply. rewrite HB, !ustep_nobody_hr_phases. cbn [set3 u_inOpen u_discard]. rewrite IO, !andb_false_r.
    rewrite opened_set3, tasted_set3. destruct (utasted (uopened c ty) false _ _ ty hdr) as [|x es rej] eqn:ET; cbn [ts_map]; [reflexivity|].
    apply clause_set3.
    + intros -> ->. destruct (tasted_cases _ _ _ _ _ _ _ _ _ _ _ _ _ _ ET) as [(-> & _)|(_ & _ & F & _)]; [reflexivity|discriminate].
    + intros NO. refine (tasted_inopen (uopened c ty) _ _ _ _ _ _ _ _ ET).
      unfold UnslProofs.uopened. destruct (Z.eqb_spec ty tok_OPEN); [contradiction|exact IO].
Qed.

Lemma tok_apply_rel c1 c2 ty hdr body : same_but_scratch c1 c2 -> hr_rel (utok_apply c1 ty hdr body) (utok_apply c2 ty hdr body).
Proof.
  intros S. destruct (u_inOpen fr c1) eqn:IO.
  - rewrite <- (sbs_eq c1 c2 S IO). apply hr_rel_refl.
  - rewrite (sbs_is_set3 c1 c2 S). apply tok_apply_set3. exact IO.
Qed.

(* "decoding of the following objects is unaffected": the same tokens give the same events from any two receivers that agree
   on discardCount, index-phase flag, unslicer stack, object counter and vocabulary *)
Theorem unsl_following_unaffected ts : forall c1 c2, same_but_scratch c1 c2 -> hr_rel (uapply_all c1 ts) (uapply_all c2 ts).
Proof.
  induction ts as [|[[ty hdr] body] ts IH]; intros c1 c2 S; cbn [Unsl.uapply_all].
  - cbn. auto.
  - pose proof (tok_apply_rel c1 c2 ty hdr body S) as R.
    destruct (utok_apply c1 ty hdr body) as [c1' e1|e1], (utok_apply c2 ty hdr body) as [c2' e2|e2]; cbn in R; try contradiction.
    + destruct R as [-> S']. apply upre_rel. apply IH. exact S'.
    + subst. cbn. reflexivity.
Qed.

End Follow.
