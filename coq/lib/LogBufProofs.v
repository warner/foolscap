(* C18: lemmas and theorems about lib/LogBuf.v (model) over gen/LogBufGen.v (translated constants / shape facts).
   The proofs unfold the translated values (trim_cmp, trim_pop, add_event_stages, sub_accept_cmp, ...): an edit of the
   source that changes one of them changes the generated file and these proofs are re-checked against it. *)
From Coq Require Import ZArith List Bool Lia Sorting.Permutation Sorting.Sorted.
Import ListNotations.
Require Import Verif.lib.PyLite Verif.gen.LogBufGen Verif.lib.LogBuf.
Local Open Scope Z_scope.

Lemma next_num_spec seq : next_num seq = (seq + 1, seq + 1).
Proof. reflexivity. Qed.

Lemma init_seq_val : init_seq = -1.
Proof. reflexivity. Qed.

Lemma msg_inner_seq c s e : s_seq (fst (fst (msg_inner c s e))) = s_seq s.
Proof. unfold msg_inner. destruct (cmpZ _ _ _); reflexivity. Qed.

Lemma msg_inner_sizes c s e : s_sizes (fst (fst (msg_inner c s e))) = s_sizes s.
Proof. unfold msg_inner. destruct (cmpZ _ _ _); reflexivity. Qed.

Definition ret_of (s : st) (o : op) : option Z :=
  match o with
  | Msg (Some n) _ _ _ _ _ => Some (fst n)
  | Msg None _ _ _ _ _ => Some (s_seq s + 1)
  | MsgBad _ _ => Some (s_seq s + 1)
  | _ => None
  end.

Lemma step_ret c s o : snd (step c s o) = ret_of s o.
Proof.
  destruct o as [[n|] fac lvl okf rp id | rp id | f l n | f l | ]; cbn [step ret_of next_num count_next]; try reflexivity.
  1, 2: destruct (msg_inner c _ _) as [[s1 [|]] n1]; unfold msg_catch_all; try destruct (fallback c s1 _ id rp _); reflexivity.
  - unfold msg_catch_all. destruct (fallback c _ _ id rp _). reflexivity.
  - destruct (i_rep (s_inc s)) as [r|]; [destruct (r_timer r)|]; reflexivity.
Qed.

Definition settled (s : st) (o : op) : st :=
  mkSt (if is_auto o then s_seq s + 1 else s_seq s)
       (match o with SetSize f l n => sset f l n (s_sizes s) | _ => s_sizes s end)
       (match o with SetThr f l => aset f l (s_thr s) | _ => s_thr s end) (s_bufs s) (s_inc s).

Definition op_kind (o : op) : numkind := match o with Msg numo _ _ _ _ _ => kind_of numo | _ => NumInt end.

Lemma step_ind (P : st -> Prop) c s o :
  P (settled s o) ->
  (forall s' e, ret_of s o = Some (e_num e) -> e_numk e = op_kind o -> P s' -> P (fst (fst (msg_inner c s' e)))) ->
  (forall s' n, P s' -> P (end_of_call s' n)) ->
  (forall s' r, P s' -> P (with_inc s' (publish r (s_inc s')))) ->
  P (fst (step c s o)).
Proof.
  intros H0 Hm He Hp.
  assert (Hf : forall s' num id rp, ret_of s o = Some num -> P s' -> P (fst (fallback c s' num id rp (op_kind o)))).
  { intros s' num id rp Hn Hs'. unfold fallback. destruct rp; [|exact Hs'].
    specialize (Hm s' (mkEv num FAC_INTERNAL fallback_level true (fallback_id id) (op_kind o)) Hn eq_refl Hs').
    destruct (msg_inner c s' _) as [[s2 r] n2]. exact Hm. }
  destruct s as [sq sz th bf ic].
  destruct o as [numo fac lvl okf rp id | rp id | f l n | f l | ];
    cbn [step next_num count_next settled is_auto op_kind ret_of s_seq s_sizes s_thr s_bufs s_inc] in *.
  - destruct numo as [n|]; specialize (Hm _ (mkEv _ fac lvl okf id _) eq_refl eq_refl H0);
      destruct (msg_inner c _ _) as [[s1 r] n1]; cbn [fst] in Hm; destruct r; unfold msg_catch_all;
      try (specialize (Hf s1 _ id rp eq_refl Hm); destruct (fallback c s1 _ id rp _) as [s2 n2]; apply He, Hf);
      apply He, Hm.
  - unfold msg_catch_all. specialize (Hf _ _ id rp eq_refl H0). destruct (fallback c _ _ id rp _) as [s2 n2]. apply He, Hf.
  - exact H0.
  - exact H0.
  - destruct (i_rep ic) as [r|]; [destruct (r_timer r)|]; try exact H0. apply (Hp _ r H0).
Qed.

Lemma step_seq c s o : s_seq (fst (step c s o)) = if is_auto o then s_seq s + 1 else s_seq s.
Proof.
  apply (step_ind (fun s' => s_seq s' = _)); [reflexivity | | intros s' n H; exact H | intros s' r H; exact H].
  intros s' e _ _ H. rewrite msg_inner_seq. exact H.
Qed.

(* msg() always returns a number to its caller: no exception escapes (model: result type; code: measured by the oracle) *)
Theorem msg_total c s o : is_call o = true -> exists n, snd (step c s o) = Some n.
Proof.
  intros H. rewrite step_ret. destruct o as [[n|] ? ? ? ? ? | ? ? | | | ]; cbn in *; try discriminate; eauto.
Qed.

Lemma run_cons c s o t :
  run c s (o :: t) = (fst (run c (fst (step c s o)) t), snd (step c s o) :: snd (run c (fst (step c s o)) t)).
Proof. cbn [run]. rewrite (surjective_pairing (step c s o)), (surjective_pairing (run c _ t)). reflexivity. Qed.

Lemma run_ind (P : st -> Prop) (Q : op -> Prop) c :
  (forall s o, Q o -> P s -> P (fst (step c s o))) -> forall ops s, Forall Q ops -> P s -> P (fst (run c s ops)).
Proof.
  intros H. induction ops as [|o t IH]; intros s HQ Hs; [exact Hs|]. inversion HQ; subst.
  rewrite run_cons. cbn [fst]. apply IH; [assumption|]. apply H; assumption.
Qed.

(* the numbers handed out by the logger itself *)
Fixpoint autos (ops : list op) (rs : list (option Z)) : list Z :=
  match ops, rs with
  | o :: t, Some n :: rt => if is_auto o then n :: autos t rt else autos t rt
  | o :: t, None :: rt => autos t rt
  | _, _ => []
  end.

Fixpoint zrange (a : Z) (n : nat) : list Z := match n with O => [] | S k => a :: zrange (a + 1) k end.

Definition count_auto (ops : list op) : nat := List.length (filter is_auto ops).

Lemma autos_exact c ops : forall s, autos ops (snd (run c s ops)) = zrange (s_seq s + 1) (count_auto ops).
Proof.
  induction ops as [|o t IH]; intros s; [reflexivity|].
  rewrite run_cons. cbn [snd]. rewrite step_ret. unfold count_auto in *. cbn [filter].
  destruct o as [[n|] ? ? ? ? ? | ? ? | | | ]; cbn [ret_of is_auto autos List.length zrange];
    rewrite IH, step_seq; reflexivity.
Qed.

Lemma zrange_lower a n : Forall (fun x => a <= x) (zrange a n).
Proof.
  revert a; induction n as [|n IH]; intros a; cbn [zrange]; constructor; [lia|].
  eapply Forall_impl; [|apply (IH (a + 1))]. cbn. intros; lia.
Qed.

Lemma zrange_sorted a n : StronglySorted Z.lt (zrange a n).
Proof.
  revert a; induction n as [|n IH]; intros a; cbn [zrange]; constructor; [apply IH|].
  eapply Forall_impl; [|apply (zrange_lower (a + 1) n)]. cbn. intros; lia.
Qed.

Theorem numbers_strictly_increase c ops s :
  StronglySorted Z.lt (autos ops (snd (run c s ops))) /\ Forall (fun n => s_seq s < n) (autos ops (snd (run c s ops))).
Proof.
  rewrite autos_exact. split; [apply zrange_sorted|].
  eapply Forall_impl; [|apply zrange_lower]. cbn. intros; lia.
Qed.

Lemma aget_aset {V} k k' (v : V) l : aget k' (aset k v l) = if k' =? k then Some v else aget k' l.
Proof.
  induction l as [|[k2 v2] t IH]; cbn [aset aget]; [reflexivity|].
  destruct (k =? k2) eqn:E; cbn [aget].
  - apply Z.eqb_eq in E; subst k2. destruct (k' =? k); reflexivity.
  - rewrite IH. destruct (Z.eqb_spec k' k2) as [->|]; [|reflexivity]. rewrite Z.eqb_sym, E. reflexivity.
Qed.

Lemma buf_get_set b f l q f' l' :
  buf_get (buf_set b f l q) f' l' = if (f' =? f) && (l' =? l) then q else buf_get b f' l'.
Proof.
  unfold buf_get, buf_set, dict_of. rewrite aget_aset. destruct (Z.eqb_spec f' f) as [->|]; [|reflexivity].
  rewrite aget_aset. destruct (l' =? l); reflexivity.
Qed.

Lemma buf_get_nil f l : buf_get [] f l = [].
Proof. reflexivity. Qed.

Lemma skipn_length_le {A} k (q : list A) : (List.length (skipn k q) <= List.length q)%nat.
Proof. rewrite skipn_length. lia. Qed.

Definition key (e : event) : Z * Z := (e_fac e, e_lvl e).

(* the trimming loop of add_event, `while len(buffer) > sizelimit: buffer.popleft()`, in closed form: the newest
   `limit` events stay; a negative limit empties the deque and then pops once more, which raises *)
Definition trimmed (q : list event) (limit : Z) : list event := skipn (Z.to_nat (Z.of_nat (List.length q) - limit)) q.

Lemma trim_loop_eq fuel : forall q limit, (List.length q < fuel)%nat ->
  trim_loop fuel q limit = Some (trimmed q limit, limit <? 0).
Proof.
  induction fuel as [|fuel IH]; intros q limit Hf; [lia|].
  cbn [trim_loop]. unfold trim_cmp, trim_pop, cmpZ, trimmed.
  destruct (Z.ltb_spec limit (Z.of_nat (List.length q))) as [E|E].
  - destruct q as [|x t]; cbn [pop List.length] in *.
    + rewrite skipn_nil, (proj2 (Z.ltb_lt limit 0)) by lia. reflexivity.
    + rewrite IH by lia. unfold trimmed.
      replace (Z.to_nat (Z.of_nat (S (List.length t)) - limit)) with (S (Z.to_nat (Z.of_nat (List.length t) - limit))) by lia.
      reflexivity.
  - replace (Z.to_nat (Z.of_nat (List.length q) - limit)) with 0%nat by lia.
    rewrite (proj2 (Z.ltb_ge limit 0)) by lia. reflexivity.
Qed.

Lemma trim_eq q limit : trim q limit = Some (trimmed q limit, limit <? 0).
Proof. unfold trim, trim_kind. apply trim_loop_eq. lia. Qed.

Lemma trimmed_length q limit : Z.of_nat (List.length (trimmed q limit)) <= Z.max 0 limit.
Proof. unfold trimmed. rewrite skipn_length. lia. Qed.

Lemma trimmed_snoc q e limit : 1 <= limit -> In e (trimmed (q ++ [e]) limit).
Proof.
  intros Hl. unfold trimmed. rewrite skipn_app, app_length. cbn [List.length].
  replace (_ - List.length q)%nat with 0%nat by lia. apply in_or_app. right. left. reflexivity.
Qed.

Definition appended (sz : sizes_t) (b : bufs_t) (e : event) : bufs_t :=
  let q := buf_get b (e_fac e) (e_lvl e) ++ [e] in
  buf_set (buf_set b (e_fac e) (e_lvl e) q) (e_fac e) (e_lvl e) (trimmed q (limit_of sz (e_fac e) (e_lvl e))).

Lemma buf_get_appended sz b e f l :
  buf_get (appended sz b e) f l =
  if (f =? e_fac e) && (l =? e_lvl e) then trimmed (buf_get b (e_fac e) (e_lvl e) ++ [e]) (limit_of sz (e_fac e) (e_lvl e))
  else buf_get b f l.
Proof. unfold appended. cbv zeta. rewrite !buf_get_set. destruct (_ && _); reflexivity. Qed.

Lemma add_event_eq c sz b i e :
  add_event c sz b i e =
  let b' := appended sz b e in
  if limit_of sz (e_fac e) (e_lvl e) <? 0 then mkAe b' i true (is_some (i_rep i))
  else mkAe b' (fst (qualifier_stage c b' i e)) (snd (qualifier_stage c b' i e)) (is_some (i_rep i)).
Proof.
  unfold add_event, add_event_stages, appended. cbn [fold_left add_stage_step x_raised x_bufs x_inc x_notified].
  rewrite buf_get_set, !Z.eqb_refl. cbn [andb]. rewrite trim_eq. cbn [x_raised x_bufs x_inc x_notified].
  destruct (_ <? 0); [reflexivity|]. cbn [add_stage_step x_raised x_bufs x_inc x_notified].
  destruct (qualifier_stage c _ i e) as [i' raised]. reflexivity.
Qed.

Lemma add_event_bufs c sz b i e : x_bufs (add_event c sz b i e) = appended sz b e.
Proof. rewrite add_event_eq. cbv zeta. destruct (_ <? 0); reflexivity. Qed.

(* immediately after an event on (facility, level) that buffer respects its limit and holds the most recent events *)
Theorem after_event_within_limit c sz b i e :
  0 <= limit_of sz (e_fac e) (e_lvl e) ->
  let q := buf_get (x_bufs (add_event c sz b i e)) (e_fac e) (e_lvl e) in
  Z.of_nat (List.length q) <= limit_of sz (e_fac e) (e_lvl e) /\
  (exists k, q = skipn k (buf_get b (e_fac e) (e_lvl e) ++ [e])) /\
  (forall f l, (f, l) <> (e_fac e, e_lvl e) -> buf_get (x_bufs (add_event c sz b i e)) f l = buf_get b f l).
Proof.
  intros Hl. cbv zeta. rewrite add_event_bufs, buf_get_appended, !Z.eqb_refl. cbn [andb].
  split; [pose proof (trimmed_length (buf_get b (e_fac e) (e_lvl e) ++ [e]) (limit_of sz (e_fac e) (e_lvl e))); lia|].
  split; [eexists; reflexivity|]. intros f l Hne. rewrite buf_get_appended.
  destruct (Z.eqb_spec f (e_fac e)) as [->|]; [destruct (Z.eqb_spec l (e_lvl e)) as [->|]|]; cbn [andb]; congruence.
Qed.

(* the trigger itself is part of what was buffered (unless its buffer is configured to hold nothing) *)
Lemma trigger_buffered c sz b i e :
  1 <= limit_of sz (e_fac e) (e_lvl e) -> In e (buf_get (x_bufs (add_event c sz b i e)) (e_fac e) (e_lvl e)).
Proof. intros Hl. rewrite add_event_bufs, buf_get_appended, !Z.eqb_refl. apply trimmed_snoc, Hl. Qed.

Definition bufs_le (M : Z) (b : bufs_t) : Prop := forall f l, Z.of_nat (List.length (buf_get b f l)) <= M.
Definition sizes_le (M : Z) (sz : sizes_t) : Prop := forall f l, limit_of sz f l <= M.

Lemma msg_inner_bufs_le M c s e :
  0 <= M -> sizes_le M (s_sizes s) -> bufs_le M (s_bufs s) -> bufs_le M (s_bufs (fst (fst (msg_inner c s e)))).
Proof.
  intros HM Hs Hb. unfold msg_inner. destruct (cmpZ _ _ _); cbn [fst s_bufs]; [exact Hb|].
  intros f l. rewrite add_event_bufs, buf_get_appended. destruct (_ && _); [|apply Hb].
  pose proof (trimmed_length (buf_get (s_bufs s) (e_fac e) (e_lvl e) ++ [e]) (limit_of (s_sizes s) (e_fac e) (e_lvl e))).
  specialize (Hs (e_fac e) (e_lvl e)). lia.
Qed.

Definition op_limit_le (M : Z) (o : op) : Prop := match o with SetSize _ _ n => n <= M | _ => True end.

Lemma limit_of_sset f l n sz f' l' :
  limit_of (sset f l n sz) f' l' = if Z.eqb f' f && Z.eqb l' l then n else limit_of sz f' l'.
Proof. unfold limit_of, sset. cbn [sget]. destruct (Z.eqb f' f && Z.eqb l' l); reflexivity. Qed.

Lemma step_bounded M c s o :
  0 <= M -> op_limit_le M o -> sizes_le M (s_sizes s) -> bufs_le M (s_bufs s) ->
  sizes_le M (s_sizes (fst (step c s o))) /\ bufs_le M (s_bufs (fst (step c s o))).
Proof.
  intros HM Ho Hs Hb. apply (step_ind (fun s' => sizes_le M (s_sizes s') /\ bufs_le M (s_bufs s'))).
  - split; [|exact Hb]. destruct o; try exact Hs. intros f' l'. cbn [settled s_sizes]. rewrite limit_of_sset.
    destruct (_ && _); [exact Ho | apply Hs].
  - intros s' e _ _ [Hs' Hb']. rewrite msg_inner_sizes. split; [exact Hs' | apply msg_inner_bufs_le; assumption].
  - intros s' n H. exact H.
  - intros s' r H. exact H.
Qed.

(* memory stays bounded over ANY history: no buffer ever holds more than the largest configured limit *)
Lemma run_bounded M c ops s :
  0 <= M -> Forall (op_limit_le M) ops -> sizes_le M (s_sizes s) -> bufs_le M (s_bufs s) ->
  sizes_le M (s_sizes (fst (run c s ops))) /\ bufs_le M (s_bufs (fst (run c s ops))).
Proof.
  intros HM Ho Hs Hb.
  apply (run_ind (fun s' => sizes_le M (s_sizes s') /\ bufs_le M (s_bufs s')) (op_limit_le M) c); [|exact Ho | exact (conj Hs Hb)].
  intros s' o Ho' [Hs' Hb']. apply step_bounded; assumption.
Qed.

(* ... also when the incident handling starts or stops failing (or the reporter kind changes) in mid-history *)
Theorem buffers_bounded_segs M segs : forall s,
  0 <= M -> Forall (fun cs => Forall (op_limit_le M) (snd cs)) segs -> sizes_le M (s_sizes s) -> bufs_le M (s_bufs s) ->
  bufs_le M (s_bufs (run_segs s segs)).
Proof.
  induction segs as [|[c ops] t IH]; intros s HM Ho Hs Hb; [exact Hb|].
  cbn [run_segs]. inversion Ho as [|? ? Ho1 Ho2]; subst. cbn [snd] in Ho1.
  destruct (run_bounded M c ops s HM Ho1 Hs Hb) as [Hs1 Hb1]. apply IH; assumption.
Qed.

Corollary buffers_bounded_segs_from_init M segs :
  DEFAULT_SIZELIMIT <= M -> Forall (fun cs => Forall (op_limit_le M) (snd cs)) segs ->
  forall f l, Z.of_nat (List.length (buf_get (s_bufs (run_segs init segs)) f l)) <= M.
Proof.
  intros H1 H2. unfold DEFAULT_SIZELIMIT in H1.
  apply buffers_bounded_segs; [lia | exact H2 | intros f l; exact H1 | intros f l; cbn; lia].
Qed.

Corollary buffers_bounded_from_init M c ops :
  DEFAULT_SIZELIMIT <= M -> Forall (op_limit_le M) ops -> bufs_le M (s_bufs (fst (run c init ops))).
Proof. intros HM Ho. exact (buffers_bounded_segs_from_init M [(c, ops)] HM (Forall_cons (c, ops) Ho (Forall_nil _))). Qed.

Inductive subseq {A} : list A -> list A -> Prop :=
| ss_nil m : subseq [] m
| ss_cons x l m : subseq l m -> subseq (x :: l) (x :: m)
| ss_skip x l m : subseq l m -> subseq l (x :: m).

Lemma subseq_refl {A} (l : list A) : subseq l l.
Proof. induction l; constructor; assumption. Qed.

Lemma subseq_snoc_both {A} (l m : list A) e : subseq l m -> subseq (l ++ [e]) (m ++ [e]).
Proof.
  induction 1 as [m | x l m H IH | x l m H IH]; cbn [app].
  - induction m as [|y m IH]; cbn [app]; [apply ss_cons, ss_nil | apply ss_skip, IH].
  - apply ss_cons, IH.
  - apply ss_skip, IH.
Qed.

Lemma subseq_snoc_skip {A} (l m : list A) e : subseq l m -> subseq l (m ++ [e]).
Proof. induction 1; cbn [app]; constructor; assumption. Qed.

Lemma subseq_app_l {A} (a b : list A) : forall m, subseq (a ++ b) m -> subseq a m.
Proof.
  induction a as [|x a IH]; intros m H; [constructor|].
  cbn [app] in H. remember (x :: a ++ b) as l eqn:El. induction H as [m | y l m H IHs | y l m H IHs].
  - discriminate.
  - inversion El; subst. apply ss_cons, IH, H.
  - apply ss_skip, IHs, El.
Qed.

Lemma subseq_length {A} (l m : list A) : subseq l m -> (List.length l <= List.length m)%nat.
Proof. induction 1; cbn [List.length]; lia. Qed.

Lemma drain_spec maxfl fuel : forall q infl outst dl,
  let '(q', infl', outst', dl') := drain fuel maxfl q infl outst dl in
  dl' ++ q' = dl ++ q /\ infl' - infl = outst' - outst /\ infl <= infl' /\ (infl <= maxfl -> infl' <= maxfl) /\
  (List.length q' <= List.length q)%nat.
Proof.
  induction fuel as [|fuel IH]; intros q infl outst dl; cbn [drain].
  - repeat split; lia.
  - unfold sub_pop. destruct q as [|x t]; cbn [spop].
    + repeat split; lia.
    + unfold sub_room_cmp, cmpZ, sub_inflight_inc. destruct (0 <? maxfl - infl) eqn:E.
      * specialize (IH t (infl + 1) (outst + 1) (dl ++ [x])).
        destruct (drain fuel maxfl t (infl + 1) (outst + 1) (dl ++ [x])) as [[[q' infl'] outst'] dl'].
        destruct IH as (H1 & H2 & H3 & H4 & H5). apply Z.ltb_lt in E.
        split; [rewrite H1, <- app_assoc; reflexivity|]. cbn [List.length]. repeat split; try lia.
      * repeat split; lia.
Qed.

Definition sub_inv (maxq maxfl : Z) (s : sub) : Prop :=
  Z.of_nat (List.length (q_queue s)) <= maxq /\
  0 <= q_outstanding s /\ q_outstanding s <= q_inflight s /\ q_inflight s <= maxfl /\
  subseq (q_delivered s ++ q_queue s) (q_emitted s).

Lemma sub_step_inv maxq maxfl s o : 0 <= maxq -> sub_inv maxq maxfl s -> sub_inv maxq maxfl (sub_step maxq maxfl s o).
Proof.
  intros Hq (H1 & H2 & H3 & H4 & H5). destruct o as [e | | | ]; cbn [sub_step].
  - destruct (q_subscribed s); [|repeat split; assumption].
    unfold sub_inv, sub_accept_cmp, cmpZ. cbn [q_queue q_inflight q_outstanding q_delivered q_emitted].
    destruct (Z.of_nat (List.length (q_queue s)) <? maxq) eqn:E.
    + apply Z.ltb_lt in E. rewrite app_length. cbn [List.length]. repeat (split; [lia|]).
      rewrite app_assoc. apply subseq_snoc_both, H5.
    + repeat (split; [lia|]). apply subseq_snoc_skip, H5.
  - destruct (q_marked s); [|repeat split; assumption].
    pose proof (drain_spec maxfl (List.length (q_queue s)) (q_queue s) (q_inflight s) (q_outstanding s) (q_delivered s)) as D.
    destruct (drain _ maxfl (q_queue s) (q_inflight s) (q_outstanding s) (q_delivered s)) as [[[q' infl'] outst'] dl'].
    destruct D as (D1 & D2 & D3 & D4 & D5).
    unfold sub_inv. cbn [q_queue q_inflight q_outstanding q_delivered q_emitted].
    repeat (split; [lia|]). rewrite D1. exact H5.
  - destruct (0 <? q_outstanding s) eqn:E; [|repeat split; assumption]. apply Z.ltb_lt in E.
    unfold sub_inv, sub_inflight_dec. cbn [q_queue q_inflight q_outstanding q_delivered q_emitted].
    repeat split; try lia; assumption.
  - destruct (0 <? q_outstanding s) eqn:E; [|repeat split; assumption]. apply Z.ltb_lt in E.
    unfold sub_inv. cbn [q_queue q_inflight q_outstanding q_delivered q_emitted].
    repeat split; try lia; assumption.
Qed.

Lemma sub_run_inv maxq maxfl ops : 0 <= maxq -> 0 <= maxfl -> sub_inv maxq maxfl (sub_run maxq maxfl ops).
Proof.
  intros Hq Hf. unfold sub_run.
  assert (H : sub_inv maxq maxfl sub_init) by (unfold sub_inv, sub_init; cbn; repeat split; try lia; constructor).
  revert H. generalize sub_init. induction ops as [|o t IH]; intros s Hi; [exact Hi|].
  cbn [fold_left]. apply IH, sub_step_inv; assumption.
Qed.

(* for every schedule of sends, queue turns, acknowledgements and failures of a slow subscriber *)
Theorem subscriber_bounded maxq maxfl ops : 0 <= maxq -> 0 <= maxfl ->
  let s := sub_run maxq maxfl ops in
  Z.of_nat (List.length (q_queue s)) <= maxq /\ 0 <= q_inflight s <= maxfl /\
  subseq (q_delivered s) (q_emitted s) /\ subseq (q_delivered s ++ q_queue s) (q_emitted s).
Proof.
  intros Hq Hf. cbv zeta. destruct (sub_run_inv maxq maxfl ops Hq Hf) as (H1 & H2 & H3 & H4 & H5).
  split; [exact H1|]. split; [lia|]. split; [eapply subseq_app_l; exact H5 | exact H5].
Qed.

Lemma real_limits_nonneg : 0 <= MAX_QUEUE_SIZE /\ 0 <= MAX_IN_FLIGHT.
Proof. unfold MAX_QUEUE_SIZE, MAX_IN_FLIGHT. split; discriminate. Qed.

Theorem subscriber_bounded_real ops :
  let s := sub_run MAX_QUEUE_SIZE MAX_IN_FLIGHT ops in
  Z.of_nat (List.length (q_queue s)) <= MAX_QUEUE_SIZE /\ 0 <= q_inflight s <= MAX_IN_FLIGHT /\
  subseq (q_delivered s) (q_emitted s) /\ subseq (q_delivered s ++ q_queue s) (q_emitted s).
Proof. destruct real_limits_nonneg. apply subscriber_bounded; assumption. Qed.

Lemma insert_perm k e l : Permutation (insert_by_key k e l) (e :: l).
Proof.
  induction l as [|x t IH]; cbn [insert_by_key]; [apply Permutation_refl|].
  destruct (key_of k e <=? key_of k x); [apply Permutation_refl|].
  eapply perm_trans; [apply perm_skip, IH | apply perm_swap].
Qed.

Lemma sort_with_perm k l : Permutation (sort_with k l) l.
Proof.
  induction l as [|x t IH]; cbn [sort_with fold_right]; [constructor|].
  eapply perm_trans; [apply insert_perm | apply perm_skip, IH].
Qed.

Lemma sort_with_in k l x : In x (sort_with k l) <-> In x l.
Proof. split; apply Permutation_in; [apply sort_with_perm | apply Permutation_sym, sort_with_perm]. Qed.

(* the order a sort establishes: by KEY.  Under the translated key an integer number is its own key and every other
   object has the key d (= -1): integer-numbered events come out in number order (int_num_le, sort_with_sorted_ints), the
   others sit where -1 sits, in buffer order among themselves (sort_with_stable) *)
Definition key_le (k : numkey) (a b : event) : Prop := key_of k a <= key_of k b.
Definition num_le : event -> event -> Prop := key_le incident_sort_key.
Definition int_num_le (a b : event) : Prop := is_int a = true -> is_int b = true -> e_num a <= e_num b.

Lemma insert_sorted k e l : StronglySorted (key_le k) l -> StronglySorted (key_le k) (insert_by_key k e l).
Proof.
  induction 1 as [|x t Hs IH Hx]; cbn [insert_by_key]; [repeat constructor|].
  destruct (key_of k e <=? key_of k x) eqn:E.
  - apply Z.leb_le in E. constructor; [constructor; assumption|]. constructor; [exact E|].
    eapply Forall_impl; [|exact Hx]. unfold key_le. intros; lia.
  - apply Z.leb_gt in E. constructor; [exact IH|].
    eapply Permutation_Forall; [apply Permutation_sym, insert_perm|]. constructor; [unfold key_le; lia | exact Hx].
Qed.

Lemma sort_with_sorted k l : StronglySorted (key_le k) (sort_with k l).
Proof. induction l as [|x t IH]; cbn [sort_with fold_right]; [constructor | apply insert_sorted, IH]. Qed.

Lemma sorted_weaken {A} (R S : A -> A -> Prop) l : (forall a b, R a b -> S a b) -> StronglySorted R l -> StronglySorted S l.
Proof.
  intros HRS. induction 1 as [|x t Hs IH Hx]; constructor; [exact IH|]. eapply Forall_impl; [|exact Hx]. apply HRS.
Qed.

Lemma sort_with_sorted_ints d l : StronglySorted int_num_le (sort_with (KeyIntElse d) l).
Proof.
  eapply sorted_weaken; [|apply sort_with_sorted]. unfold key_le, key_of, int_num_le. intros a b H Ha Hb.
  rewrite Ha, Hb in H. exact H.
Qed.

Lemma insert_stable k (p : event -> bool) e l :
  (forall x, p e = true -> p x = true -> key_of k e <= key_of k x) ->
  filter p (insert_by_key k e l) = filter p (e :: l).
Proof.
  intros H. induction l as [|x t IH]; cbn [insert_by_key]; [reflexivity|].
  destruct (Z.leb_spec (key_of k e) (key_of k x)) as [E|E]; [reflexivity|].
  cbn [filter] in *. rewrite IH. destruct (p e) eqn:Pe, (p x) eqn:Px; try reflexivity.
  specialize (H x eq_refl Px). lia.
Qed.

Lemma sort_with_stable k (p : event -> bool) l :
  (forall x y, p x = true -> p y = true -> key_of k x <= key_of k y) -> filter p (sort_with k l) = filter p l.
Proof.
  intros H. induction l as [|x t IH]; cbn [sort_with fold_right]; [reflexivity|].
  rewrite insert_stable by (intro; apply H). cbn [filter]. fold (sort_with k t). rewrite IH. reflexivity.
Qed.

(* the lines of an incident file: a permutation of what was buffered, ordered by the translated key; the events with
   integer numbers in number order; the others (key -1) in the order the buffers hold them *)
Theorem incident_complete l :
  (forall x, In x (sort_by_num l) <-> In x l) /\ StronglySorted num_le (sort_by_num l) /\
  StronglySorted int_num_le (sort_by_num l) /\
  filter (fun x => negb (is_int x)) (sort_by_num l) = filter (fun x => negb (is_int x)) l.
Proof.
  split; [intros x; apply sort_with_in|]. split; [apply sort_with_sorted|]. split; [apply sort_with_sorted_ints|].
  apply sort_with_stable. intros x y Hx Hy. apply negb_true_iff in Hx, Hy. unfold incident_sort_key, key_of. rewrite Hx, Hy. lia.
Qed.

Lemma write_all_ok l : forallb enc l = true -> write_all l = (l, true).
Proof.
  induction l as [|e t IH]; cbn [forallb write_all]; [reflexivity|].
  intros H. apply andb_true_iff in H as [H1 H2]. rewrite H1, (IH H2). reflexivity.
Qed.

Lemma forallb_perm {A} (p : A -> bool) l m : Permutation l m -> forallb p l = true -> forallb p m = true.
Proof.
  intros P H. apply forallb_forall. intros x Hx. rewrite forallb_forall in H. apply H.
  eapply Permutation_in; [apply Permutation_sym, P | exact Hx].
Qed.

(* no buffered event's number is an object on which isinstance(.., int) raises: the exact condition under which the
   translated sort key is total (sort_raises (KeyIntElse d) l = existsb is_hostile l) *)
Definition nohost (b : bufs_t) : Prop := existsb is_hostile (all_buffered b) = false.

Lemma nohost_in b : nohost b <-> (forall x, In x (all_buffered b) -> is_hostile x = false).
Proof.
  unfold nohost. split.
  - intros H x Hx. destruct (is_hostile x) eqn:E; [|reflexivity].
    assert (existsb is_hostile (all_buffered b) = true) by (apply existsb_exists; exists x; split; assumption). congruence.
  - intros H. destruct (existsb is_hostile (all_buffered b)) eqn:E; [|reflexivity].
    apply existsb_exists in E. destruct E as (x & Hx & Hh). rewrite (H x Hx) in Hh. discriminate.
Qed.

Definition snapshot (b : bufs_t) : list event * bool :=
  if sort_raises incident_sort_key (all_buffered b) then ([], false) else write_all (sort_by_num (all_buffered b)).

Lemma snapshot_ok b :
  nohost b -> forallb enc (all_buffered b) = true -> snapshot b = (sort_by_num (all_buffered b), true).
Proof.
  intros Hh Hb. unfold snapshot. change (sort_raises _ _) with (existsb is_hostile (all_buffered b)). rewrite Hh.
  apply write_all_ok. eapply forallb_perm; [apply Permutation_sym, sort_with_perm | exact Hb].
Qed.

Lemma snapshot_lost b : existsb is_hostile (all_buffered b) = true -> snapshot b = ([], false).
Proof. intros Hh. unfold snapshot. change (sort_raises _ _) with (existsb is_hostile (all_buffered b)). rewrite Hh. reflexivity. Qed.

(* The stages are evaluated one at a time, innermost first, each on an explicit accumulator: unfolding all four at once
   copies the accumulator into every branch. *)
Lemma incident_stages_eq c b trig :
  fold_left (inc_stage_step c b trig) incident_stages (mkAcc [] false false false false) =
  let '(w, ok) := snapshot b in
  if enc trig then mkAcc w (c_trailing c) (c_trailing c && ok) (negb (c_trailing c) && ok) (negb ok)
  else mkAcc [] false false false true.
Proof.
  unfold incident_stages, snapshot. cbn [fold_left].
  unfold inc_stage_step at 4. cbn [a_failed a_lines a_registered a_timer a_finished]. destruct (enc trig).
  2:{ destruct (if sort_raises _ _ then _ else _) as [w ok]. reflexivity. }
  unfold inc_stage_step at 3. cbn [a_failed a_lines a_registered a_timer a_finished].
  destruct (c_trailing c) eqn:Ec; unfold inc_stage_step at 2; cbn [a_failed a_lines a_registered a_timer a_finished app];
    destruct (sort_raises _ _); try reflexivity; destruct (write_all _) as [w [|]]; try reflexivity;
    unfold inc_stage_step; cbn [a_failed negb]; rewrite Ec; reflexivity.
Qed.

Lemma enc_total e : enc e = true.
Proof. reflexivity. Qed.

Lemma forallb_enc_total l : forallb enc l = true.
Proof. apply forallb_forall. intros; apply enc_total. Qed.

(* incident_declared when the sort does not raise and the trigger and everything buffered can be encoded *)
Lemma incident_declared_ok c b i trig :
  nohost b -> enc trig = true -> forallb enc (all_buffered b) = true ->
  incident_declared c b i trig =
    if c_trailing c
    then (mkInc (Some (mkRep trig (sort_by_num (all_buffered b)) TRAILING_EVENT_LIMIT true)) (i_zombie i) (i_declared i)
                (i_recorded i) (i_files i) (i_junk i), false)
    else (publish (mkRep trig (sort_by_num (all_buffered b)) TRAILING_EVENT_LIMIT false) i, false).
Proof.
  intros Hh Ht Hb. unfold incident_declared. rewrite incident_stages_eq, (snapshot_ok b Hh Hb), Ht.
  destruct (c_trailing c); reflexivity.
Qed.

(* ... and when it does raise (a buffered event whose number makes isinstance raise): the header is written, a trailing
   reporter is already subscribed, then events.sort raises: incident_declared raises, NOTHING is published; the
   NonTrailing reporter's two files are abandoned for ever (i_junk + 1), the trailing one stays registered without a
   timer, still referenced (i_zombie) *)
Lemma incident_declared_lost c b i trig :
  existsb is_hostile (all_buffered b) = true ->
  incident_declared c b i trig =
    if c_trailing c
    then (mkInc (Some (mkRep trig [] TRAILING_EVENT_LIMIT false)) true (i_declared i) (i_recorded i) (i_files i) (i_junk i), true)
    else (mkInc None true (i_declared i) (i_recorded i) (i_files i) (i_junk i + 1), true).
Proof.
  intros Hh. unfold incident_declared. rewrite incident_stages_eq, (snapshot_lost b Hh), enc_total.
  destruct (c_trailing c); reflexivity.
Qed.

Lemma incident_declared_never_fails c b i trig : nohost b ->
  snd (incident_declared c b i trig) = false /\ i_junk (fst (incident_declared c b i trig)) = i_junk i.
Proof.
  intros Hh. rewrite (incident_declared_ok c b i trig Hh (enc_total _) (forallb_enc_total _)).
  destruct (c_trailing c); split; reflexivity.
Qed.

Lemma trailing_event_step i r ev :
  i_rep i = Some r -> 1 <= r_remaining r ->
  trailing_event i ev =
    mkInc (Some (mkRep (r_trigger r) (if enc ev then r_lines r ++ [ev] else r_lines r) (r_remaining r - 1) (r_timer r)))
          (i_zombie i) (i_declared i) (i_recorded i) (i_files i) (i_junk i).
Proof.
  intros Hr Hl. unfold trailing_event. rewrite Hr. unfold trailing_cmp, trailing_decrement, cmpZ.
  destruct (0 <=? r_remaining r - 1) eqn:E; [reflexivity | apply Z.leb_gt in E; lia].
Qed.

Lemma trailing_fold evs : forall i r,
  i_rep i = Some r -> Z.of_nat (List.length evs) <= r_remaining r ->
  fold_left trailing_event evs i =
    mkInc (Some (mkRep (r_trigger r) (r_lines r ++ filter enc evs) (r_remaining r - Z.of_nat (List.length evs)) (r_timer r)))
          (i_zombie i) (i_declared i) (i_recorded i) (i_files i) (i_junk i).
Proof.
  induction evs as [|ev t IH]; intros i r Hr Hl.
  - cbn [fold_left filter List.length]. rewrite app_nil_r. change (Z.of_nat 0) with 0. rewrite Z.sub_0_r.
    destruct i as [rep z d rc fl j]; cbn in *. subst rep. destruct r; reflexivity.
  - cbn [fold_left]. cbn [List.length] in Hl.
    rewrite (trailing_event_step i r ev Hr) by lia.
    erewrite IH; [|reflexivity|cbn [r_remaining]; lia].
    cbn [r_trigger r_lines r_remaining r_timer i_zombie i_declared i_recorded i_files i_junk filter].
    assert (R : r_remaining r - 1 - Z.of_nat (List.length t) = r_remaining r - Z.of_nat (List.length (ev :: t)))
      by (cbn [List.length]; lia).
    rewrite R. destruct (enc ev); [rewrite <- app_assoc|]; reflexivity.
Qed.

(* the 101st trailing event ends the recording and publishes the file *)
Lemma trailing_limit_publishes i r ev :
  i_rep i = Some r -> r_remaining r = 0 ->
  trailing_event i ev = publish (mkRep (r_trigger r) (r_lines r) (-1) (r_timer r)) i.
Proof. intros Hr H0. unfold trailing_event. rewrite Hr, H0. reflexivity. Qed.

Lemma trailing_fold_over a ev rest i r :
  i_rep i = Some r -> Z.of_nat (List.length a) = r_remaining r ->
  fold_left trailing_event (a ++ ev :: rest) i = publish (mkRep (r_trigger r) (r_lines r ++ filter enc a) (-1) (r_timer r)) i.
Proof.
  intros Hr Hl. rewrite fold_left_app, (trailing_fold a i r Hr) by lia. cbn [fold_left].
  erewrite trailing_limit_publishes; [|reflexivity | cbn [r_remaining]; lia].
  induction rest as [|x t IH]; [reflexivity | exact IH].
Qed.

Definition rep_timed (i : inc_st) : Prop := match i_rep i with Some r => r_timer r = true | None => True end.

Lemma timer_publishes c s r :
  i_rep (s_inc s) = Some r -> r_timer r = true ->
  i_files (s_inc (fst (step c s Timer))) = i_files (s_inc s) ++ [r_trigger r :: r_lines r] /\
  i_recorded (s_inc (fst (step c s Timer))) = i_recorded (s_inc s) + 1 /\ i_rep (s_inc (fst (step c s Timer))) = None.
Proof. intros Hr Ht. cbn [step]. rewrite Hr, Ht. cbn. repeat split; reflexivity. Qed.

Lemma add_event_declares c sz b i e :
  c_fault c = NoFault -> c_qual c = true -> incident_level <= e_lvl e -> i_rep i = None -> i_zombie i = false ->
  0 <= limit_of sz (e_fac e) (e_lvl e) ->
  let d := incident_declared c (appended sz b e) (mkInc None false (i_declared i + 1) (i_recorded i) (i_files i) (i_junk i)) e in
  add_event c sz b i e = mkAe (appended sz b e) (fst d) (snd d) false.
Proof.
  intros Hf Hq Hl Hr Hz Hlim. cbv zeta. rewrite add_event_eq. cbv zeta.
  rewrite (proj2 (Z.ltb_ge _ _) Hlim). unfold qualifier_stage, declare_incident, one_reporter_at_a_time, incident_cmp, cmpZ.
  rewrite Hq, Hf, Hr, Hz, (proj2 (Z.leb_le _ _) Hl). reflexivity.
Qed.

(* one unrepresentable event is harmless: full strength in e_ok on the current tree (serialize_total = true).
   EXACT guard in the numbers: no event in the buffers at the moment of the snapshot has a number on which
   isinstance(.., int) raises (nohost; NumOdd numbers -- 'x', None, 1.5, a list, an object -- are INSIDE the guard since
   7a22019).  incident_lost_when_sort_raises below is the other side of the guard. *)
Theorem incident_recorded c sz b i e :
  c_fault c = NoFault -> c_qual c = true -> incident_level <= e_lvl e -> i_rep i = None -> i_zombie i = false ->
  0 <= limit_of sz (e_fac e) (e_lvl e) ->
  let a := add_event c sz b i e in
  nohost (x_bufs a) ->
  x_raised a = false /\
  (c_trailing c = false ->
     i_files (x_inc a) = i_files i ++ [e :: sort_by_num (all_buffered (x_bufs a))] /\
     i_recorded (x_inc a) = i_recorded i + 1 /\ i_junk (x_inc a) = i_junk i /\ i_rep (x_inc a) = None) /\
  (c_trailing c = true ->
     i_rep (x_inc a) = Some (mkRep e (sort_by_num (all_buffered (x_bufs a))) TRAILING_EVENT_LIMIT true) /\
     i_junk (x_inc a) = i_junk i).
Proof.
  intros Hf Hq Hl Hr Hz Hlim. cbv zeta. rewrite (add_event_declares c sz b i e Hf Hq Hl Hr Hz Hlim). cbn [x_bufs x_raised x_inc].
  intros Hh. rewrite (incident_declared_ok c _ _ e Hh (enc_total _) (forallb_enc_total _)).
  destruct (c_trailing c); (split; [reflexivity|]); split; intros Ht; try discriminate Ht; repeat split; reflexivity.
Qed.

(* the same, valid whatever serialize_to_json_utf8 looks like, for histories whose buffered events can be encoded *)
Theorem incident_recorded_guarded c sz b i e :
  c_fault c = NoFault -> c_qual c = true -> incident_level <= e_lvl e -> i_rep i = None -> i_zombie i = false ->
  0 <= limit_of sz (e_fac e) (e_lvl e) ->
  let a := add_event c sz b i e in
  nohost (x_bufs a) -> enc e = true -> forallb enc (all_buffered (x_bufs a)) = true ->
  x_raised a = false /\
  (c_trailing c = false -> i_files (x_inc a) = i_files i ++ [e :: sort_by_num (all_buffered (x_bufs a))]) /\
  (c_trailing c = true ->
     i_rep (x_inc a) = Some (mkRep e (sort_by_num (all_buffered (x_bufs a))) TRAILING_EVENT_LIMIT true)).
Proof.
  intros Hf Hq Hl Hr Hz Hlim. cbv zeta. rewrite (add_event_declares c sz b i e Hf Hq Hl Hr Hz Hlim). cbn [x_bufs x_raised x_inc].
  intros Hh He Hb. rewrite (incident_declared_ok c _ _ e Hh He Hb).
  destruct (c_trailing c); (split; [reflexivity|]); split; intros Ht; try discriminate Ht; reflexivity.
Qed.

(* OUTSIDE the guard (the real code does this; oracle witness: num = an object whose __class__ property raises): one
   buffered event on whose number isinstance(.., int) raises makes events.sort raise inside incident_declared: _msg
   raises (msg's catch-all turns that into an internal-error event), no file is published, the NonTrailing reporter's
   .flog / .flog.bz2.tmp are abandoned, the trailing reporter stays subscribed, without lines and without a timer *)
Theorem incident_lost_when_sort_raises c sz b i e :
  c_fault c = NoFault -> c_qual c = true -> incident_level <= e_lvl e -> i_rep i = None -> i_zombie i = false ->
  0 <= limit_of sz (e_fac e) (e_lvl e) ->
  let a := add_event c sz b i e in
  existsb is_hostile (all_buffered (x_bufs a)) = true ->
  x_raised a = true /\ i_files (x_inc a) = i_files i /\ i_recorded (x_inc a) = i_recorded i /\
  (c_trailing c = false -> i_junk (x_inc a) = i_junk i + 1 /\ i_rep (x_inc a) = None) /\
  (c_trailing c = true -> i_rep (x_inc a) = Some (mkRep e [] TRAILING_EVENT_LIMIT false)).
Proof.
  intros Hf Hq Hl Hr Hz Hlim. cbv zeta. rewrite (add_event_declares c sz b i e Hf Hq Hl Hr Hz Hlim). cbn [x_bufs x_raised x_inc].
  intros Hh. rewrite (incident_declared_lost c _ _ e Hh).
  destruct (c_trailing c); repeat (split; [reflexivity|]); split; intros Ht; try discriminate Ht; repeat split; reflexivity.
Qed.

Lemma aget_in {V} (k : Z) (l : list (Z * V)) v : aget k l = Some v -> exists k', In (k', v) l.
Proof.
  induction l as [|[k' v'] t IH]; intros Hv; [discriminate|]. cbn [aget] in Hv.
  destruct (k =? k'); [inversion Hv; subst; exists k'; left; reflexivity|].
  destruct (IH Hv) as [k2 Hk2]. exists k2. right. exact Hk2.
Qed.

Lemma flat_aset_in {V A} (g : V -> list A) k v l x :
  In x (flat_map (fun p => g (snd p)) (aset k v l)) -> In x (g v) \/ In x (flat_map (fun p => g (snd p)) l).
Proof.
  induction l as [|[k0 v0] t IH]; cbn [aset flat_map snd]; [rewrite app_nil_r; auto|].
  destruct (k =? k0); cbn [flat_map snd]; rewrite !in_app_iff; tauto.
Qed.

Lemma buf_get_in_all b f l x : In x (buf_get b f l) -> In x (all_buffered b).
Proof.
  unfold buf_get, dict_of, all_buffered. destruct (aget f b) as [d|] eqn:E1; [|intros []].
  destruct (aget l d) as [q|] eqn:E2; [|intros []]. intros Hx.
  destruct (aget_in _ _ _ E1) as [kf Hf]. destruct (aget_in _ _ _ E2) as [kl Hl].
  apply in_flat_map. exists (kf, d). split; [exact Hf|]. cbn [snd]. apply in_flat_map. exists (kl, q). split; assumption.
Qed.

Lemma all_buffered_buf_set b f l q x : In x (all_buffered (buf_set b f l q)) -> In x q \/ In x (all_buffered b).
Proof.
  unfold all_buffered, buf_set. intros H.
  apply (flat_aset_in (fun d => flat_map (fun lq => snd lq) d)) in H. destruct H as [H|H]; [|right; exact H].
  apply (flat_aset_in (fun q => q)) in H. destruct H as [H|H]; [left; exact H | right].
  unfold dict_of in H. destruct (aget f b) as [d|] eqn:E; [|destruct H].
  destruct (aget_in _ _ _ E) as [k0 H0]. apply in_flat_map. exists (k0, d). split; assumption.
Qed.

Lemma skipn_in {A} k (l : list A) x : In x (skipn k l) -> In x l.
Proof. revert l. induction k as [|k IH]; intros l H; [exact H|]. destruct l; [destruct H|]. right. apply IH. exact H. Qed.

Lemma appended_in sz b e x : In x (all_buffered (appended sz b e)) -> In x (all_buffered b) \/ x = e.
Proof.
  assert (G : In x (buf_get b (e_fac e) (e_lvl e) ++ [e]) -> In x (all_buffered b) \/ x = e).
  { intros Hx. apply in_app_or in Hx. destruct Hx as [Hx|[ <- |[]]]; [left; eapply buf_get_in_all; exact Hx | right; reflexivity]. }
  intros H. apply all_buffered_buf_set in H. destruct H as [H|H]; [apply G; eapply skipn_in; exact H|].
  apply all_buffered_buf_set in H. destruct H as [H|H]; [apply G; exact H | left; exact H].
Qed.

Lemma msg_inner_bufs_in c s e x :
  In x (all_buffered (s_bufs (fst (fst (msg_inner c s e))))) -> In x (all_buffered (s_bufs s)) \/ x = e.
Proof.
  unfold msg_inner. destruct (cmpZ threshold_drop_cmp (e_lvl e) (threshold_of (s_thr s) (e_fac e))); cbn [fst s_bufs];
    [left; assumption | rewrite add_event_bufs; apply appended_in].
Qed.

Lemma nohost_appended sz b e : nohost b -> is_hostile e = false -> nohost (appended sz b e).
Proof.
  rewrite !nohost_in. intros Hb He x Hx. destruct (appended_in sz b e x Hx) as [H| -> ]; [apply Hb, H | exact He].
Qed.

Lemma qualifier_stage_junk c b i e : nohost b -> i_junk (fst (qualifier_stage c b i e)) = i_junk i.
Proof.
  intros Hh. unfold qualifier_stage, declare_incident.
  destruct (c_qual c && _); [|reflexivity]. destruct (one_reporter_at_a_time && _), (c_fault c); try reflexivity;
    exact (proj2 (incident_declared_never_fails c b _ e Hh)).
Qed.

Lemma trailing_event_junk i ev : i_junk (trailing_event i ev) = i_junk i.
Proof.
  unfold trailing_event. destruct (i_rep i) as [r|]; [|reflexivity]. destruct (cmpZ trailing_cmp _ 0); reflexivity.
Qed.

Lemma end_of_call_junk s n : i_junk (s_inc (end_of_call s n)) = i_junk (s_inc s).
Proof.
  unfold end_of_call, with_inc. cbn [s_inc i_junk]. generalize (s_inc s).
  induction n as [|ev t IH]; intros i; [reflexivity|]. cbn [fold_left]. rewrite IH. apply trailing_event_junk.
Qed.

Lemma msg_inner_junk c s e : nohost (s_bufs s) -> is_hostile e = false ->
  i_junk (s_inc (fst (fst (msg_inner c s e)))) = i_junk (s_inc s) /\ nohost (s_bufs (fst (fst (msg_inner c s e)))).
Proof.
  intros Hb He. unfold msg_inner. destruct (cmpZ _ _ _); cbn [fst s_inc s_bufs]; [split; [reflexivity | exact Hb]|].
  pose proof (nohost_appended (s_sizes s) (s_bufs s) e Hb He) as Hn.
  rewrite add_event_eq. cbv zeta. destruct (_ <? 0); cbn [x_inc x_bufs]; split; try assumption; [reflexivity|].
  apply qualifier_stage_junk, Hn.
Qed.

Lemma op_kind_not_hostile o e : op_not_hostile o -> e_numk e = op_kind o -> is_hostile e = false.
Proof.
  unfold is_hostile. intros Ho ->. destruct o as [[[n []]|] ? ? ? ? ?| | | |]; (reflexivity || destruct Ho).
Qed.

Lemma step_junk c s o : op_not_hostile o -> nohost (s_bufs s) ->
  i_junk (s_inc (fst (step c s o))) = i_junk (s_inc s) /\ nohost (s_bufs (fst (step c s o))).
Proof.
  intros Ho Hb. apply (step_ind (fun s' => i_junk (s_inc s') = i_junk (s_inc s) /\ nohost (s_bufs s'))).
  - split; [reflexivity | exact Hb].
  - intros s' e _ Hk [Hj Hn]. rewrite <- Hj. apply msg_inner_junk; [exact Hn | exact (op_kind_not_hostile o e Ho Hk)].
  - intros s' n [Hj Hn]. rewrite end_of_call_junk. split; assumption.
  - intros s' r H. exact H.
Qed.

(* nothing is abandoned: over any history in which no call passes a num= on which isinstance(.., int) raises, no
   incident is left as .flog / .flog.bz2.tmp *)
Theorem nothing_abandoned c ops s : Forall op_not_hostile ops -> nohost (s_bufs s) ->
  i_junk (s_inc (fst (run c s ops))) = i_junk (s_inc s).
Proof.
  intros Ho Hb.
  refine (proj1 (run_ind (fun s' => i_junk (s_inc s') = i_junk (s_inc s) /\ nohost (s_bufs s')) op_not_hostile c _ ops s Ho
                         (conj eq_refl Hb))).
  intros s' o Ho' [Hj Hn]. rewrite <- Hj. apply step_junk; assumption.
Qed.

Theorem nothing_abandoned_from_init c ops : Forall op_not_hostile ops -> i_junk (s_inc (fst (run c init ops))) = 0.
Proof. intros H. apply (nothing_abandoned c ops init H). reflexivity. Qed.

Definition ev_ids (l : list event) : list Z := map e_id l.

(* numbers: three logger-numbered calls (one of them failing inside _msg) interleaved with a caller-numbered one *)
Example ex_numbers :
  snd (run (mkCfg true true NoFault) init [Msg None 0 20 true true 0; Msg (Some (7, NumInt)) 0 20 true true 1; MsgBad false 2; Msg None 2 30 false true 3])
  = [Some 0; Some 7; Some 1; Some 2].
Proof. vm_compute. reflexivity. Qed.

(* bounds: limit 2 on (None, 20): the two most recent events stay; lowering a limit does not trim by itself *)
Example ex_bounded :
  let s := fst (run (mkCfg false false NoFault) init [SetSize 0 20 2; Msg None 0 20 true true 0; Msg None 0 20 true true 1; Msg None 0 20 true true 2;
                                              SetSize 0 20 1]) in
  ev_ids (buf_get (s_bufs s) 0 20) = [1; 2] /\ limit_of (s_sizes s) 0 20 = 1.
Proof. vm_compute. split; reflexivity. Qed.

(* a negative limit: popleft on the empty deque raises inside _msg, the caller still gets its number, and the
   internal-error event is logged instead *)
Example ex_negative_limit :
  let '(s, r) := run (mkCfg false false NoFault) init [SetSize 0 20 (-1); Msg None 0 20 true true 0] in
  r = [None; Some 0] /\ ev_ids (all_buffered (s_bufs s)) = [-1].
Proof. vm_compute. split; reflexivity. Qed.

(* subscriber: queue limit 2, one in flight: 5 sends, the queue overflows and events 3, 4 are dropped; order kept *)
Example ex_subscriber :
  let s := sub_run 2 1 [Send 0; Send 1; Turn; Send 2; Send 3; Send 4; Ack; Turn; Ack; Turn] in
  q_delivered s = [0; 1; 2] /\ q_queue s = [] /\ q_emitted s = [0; 1; 2; 3; 4] /\ q_inflight s = 1.
Proof. vm_compute. repeat split; reflexivity. Qed.

(* incident with an event the plain encoder rejects (e_ok = false) in the history AND as trailing event: recorded *)
Example ex_incident_trailing :
  let s := fst (run (mkCfg true true NoFault) init [Msg None 0 20 false true 0; Msg None 2 20 true true 1; Msg None 0 30 true true 2;
                                            Msg None 0 20 false false 3; Msg None 0 20 true true 4; Timer]) in
  map ev_ids (i_files (s_inc s)) = [[2; 0; 1; 2; 3; 4]] /\ i_recorded (s_inc s) = 1 /\ i_declared (s_inc s) = 1 /\
  i_junk (s_inc s) = 0 /\ i_rep (s_inc s) = None.
Proof. vm_compute. repeat split; reflexivity. Qed.

Example ex_incident_nontrailing_then_later :
  let s := fst (run (mkCfg true false NoFault) init [Msg None 0 20 false true 0; Msg None 0 30 false true 1; Msg None 2 40 true true 2]) in
  map ev_ids (i_files (s_inc s)) = [[1; 0; 1]; [2; 0; 1; 2]] /\ i_recorded (s_inc s) = 2.
Proof. vm_compute. split; reflexivity. Qed.

(* the hypotheses of incident_recorded are met by a non-trivial state *)
Example ex_incident_recorded_hyps :
  let s := fst (run (mkCfg true true NoFault) init [Msg None 0 20 false true 0; Msg None 2 20 true true 1]) in
  i_rep (s_inc s) = None /\ i_zombie (s_inc s) = false /\ 0 <= limit_of (s_sizes s) 0 30 /\ incident_level <= 35.
Proof. vm_compute. repeat split; try reflexivity; discriminate. Qed.

(* failing incident handling (logdir gone: incident_declared raises for every trigger): limit 2 on (None, 30), five
   triggering events: msg still returns 0..4, the buffer holds the last two, the internal-error buffer holds its own *)
Example ex_fault_bounded :
  let '(s, r) := run (mkCfg true true ReporterRaises) init
                     [SetSize 0 30 2; Msg None 0 30 true true 0; Msg None 0 30 true true 1; Msg None 0 30 true true 2;
                      Msg None 0 30 true true 3; Msg None 0 30 true true 4] in
  r = [None; Some 0; Some 1; Some 2; Some 3; Some 4] /\ ev_ids (buf_get (s_bufs s) 0 30) = [3; 4] /\
  ev_ids (buf_get (s_bufs s) 1 30) = [-1; -2; -3; -4; -5] /\ i_declared (s_inc s) = 10 /\ i_recorded (s_inc s) = 0 /\
  i_junk (s_inc s) = 0.
Proof. vm_compute. repeat split; reflexivity. Qed.

Example ex_fault_qualifier_bounded :
  let s := fst (run (mkCfg true false QualifierRaises) init
                    [SetSize 0 35 1; Msg None 0 35 true true 0; Msg None 0 35 true true 1; Msg None 0 35 true true 2]) in
  ev_ids (buf_get (s_bufs s) 0 35) = [2] /\ i_declared (s_inc s) = 0.
Proof. vm_compute. split; reflexivity. Qed.

(* non-integer numbers (fixed in 7a22019; oracle/incident-lost-noninteger-num).
   msg('a', num='x'); msg('b'); msg('trigger', level=BAD); msg('later', level=BAD): both incidents are recorded, each
   file holds the odd event (first: its key is -1) and everything else buffered *)
Definition odd_history (k : numkind) : list op :=
  [Msg (Some (900, k)) 0 20 true true 0; Msg None 0 20 true true 1; Msg None 0 40 true true 2; Msg None 0 40 true true 3].

Example ex_odd_num_recorded :
  let s := fst (run (mkCfg true false NoFault) init (odd_history NumOdd)) in
  map ev_ids (i_files (s_inc s)) = [[2; 0; 1; 2]; [3; 0; 1; 2; 3]] /\ i_recorded (s_inc s) = 2 /\ i_junk (s_inc s) = 0 /\
  snd (run (mkCfg true false NoFault) init (odd_history NumOdd)) = [Some 900; Some 0; Some 1; Some 2].
Proof. vm_compute. repeat split; reflexivity. Qed.

Example ex_odd_num_recorded_trailing :
  let s := fst (run (mkCfg true true NoFault) init (odd_history NumOdd ++ [Timer])) in
  map ev_ids (i_files (s_inc s)) = [[2; 0; 1; 2; 3]] /\ i_recorded (s_inc s) = 1 /\ i_junk (s_inc s) = 0 /\ i_rep (s_inc s) = None.
Proof. vm_compute. repeat split; reflexivity. Qed.

(* the same history with a number on which isinstance(.., int) raises: OUTSIDE the guard of incident_recorded /
   nothing_abandoned, and the real code does lose both incidents (replayed by the oracle: num = an object whose
   __class__ property raises; reported as oracle/incident-lost-hostile-num) *)
Example ex_hostile_num_lost :
  let s := fst (run (mkCfg true false NoFault) init (odd_history NumHostile)) in
  i_files (s_inc s) = [] /\ i_recorded (s_inc s) = 0 /\ i_declared (s_inc s) = 4 /\ i_junk (s_inc s) = 2.
Proof. vm_compute. repeat split; reflexivity. Qed.

Example ex_hostile_num_stuck_trailing :
  let s := fst (run (mkCfg true true NoFault) init (odd_history NumHostile ++ [Timer])) in
  i_files (s_inc s) = [] /\ i_recorded (s_inc s) = 0 /\ i_declared (s_inc s) = 3 /\ is_some (i_rep (s_inc s)) = true.
Proof. vm_compute. repeat split; reflexivity. Qed.

Theorem nothing_abandoned_refuted_hostile : exists c ops, i_junk (s_inc (fst (run c init ops))) <> 0.
Proof.
  exists (mkCfg true false NoFault), (odd_history NumHostile). rewrite (proj2 (proj2 (proj2 ex_hostile_num_lost))). discriminate.
Qed.

(* the sort key before 7a22019 (`lambda a: a['num']`): were it back, a plain non-integer number would do the same.
   General: the raw key raises on every list of two or more events one of which is not integer-numbered ... *)
Lemma raw_key_raises l : (2 <= List.length l)%nat -> forallb is_int l = false -> sort_raises KeyRaw l = true.
Proof.
  intros H1 H2. unfold sort_raises. rewrite H2. cbn [negb]. rewrite andb_true_r. apply Z.leb_le. lia.
Qed.

(* ... and as a regression statement about the logger model (first [..|..]: provable whichever key is translated) *)
Theorem raw_sort_key_loses_incidents : incident_sort_key = KeyRaw ->
  let s := fst (run (mkCfg true false NoFault) init (odd_history NumOdd)) in
  i_files (s_inc s) = [] /\ i_recorded (s_inc s) = 0 /\ i_junk (s_inc s) = 2.
Proof. intros H. vm_compute in H. first [discriminate H | vm_compute; repeat split; reflexivity]. Qed.

Lemma sub_subscribe_nohost catch_up b : nohost b ->
  sub_subscribe catch_up b = (sub_init, if catch_up then sort_catchup (all_buffered b) else [], false).
Proof.
  intros H. unfold sub_subscribe, catchup. change (sort_raises _ _) with (existsb is_hostile (all_buffered b)).
  rewrite H, andb_false_r. reflexivity.
Qed.

(* EXACT guard: no buffered number makes isinstance(.., int) raise (nohost b).  Then the batch is everything buffered, in
   key order: integer numbers in number order, every other number where -1 sits *)
Theorem subscriber_bounded_after_catchup maxq maxfl catch_up b ops : 0 <= maxq -> 0 <= maxfl ->
  let '(s0, direct, raised) := sub_subscribe catch_up b in
  let s := fold_left (sub_step maxq maxfl) ops s0 in
  q_queue s0 = [] /\ q_inflight s0 = 0 /\
  (catch_up = true -> nohost b ->
     raised = false /\ Permutation direct (all_buffered b) /\ StronglySorted (key_le catchup_sort_key) direct /\
     StronglySorted int_num_le direct) /\
  Z.of_nat (List.length (q_queue s)) <= maxq /\ 0 <= q_inflight s <= maxfl /\
  subseq (q_delivered s ++ q_queue s) (q_emitted s).
Proof.
  intros Hq Hf. destruct (subscriber_bounded maxq maxfl ops Hq Hf) as (H1 & H2 & _ & H4). unfold sub_run in *.
  unfold sub_subscribe, catchup. change (sort_raises _ _) with (existsb is_hostile (all_buffered b)).
  destruct (catch_up && _) eqn:E; repeat (split; [reflexivity|]); (split; [|exact (conj H1 (conj H2 H4))]).
  - intros -> Hh. rewrite Hh in E. discriminate E.
  - intros -> _. split; [reflexivity|]. split; [apply sort_with_perm|]. split; [apply sort_with_sorted | apply sort_with_sorted_ints].
Qed.

Theorem subscriber_bounded_after_catchup_real catch_up b ops :
  let '(s0, direct, raised) := sub_subscribe catch_up b in
  let s := fold_left (sub_step MAX_QUEUE_SIZE MAX_IN_FLIGHT) ops s0 in
  q_queue s0 = [] /\ q_inflight s0 = 0 /\
  (catch_up = true -> nohost b ->
     raised = false /\ Permutation direct (all_buffered b) /\ StronglySorted (key_le catchup_sort_key) direct /\
     StronglySorted int_num_le direct) /\
  Z.of_nat (List.length (q_queue s)) <= MAX_QUEUE_SIZE /\ 0 <= q_inflight s <= MAX_IN_FLIGHT /\
  subseq (q_delivered s ++ q_queue s) (q_emitted s).
Proof. destruct real_limits_nonneg. apply subscriber_bounded_after_catchup; assumption. Qed.

(* OUTSIDE the guard: the subscriber is handed no catch-up batch at all (subscribe raises after registering send()) *)
Theorem catchup_lost_when_sort_raises b :
  existsb is_hostile (all_buffered b) = true -> sub_subscribe true b = (sub_init, [], true).
Proof. intros H. unfold sub_subscribe, catchup, catchup_sort_key, sort_raises. rewrite H. reflexivity. Qed.

Theorem filter_reads_back above strip final_bz2 inplace recs :
  filter_run above strip final_bz2 inplace recs = Some (filter (filter_keep above strip) recs).
Proof. unfold filter_run, read_back, write_codec, filter_codec_from. destruct final_bz2; reflexivity. Qed.

(* the compression chosen by LogFileObserver is the one get_events expects for that name *)
Lemma read_back_logfile {A} name_bz2 (lines : list A) :
  read_back name_bz2 (write_codec logfile_codec_from name_bz2 false) lines = Some lines.
Proof. unfold read_back, write_codec, logfile_codec_from. destruct name_bz2; reflexivity. Qed.

Theorem logfile_reads_back name_bz2 recs : logfile_written name_bz2 recs = Some recs.
Proof. apply read_back_logfile. Qed.

Lemma filter_keep_above a strip r : fr_header r = false -> strip = false ->
  filter_keep (Some a) strip r = true <-> a <= fr_lvl r.
Proof.
  intros Hh ->. unfold filter_keep, filter_above_drop_cmp, cmpZ. rewrite Hh. cbn [orb andb negb].
  rewrite andb_true_r, negb_true_iff. apply Z.ltb_ge.
Qed.

(* had the compressor been chosen from the name that is opened, an in-place filter of a .bz2 file would be unreadable *)
Example ex_opened_name_unreadable :
  read_back true (write_codec OpenedName true true) [1; 2; 3] = None /\
  read_back true (write_codec FinalName true true) [1; 2; 3] = Some [1; 2; 3].
Proof. split; reflexivity. Qed.

Example ex_filter :
  filter_run (Some 23) true true true
    [mkFrec true 0 false 0; mkFrec false 20 false 1; mkFrec false 23 false 2; mkFrec false 30 true 3; mkFrec false 40 false 4]
  = Some [mkFrec true 0 false 0; mkFrec false 23 false 2; mkFrec false 40 false 4].
Proof. reflexivity. Qed.

Lemma window_inactive closing : window_active closing = false.
Proof. reflexivity. Qed.

(* a trigger emitted while no reporter is recording -- in particular between stop_recording and finished_recording of
   the previous one (f_closing arbitrary) -- starts an incident of its own *)
Theorem trigger_in_window_recorded c f fac lvl ok rp id :
  c_fault c = NoFault -> c_qual c = true -> i_rep (s_inc (f_s f)) = None ->
  incident_level <= lvl -> cmpZ threshold_drop_cmp lvl (threshold_of (s_thr (f_s f)) fac) = false ->
  0 <= limit_of (s_sizes (f_s f)) fac lvl -> nohost (s_bufs (f_s f)) ->
  let e := mkEv (s_seq (f_s f) + 1) fac lvl ok id NumInt in
  let '(f', r, n) := fcall c f (Msg None fac lvl ok rp id) in
  r = Some (e_num e) /\ f_closing f' = f_closing f /\ n = [] /\
  (c_trailing c = true -> exists lines, i_rep (s_inc (f_s f')) = Some (mkRep e lines TRAILING_EVENT_LIMIT true)) /\
  (c_trailing c = false -> exists lines, i_files (s_inc (f_s f')) = i_files (s_inc (f_s f)) ++ [e :: lines]).
Proof.
  intros Hf Hq Hr Hl Hthr Hlim Hnh. cbv zeta.
  unfold fcall. rewrite window_inactive.
  destruct f as [s closing]. cbn [f_s f_closing] in *.
  unfold call_nt. cbn [set_zombie with_inc s_seq s_sizes s_thr s_bufs s_inc]. rewrite next_num_spec.
  unfold msg_inner. change (kind_of None) with NumInt. cbn [s_thr s_sizes s_bufs s_inc s_seq e_lvl e_fac]. rewrite Hthr.
  set (i0 := mkInc (i_rep (s_inc s)) false (i_declared (s_inc s)) (i_recorded (s_inc s)) (i_files (s_inc s)) (i_junk (s_inc s))).
  set (e := mkEv (s_seq s + 1) fac lvl ok id NumInt).
  rewrite (add_event_declares c (s_sizes s) (s_bufs s) i0 e Hf Hq Hl Hr eq_refl Hlim).
  rewrite (incident_declared_ok c _ _ e (nohost_appended _ _ e Hnh eq_refl) (enc_total _) (forallb_enc_total _)).
  cbn [x_raised x_notified x_inc x_bufs tag map app].
  destruct (c_trailing c); cbn [fst snd f_s f_closing set_zombie with_inc s_inc publish i_rep i_files];
    repeat (split; [reflexivity|]); split; intros Ht; try discriminate Ht; eexists; reflexivity.
Qed.

(* the timer only stops the recording; the file is published by the next finish *)
Lemma timer_stop_spec s closing r :
  i_rep (s_inc s) = Some r -> r_timer r = true ->
  timer_stop (mkFine s closing) (Some (e_id (r_trigger r))) =
    mkFine (with_inc s (mkInc None (i_zombie (s_inc s)) (i_declared (s_inc s)) (i_recorded (s_inc s)) (i_files (s_inc s))
                              (i_junk (s_inc s)))) (closing ++ [r]).
Proof. intros Hr Ht. unfold timer_stop. cbn [f_s f_closing]. rewrite Hr, Ht, Z.eqb_refl. reflexivity. Qed.

Definition trig (cid lvl : Z) : op := Msg None 0 lvl true true cid.
Definition quiet (cid : Z) : op := Msg None 0 20 true true cid.
Fixpoint quiets (from : Z) (n : nat) : list op := match n with O => [] | S k => quiet from :: quiets (from + 1) k end.

(* second trigger in the instant of the trailing timer, after it; and an observer reacting, inside the batch in which
   the 100-event quota ended the recording, to a later event of that batch: both get an incident of their own *)
Example ex_trigger_after_timer :
  let f := fst (iterations (mkCfg true true NoFault) fine_init
                  [ICalls [quiet 0; trig 1 30; quiet 2] None; ITimer [] [trig 3 35]; ITimer [] []; ITimer [] []]) in
  map ev_ids (i_files (s_inc (f_s f))) = [[1; 0; 1; 2]; [3; 0; 1; 2; 3]] /\ i_recorded (s_inc (f_s f)) = 2.
Proof. vm_compute. split; reflexivity. Qed.

Example ex_trigger_after_quota :
  let f := fst (iterations (mkCfg true true NoFault) fine_init
                  [ICalls (trig 0 30 :: quiets 1 103) (Some (101%nat, trig 200 35)); ITimer [] []; ITimer [] []]) in
  i_recorded (s_inc (f_s f)) = 2 /\ in_some_file (s_inc (f_s f)) 200 = true /\ in_some_file (s_inc (f_s f)) 0 = true /\
  map (fun l => List.length l) (i_files (s_inc (f_s f))) = [102%nat; 103%nat].
Proof. vm_compute. repeat split; reflexivity. Qed.

(* a trigger-level event emitted WHILE a reporter is recording does not start an incident (declare_incident hands it to
   new_trigger, the documented overlap hook, a no-op): it is an ordinary trailing event of the running incident *)
Lemma absorbed_by_running_incident c b i e r :
  i_rep i = Some r ->
  declare_incident c b i e = (mkInc (i_rep i) (i_zombie i) (i_declared i + 1) (i_recorded i) (i_files i) (i_junk i), false).
Proof. intros Hr. unfold declare_incident, one_reporter_at_a_time. rewrite Hr. reflexivity. Qed.

(* ... and therefore subject to the reporter's documented limits: it is dropped when it is the 101st event after the first
   trigger, and when the trailing timer stops the recording before the eventual queue delivers it (both by design; the
   harness counts such events as absorbed_triggers_dropped_by_limits, and replays these two histories on the real code) *)
Theorem absorbed_trigger_subject_to_limits :
  (exists its, let f := fst (iterations (mkCfg true true NoFault) fine_init its) in
               f_closing f = [] /\ i_rep (s_inc (f_s f)) = None /\ i_declared (s_inc (f_s f)) = 2 /\
               i_recorded (s_inc (f_s f)) = 1 /\ in_some_file (s_inc (f_s f)) 101 = false) /\
  (exists its, let f := fst (iterations (mkCfg true true NoFault) fine_init its) in
               f_closing f = [] /\ i_rep (s_inc (f_s f)) = None /\ i_declared (s_inc (f_s f)) = 2 /\
               i_recorded (s_inc (f_s f)) = 1 /\ in_some_file (s_inc (f_s f)) 1 = false).
Proof.
  split.
  - exists ([ICalls [trig 0 30] None] ++ map (fun o => ICalls [o] None) (quiets 1 100) ++
            [ICalls [trig 101 30] None; ICalls [quiet 102] None; ITimer [] []; ITimer [] []]).
    vm_compute. repeat split; reflexivity.
  - exists [ICalls [trig 0 30] None; ITimer [trig 1 30] []; ITimer [] []; ITimer [] []].
    vm_compute. repeat split; reflexivity.
Qed.
