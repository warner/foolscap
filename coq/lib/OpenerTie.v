(* C11: the index-token check of the standard-unslicer model (lib/StdUnsl.std_opener, hand-written) IS the translated
   RootUnslicer.openerCheckToken (gen/OpenerGen.root_opener_accepts), for all arguments. *)
From Coq Require Import ZArith List Bool Lia.
Import ListNotations.
Require Import Verif.lib.PyLite Verif.gen.BananaGen Verif.gen.RecvGen Verif.lib.Token Verif.lib.Recv Verif.lib.Unsl Verif.lib.StdUnsl
               Verif.lib.OpenerBase Verif.gen.OpenerGen.
Local Open Scope Z_scope.

Lemma bytes_eqb_list_eqb : forall a b, bytes_eqb a b = list_eqb a b.
Proof. induction a as [|x a IH]; intros [|y b]; cbn [bytes_eqb list_eqb]; try reflexivity; rewrite IH; reflexivity. Qed.

Lemma ot_is_copyable_spec ot : ot_is_copyable ot = match ot with [c] => list_eqb c str_copyable | _ => false end.
Proof. unfold ot_is_copyable. destruct ot as [|c [|? ?]]; try reflexivity; apply bytes_eqb_list_eqb. Qed.

Theorem std_opener_is_translated : forall mi lg st ty size ot,
  std_opener mi lg st ty size ot = if root_opener_accepts mi lg ot ty size then OOk tt else OViol.
Proof.
  intros mi lg st ty size ot. unfold std_opener, root_opener_accepts. cbv zeta. rewrite ot_is_copyable_spec, Z.gtb_ltb.
  (* by the outcome of each test, so that the order of the tests in the source does not matter *)
  destruct (Z.eqb_spec ty tok_STRING) as [->|_]; [|destruct (ty =? tok_VOCAB); reflexivity].
  destruct ot as [|c [|c2 r]]; [|destruct (list_eqb c str_copyable)|]; destruct (_ <? size); reflexivity.
Qed.

(* hence the translated check bounds what the model's receiver accepts as an index token *)
Corollary std_opener_accepts_iff : forall mi lg st ty size ot,
  std_opener mi lg st ty size ot = OOk tt <-> root_opener_accepts mi lg ot ty size = true.
Proof. intros. rewrite std_opener_is_translated. destruct (root_opener_accepts mi lg ot ty size); split; intros H; try reflexivity; discriminate. Qed.
