(* C10: UTF-8 as used by call.py's `truncate`: text is a list of code points, `utf8` is str.encode("utf-8"),
   `utf8_decode_ignore` is bytes.decode("utf-8", "ignore") followed by re-encoding (the model keeps every text in its
   encoded form).  Definitions only; the lemmas are in Utf8Proofs.v.
   The decoder is exact on every prefix of a well-formed encoding (which is proved to be the only kind of input
   `truncate` gives it); on ill-formed input it drops bytes like "ignore" does but does not claim to drop the same ones. *)
From Coq Require Import ZArith List Bool.
Import ListNotations.
Local Open Scope Z_scope.

(* Unicode scalar value: what a Python str element must be for .encode("utf-8") to succeed *)
Definition scalarb (c : Z) : bool :=
  (0 <=? c) && (c <? 1114112) && negb ((55296 <=? c) && (c <? 57344)).

Definition enc1 (c : Z) : list Z :=
  if c <? 128 then [c]
  else if c <? 2048 then [192 + c / 64; 128 + c mod 64]
  else if c <? 65536 then [224 + c / 4096; 128 + (c / 64) mod 64; 128 + c mod 64]
  else [240 + c / 262144; 128 + (c / 4096) mod 64; 128 + (c / 64) mod 64; 128 + c mod 64].

Definition utf8 (cps : list Z) : list Z := flat_map enc1 cps.

Definition is_cont (b : Z) : bool := (128 <=? b) && (b <? 192).

(* byte-at-a-time decoder; `pend` = bytes of the sequence being read, `need` = continuation bytes still expected.
   A sequence that is still incomplete when the input ends is dropped. *)
Fixpoint dec (pend : list Z) (need : nat) (l : list Z) {struct l} : list Z :=
  match l with
  | [] => []
  | b :: l' =>
    match need with
    | O => if b <? 128 then b :: dec [] 0 l'
           else if (194 <=? b) && (b <? 224) then dec [b] 1 l'
           else if (224 <=? b) && (b <? 240) then dec [b] 2 l'
           else if (240 <=? b) && (b <? 245) then dec [b] 3 l'
           else dec [] 0 l'
    | S n => if is_cont b
             then match n with
                  | O => (pend ++ [b]) ++ dec [] 0 l'
                  | S _ => dec (pend ++ [b]) n l'
                  end
             else dec [] 0 l'
    end
  end.

Definition utf8_decode_ignore (l : list Z) : list Z := dec [] 0 l.

(* str.encode("utf-8", "backslashreplace"): a code point that UTF-8 cannot encode (in a Python str: a lone surrogate
   U+D800..U+DFFF) is replaced by the six ASCII characters \udXXX (lower-case hex); `escape` is that replacement on
   the text, so that the encoded form is utf8 (escape t) *)
Definition hexdigit (d : Z) : Z := if d <? 10 then 48 + d else 87 + d.

Definition esc1 (c : Z) : list Z :=
  if scalarb c then [c]
  else [92; 117; hexdigit ((c / 4096) mod 16); hexdigit ((c / 256) mod 16); hexdigit ((c / 16) mod 16); hexdigit (c mod 16)].

Definition escape (t : list Z) : list Z := flat_map esc1 t.

(* the longest prefix of whole characters whose encoding fits in n bytes *)
Fixpoint take_fit (n : nat) (cps : list Z) : list Z :=
  match cps with
  | [] => []
  | c :: r => let k := List.length (enc1 c) in
              if (k <=? n)%nat then c :: take_fit (n - k) r else []
  end.
