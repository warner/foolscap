(* C04: proofs about lib/Order.v.  Order, at most once, head of line, no silent loss and the whole-path theorem come from ONE
   invariant: a state is projected on an abstract view (abs), every micro-step of the model changes that view by one of the nine
   effects of `eff`, and every effect keeps `Core`.  SInv, RInv and GInv go along, one per part of the path; GInv (a delivery that
   is not ready holds a `live` Deferred network) singles out the only states in which the translated AsyncAND / updateChild steps
   have to be computed.  Settling is by a measure for the sender, the length of the wire, and a measure for the receiver, in that
   order. *)
From Coq Require Import List Bool Arith ZArith Lia Sorted.
Import ListNotations.
Require Import Verif.gen.OrderGen Verif.lib.Order.

(* the disciplines the proofs rely on; each is a computation on the generated constants, so an edit of the
   source that changes one of them makes the corresponding lemma (and everything built on it) fail *)

Lemma sendq_is_fifo : sendq_push = PushBack /\ sendq_pop = PopFront.
Proof. split; reflexivity. Qed.

Lemma inq_is_fifo : inq_push = PushBack /\ inq_pop = PopFront.
Proof. split; reflexivity. Qed.

Lemma evq_is_fifo : evq_push = PushBack /\ evq_iter = IterForward.
Proof. split; reflexivity. Qed.

Lemma hol_is_blocking : head_of_line = HolBlocking.
Proof. reflexivity. Qed.

Lemma idle_test_before_enqueue : send_idle_before_enqueue = true.
Proof. reflexivity. Qed.

Lemma loss_stops_dequeue : checks_disconnected = true.
Proof. reflexivity. Qed.

Lemma gift_after_loss_fails : ack_after_loss_fails = true.
Proof. reflexivity. Qed.

Lemma evq_isolation : evq_isolates_exceptions = true.
Proof. reflexivity. Qed.

Lemma sendq_put (c : call) (l : list call) : q_put sendq_push c l = l ++ [c].
Proof. destruct sendq_is_fifo as [-> _]. reflexivity. Qed.

Lemma sendq_take (l : list call) : q_take sendq_pop l = match l with [] => None | x :: r => Some (x, r) end.
Proof. destruct sendq_is_fifo as [_ ->]. reflexivity. Qed.

Lemma inq_put (c : call * rdy) (l : list (call * rdy)) : q_put inq_push c l = l ++ [c].
Proof. destruct inq_is_fifo as [-> _]. reflexivity. Qed.

Lemma inq_take (l : list (call * rdy)) : q_take inq_pop l = match l with [] => None | x :: r => Some (x, r) end.
Proof. destruct inq_is_fifo as [_ ->]. reflexivity. Qed.

Lemma fold_left_invariant {S O} (f : S -> O -> S) (P : S -> Prop) :
  (forall s o, P s -> P (f s o)) -> forall ops s, P s -> P (fold_left f ops s).
Proof. intros H ops. induction ops as [|o ops IH]; intros s I; cbn [fold_left]; [exact I | apply IH, H, I]. Qed.

Inductive sublist {A} : list A -> list A -> Prop :=
| sl_nil : sublist [] []
| sl_cons x l1 l2 : sublist l1 l2 -> sublist (x :: l1) (x :: l2)
| sl_skip x l1 l2 : sublist l1 l2 -> sublist l1 (x :: l2).

Lemma sublist_refl {A} (l : list A) : sublist l l.
Proof. induction l; constructor; assumption. Qed.

Lemma sublist_nil_l {A} (l : list A) : sublist [] l.
Proof. induction l; constructor; assumption. Qed.

Lemma sublist_trans {A} (l1 l2 l3 : list A) : sublist l1 l2 -> sublist l2 l3 -> sublist l1 l3.
Proof.
  intros H12 H23. revert l1 H12. induction H23; intros l0 H12.
  - exact H12.
  - inversion H12; subst.
    + apply sl_cons. apply IHsublist. assumption.
    + apply sl_skip. apply IHsublist. assumption.
  - apply sl_skip. apply IHsublist. assumption.
Qed.

Lemma sublist_app {A} (a a' b b' : list A) : sublist a a' -> sublist b b' -> sublist (a ++ b) (a' ++ b').
Proof.
  intros Ha Hb. induction Ha; cbn [app].
  - exact Hb.
  - apply sl_cons. assumption.
  - apply sl_skip. assumption.
Qed.

Lemma sublist_drop_mid {A} (a b : list A) x : sublist (a ++ b) (a ++ x :: b).
Proof. apply sublist_app; [apply sublist_refl | apply sl_skip, sublist_refl]. Qed.

Lemma sublist_in {A} (l1 l2 : list A) x : sublist l1 l2 -> In x l1 -> In x l2.
Proof.
  intros H; induction H; intros Hin.
  - exact Hin.
  - destruct Hin as [->|Hin]; [left; reflexivity | right; auto].
  - right; auto.
Qed.

Lemma sublist_app_l {A} (a b : list A) : sublist a (a ++ b).
Proof. rewrite <- (app_nil_r a) at 1. apply sublist_app; [apply sublist_refl | apply sublist_nil_l]. Qed.

Lemma sublist_sorted {A} (R : A -> A -> Prop) l1 l2 :
  sublist l1 l2 -> StronglySorted R l2 -> StronglySorted R l1.
Proof.
  intros H; induction H; intros Hs.
  - constructor.
  - inversion Hs; subst. constructor; [auto|].
    rewrite Forall_forall in *. intros y Hy. apply H3. eapply sublist_in; eauto.
  - inversion Hs; subst. auto.
Qed.

Lemma sublist_nodup {A} (l1 l2 : list A) : sublist l1 l2 -> NoDup l2 -> NoDup l1.
Proof.
  intros H; induction H; intros Hn.
  - constructor.
  - inversion Hn; subst. constructor; [|auto]. intros Hin. apply H2. eapply sublist_in; eauto.
  - inversion Hn; subst. auto.
Qed.

Lemma seq_sorted a n : StronglySorted lt (seq a n).
Proof.
  revert a; induction n as [|n IH]; intros a; cbn [seq]; constructor; [apply IH|].
  rewrite Forall_forall. intros y Hy. apply in_seq in Hy. lia.
Qed.

Lemma sorted_app_lt l1 l2 x y : StronglySorted lt (l1 ++ l2) -> In x l1 -> In y l2 -> x < y.
Proof.
  induction l1 as [|a l1 IH]; cbn [app]; intros Hs Hx Hy; [destruct Hx|].
  inversion Hs; subst. destruct Hx as [->|Hx].
  - rewrite Forall_forall in H2. apply H2. apply in_or_app. right; assumption.
  - apply IH; assumption.
Qed.

(* abstract view of a state: only what the ordering arguments need *)

Record astate := amk {
  a_next : nat;
  a_wait : list nat;      (* ids of `waiting` *)
  a_drop : list nat;      (* ids of `dropped`: queued when the connection was lost *)
  a_inq : list nat;       (* ids of `inq`, in queue order *)
  a_up : list nat;        (* ids still on the sender or on the wire: wire ++ cur ++ sendq *)
  a_trace : list event;
  a_lost : bool
}.

Definition abs (s : state) : astate :=
  amk (next_id s) (wait_ids s) (ids (dropped s)) (inq_ids s) (upstream s) (trace s) (lost s).

Inductive fin := FinEntered | FinFailed.
Definition fin_event (f : fin) (c : nat) : event := match f with FinEntered => Entered c | FinFailed => Failed c end.

(* the only ways in which one micro-step of the model changes the abstract view *)
Inductive eff : astate -> astate -> Prop :=
| E_none a : eff a a
| E_issue n w d q u t l : eff (amk n w d q u t l) (amk (S n) w d q (u ++ [n]) t l)
| E_queue n w d q c u t l : eff (amk n w d q (c :: u) t l) (amk n w d (q ++ [c]) u (Queued c :: t) l)
| E_reject n w d q c u t l : eff (amk n w d q (c :: u) t l) (amk n w d q u (Rejected c :: t) l)
| E_hold n c q u t l : eff (amk n [] [] (c :: q) u t l) (amk n [c] [] q u t l)
| E_finish_inq n c q u t f l : eff (amk n [] [] (c :: q) u t l) (amk n [] [] q u (fin_event f c :: t) l)
| E_finish_wait n c d q u t f l : eff (amk n [c] d q u t l) (amk n [] d q u (fin_event f c :: t) l)
| E_drop n w d q u t l : eff (amk n w d q u t l) (amk n w (d ++ q) [] u t true)
| E_lose n w d q u t l : eff (amk n w d q u t l) (amk n w d q u t true).

Definition aheld (a : astate) : list nat := a_wait a ++ a_drop a ++ a_inq a.

Definition handled (t : list event) (c : nat) : Prop := In (Entered c) t \/ In (Failed c) t.

Fixpoint finished_of (tr : list event) : list nat :=
  match tr with
  | [] => []
  | (Entered c | Failed c) :: r => finished_of r ++ [c]
  | _ :: r => finished_of r
  end.

Lemma entered_of_in t c : In c (entered_of t) <-> In (Entered c) t.
Proof.
  induction t as [|e t IH]; cbn [entered_of]; [tauto|].
  destruct e; cbn [In]; rewrite ?in_app_iff, IH; cbn [In]; intuition congruence.
Qed.

Lemma finished_of_in t c : In c (finished_of t) <-> handled t c.
Proof.
  unfold handled. induction t as [|e t IH]; cbn [finished_of]; [cbn [In]; tauto|].
  destruct e; cbn [In]; rewrite ?in_app_iff, IH; cbn [In]; intuition congruence.
Qed.

Lemma finished_of_app a b : finished_of (a ++ b) = finished_of b ++ finished_of a.
Proof.
  induction a as [|e a IH]; cbn [app finished_of]; [symmetry; apply app_nil_r|].
  destruct e; rewrite IH, ?app_assoc; reflexivity.
Qed.

Lemma finished_fin f c t : finished_of (fin_event f c :: t) = finished_of t ++ [c].
Proof. destruct f; reflexivity. Qed.

Lemma entered_sub_finished t : sublist (entered_of t) (finished_of t).
Proof.
  induction t as [|e t IH]; cbn [entered_of finished_of]; [constructor|].
  destruct e; try exact IH.
  - apply sublist_app; [exact IH | apply sublist_refl].
  - eapply sublist_trans; [exact IH | apply sublist_app_l].
Qed.

(* The calls 0 .. n-1, in issue order, are: those the receiver has finished, those it holds (h), those still upstream (u) -- less
   the ones it refused on arrival.  An effect appends a call at the end, moves one of the two boundaries by one call, or
   deletes the first upstream call; it never reorders. *)
Record Core (n : nat) (t : list event) (h u : list nat) : Prop := {
  co_sub : sublist (finished_of t ++ h ++ u) (seq 0 n);
  (* nothing vanishes *)
  co_all : forall c, c < n -> In c (finished_of t ++ h ++ u) \/ In (Rejected c) t;
  (* a call that was queued is finished or still held by the receiver *)
  co_queued : forall c, In (Queued c) t -> In c (finished_of t ++ h)
}.

Lemma core_issue n t h u : Core n t h u -> Core (S n) t h (u ++ [n]).
Proof.
  intros [Hs Ha Hq]. split; [| |exact Hq]; rewrite !app_assoc.
  - rewrite seq_S. apply sublist_app; [rewrite <- app_assoc; exact Hs | apply sublist_refl].
  - intros c Hc. rewrite in_app_iff, <- app_assoc. cbn [In].
    destruct (Nat.eq_dec n c) as [E|E]; [tauto|]. destruct (Ha c); [lia | tauto | tauto].
Qed.

Lemma core_queue n t h c u : Core n t h (c :: u) -> Core n (Queued c :: t) (h ++ [c]) u.
Proof.
  intros [Hs Ha Hq]. split; cbn [finished_of]; rewrite <- ?app_assoc; cbn [app].
  - exact Hs.
  - intros c0 Hc. destruct (Ha c0 Hc); [left | right; right]; assumption.
  - intros c0 [E|H]; rewrite app_assoc, in_app_iff; [injection E as <-; right; left; reflexivity | left; apply Hq, H].
Qed.

Lemma core_reject n t h c u : Core n t h (c :: u) -> Core n (Rejected c :: t) h u.
Proof.
  intros [Hs Ha Hq]. split; cbn [finished_of].
  - eapply sublist_trans; [|exact Hs]. rewrite !app_assoc. apply sublist_drop_mid.
  - intros c0 Hc. destruct (Ha c0 Hc) as [H|H]; [|right; right; exact H].
    rewrite !app_assoc, in_app_iff in *. cbn [In] in *. destruct H as [H|[<-|H]]; tauto.
  - intros c0 [E|H]; [discriminate E | apply Hq, H].
Qed.

Lemma core_finish f n t c h u : Core n t (c :: h) u -> Core n (fin_event f c :: t) h u.
Proof.
  intros [Hs Ha Hq]. split; rewrite finished_fin, <- app_assoc; cbn [app].
  - exact Hs.
  - intros c0 Hc. destruct (Ha c0 Hc); [left | right; right]; assumption.
  - intros c0 [E|H]; [destruct f; discriminate E | apply Hq, H].
Qed.

Lemma core_sorted n t h u : Core n t h u -> StronglySorted lt (finished_of t ++ h ++ u).
Proof. intros C. eapply sublist_sorted; [apply (co_sub _ _ _ _ C) | apply seq_sorted]. Qed.

Lemma core_hol n t h u l2 c l1 c' : Core n t h u ->
  t = l2 ++ Entered c :: l1 -> c' < c -> In (Queued c') t -> handled l1 c'.
Proof.
  intros C -> Hlt Hq. apply finished_of_in. apply (co_queued _ _ _ _ C) in Hq. apply core_sorted in C.
  rewrite finished_of_app in *. cbn [finished_of] in *. rewrite <- !app_assoc in *. cbn [app] in *.
  apply in_app_or in Hq as [Hq|Hq]; [exact Hq|].
  destruct Hq as [<-|Hq]; [lia|]. enough (c < c') by lia.
  apply (sorted_app_lt (finished_of l1 ++ [c]) (finished_of l2 ++ h ++ u)).
  - rewrite <- app_assoc. exact C.
  - apply in_or_app; right; left; reflexivity.
  - rewrite !in_app_iff in *. tauto.
Qed.

Record AInv (a : astate) : Prop := {
  ai_core : Core (a_next a) (a_trace a) (aheld a) (a_up a);
  ai_wait : List.length (a_wait a) <= 1;
  (* deliveries are dropped only by the loss of the connection *)
  ai_lost : a_lost a = false -> a_drop a = []
}.

Lemma AInv_init : AInv (amk 0 [] [] [] [] [] false).
Proof.
  split; [split|..]; cbn; [constructor | lia | intros c [] | lia | reflexivity].
Qed.

Lemma eff_preserves a b : eff a b -> AInv a -> AInv b.
Proof.
  intros E [C W L]. destruct E; unfold aheld in *; cbn [a_next a_trace a_wait a_drop a_inq a_up a_lost app] in *.
  - split; assumption.
  - split; [apply core_issue, C | exact W | exact L].
  - split; [|exact W | exact L]. apply core_queue in C. rewrite <- !app_assoc in C. exact C.
  - split; [apply core_reject, C | exact W | exact L].
  - split; [exact C | cbn; lia | reflexivity].
  - split; [apply core_finish, C | cbn; lia | reflexivity].
  - split; [apply core_finish, C | cbn; lia | exact L].
  - split; [|exact W | discriminate]. unfold aheld. cbn [a_wait a_drop a_inq]. rewrite app_nil_r. exact C.
  - split; [exact C | exact W | discriminate].
Qed.

Definition with_sender (n : nat) (q : list call) (c : option (call * nat)) (w : list call) (s : state) : state :=
  mk n q c w (inq s) (waiting s) (evq s) (trace s) (lost s) (dropped s) (early s) (cut s).

Definition with_receiver (i : list (call * rdy)) (w : list (call * gnet)) (e : list thunk) (t : list event) (s : state) : state :=
  mk (next_id s) (sendq s) (cur s) (wire s) i w e t (lost s) (dropped s) (early s) (cut s).

Lemma with_sender_id s : s = with_sender (next_id s) (sendq s) (cur s) (wire s) s.
Proof. destruct s; reflexivity. Qed.

Lemma with_receiver_id s : s = with_receiver (inq s) (waiting s) (evq s) (trace s) s.
Proof. destruct s; reflexivity. Qed.

(* Banana.produce on a sender that is not paused, without the fuel *)
Fixpoint pumped (q w : list call) : list call * option (call * nat) * list call :=
  match q with
  | [] => ([], None, w)
  | c :: rest => match stalls c with 0 => pumped rest (w ++ [c]) | S _ => (rest, Some (c, stalls c), w) end
  end.

Lemma pump_spec f : forall s, List.length (sendq s) < f ->
  pump f s = match cur s with
             | Some _ => s
             | None => let '(q, p, w) := pumped (sendq s) (wire s) in with_sender (next_id s) q p w s
             end.
Proof.
  induction f as [|f IH]; intros s Hl; [lia|]. cbn [pump]. destruct (cur s) eqn:Ec; [reflexivity|]. rewrite sendq_take.
  destruct (sendq s) as [|c rest] eqn:Eq; cbn [pumped].
  - rewrite <- Eq, <- Ec. apply with_sender_id.
  - destruct (stalls c); [|reflexivity]. rewrite IH by (cbn [sendq List.length] in *; lia). reflexivity.
Qed.

Lemma issue_spec st f s :
  issue st f s =
    if is_none (cur s) && is_nil (sendq s)
    then let '(q, p, w) := pumped (sendq s ++ [{| cid := next_id s; stalls := st; cfate := f |}]) (wire s) in
         with_sender (S (next_id s)) q p w s
    else with_sender (S (next_id s)) (sendq s ++ [{| cid := next_id s; stalls := st; cfate := f |}]) (cur s) (wire s) s.
Proof.
  unfold issue. rewrite idle_test_before_enqueue, sendq_put. destruct (cur s) eqn:Ec; [reflexivity|].
  destruct (sendq s) eqn:Eq; [|reflexivity]. cbn [is_none is_nil andb]. rewrite pump_spec by apply Nat.lt_succ_diag_r. reflexivity.
Qed.

Lemma release_spec s :
  release s = match cur s with
              | None => s
              | Some (c, S (S m)) => with_sender (next_id s) (sendq s) (Some (c, S m)) (wire s) s
              | Some (c, _) => let '(q, p, w) := pumped (sendq s) (wire s ++ [c]) in with_sender (next_id s) q p w s
              end.
Proof.
  unfold release. destruct (cur s) as [[c [|[|m]]]|]; try reflexivity; rewrite pump_spec by apply Nat.lt_succ_diag_r; reflexivity.
Qed.

Lemma issue_sender st f s : exists q c w, issue st f s = with_sender (S (next_id s)) q c w s.
Proof.
  rewrite issue_spec. destruct (_ && _); [destruct (pumped _ _) as [[q p] w]|]; eexists _, _, _; reflexivity.
Qed.

Lemma release_sender s : exists q c w, release s = with_sender (next_id s) q c w s.
Proof.
  rewrite release_spec. destruct (cur s) as [[c [|[|m]]]|]; try destruct (pumped _ _) as [[q p] w]; eexists _, _, _;
    try reflexivity. apply with_sender_id.
Qed.

Lemma do_next_cases s :
  (lost s = true \/ waiting s <> [] \/ inq s = []) /\ do_next s = s \/
  exists c r rest, lost s = false /\ waiting s = [] /\ inq s = (c, r) :: rest /\
    do_next s = match r with
                | Ready => finish_call c true (with_receiver rest [] (evq s) (trace s) s)
                | Broken => finish_call c false (with_receiver rest [] (evq s) (trace s) s)
                | Pending g => with_receiver rest [(c, g)] (evq s) (trace s) s
                end.
Proof.
  unfold do_next, blocked. rewrite hol_is_blocking, loss_stops_dequeue, inq_take. cbn [andb].
  destruct (lost s) eqn:El; [left; auto|]. destruct (waiting s) eqn:Ew; [|left; split; [right; left; discriminate | reflexivity]].
  destruct (inq s) as [|[c r] rest] eqn:Ei; [left; auto|]. right. exists c, r, rest. repeat split.
  destruct r; unfold finish_call, with_receiver; cbn [next_id sendq cur wire inq waiting evq trace lost dropped early cut]; rewrite El; reflexivity.
Qed.

Lemma do_next_receiver s : exists i w e t, do_next s = with_receiver i w e t s.
Proof.
  destruct (do_next_cases s) as [[_ ->]|(c & r & rest & _ & _ & _ & ->)]; [eexists _, _, _, _; apply with_receiver_id|].
  destruct r; eexists _, _, _, _; reflexivity.
Qed.

Lemma thunks_receiver batch : forall s, exists i w e t, fold_left run_thunk batch s = with_receiver i w e t s.
Proof.
  induction batch as [|[] b IH]; intros s; cbn [fold_left run_thunk]; [eexists _, _, _, _; apply with_receiver_id|].
  destruct (do_next_receiver s) as (i & w & e & t & ->). destruct (IH (with_receiver i w e t s)) as (i' & w' & e' & t' & ->).
  eexists _, _, _, _; reflexivity.
Qed.

Lemma turn_receiver s : exists i w e t, turn s = with_receiver i w e t s.
Proof.
  exact (thunks_receiver _ (with_receiver (inq s) (waiting s) [] (trace s) s)).
Qed.

Lemma gift_ready_receiver a k ok s : exists i w e t, gift_ready_gen a k ok s = with_receiver i w e t s.
Proof.
  unfold gift_ready_gen. destruct (find _ (waiting s)) as [[c g]|]; [destruct (g_out _)|]; eexists _, _, _, _; reflexivity.
Qed.

Definition with_conn (e : list (nat * bool)) (c : option nat) (s : state) : state :=
  mk (next_id s) (sendq s) (cur s) (wire s) (inq s) (waiting s) (evq s) (trace s) (lost s) (dropped s) e c.

Lemma early_gift_conn k ok s : exists e, early_gift k ok s = with_conn e (cut s) s.
Proof. unfold early_gift. destruct (existsb _ _); [eexists; reflexivity | exists (early s); destruct s; reflexivity]. Qed.

Lemma sender_lost_conn s : exists c, sender_lost s = with_conn (early s) c s.
Proof. unfold sender_lost. destruct (cut s); [exists (cut s); destruct s; reflexivity | eexists; reflexivity]. Qed.

(* every micro-step of the model is one of the effects *)

Inductive effs : astate -> astate -> Prop :=
| effs_refl a : effs a a
| effs_step a b c : eff a b -> effs b c -> effs a c.

Lemma effs_one a b : eff a b -> effs a b.
Proof. intros H. eapply effs_step; [exact H | apply effs_refl]. Qed.

Lemma effs_trans a b c : effs a b -> effs b c -> effs a c.
Proof. intros H1 H2. induction H1; [exact H2|]. eapply effs_step; eauto. Qed.

Lemma effs_preserves a b : effs a b -> AInv a -> AInv b.
Proof. intros H; induction H; intros I; [exact I|]. apply IHeffs. eapply eff_preserves; eauto. Qed.

Ltac simpl_abs :=
  unfold abs, upstream, inq_ids, wait_ids, cur_ids, finish_call, with_receiver, ids;
  cbn [next_id sendq cur wire inq waiting evq trace lost dropped early cut].

Lemma pumped_abs n s q0 : forall w0,
  abs (let '(q, p, w) := pumped q0 w0 in with_sender n q p w s) = abs (with_sender n q0 None w0 s).
Proof.
  induction q0 as [|x q IH]; intros w0; cbn [pumped]; [reflexivity|]. destruct (stalls x); [|reflexivity].
  rewrite IH. simpl_abs. unfold with_sender. cbn [sendq cur wire]. rewrite map_app, <- app_assoc. reflexivity.
Qed.

Lemma issue_eff st f s : eff (abs s) (abs (issue st f s)).
Proof.
  replace (abs (issue st f s))
    with (abs (with_sender (S (next_id s)) (sendq s ++ [{| cid := next_id s; stalls := st; cfate := f |}]) (cur s) (wire s) s)).
  - simpl_abs. unfold with_sender. cbn [sendq cur wire]. rewrite map_app, !app_assoc. apply E_issue.
  - rewrite issue_spec. destruct (cur s); [reflexivity|]. destruct (sendq s); [symmetry; apply pumped_abs | reflexivity].
Qed.

Lemma release_abs s : abs (release s) = abs s.
Proof.
  rewrite release_spec. destruct (cur s) as [[c n]|] eqn:Ec; [|reflexivity].
  assert (E : abs (with_sender (next_id s) (sendq s) None (wire s ++ [c]) s) = abs s).
  { simpl_abs. unfold with_sender. cbn [sendq cur wire]. rewrite Ec, map_app, <- app_assoc. reflexivity. }
  destruct n as [|[|m]]; rewrite ?pumped_abs; try exact E. simpl_abs. rewrite Ec. reflexivity.
Qed.

Lemma deliver_eff s : eff (abs s) (abs (deliver s)).
Proof.
  unfold deliver. destruct (lost s) eqn:El; [apply E_none|]. destruct (negb (in_flight s)); [apply E_none|].
  destruct (wire s) as [|c w] eqn:Ew; [apply E_none|].
  assert (Eu : upstream s = cid c :: (ids w ++ cur_ids s ++ ids (sendq s))).
  { unfold upstream. rewrite Ew. reflexivity. }
  unfold abs at 1. rewrite Eu.
  destruct (cfate c) eqn:Ef; rewrite ?inq_put; simpl_abs; rewrite ?El, ?map_app; cbn [map fst];
    try apply E_queue; apply E_reject.
Qed.

Lemma fin_if (b : bool) c : (if b then Entered c else Failed c) = fin_event (if b then FinEntered else FinFailed) c.
Proof. destruct b; reflexivity. Qed.

Lemma wait_len s : AInv (abs s) -> waiting s = [] \/ exists x, waiting s = [x].
Proof.
  intros I. pose proof (ai_wait _ I) as H. unfold abs in H; cbn [a_wait] in H. unfold wait_ids, ids in H. rewrite !map_length in H.
  destruct (waiting s) as [|x [|y l]]; [left; reflexivity | right; eexists; reflexivity | cbn in H; lia].
Qed.

Lemma do_next_eff s : AInv (abs s) -> eff (abs s) (abs (do_next s)).
Proof.
  intros I. destruct (do_next_cases s) as [[_ ->]|(c & r & rest & El & Ew & Ei & ->)]; [apply E_none|].
  assert (Ed : map cid (dropped s) = []) by apply (ai_lost _ I El).
  destruct r; simpl_abs; rewrite Ew, Ei, Ed, El; cbn [map fst app andb].
  - rewrite fin_if. apply E_finish_inq.
  - apply E_hold.
  - apply (E_finish_inq _ _ _ _ _ FinFailed).
Qed.

Lemma gift_ready_eff a k ok s : AInv (abs s) -> eff (abs s) (abs (gift_ready_gen a k ok s)).
Proof.
  intros I. unfold gift_ready_gen. set (ok' := ok && _).
  assert (Hmap : forall l : list (call * rdy),
            map fst (map (fun e => if cid (fst e) =? k then (fst e, step_rdy ok' (snd e)) else e) l) = map fst l).
  { intros l. rewrite map_map. apply map_ext. intros e. destruct (cid (fst e) =? k); reflexivity. }
  destruct (wait_len s I) as [Ew|[[x gx] Ew]]; rewrite Ew; cbn [find filter map fst].
  - simpl_abs. rewrite Hmap, Ew. apply E_none.
  - destruct (cid x =? k) eqn:Ek; cbn [negb].
    + destruct (g_out (gift_fire ok' gx)) as [r|].
      * simpl_abs. rewrite Ew. cbn [map fst]. rewrite fin_if. apply E_finish_wait.
      * simpl_abs. rewrite Ew. cbn [map fst]. apply E_none.
    + simpl_abs. rewrite Hmap, Ew. apply E_none.
Qed.

Lemma disconnect_eff s : eff (abs s) (abs (disconnect s)).
Proof.
  unfold disconnect. destruct (lost s) eqn:El; [apply E_none|].
  destruct finish_clears_inq.
  - unfold abs at 2. simpl_abs. unfold abs. rewrite El. rewrite map_app. apply E_drop.
  - unfold abs at 2. simpl_abs. unfold abs. rewrite El. apply E_lose.
Qed.

Lemma thunks_effs batch : forall s, AInv (abs s) -> effs (abs s) (abs (fold_left run_thunk batch s)).
Proof.
  induction batch as [|[] batch IH]; intros s I; cbn [fold_left run_thunk]; [apply effs_refl|].
  pose proof (do_next_eff s I) as E.
  eapply effs_step; [exact E|]. apply IH. eapply eff_preserves; eauto.
Qed.

Lemma step_effs s o : AInv (abs s) -> effs (abs s) (abs (step s o)).
Proof.
  intros I. destruct o; cbn [step].
  - apply effs_one, issue_eff.
  - rewrite release_abs. apply effs_refl.
  - apply effs_one, deliver_eff.
  - apply effs_one, gift_ready_eff; exact I.
  - apply (thunks_effs _ (with_receiver (inq s) (waiting s) [] (trace s) s)), I.
  - apply effs_one, disconnect_eff.
  - unfold early_gift. destruct (existsb _ _); apply effs_refl.
  - unfold sender_lost. destruct (cut s); apply effs_refl.
  - apply effs_one, gift_ready_eff; exact I.
Qed.

Lemma step_ainv s o : AInv (abs s) -> AInv (abs (step s o)).
Proof. intros I. eapply effs_preserves; [apply step_effs, I | exact I]. Qed.

(* the sender never sits idle on a non-empty queue *)

Definition SInv (s : state) : Prop := cur s = None -> sendq s = [].

Lemma pumped_sinv n s q0 : forall w0, SInv (let '(q, p, w) := pumped q0 w0 in with_sender n q p w s).
Proof.
  induction q0 as [|x q IH]; intros w0; cbn [pumped]; [intros _; reflexivity|].
  destruct (stalls x); [apply IH | intros H; discriminate H].
Qed.

Lemma issue_sinv st f s : SInv s -> SInv (issue st f s).
Proof.
  intros I. rewrite issue_spec. destruct (cur s) eqn:Ec; cbn [is_none andb]; [intros H; discriminate H|].
  rewrite (I Ec). apply pumped_sinv.
Qed.

Lemma release_sinv s : SInv s -> SInv (release s).
Proof.
  intros I. rewrite release_spec.
  destruct (cur s) as [[c [|[|m]]]|]; [apply pumped_sinv | apply pumped_sinv | intros H; discriminate H | exact I].
Qed.

Lemma step_sinv s o : SInv s -> SInv (step s o).
Proof.
  intros I. destruct o; cbn [step].
  - apply issue_sinv, I.
  - apply release_sinv, I.
  - unfold deliver. destruct (lost s); [exact I|]. destruct (negb (in_flight s)); [exact I|].
    destruct (wire s); [exact I|]. destruct (cfate c); exact I.
  - destruct (gift_ready_receiver true k ok s) as (i & w & e & t & E). unfold gift_ready. rewrite E. exact I.
  - destruct (turn_receiver s) as (i & w & e & t & ->). exact I.
  - unfold disconnect. destruct (lost s); [exact I|]. destruct finish_clears_inq; exact I.
  - destruct (early_gift_conn k ok s) as (e & ->). exact I.
  - destruct (sender_lost_conn s) as (c & ->). exact I.
  - destruct (gift_ready_receiver false k ok s) as (i & w & e & t & ->). exact I.
Qed.

Lemma finish_call_entered c ok s :
  entered (finish_call c ok s) = entered s ++ (if ok && negb (is_late c) then [cid c] else []).
Proof. unfold entered, finish_call. cbn [trace]. destruct (ok && _); cbn [entered_of]; [reflexivity | symmetry; apply app_nil_r]. Qed.

Lemma do_next_entered s x : In x (entered s) -> In x (entered (do_next s)).
Proof.
  intros H. destruct (do_next_cases s) as [[_ ->]|(c & r & rest & _ & _ & _ & ->)]; [exact H|].
  destruct r; rewrite ?finish_call_entered; try apply in_or_app; try left; exact H.
Qed.

Lemma turn_enters_ready_head s c rest :
  lost s = false -> waiting s = [] -> inq s = (c, Ready) :: rest -> evq s <> [] -> is_late c = false ->
  In (cid c) (entered (turn s)).
Proof.
  intros El Ew Ei Ev Hl. unfold turn. destruct evq_is_fifo as [_ ->].
  destruct (evq s) as [|[] b]; [congruence|]. cbn [fold_left run_thunk].
  apply (fold_left_invariant run_thunk (fun s' => In (cid c) (entered s'))); [intros s' [] H; apply do_next_entered, H|].
  set (s0 := mk _ _ _ _ _ _ _ _ _ _ _ _).
  destruct (do_next_cases s0) as [[H _]|(c' & r & rest' & _ & _ & Ei' & ->)].
  - destruct H as [H|[H|H]]; cbn [s0 lost waiting inq] in H; congruence.
  - cbn [s0 inq] in Ei'. rewrite Ei in Ei'. injection Ei' as <- <- <-.
    rewrite finish_call_entered, Hl. apply in_or_app; right; left; reflexivity.
Qed.

(* the receiver is never stuck: if a call is queued and none is waiting for its arguments, a doNextCall is scheduled *)
Definition RInv (s : state) : Prop := lost s = false -> inq s <> [] -> waiting s = [] -> evq s <> [].

Lemma evq_put_nonempty (t : thunk) l : q_put evq_push t l <> [].
Proof. destruct evq_push; cbn [q_put]; [destruct l|]; discriminate. Qed.

Lemma do_next_rinv s : RInv (do_next s).
Proof.
  destruct (do_next_cases s) as [[H ->]|(c & r & rest & _ & _ & _ & ->)].
  - intros H1 H2 H3. destruct H as [H|[H|H]]; congruence.
  - destruct r; intros _ _ H; try apply evq_put_nonempty. discriminate H.
Qed.

Lemma thunks_rinv batch : forall s, batch <> [] -> RInv (fold_left run_thunk batch s).
Proof.
  intros s Hne. destruct (exists_last Hne) as [b [[] ->]]. rewrite fold_left_app. apply do_next_rinv.
Qed.

Lemma gift_ready_rinv a k ok s : RInv s -> RInv (gift_ready_gen a k ok s).
Proof.
  intros I. unfold gift_ready_gen. destruct (find _ (waiting s)) as [[c g]|] eqn:Ef.
  - destruct (g_out _).
    + intros _ _ _. apply evq_put_nonempty.
    + intros _ _ H. apply map_eq_nil in H. rewrite H in Ef. discriminate Ef.
  - intros H0 H1 H2. apply I; [exact H0 | | exact H2].
    intros E. cbn [inq] in H1. rewrite E in H1. apply H1. reflexivity.
Qed.

Lemma step_rinv s o : RInv s -> RInv (step s o).
Proof.
  intros I. destruct o; cbn [step].
  - destruct (issue_sender stalls f s) as (q & c & w & ->). exact I.
  - destruct (release_sender s) as (q & c & w & ->). exact I.
  - unfold deliver. destruct (lost s) eqn:El; [exact I|]. destruct (negb (in_flight s)); [exact I|]. destruct (wire s) as [|c w]; [exact I|].
    destruct (cfate c); try (intros _ _ _; apply evq_put_nonempty).
    intros _. exact (I El).
  - apply gift_ready_rinv, I.
  - unfold turn. destruct evq_is_fifo as [_ ->]. destruct (evq s) as [|t b] eqn:Ev.
    + intros H0 H1 H2. apply (I H0 H1) in H2. congruence.
    + apply thunks_rinv. discriminate.
  - unfold disconnect. destruct (lost s) eqn:El; [exact I|].
    destruct finish_clears_inq; intros H; discriminate H.
  - destruct (early_gift_conn k ok s) as (e & ->). exact I.
  - destruct (sender_lost_conn s) as (c & ->). exact I.
  - apply gift_ready_rinv, I.
Qed.

(* the Deferred network of a delivery: `live m g` = m third-party references are unresolved, none has failed *)
Definition live (m : nat) (g : gnet) : Prop :=
  1 <= m /\ g_nunref g = Z.of_nat m /\ g_has_all g = true /\ g_r1 g = (Z.of_nat m + 1)%Z /\ g_f1 g = false /\
  g_r2 g = 1%Z /\ g_f2 g = false /\ g_out g = None /\ g_left g = m.

Definition live_net (m : nat) : gnet := gmk (Z.of_nat m) true (Z.of_nat m + 1) false 1 false None m.

Lemma live_net_eq m g : live m g <-> 1 <= m /\ g = live_net m.
Proof.
  unfold live, live_net. destruct g as [n a r1 f1 r2 f2 o l]; cbn [g_nunref g_has_all g_r1 g_f1 g_r2 g_f2 g_out g_left]. split.
  - intros (H & -> & -> & -> & -> & -> & -> & -> & ->). split; [exact H | reflexivity].
  - intros [H E]. injection E as -> -> -> -> -> -> -> ->. repeat split. exact H.
Qed.

(* AsyncAND._cbDeferred on an AsyncAND that has not fired, r components outstanding *)
Lemma and_apply_true r : r <> 1%Z -> and_apply (r, false) None true = ((r - 1)%Z, false, None).
Proof. intros H. unfold and_apply, and_cb. cbn [fst snd negb andb]. rewrite (proj2 (Z.eqb_neq (r - 1) 0)) by lia. reflexivity. Qed.

Lemma and_apply_last : and_apply (1%Z, false) None true = ((0%Z, true), Some true).
Proof. reflexivity. Qed.

Lemma and_apply_false r : and_apply (r, false) None false = ((r - 1)%Z, true, Some false).
Proof. reflexivity. Qed.

Lemma and_feed_sticky pre : forall st r0, snd st = Some r0 -> snd (fold_left and_feed pre st) = Some r0.
Proof.
  induction pre as [|x pre IH]; intros st r0 H; cbn [fold_left]; [exact H|]. apply IH.
  unfold and_feed, and_apply. destruct (and_cb _ _ _) as [[r f] o]. cbn [snd]. rewrite H. reflexivity.
Qed.

Definition all_ok (l : list bool) : bool := forallb (fun b => b) l.

Lemma and_feed_true pre : forall r, all_ok pre = true -> (Z.of_nat (List.length pre) < r)%Z ->
  fold_left and_feed pre ((r, false), None) = ((r - Z.of_nat (List.length pre))%Z, false, None).
Proof.
  induction pre as [|x pre IH]; intros r A L; cbn [fold_left List.length] in *.
  - rewrite Z.sub_0_r. reflexivity.
  - apply andb_true_iff in A as [-> A]. unfold and_feed at 2. cbn [fst snd]. rewrite and_apply_true, IH by (try exact A; lia).
    do 2 f_equal. lia.
Qed.

Lemma and_feed_exact pre : all_ok pre = true -> pre <> [] ->
  snd (fold_left and_feed pre ((Z.of_nat (List.length pre), false), None)) = Some true.
Proof.
  intros A N. destruct (exists_last N) as (p & x & ->). unfold all_ok in A. rewrite forallb_app in A.
  apply andb_true_iff in A as [A Ax]. cbn [forallb] in Ax. rewrite andb_true_r in Ax. subst x.
  rewrite app_length, fold_left_app, and_feed_true by (try exact A; cbn [List.length]; lia).
  cbn [List.length fold_left]. unfold and_feed. cbn [fst snd]. replace (_ - _)%Z with 1%Z by lia. rewrite and_apply_last. reflexivity.
Qed.

Lemma and_feed_false pre : forall r, all_ok pre = false -> (Z.of_nat (List.length pre) <= r)%Z ->
  snd (fold_left and_feed pre ((r, false), None)) = Some false.
Proof.
  induction pre as [|x pre IH]; intros r A L; [discriminate A|]. cbn [fold_left List.length all_ok forallb] in *.
  unfold and_feed at 2. cbn [fst snd]. destruct x; cbn [andb] in A.
  - destruct pre as [|y pre]; [discriminate A|]. cbn [List.length] in *. rewrite and_apply_true by lia. apply IH; [exact A | lia].
  - apply and_feed_sticky. rewrite and_apply_false. reflexivity.
Qed.

(* the network right after receiveClose, when `pre` references resolved early and m are unresolved *)
Lemma close_spec pre m : 1 <= List.length pre + m ->
  (all_ok pre = false -> g_out (gnet_close pre m) = Some false) /\
  (all_ok pre = true -> m = 0 -> g_out (gnet_close pre m) = Some true) /\
  (all_ok pre = true -> 1 <= m -> live m (gnet_close pre m)).
Proof.
  intros H. unfold gnet_close.
  set (r := args_close_dl_len (Z.of_nat m) (Z.of_nat (List.length pre + m))).
  assert (Er : r = ((if Nat.eqb m 0 then 0 else 1) + Z.of_nat (List.length pre + m))%Z).
  { unfold r, args_close_dl_len. destruct m; reflexivity. }
  assert (Ei : and_init r = (r, false)).
  { unfold and_init, and_init_full. rewrite (proj2 (Z.eqb_neq r 0)) by (destruct m; cbn [Nat.eqb] in Er; lia). reflexivity. }
  rewrite Ei. cbn [g_out]. split; [|split].
  - intros A. rewrite and_feed_false by (try exact A; destruct m; cbn [Nat.eqb] in Er; lia). reflexivity.
  - intros A ->. cbn [Nat.eqb] in Er. rewrite Nat.add_0_r, Z.add_0_l in Er. rewrite Er, and_feed_exact; [reflexivity | exact A |].
    intros ->. cbn in H. lia.
  - intros A Hm. apply live_net_eq. split; [exact Hm|]. destruct m as [|m]; [lia|]. cbn [Nat.eqb] in Er.
    rewrite and_feed_true by (try exact A; lia). cbn [fst snd]. unfold live_net. f_equal; lia.
Qed.

Lemma live_init n : 1 <= n -> live n (gnet_init n).
Proof. intros H. apply (close_spec [] n); [cbn; lia | reflexivity | exact H]. Qed.

Lemma update_child_all n : update_child n true = ((n - 1)%Z, (n - 1 =? 0)%Z).
Proof. unfold update_child, update_child_full. destruct (n - 1 =? 0)%Z; reflexivity. Qed.

Lemma fire_live_more m : gift_fire true (live_net (S (S m))) = live_net (S m).
Proof.
  unfold gift_fire, live_net. cbn [g_nunref g_has_all g_r1 g_f1 g_r2 g_f2 g_out g_left]. rewrite update_child_all.
  rewrite (proj2 (Z.eqb_neq _ 0)) by lia. cbn [fst snd]. rewrite and_apply_true by lia. cbn [fst snd pred]. f_equal; lia.
Qed.

Lemma fire_live_last : gift_fire true (live_net 1) = gmk 0 true 0 true 0 true (Some true) 0.
Proof. reflexivity. Qed.

Lemma fire_live_false m : 1 <= m -> g_out (gift_fire false (live_net m)) = Some false.
Proof.
  intros H. unfold gift_fire, live_net. cbn [g_nunref g_has_all g_r1 g_f1 g_r2 g_f2 g_out g_left]. rewrite update_child_all.
  destruct (_ =? 0)%Z; cbn [fst snd]; rewrite ?and_apply_true by lia; reflexivity.
Qed.

Lemma fire_out_stable ok g r : g_out g = Some r -> g_out (gift_fire ok g) = Some r.
Proof.
  intros H. unfold gift_fire. destruct (update_child _ _) as [nun fa]. cbn [g_out]. rewrite H. reflexivity.
Qed.

Lemma gifts_run_out_stable rs : forall g r, g_out g = Some r -> g_out (gifts_run rs g) = Some r.
Proof. induction rs as [|x rs IH]; intros g r H; cbn [gifts_run]; [exact H|]. apply IH, fire_out_stable, H. Qed.

(* "a delivery becomes runnable exactly when all its third-party references have resolved": after the results rs of
   the first |rs| <= m references, the delivery's ready_deferred has fired with a failure iff one of them failed, with
   success iff all m have resolved, and not at all otherwise -- for every m and every rs *)
Theorem gifts_all_or_first_failure : forall rs m g, live m g -> List.length rs <= m ->
  g_out (gifts_run rs g) =
    if forallb (fun b => b) rs then (if List.length rs =? m then Some true else None) else Some false.
Proof.
  intros rs m g L. apply live_net_eq in L as [Hm ->]. revert m Hm.
  induction rs as [|r rs IH]; intros m Hm Hl; cbn [gifts_run forallb List.length] in *.
  - destruct m; [lia | reflexivity].
  - destruct r; cbn [andb]; [|apply gifts_run_out_stable, fire_live_false, Hm].
    destruct m as [|[|m]]; [lia | |].
    + destruct rs; [reflexivity | cbn in Hl; lia].
    + rewrite fire_live_more. apply IH; lia.
Qed.

(* the same when some of the references resolved or failed EARLY, while the call was still being received: `pre` are the
   early results, m references are unresolved when the call is complete, rs are the results of the first |rs| of those *)
Theorem gifts_any_time pre m rs : 1 <= List.length pre + m -> List.length rs <= m ->
  g_out (gifts_run rs (gnet_close pre m)) =
    if all_ok (pre ++ rs) then (if List.length rs =? m then Some true else None) else Some false.
Proof.
  intros H Hl. destruct (close_spec pre m H) as (Hf & Ht & Hlive). unfold all_ok in *. rewrite forallb_app.
  destruct (forallb (fun b => b) pre) eqn:Ea; cbn [andb].
  - destruct m as [|m].
    + destruct rs; [|cbn in Hl; lia]. cbn [gifts_run forallb List.length Nat.eqb]. apply Ht; reflexivity.
    + apply gifts_all_or_first_failure; [apply Hlive; [reflexivity|lia] | exact Hl].
  - apply gifts_run_out_stable. apply Hf. reflexivity.
Qed.

Lemma fire_none_live ok m g : live m g -> g_out (gift_fire ok g) = None -> exists m', live m' (gift_fire ok g).
Proof.
  intros L. apply live_net_eq in L as [Hm ->]. destruct ok; [|rewrite fire_live_false by exact Hm; discriminate].
  destruct m as [|[|m]]; [lia | discriminate |]. intros _. exists (S m). rewrite fire_live_more. apply live_net_eq. split; [lia | reflexivity].
Qed.

(* every delivery that is not ready holds a live network *)
Definition GInv (s : state) : Prop :=
  (forall c g, In (c, g) (waiting s) -> exists m, live m g) /\
  (forall c g, In (c, Pending g) (inq s) -> exists m, live m g).

Lemma do_next_ginv s : GInv s -> GInv (do_next s).
Proof.
  intros [Iw Iq]. destruct (do_next_cases s) as [[_ ->]|(c & r & rest & _ & Ew & Ei & ->)]; [split; assumption|].
  rewrite Ei in Iq.
  destruct r; (split; [|intros c0 g0 H; apply (Iq c0 g0); right; exact H]).
  - intros c0 g0 [].
  - intros c0 g0 [[= <- <-]|[]]. apply (Iq c g). left; reflexivity.
  - intros c0 g0 [].
Qed.

Lemma gift_ready_ginv a k ok s : GInv s -> GInv (gift_ready_gen a k ok s).
Proof.
  intros [Iw Iq]. unfold gift_ready_gen. set (ok' := ok && _).
  destruct (find _ (waiting s)) as [[c g]|] eqn:Ef.
  - apply find_some in Ef. destruct Ef as [Hin _]. destruct (Iw _ _ Hin) as [m L].
    destruct (g_out (gift_fire ok' g)) eqn:Eo.
    + split; [|exact Iq]. intros c0 g0 H. apply filter_In in H. eapply Iw, H.
    + destruct (fire_none_live ok' m g L Eo) as [m' L'].
      split; [|exact Iq].
      intros c0 g0 H. apply in_map_iff in H. destruct H as [[c1 g1] [E H]]. cbn [fst] in E.
      destruct (cid c1 =? k); inversion E; subst; [exists m'; exact L' | eapply Iw; exact H].
  - split; [exact Iw|].
    intros c0 g0 H. apply in_map_iff in H. destruct H as [[c1 r1] [E H]]. cbn [fst snd] in E.
    destruct (cid c1 =? k); [|inversion E; subst; eapply Iq; exact H].
    destruct r1 as [|g1|]; cbn [step_rdy] in E; try discriminate E.
    destruct (Iq _ _ H) as [m L].
    destruct (g_out (gift_fire ok' g1)) as [[|]|] eqn:Eo; inversion E; subst.
    eapply fire_none_live; eauto.
Qed.

Lemma rdy_on_arrival_live c e g : rdy_on_arrival c e = Pending g -> exists m, live m g.
Proof.
  unfold rdy_on_arrival. destruct (cfate c) as [|[|n]| |]; try discriminate.
  set (pre := firstn (S n) (early_of (cid c) e)).
  assert (Hl : List.length pre <= S n) by apply firstn_le_length.
  destruct (close_spec pre (S n - List.length pre)) as (Hf & Ht & Hlive); [lia|].
  destruct (all_ok pre); [|rewrite Hf by reflexivity; discriminate].
  destruct (S n - List.length pre) as [|m] eqn:Em; [rewrite Ht by reflexivity; discriminate|].
  destruct (Hlive eq_refl) as (_ & _ & _ & _ & _ & _ & _ & -> & _); [lia|].
  intros [= <-]. exists (S m). apply Hlive; [reflexivity | lia].
Qed.

Lemma step_ginv s o : GInv s -> GInv (step s o).
Proof.
  intros I. destruct o; cbn [step].
  - destruct (issue_sender stalls f s) as (q & c & w & ->). exact I.
  - destruct (release_sender s) as (q & c & w & ->). exact I.
  - unfold deliver. destruct (lost s); [exact I|]. destruct (negb (in_flight s)); [exact I|]. destruct (wire s) as [|c w]; [exact I|].
    destruct I as [Iw Iq].
    destruct (cfate c) eqn:Ef; try (split; [exact Iw | exact Iq]);
      (split; [exact Iw|]); cbn [inq]; rewrite inq_put; intros c0 g0 H; apply in_app_or in H;
      (destruct H as [H|[H|[]]]; [eapply Iq; exact H|]); injection H as <- H; eapply rdy_on_arrival_live, H.
  - apply gift_ready_ginv, I.
  - apply (fold_left_invariant run_thunk GInv); [intros s' [] | exact I]. apply do_next_ginv.
  - unfold disconnect. destruct (lost s); [exact I|]. destruct I as [Iw Iq].
    destruct finish_clears_inq; (split; [exact Iw|]); [intros c g []|exact Iq].
  - destruct (early_gift_conn k ok s) as (e & ->). exact I.
  - destruct (sender_lost_conn s) as (c & ->). exact I.
  - apply gift_ready_ginv, I.
Qed.

Record Inv (s : state) : Prop := { inv_abs : AInv (abs s); inv_send : SInv s; inv_recv : RInv s; inv_gift : GInv s }.

Lemma step_inv s o : Inv s -> Inv (step s o).
Proof. intros [A S R G]. split; [apply step_ainv, A | apply step_sinv, S | apply step_rinv, R | apply step_ginv, G]. Qed.

Lemma run_inv ops : Inv (run ops).
Proof.
  apply (fold_left_invariant step Inv step_inv). split; [exact AInv_init | intros _; reflexivity | | split; intros c g []].
  intros _ H. contradiction H. reflexivity.
Qed.

Lemma run_app ops more : run (ops ++ more) = fold_left step more (run ops).
Proof. unfold run. apply fold_left_app. Qed.

Lemma run_core ops : let s := run ops in Core (next_id s) (trace s) (wait_ids s ++ ids (dropped s) ++ inq_ids s) (upstream s).
Proof. exact (ai_core _ (inv_abs _ (run_inv ops))). Qed.

(* calls are entered in the order in which they were issued (call k = the k-th issued) *)
Theorem entered_in_issue_order ops : sublist (entered (run ops)) (issued (run ops)).
Proof.
  eapply sublist_trans; [|apply (co_sub _ _ _ _ (run_core ops))].
  eapply sublist_trans; [apply entered_sub_finished | apply sublist_app_l].
Qed.

Theorem entered_increasing ops : StronglySorted lt (entered (run ops)).
Proof. eapply sublist_sorted; [apply entered_in_issue_order | apply seq_sorted]. Qed.

Theorem entered_at_most_once ops : NoDup (entered (run ops)).
Proof. eapply sublist_nodup; [apply entered_in_issue_order | apply seq_NoDup]. Qed.

Lemma rev_mid {A} (l1 l2 : list A) x : rev (l1 ++ x :: l2) = rev l2 ++ x :: rev l1.
Proof. rewrite rev_app_distr. cbn [rev]. rewrite <- app_assoc. reflexivity. Qed.

(* head of line: when c is entered, every earlier call that was completely received (queued) at any time
   has already been entered or has failed *)
Theorem head_of_line ops before c after c' :
  history (run ops) = before ++ Entered c :: after ->
  c' < c -> In (Queued c') (history (run ops)) ->
  In (Entered c') before \/ In (Failed c') before.
Proof.
  unfold history. intros E Hlt Hq.
  assert (Et : trace (run ops) = rev after ++ Entered c :: rev before).
  { rewrite <- (rev_involutive (trace (run ops))), E. apply rev_mid. }
  rewrite <- in_rev in Hq.
  destruct (core_hol _ _ _ _ _ _ _ c' (run_core ops) Et Hlt Hq) as [H|H]; [left|right]; apply in_rev; exact H.
Qed.

(* nothing is dropped silently: every issued call is entered, still on its way, was refused, or was queued on the
   receiver when it lost the connection *)
Theorem no_silent_loss ops c :
  c < next_id (run ops) ->
  In c (entered (run ops)) \/ In c (pipeline (run ops)) \/
  In (Failed c) (history (run ops)) \/ In (Rejected c) (history (run ops)) \/ In c (ids (dropped (run ops))).
Proof.
  intros H. unfold history, pipeline, entered. rewrite <- !in_rev, entered_of_in.
  destruct (co_all _ _ _ _ (run_core ops) c H) as [Hp|Hr]; [|tauto].
  rewrite !in_app_iff, finished_of_in in *. unfold handled in Hp. tauto.
Qed.

(* dropped deliveries exist only after the loss of the connection *)
Theorem dropped_only_after_loss ops : lost (run ops) = false -> dropped (run ops) = [].
Proof.
  intros H. pose proof (ai_lost _ (inv_abs _ (run_inv ops)) H) as E. unfold abs, ids in E; cbn [a_drop] in E.
  destruct (dropped (run ops)); [reflexivity | discriminate E].
Qed.

(* everything that has been entered precedes, in issue order, everything that is still on its way: the waiting
   delivery, the dropped ones, the inbound queue, the wire, the call being serialized (possibly paused inside a streaming
   argument) and the calls queued behind it on the sender *)
Theorem whole_path_in_issue_order ops :
  StronglySorted lt (entered (run ops) ++ wait_ids (run ops) ++ ids (dropped (run ops)) ++ inq_ids (run ops) ++
                     ids (wire (run ops)) ++ cur_ids (run ops) ++ ids (sendq (run ops))).
Proof.
  eapply sublist_sorted; [|apply (core_sorted _ _ _ _ (run_core ops))]. unfold upstream. rewrite <- !app_assoc.
  apply sublist_app; [apply entered_sub_finished | apply sublist_refl].
Qed.

(* the receiver holds at most one dequeued call that is not yet ready *)
Theorem one_waiting ops : List.length (waiting (run ops)) <= 1.
Proof. destruct (wait_len _ (inv_abs _ (run_inv ops))) as [->|[x ->]]; cbn; lia. Qed.

Lemma step_next s o : next_id (step s o) = next_id s + match o with Issue _ _ => 1 | _ => 0 end.
Proof.
  destruct o; cbn [step].
  - destruct (issue_sender stalls f s) as (q & c & w & ->). cbn [next_id with_sender]. lia.
  - destruct (release_sender s) as (q & c & w & ->). apply plus_n_O.
  - unfold deliver. destruct (lost s); [apply plus_n_O|]. destruct (negb (in_flight s)); [apply plus_n_O|].
    destruct (wire s); [apply plus_n_O|]. destruct (cfate c); apply plus_n_O.
  - destruct (gift_ready_receiver true k ok s) as (i & w & e & t & E). unfold gift_ready. rewrite E. apply plus_n_O.
  - destruct (turn_receiver s) as (i & w & e & t & ->). apply plus_n_O.
  - unfold disconnect. destruct (lost s); [apply plus_n_O|]. destruct finish_clears_inq; apply plus_n_O.
  - destruct (early_gift_conn k ok s) as (e & ->). apply plus_n_O.
  - destruct (sender_lost_conn s) as (c & ->). apply plus_n_O.
  - destruct (gift_ready_receiver false k ok s) as (i & w & e & t & ->). apply plus_n_O.
Qed.

Lemma count_issues_cons o ops :
  count_issues (o :: ops) = match o with Issue _ _ => 1 | _ => 0 end + count_issues ops.
Proof. unfold count_issues. cbn [filter]. destruct o; reflexivity. Qed.

Lemma run_from_next ops : forall s, next_id (fold_left step ops s) = next_id s + count_issues ops.
Proof.
  induction ops as [|o ops IH]; intros s; cbn [fold_left].
  - apply plus_n_O.
  - rewrite IH, step_next, count_issues_cons. lia.
Qed.

(* ids are issue indices *)
Theorem issued_is_issue_count ops : issued (run ops) = seq 0 (count_issues ops).
Proof. unfold issued, run. rewrite run_from_next. reflexivity. Qed.

(* whenever no call is being serialized, the send queue is empty: a queued call is never left behind *)
Theorem sender_never_idle_with_work ops : cur (run ops) = None -> sendq (run ops) = [].
Proof. exact (inv_send _ (run_inv ops)). Qed.

Theorem receiver_never_stuck ops :
  lost (run ops) = false -> inq (run ops) <> [] -> waiting (run ops) = [] -> evq (run ops) <> [].
Proof. exact (inv_recv _ (run_inv ops)). Qed.

Definition settle_op (o : op) : Prop :=
  match o with
  | Issue _ _ => False | GiftReady _ false => False | Disconnect => False
  | EarlyGift _ _ => False | SenderLost => False | GiftReady0 _ _ => False
  | _ => True
  end.

Lemma deliver_live s : lost s = false -> cut s = None ->
  cur (deliver s) = cur s /\ sendq (deliver s) = sendq s /\ wire (deliver s) = tl (wire s) /\
  lost (deliver s) = false /\ cut (deliver s) = None.
Proof.
  intros El Ec. unfold deliver, in_flight, cut_pred. rewrite El, Ec. cbn [negb].
  destruct (wire s) as [|c w] eqn:Ew; [rewrite Ew; auto|]. destruct (cfate c); auto.
Qed.

Lemma settle_step s o : settle_op o -> lost s = false -> cut s = None -> lost (step s o) = false /\ cut (step s o) = None.
Proof.
  destruct o; cbn [settle_op step]; intros H El Ec; try destruct H.
  - destruct (release_sender s) as (q & c & w & ->). auto.
  - apply deliver_live; assumption.
  - destruct (gift_ready_receiver true k ok s) as (i & w & e & t & E). unfold gift_ready. rewrite E. auto.
  - destruct (turn_receiver s) as (i & w & e & t & ->). auto.
Qed.

Lemma settle_run more : forall s, Forall settle_op more -> lost s = false -> cut s = None ->
  lost (fold_left step more s) = false /\ cut (fold_left step more s) = None.
Proof.
  induction more as [|o more IH]; intros s H El Ec; cbn [fold_left]; [auto|].
  inversion H; subst. destruct (settle_step s o) as [El' Ec']; auto.
Qed.

Definition smeasure (s : state) : nat :=
  match cur s with Some (_, n) => S n | None => 0 end + list_sum (map (fun c => S (stalls c)) (sendq s)).

Lemma pumped_measure n s q0 : forall w0,
  smeasure (let '(q, p, w) := pumped q0 w0 in with_sender n q p w s) <= smeasure (with_sender n q0 None w0 s).
Proof.
  induction q0 as [|x q IH]; intros w0; cbn [pumped]; [reflexivity|].
  destruct (stalls x) eqn:Es; [etransitivity; [apply IH|]|]; unfold smeasure, list_sum; cbn [with_sender cur sendq map fold_right]; lia.
Qed.

Lemma release_measure s p : cur s = Some p -> smeasure (release s) < smeasure s.
Proof.
  intros Hc. rewrite release_spec, Hc. destruct p as [c [|[|m]]]; [eapply Nat.le_lt_trans; [apply pumped_measure|] .. |];
    unfold smeasure; cbn [with_sender cur sendq]; rewrite Hc; lia.
Qed.

Lemma drain_sender : forall n s, smeasure s <= n -> SInv s ->
  exists k, cur (fold_left step (repeat StallRelease k) s) = None /\ sendq (fold_left step (repeat StallRelease k) s) = [].
Proof.
  induction n as [|n IH]; intros s Hm I; (destruct (cur s) as [p|] eqn:Ec; [|exists 0; split; [exact Ec | apply I, Ec]]).
  - unfold smeasure in Hm. rewrite Ec in Hm. destruct p. lia.
  - destruct (IH (release s)) as [k Hk]; [pose proof (release_measure s p Ec); lia | apply release_sinv, I|].
    exists (S k). exact Hk.
Qed.

Lemma drain_wire : forall n s, lost s = false -> cut s = None -> List.length (wire s) <= n -> cur s = None -> sendq s = [] ->
  exists k, let s' := fold_left step (repeat Deliver k) s in cur s' = None /\ sendq s' = [] /\ wire s' = [].
Proof.
  induction n as [|n IH]; intros s El Ec Hl Hc Hq; (destruct (wire s) as [|c w] eqn:Ew; [exists 0; cbn; auto|]); [cbn in Hl; lia|].
  destruct (deliver_live s El Ec) as (E1 & E2 & E3 & El' & Ec').
  destruct (IH (deliver s) El' Ec') as [k Hk]; [rewrite E3, Ew; cbn in *; lia | congruence | congruence |].
  exists (S k). exact Hk.
Qed.

(* what is left to do on the receiver: two steps per queued delivery (dequeue, finish), one per waiting delivery, and one
   per unresolved third-party reference *)
Definition rleft (r : rdy) : nat := match r with Pending g => g_left g | _ => 0 end.
Definition rmeasure (s : state) : nat :=
  list_sum (map (fun e => 2 + rleft (snd e)) (inq s)) + list_sum (map (fun e => 1 + g_left (snd e)) (waiting s)).

Lemma do_next_measure s : rmeasure (do_next s) <= rmeasure s /\
  (lost s = false -> waiting s = [] -> inq s <> [] -> rmeasure (do_next s) < rmeasure s).
Proof.
  destruct (do_next_cases s) as [[H ->]|(c & r & rest & _ & Ew & Ei & ->)].
  - split; [lia | intros H1 H2 H3; destruct H as [H|[H|H]]; congruence].
  - enough (rmeasure (match r with Pending g => with_receiver rest [(c, g)] (evq s) (trace s) s
                              | _ => with_receiver rest [] (evq s) (trace s) s end) < rmeasure s) as H
      by (destruct r; (split; [apply Nat.lt_le_incl | intros _ _ _]; exact H)).
    unfold rmeasure. rewrite Ei, Ew. destruct r; unfold list_sum; cbn [with_receiver inq waiting map fold_right snd rleft]; lia.
Qed.

Lemma thunks_measure batch : forall s, rmeasure (fold_left run_thunk batch s) <= rmeasure s.
Proof.
  induction batch as [|[] b IH]; intros s; cbn [fold_left run_thunk]; [lia|].
  etransitivity; [apply IH | apply do_next_measure].
Qed.

Lemma turn_measure s : lost s = false -> waiting s = [] -> inq s <> [] -> evq s <> [] -> rmeasure (turn s) < rmeasure s.
Proof.
  intros El Ew Hi He. unfold turn. destruct evq_is_fifo as [_ ->].
  destruct (evq s) as [|[] b]; [congruence|]. cbn [fold_left run_thunk].
  eapply Nat.le_lt_trans; [apply thunks_measure|].
  apply (do_next_measure (with_receiver (inq s) (waiting s) [] (trace s) s)); assumption.
Qed.

Lemma gift_measure s x g m : lost s = false -> waiting s = [(x, g)] -> live m g ->
  rmeasure (gift_ready (cid x) true s) < rmeasure s.
Proof.
  intros El Ew L. apply live_net_eq in L as [Hm ->]. unfold gift_ready, gift_ready_gen. rewrite Ew, El.
  cbn [andb negb find fst]. rewrite Nat.eqb_refl. destruct m as [|[|m]]; [lia | |].
  - rewrite fire_live_last. cbn [g_out filter fst negb]. rewrite Nat.eqb_refl.
    unfold rmeasure, finish_call. cbn [inq waiting negb]. rewrite Ew. unfold list_sum. cbn [map fold_right snd g_left live_net]. lia.
  - rewrite fire_live_more. unfold rmeasure. cbn [g_out live_net inq waiting map fst]. rewrite Ew, Nat.eqb_refl.
    unfold list_sum. cbn [map fold_right snd g_left live_net]. lia.
Qed.

Lemma receiver_progress s : lost s = false -> Inv s ->
  inq s = [] /\ waiting s = [] \/
  exists o i w e t, settle_op o /\ rmeasure (step s o) < rmeasure s /\ step s o = with_receiver i w e t s.
Proof.
  intros El [I _ R G]. destruct (wait_len s I) as [Ew|[[x g] Ew]].
  - destruct (inq s) as [|d r] eqn:Ei; [left; auto | right].
    assert (Hi : inq s <> []) by (rewrite Ei; discriminate).
    destruct (turn_receiver s) as (i & w & e & t & Et). exists Turn, i, w, e, t.
    split; [exact Logic.I|]. split; [apply turn_measure; auto | exact Et].
  - right. destruct (proj1 G x g) as [m L]; [rewrite Ew; left; reflexivity|].
    destruct (gift_ready_receiver true (cid x) true s) as (i & w & e & t & Et). exists (GiftReady (cid x) true), i, w, e, t.
    split; [exact Logic.I|]. split; [apply (gift_measure s x g m); assumption | exact Et].
Qed.

Lemma drain_receiver : forall n s, rmeasure s <= n -> lost s = false -> Inv s ->
  exists more i w e t, Forall settle_op more /\ fold_left step more s = with_receiver i w e t s /\ i = [] /\ w = [].
Proof.
  induction n as [|n IH]; intros s Hm El I;
    (destruct (receiver_progress s El I) as [[Ei Ew]|(o & i0 & w0 & e0 & t0 & Ho & Hlt & Et)];
     [exists [], (inq s), (waiting s), (evq s), (trace s); split; [constructor|]; split; [apply with_receiver_id | auto] |]); [lia|].
  destruct (IH (step s o)) as (more & i & w & e & t & Hf & H1 & H2);
    [lia | rewrite Et; exact El | apply step_inv, I |].
  exists (o :: more), i, w, e, t. cbn [fold_left]. rewrite H1, Et.
  split; [constructor; assumption | split; [reflexivity | exact H2]].
Qed.

Lemma forall_repeat {A} (P : A -> Prop) x k : P x -> Forall P (repeat x k).
Proof. intros H. induction k; cbn [repeat]; constructor; assumption. Qed.

(* every reachable state can be settled: releasing the stalls, delivering the bytes, resolving the gifts and
   running turns empties the whole pipeline *)
Theorem can_always_settle ops : lost (run ops) = false -> cut (run ops) = None ->
  exists more, Forall settle_op more /\ pipeline (run (ops ++ more)) = [].
Proof.
  intros El Ec. pose (s0 := run ops).
  destruct (drain_sender (smeasure s0) s0 (le_n _)) as [k1 [Hc1 Hq1]].
  { exact (inv_send _ (run_inv ops)). }
  set (s1 := fold_left step (repeat StallRelease k1) s0) in *.
  destruct (settle_run (repeat StallRelease k1) s0 (forall_repeat settle_op StallRelease k1 I) El Ec) as [El1 Ec1]. fold s1 in El1, Ec1.
  destruct (drain_wire (List.length (wire s1)) s1 El1 Ec1 (le_n _) Hc1 Hq1) as [k2 (Hc2 & Hq2 & Hw2)].
  set (s2 := fold_left step (repeat Deliver k2) s1) in *.
  destruct (settle_run (repeat Deliver k2) s1 (forall_repeat settle_op Deliver k2 I) El1 Ec1) as [El2 _]. fold s2 in El2.
  destruct (drain_receiver (rmeasure s2) s2 (le_n _) El2) as (more & i & w & e & t & Hf & Hs & -> & ->).
  { do 2 apply (fold_left_invariant step Inv step_inv). apply run_inv. }
  exists (repeat StallRelease k1 ++ repeat Deliver k2 ++ more). split.
  - apply Forall_app; split; [apply forall_repeat; exact I|].
    apply Forall_app; split; [apply forall_repeat; exact I | exact Hf].
  - rewrite run_app, !fold_left_app. fold s0. fold s1. fold s2. rewrite Hs.
    unfold pipeline, inq_ids, wait_ids, upstream, cur_ids. cbn [with_receiver inq waiting wire cur sendq].
    rewrite Hc2, Hq2, Hw2. reflexivity.
Qed.

Lemma count_issues_app a b : count_issues (a ++ b) = count_issues a + count_issues b.
Proof. unfold count_issues. rewrite filter_app, app_length. reflexivity. Qed.

(* every issued call can still be brought to a conclusion: entered, or explicitly refused *)
Theorem eventually_entered_or_refused ops : lost (run ops) = false -> cut (run ops) = None ->
  exists more, Forall settle_op more /\
    forall c, c < count_issues ops ->
      In c (entered (run (ops ++ more))) \/ In (Failed c) (history (run (ops ++ more))) \/
      In (Rejected c) (history (run (ops ++ more))).
Proof.
  intros El Ec. destruct (can_always_settle ops El Ec) as (more & Hf & Hp). exists more. split; [exact Hf|].
  intros c Hc.
  assert (Ed : dropped (run (ops ++ more)) = []).
  { apply dropped_only_after_loss. rewrite run_app. apply settle_run; assumption. }
  destruct (no_silent_loss (ops ++ more) c) as [H|[H|[H|[H|H]]]].
  - unfold run. rewrite run_from_next, count_issues_app. cbn [next_id init]. lia.
  - left; exact H.
  - rewrite Hp in H. destruct H.
  - right; left; exact H.
  - right; right; exact H.
  - rewrite Ed in H. destruct H.
Qed.

(* Loss of the receiver's connection (beyond the property text: C04 itself says nothing about connection loss).  Once Broker.finish
   has run, doNextCall returns at once, and a gift that resolves counts as failed because its acknowledgement raises: nothing is
   entered any more -- except through a reference that the peer sent with giftID 0, which is not acknowledged (acked_op excludes
   its resolution; nothing_entered_after_loss_refuted is the counterexample without that exclusion) *)

Lemma do_next_lost_id s : lost s = true -> do_next s = s.
Proof. intros El. unfold do_next. rewrite loss_stops_dequeue, El. reflexivity. Qed.

Lemma thunks_lost_id batch s : lost s = true -> fold_left run_thunk batch s = s.
Proof.
  intros El. induction batch as [|[] b IH]; cbn [fold_left run_thunk]; [reflexivity|]. rewrite (do_next_lost_id s El). exact IH.
Qed.

Lemma step_lost_stays s o : lost s = true -> lost (step s o) = true.
Proof.
  intros El. destruct o; cbn [step].
  - destruct (issue_sender stalls f s) as (q & c & w & ->). exact El.
  - destruct (release_sender s) as (q & c & w & ->). exact El.
  - unfold deliver. rewrite El. exact El.
  - destruct (gift_ready_receiver true k ok s) as (i & w & e & t & E). unfold gift_ready. rewrite E. exact El.
  - destruct (turn_receiver s) as (i & w & e & t & ->). exact El.
  - unfold disconnect. rewrite El. exact El.
  - destruct (early_gift_conn k ok s) as (e & ->). exact El.
  - destruct (sender_lost_conn s) as (c & ->). exact El.
  - destruct (gift_ready_receiver false k ok s) as (i & w & e & t & ->). exact El.
Qed.

(* every op except the successful resolution of a reference that the PEER sent with giftID 0 *)
Definition acked_op (o : op) : Prop := match o with GiftReady0 _ true => False | _ => True end.

(* a live network answers a failure with a failure: a reference that fails lets nothing in *)
Lemma failed_gift_enters_nothing a k s : GInv s -> entered (gift_ready_gen a k false s) = entered s.
Proof.
  intros G. unfold gift_ready_gen. cbn [andb].
  destruct (find _ (waiting s)) as [[c g]|] eqn:Ef; [|reflexivity].
  apply find_some in Ef. destruct Ef as [Hin _]. destruct (proj1 G _ _ Hin) as [m L].
  apply live_net_eq in L as [Hm ->]. rewrite (fire_live_false m Hm), finish_call_entered. apply app_nil_r.
Qed.

Lemma step_lost_entered s o : GInv s -> lost s = true -> acked_op o \/ docall_checks_disconnected = true ->
  entered (step s o) = entered s.
Proof.
  intros G El Ho. destruct o; cbn [step].
  - destruct (issue_sender stalls f s) as (q & c & w & ->). reflexivity.
  - destruct (release_sender s) as (q & c & w & ->). reflexivity.
  - unfold deliver. rewrite El. reflexivity.
  - (* the resolution counts as a failure *)
    rewrite <- (failed_gift_enters_nothing true k s G). unfold gift_ready, gift_ready_gen.
    rewrite gift_after_loss_fails, El. cbn [andb orb negb]. rewrite andb_false_r. reflexivity.
  - unfold turn. rewrite thunks_lost_id by exact El. reflexivity.
  - unfold disconnect. rewrite El. reflexivity.
  - destruct (early_gift_conn k ok s) as (e & ->). reflexivity.
  - destruct (sender_lost_conn s) as (c & ->). reflexivity.
  - destruct ok; [|apply failed_gift_enters_nothing, G]. destruct Ho as [[]|Hd].
    rewrite <- (failed_gift_enters_nothing false k s G). unfold gift_ready_gen.
    rewrite Hd, El. cbn [andb negb]. rewrite orb_true_r. reflexivity.
Qed.

Theorem nothing_entered_after_loss ops more : lost (run ops) = true ->
  Forall acked_op more \/ docall_checks_disconnected = true ->
  entered (run (ops ++ more)) = entered (run ops).
Proof.
  rewrite run_app. generalize (inv_gift _ (run_inv ops)). generalize (run ops). clear ops.
  induction more as [|o more IH]; intros s G El Hm; cbn [fold_left]; [reflexivity|].
  assert (H : (acked_op o \/ docall_checks_disconnected = true) /\ (Forall acked_op more \/ docall_checks_disconnected = true))
    by (destruct Hm as [Hm|Hd]; [inversion Hm|]; auto).
  destruct H as [Ho Hm'].
  rewrite IH; [apply step_lost_entered; assumption | apply step_ginv, G | apply step_lost_stays, El | exact Hm'].
Qed.

(* without that restriction the statement is FALSE: a peer that sends a third-party reference with giftID 0 gets its call
   entered after the receiver has lost the connection (ackGift has nothing to send, so nothing fails) *)
Definition giftid0_witness : list op := [Issue 0 (FGift 1); Deliver; Turn; Disconnect].

Theorem nothing_entered_after_loss_refuted : docall_checks_disconnected = false ->
  exists ops more, lost (run ops) = true /\ entered (run ops) = [] /\ entered (run (ops ++ more)) = [0].
Proof.
  (* whatever the generated constant is: true contradicts the hypothesis, false lets the witness compute *)
  intros H. first [ vm_compute in H; discriminate H
                  | exists giftid0_witness, [GiftReady0 0 true]; vm_compute; repeat split; reflexivity ].
Qed.

Theorem loss_is_final ops more : lost (run ops) = true -> lost (run (ops ++ more)) = true.
Proof.
  rewrite run_app. apply (fold_left_invariant step (fun s => lost s = true) step_lost_stays).
Qed.

(* the SENDER loses the connection: only what it had completely written can still arrive *)

Definition is_arrival (e : event) : bool := match e with Queued _ | Rejected _ => true | _ => false end.
Definition arrived (s : state) : nat := List.length (filter is_arrival (trace s)).
Definition budget (s : state) : nat := match cut s with Some k => k | None => 0 end.

Lemma finish_call_arrived c ok s : arrived (finish_call c ok s) = arrived s.
Proof. unfold arrived, finish_call. cbn [trace]. destruct (ok && _); reflexivity. Qed.

Lemma thunks_arrived batch : forall s, arrived (fold_left run_thunk batch s) = arrived s.
Proof.
  induction batch as [|[] b IH]; intros s; cbn [fold_left run_thunk]; [reflexivity|]. rewrite IH.
  destruct (do_next_cases s) as [[_ ->]|(c & r & rest & _ & _ & _ & ->)]; [reflexivity|].
  destruct r; rewrite ?finish_call_arrived; reflexivity.
Qed.

Lemma gift_ready_arrived a k ok s : arrived (gift_ready_gen a k ok s) = arrived s.
Proof.
  unfold gift_ready_gen. destruct (find _ (waiting s)) as [[c g]|]; [|reflexivity].
  destruct (g_out _); rewrite ?finish_call_arrived; reflexivity.
Qed.

Lemma step_after_cut s o k : cut s = Some k ->
  exists k', cut (step s o) = Some k' /\ arrived (step s o) + k' = arrived s + k.
Proof.
  intros Ec. destruct o; cbn [step].
  - exists k. destruct (issue_sender stalls f s) as (q & c & w & ->). auto.
  - exists k. destruct (release_sender s) as (q & c & w & ->). auto.
  - unfold deliver, in_flight, cut_pred. rewrite Ec. destruct (lost s); [exists k; auto|].
    destruct k as [|k]; cbn [negb]; [exists 0; auto|]. destruct (wire s) as [|c w]; [exists (S k); auto|].
    exists k. destruct (cfate c); unfold arrived; cbn [cut trace filter is_arrival List.length pred]; split; try reflexivity; lia.
  - exists k. unfold gift_ready. rewrite gift_ready_arrived. destruct (gift_ready_receiver true k0 ok s) as (i & w & e & t & ->). auto.
  - exists k. rewrite (thunks_arrived _ (with_receiver (inq s) (waiting s) [] (trace s) s) : arrived (turn s) = arrived s).
    destruct (turn_receiver s) as (i & w & e & t & ->). auto.
  - exists k. unfold disconnect. destruct (lost s); [auto|]. destruct finish_clears_inq; auto.
  - exists k. destruct (early_gift_conn k0 ok s) as (e & ->). auto.
  - exists k. unfold sender_lost. rewrite Ec. auto.
  - exists k. rewrite gift_ready_arrived. destruct (gift_ready_receiver false k0 ok s) as (i & w & e & t & ->). auto.
Qed.

(* after the sender's loss, at most as many calls arrive (are queued or rejected) as were completely on the wire then,
   whatever happens next: what the sender serializes afterwards is never received *)
Theorem after_sender_loss_only_in_flight_arrive ops more k : cut (run ops) = Some k ->
  arrived (run (ops ++ more)) <= arrived (run ops) + k.
Proof.
  rewrite run_app. generalize (run ops). clear ops. revert k.
  induction more as [|o more IH]; intros k s Ec; cbn [fold_left]; [lia|].
  destruct (step_after_cut s o k Ec) as (k' & Ec' & E). specialize (IH k' _ Ec'). lia.
Qed.

Theorem sender_loss_cuts_at_wire ops : cut (run ops) = None -> cut (run (ops ++ [SenderLost])) = Some (List.length (wire (run ops))).
Proof. intros Ec. rewrite run_app. cbn [fold_left step]. unfold sender_lost. rewrite Ec. reflexivity. Qed.

(* LocalReferenceable: order is given by the eventual queue alone *)

Lemma datas_app a b : datas (a ++ b) = datas a ++ datas b.
Proof. induction a as [|t a IH]; cbn [app datas]; [reflexivity|]. destruct t; cbn [app]; rewrite IH; reflexivity. Qed.

Lemma datas_put t q : datas (q_put evq_push t q) = datas q ++ datas [t].
Proof. destruct evq_is_fifo as [-> _]. apply datas_app. Qed.

Definition LInv (s : lstate) : Prop := l_entered s ++ datas (l_evq s) = seq 0 (l_next s).

(* while a batch runs: what was delivered, then the data still in the batch, then the data queued meanwhile *)
Lemma run_batch_inv batch : forall s,
  l_entered s ++ datas batch ++ datas (l_evq s) = seq 0 (l_next s) -> LInv (run_batch batch s).
Proof.
  induction batch as [|t rest IH]; intros s I; cbn [run_batch]; [exact I|].
  destruct t; cbn [datas app] in I.
  - apply IH. cbn [l_entered l_evq l_next]. rewrite <- app_assoc. exact I.
  - apply IH. exact I.
  - rewrite evq_isolation. apply IH. exact I.
  - apply IH. cbn [l_entered l_evq l_next]. rewrite datas_put. cbn [datas].
    rewrite !app_assoc, <- (app_assoc (l_entered s)), I, seq_S. reflexivity.
Qed.

Lemma lstep_inv s o : LInv s -> LInv (lstep s o).
Proof.
  unfold LInv. intros I. destruct o; cbn [lstep l_entered l_evq l_next]; rewrite ?datas_put.
  - cbn [datas]. rewrite app_assoc, I, seq_S. reflexivity.
  - destruct raises; cbn [datas]; rewrite app_nil_r; exact I.
  - cbn [datas]. rewrite app_nil_r. exact I.
  - destruct evq_is_fifo as [_ ->]. apply run_batch_inv. cbn [l_entered l_evq l_next datas]. rewrite app_nil_r. exact I.
Qed.

(* the eventual queue is an order-preserving channel: whatever unrelated callables (also raising ones, also ones that
   write themselves) share it, delivered ++ still queued = written, in the order written *)
Theorem eventual_channel_in_order ops :
  l_entered (lrun ops) ++ datas (l_evq (lrun ops)) = seq 0 (l_next (lrun ops)).
Proof. apply (fold_left_invariant lstep LInv lstep_inv). reflexivity. Qed.

Corollary eventual_channel_prefix ops : sublist (l_entered (lrun ops)) (seq 0 (l_next (lrun ops))).
Proof. rewrite <- eventual_channel_in_order. apply sublist_app_l. Qed.

(* the regression witness of defect D1: one call pauses mid-argument, three more are issued meanwhile *)
Example d1_witness :
  entered (run [Issue 1 FPlain; Issue 0 FPlain; Issue 0 FPlain; Issue 0 FPlain; StallRelease;
                Deliver; Deliver; Deliver; Deliver; Turn]) = [0; 1; 2; 3].
Proof. vm_compute. reflexivity. Qed.

(* a call blocked behind a gift, an early and a late refusal: the hypotheses of head_of_line are met *)
Definition hol_example : list op :=
  [Issue 0 (FGift 1); Issue 0 FRejectEarly; Issue 0 FRejectLate; Issue 2 FPlain; StallRelease; StallRelease;
   Deliver; Deliver; Deliver; Deliver; Turn; Turn; GiftReady 0 true; Turn; Turn].

Example hol_example_history :
  history (run hol_example) =
  [Queued 0; Rejected 1; Queued 2; Queued 3; Entered 0; Failed 2; Entered 3].
Proof. vm_compute. reflexivity. Qed.

Example hol_example_applies :
  exists before after, history (run hol_example) = before ++ Entered 3 :: after /\
                       In (Queued 2) (history (run hol_example)) /\ 2 < 3 /\ In (Failed 2) before.
Proof.
  exists [Queued 0; Rejected 1; Queued 2; Queued 3; Entered 0; Failed 2], [].
  rewrite hol_example_history. cbn. intuition.
Qed.

Example waiting_is_reached :
  wait_ids (run [Issue 0 (FGift 1); Deliver; Turn]) = [0].
Proof. vm_compute. reflexivity. Qed.

(* a call with three third-party references: runnable only after the third has resolved *)
Example three_gifts :
  map (fun ops => entered (run ops))
      [ [Issue 0 (FGift 3); Issue 0 FPlain; Deliver; Deliver; Turn; GiftReady 0 true; Turn; GiftReady 0 true; Turn];
        [Issue 0 (FGift 3); Issue 0 FPlain; Deliver; Deliver; Turn; GiftReady 0 true; Turn; GiftReady 0 true; Turn;
         GiftReady 0 true; Turn; Turn] ] = [ []; [0; 1] ].
Proof. vm_compute. reflexivity. Qed.

(* ... and refused as soon as one of them fails, also while it is still queued behind another waiting call *)
Example gift_fails_while_queued :
  history (run [Issue 0 (FGift 1); Issue 0 (FGift 2); Issue 0 FPlain; Deliver; Deliver; Deliver; Turn;
                GiftReady 1 false; GiftReady 0 true; Turn; Turn; Turn]) =
  [Queued 0; Queued 1; Queued 2; Entered 0; Failed 1; Entered 2].
Proof. vm_compute. reflexivity. Qed.

Example live_example : live 3 (gnet_init 3) /\ List.length [true; true] <= 3.
Proof. split; [apply live_init; lia | cbn; lia]. Qed.

(* the connection is lost while call 0 waits for its gift and calls 1, 2 are queued behind it, call 3 is still on the
   wire: the hypotheses of nothing_entered_after_loss / loss_is_final are met, 1 and 2 are dropped, and even the gift
   that resolves afterwards does not let call 0 in *)
Definition loss_example : list op :=
  [Issue 0 FPlain; Issue 0 (FGift 1); Issue 0 FPlain; Issue 0 FPlain; Issue 0 FPlain; Deliver; Deliver; Deliver; Deliver;
   Turn; Turn; Turn; Disconnect].

Example loss_example_state :
  (lost (run loss_example), entered (run loss_example), wait_ids (run loss_example),
   ids (dropped (run loss_example)) ++ inq_ids (run loss_example), ids (wire (run loss_example))) = (true, [0], [1], [2; 3], [4]).
Proof. vm_compute. reflexivity. Qed.

Example loss_example_after :
  history (run (loss_example ++ [GiftReady 1 true; Turn; Deliver; Turn; Turn])) =
  [Queued 0; Queued 1; Queued 2; Queued 3; Entered 0; Failed 1].
Proof. vm_compute. reflexivity. Qed.

(* a reference that resolves while its call is still on the wire: the call is ready on arrival; one that fails early
   makes the call fail when its turn comes; with two references, one early and one late, the call waits for the late one *)
Example early_gift_example :
  map (fun ops => history (run ops))
      [ [Issue 0 (FGift 1); EarlyGift 0 true; Deliver; Turn];
        [Issue 0 (FGift 1); EarlyGift 0 false; Deliver; Turn];
        [Issue 0 (FGift 2); EarlyGift 0 true; Deliver; Turn; Turn; GiftReady 0 true; Turn] ] =
  [ [Queued 0; Entered 0]; [Queued 0; Failed 0]; [Queued 0; Entered 0] ].
Proof. vm_compute. reflexivity. Qed.

Example any_time_example : 1 <= List.length [true] + 2 /\ List.length [true] <= 2.
Proof. cbn; lia. Qed.

(* the sender is cut off with call 0 completely written, call 1 paused in a streaming argument and call 2 queued: only
   call 0 can still arrive, although 1 and 2 are serialized afterwards *)
Definition sender_loss_example : list op :=
  [Issue 0 FPlain; Issue 1 FPlain; Issue 0 FPlain; SenderLost; StallRelease; Deliver; Deliver; Deliver; Turn; Turn].

Example sender_loss_example_state :
  (cut (run [Issue 0 FPlain; Issue 1 FPlain; Issue 0 FPlain; SenderLost]), entered (run sender_loss_example),
   ids (wire (run sender_loss_example))) = (Some 1, [0], [1; 2]).
Proof. vm_compute. reflexivity. Qed.

Example settle_example : lost (run hol_example) = false.
Proof. vm_compute. reflexivity. Qed.

Example local_example :
  l_entered (lrun [LSpawnOp; LNoise true; LIssue; LIssue; LTurn; LNoise true; LIssue; LTurn; LTurn]) = [0; 1; 2; 3].
Proof. vm_compute. reflexivity. Qed.
