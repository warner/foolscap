(* Furl.v -- executable model of furl.decode_furl / encode_furl, SturdyRef / TubRef identity,
   connections.tcp.convert_legacy_hint, the three hint handlers' hint_to_endpoint (up to the
   endpoint constructor) and connection.get_endpoint's choice of handler.
   The patterns, constants and shape facts come from gen/FurlGen.v (translated from the source
   on every run).  Definitions only; proofs are in FurlProofs.v. *)
From Coq Require Import ZArith NArith List String Bool.
Import ListNotations.
Require Import Verif.lib.PyLite Verif.lib.Regex Verif.lib.FurlPrim Verif.gen.FurlGen Verif.lib.Utf8.
Local Open Scope Z_scope.

Definition str := list Z.     (* a Python str: its code points *)


(* ---- str.split(sep) / sep.join(..) for a one-character separator *)
Fixpoint split_on (sep : Z) (s : str) : list str :=
  match s with
  | [] => [[]]
  | x :: s' =>
      if x =? sep then [] :: split_on sep s'
      else match split_on sep s' with
           | h :: t => (x :: h) :: t
           | [] => [[x]]
           end
  end.

Fixpoint join_with (sep : Z) (l : list str) : str :=
  match l with
  | [] => []
  | [a] => a
  | a :: t => a ++ sep :: join_with sep t
  end.

(* ---- base32.is_base32: every character of s.lower() is in the alphabet *)
Fixpoint assocZ {A} (x : Z) (l : list (Z * A)) : option A :=
  match l with
  | [] => None
  | (y, v) :: l' => if x =? y then Some v else assocZ x l'
  end.

(* does c.lower() lie inside the alphabet?  (py_lower_table lists every code point whose
   lower() differs from itself and lies inside the alphabet) *)
Definition base32_char (x : Z) : bool :=
  zmem x BASE32_ALPHABET ||
  match assocZ x py_lower_table with Some lo => forallb (fun y => zmem y BASE32_ALPHABET) lo | None => false end.

Definition is_base32 (s : str) : bool := forallb base32_char s.

(* ---- furl.decode_furl *)
Definition str_is_nil (s : str) : bool := match s with [] => true | _ => false end.

Definition decode_furl (s : str) : res (str * list str * str) :=
  match re_apply AUTH_STURDYREF_RE AUTH_STURDYREF_RE_method s with
  | None => Exc "ValueError"
  | Some c =>
      let tub := firstn TUBID_CUT (group_or_nil 1 c) in
      if negb (is_base32 tub) then Exc "BadFURLError"
      else
        let hs := split_on HINT_SEP (group_or_nil 2 c) in
        let hs := match hs with [[]] => [] | _ => hs end in
        if existsb str_is_nil hs then Exc "BadFURLError"
        else Ok (tub, hs, group_or_nil 3 c)
  end.

Definition encode_furl (tub : str) (hs : list str) (name : str) : str :=
  ENC_PREFIX ++ tub ++ ENC_AT ++ join_with ENC_SEP hs ++ ENC_SLASH ++ name.

(* ---- six.ensure_str on a bytes FURL: bytes.decode("utf-8", "strict").  CPython's decoder: shortest form only,
   no surrogates, nothing above U+10FFFF; anything else is UnicodeDecodeError (a ValueError).  The encoder
   `utf8` / `scalarb` are the ones of lib/Utf8.v (C10) *)
Definition second3 (b c1 : Z) : bool := if b =? 224 then 160 <=? c1 else if b =? 237 then c1 <? 160 else true.
Definition second4 (b c1 : Z) : bool := if b =? 240 then 144 <=? c1 else if b =? 244 then c1 <? 144 else true.

Fixpoint utf8_dec (l : list Z) : option (list Z) :=
  match l with
  | [] => Some []
  | b :: r =>
      if (0 <=? b) && (b <? 128) then option_map (cons b) (utf8_dec r)
      else if (194 <=? b) && (b <? 224) then
        match r with
        | c1 :: r1 => if is_cont c1 then option_map (cons ((b - 192) * 64 + (c1 - 128))) (utf8_dec r1) else None
        | _ => None
        end
      else if (224 <=? b) && (b <? 240) then
        match r with
        | c1 :: c2 :: r2 =>
            if is_cont c1 && is_cont c2 && second3 b c1
            then option_map (cons ((b - 224) * 4096 + (c1 - 128) * 64 + (c2 - 128))) (utf8_dec r2) else None
        | _ => None
        end
      else if (240 <=? b) && (b <? 245) then
        match r with
        | c1 :: c2 :: c3 :: r3 =>
            if is_cont c1 && is_cont c2 && is_cont c3 && second4 b c1
            then option_map (cons ((b - 240) * 262144 + (c1 - 128) * 4096 + (c2 - 128) * 64 + (c3 - 128))) (utf8_dec r3) else None
        | _ => None
        end
      else None
  end.

(* decode_furl applied to a bytes object *)
Definition decode_furl_bytes (b : list Z) : res (str * list str * str) :=
  match utf8_dec b with
  | None => Exc "UnicodeDecodeError"
  | Some s => decode_furl s
  end.

(* ---- SturdyRef / TubRef identity: __eq__ and __hash__ go through _distinguishers() *)
Record sref := { sr_tub : option str; sr_hints : list str; sr_name : option str; sr_url : option str }.

Definition opt_str_eqb (a b : option str) : bool :=
  match a, b with
  | None, None => true
  | Some x, Some y => list_eqb x y
  | _, _ => false
  end.

Fixpoint strs_eqb (a b : list str) : bool :=
  match a, b with
  | [], [] => true
  | x :: a', y :: b' => list_eqb x y && strs_eqb a' b'
  | _, _ => false
  end.

Definition field_eqb (f : idfield) (a b : sref) : bool :=
  match f with
  | FTubID => opt_str_eqb (sr_tub a) (sr_tub b)
  | FName => opt_str_eqb (sr_name a) (sr_name b)
  | FHints => strs_eqb (sr_hints a) (sr_hints b)
  | FUrl => opt_str_eqb (sr_url a) (sr_url b)
  end.

Definition sref_eqb (a b : sref) : bool := forallb (fun f => field_eqb f a b) sturdyref_distinguishers.
Definition tubref_eqb (a b : sref) : bool := forallb (fun f => field_eqb f a b) tubref_distinguishers.

(* the tuple that is hashed *)
Inductive fval := VStr (v : option str) | VStrs (v : list str).
Definition field_val (f : idfield) (a : sref) : fval :=
  match f with
  | FTubID => VStr (sr_tub a)
  | FName => VStr (sr_name a)
  | FHints => VStrs (sr_hints a)
  | FUrl => VStr (sr_url a)
  end.
Definition sref_key (a : sref) : list fval := map (fun f => field_val f a) sturdyref_distinguishers.

(* ---- SturdyRef.__lt__: `self._distinguishers() < them._distinguishers()` *)
(* str < str: code point order, a proper prefix is smaller *)
Fixpoint str_ltb (a b : str) : bool :=
  match a, b with
  | _, [] => false
  | [], _ :: _ => true
  | x :: a', y :: b' => if x <? y then true else if x =? y then str_ltb a' b' else false
  end.

(* tuple comparison of the translated _distinguishers(): the first field on which the two differ decides; a field
   that is None on one side only cannot be ordered (TypeError), hint lists are not part of any key on this tree *)
Fixpoint key_ltb (fs : list idfield) (a b : sref) : res bool :=
  match fs with
  | [] => Ok false
  | f :: fs' =>
      if field_eqb f a b then key_ltb fs' a b
      else match field_val f a, field_val f b with
           | VStr (Some x), VStr (Some y) => Ok (str_ltb x y)
           | _, _ => Exc "TypeError"
           end
  end.
Definition sref_ltb (a b : sref) : res bool := key_ltb sturdyref_distinguishers a b.

(* SturdyRef(url) *)
Definition sturdyref (url : str) : res sref :=
  match decode_furl url with
  | Ok (t, hs, n) => Ok {| sr_tub := Some t; sr_hints := hs; sr_name := Some n; sr_url := Some url |}
  | Exc e => Exc e
  end.

(* ---- int(<digits>) and "%d" *)
Fixpoint digit_val_in (zs : list Z) (x : Z) : option Z :=
  match zs with
  | [] => None
  | z :: zs' => if (z <=? x) && (x <=? z + 9) then Some (x - z) else digit_val_in zs' x
  end.
Definition digit_val (x : Z) : option Z := digit_val_in digit_zeros x.

Fixpoint int_acc (acc : Z) (ds : str) : option Z :=
  match ds with
  | [] => Some acc
  | d :: ds' => match digit_val d with Some v => int_acc (acc * 10 + v) ds' | None => None end
  end.

(* int(s) for s made of decimal digits; anything else (empty, non-digit, more digits than
   sys.get_int_max_str_digits()) is a ValueError *)
Definition py_int (ds : str) : res Z :=
  match ds with
  | [] => Exc "ValueError"
  | _ => if (0 <? INT_MAX_STR_DIGITS) && (INT_MAX_STR_DIGITS <? Z.of_nat (List.length ds)) then Exc "ValueError"
         else match int_acc 0 ds with Some v => Ok v | None => Exc "ValueError" end
  end.

(* "%d" % n for 0 <= n; fuel = number of digits allowed *)
Fixpoint dec_digits (fuel : nat) (n : Z) (acc : str) : str :=
  match fuel with
  | O => acc
  | S f => let acc' := (48 + n mod 10) :: acc in
           if n / 10 =? 0 then acc' else dec_digits f (n / 10) acc'
  end.
Definition py_dec (n : Z) : str := dec_digits (S (Z.to_nat (Z.log2 (Z.max n 1)))) n [].

(* ---- connections/tcp.py convert_legacy_hint *)
Definition TCP_PREFIX : str := [116; 99; 112; 58].   (* "tcp:" of the format string 'tcp:%s:%d' *)

Definition convert_legacy_hint (loc : str) : res str :=
  match re_apply OLD_STYLE_HINT_RE OLD_STYLE_HINT_RE_method loc with
  | Some c =>
      match py_int (group_or_nil 2 c) with
      | Ok port => Ok (TCP_PREFIX ++ group_or_nil 1 c ++ [58] ++ py_dec port)
      | Exc e => Exc e
      end
  | None => Ok loc
  end.

(* ---- the three handlers *)
Inductive endpoint :=
| EpTcp (host : str) (port : Z)            (* HostnameEndpoint(reactor, host, port) *)
| EpTor (host : str) (port : Z)            (* txtorcon.TorClientEndpoint(host, port, ..) *)
| EpI2p (host : str) (port : option Z).    (* SAMI2PStreamClientEndpoint.new(sam, host, port) *)

Fixpoint lstrip (x : Z) (s : str) : str :=
  match s with y :: s' => if y =? x then lstrip x s' else s | [] => [] end.
Definition rstrip (x : Z) (s : str) : str := rev (lstrip x (rev s)).

Definition invalid {A} : res A := Exc "InvalidHintError".

Definition tcp_hint_to_endpoint (hint : str) : res endpoint :=
  match re_apply NEW_STYLE_HINT_RE NEW_STYLE_HINT_RE_method hint with
  | None => invalid
  | Some c =>
      match py_int (group_or_nil 2 c) with
      | Exc e => Exc e
      | Ok port => Ok (EpTcp (rstrip 93 (lstrip 91 (group_or_nil 1 c))) port)
      end
  end.

(* `nonpublic` stands for tor.is_non_public_numeric_address (ipaddress module) *)
Definition tor_hint_to_endpoint (nonpublic : str -> bool) (hint : str) : res endpoint :=
  match re_apply TOR_HINT_RE TOR_HINT_RE_method hint with
  | None => invalid
  | Some c =>
      match py_int (group_or_nil 2 c) with
      | Exc e => Exc e
      | Ok port => if nonpublic (group_or_nil 1 c) then invalid else Ok (EpTor (group_or_nil 1 c) port)
      end
  end.

(* _RunningI2P keeps the keyword arguments it was created with; `dflt` = Some d when they contain port=d
   (i2p.default(reactor, port=d) / i2p.sam_endpoint(ep, port=d)).
   Before commit 733f931 the code popped 'port' from the copy of the kwargs only when the hint had no port (or port 0);
   otherwise the hint's port was passed positionally AND port=d by keyword, which Python rejects with TypeError
   (pops = false).  Since 733f931 'port' is always popped and used when the hint has no non-zero port of its own
   (pops = true).  `pops` = the translated shape fact FurlGen.I2P_POPS_PORT, so both forms stay in the model. *)
Definition i2p_hint_to_endpoint (pops : bool) (dflt : option Z) (hint : str) : res endpoint :=
  match re_apply I2P_HINT_RE I2P_HINT_RE_method hint with
  | None => invalid
  | Some c =>
      let host := group_or_nil 1 c in
      let portnum : res (option Z) :=
        match group 3 c with
        | None | Some [] => Ok None                             (* `if mo.group(3)` is false *)
        | Some ds => match py_int ds with Exc e => Exc e | Ok port => Ok (Some port) end
        end in
      match portnum with
      | Exc e => Exc e
      | Ok pn =>
          let falsy := match pn with None => true | Some v => v =? 0 end in     (* `not portnum` *)
          if pops then Ok (EpI2p host (if falsy then dflt else pn))       (* 733f931: own non-zero port, else the default / None *)
          else match dflt with
               | None => Ok (EpI2p host pn)
               | Some d => if falsy then Ok (EpI2p host (Some d)) else Exc "TypeError"
               end
      end
  end.

(* a registered handler: one of foolscap's three, or any third-party plugin, abstracted to what its
   hint_to_endpoint does with a hint (an endpoint, or the class name of the exception it raises) *)
Inductive hkind := KTcp | KTor | KI2p (dflt : option Z) | KPlugin (f : str -> res endpoint).

Definition hint_to_endpoint_gen (pops : bool) (nonpublic : str -> bool) (kd : hkind) (hint : str) : res endpoint :=
  match kd with
  | KTcp => tcp_hint_to_endpoint hint
  | KTor => tor_hint_to_endpoint nonpublic hint
  | KI2p dflt => i2p_hint_to_endpoint pops dflt hint
  | KPlugin f => f hint
  end.
Definition hint_to_endpoint := hint_to_endpoint_gen I2P_POPS_PORT.

(* ---- connection.get_endpoint: convert, find the type before the first ':', look up the plugin *)
Fixpoint lookup_handler (ty : str) (hs : list (str * hkind)) : option hkind :=
  match hs with
  | [] => None
  | (n, kd) :: hs' => if list_eqb ty n then Some kd else lookup_handler ty hs'
  end.

(* the dispatch itself is the GENERATED term FurlGen.get_endpoint_shape (connection.get_endpoint's _try read statement
   by statement); here it is instantiated with the legacy conversion, the handler table and the handlers of this model *)
Definition get_endpoint_gen (pops : bool) (handlers : list (str * hkind)) (nonpublic : str -> bool) (loc : str) : res endpoint :=
  get_endpoint_shape convert_legacy_hint (fun ty => lookup_handler ty handlers)
                     (fun kd hint => hint_to_endpoint_gen pops nonpublic kd hint) loc.
Definition get_endpoint := get_endpoint_gen I2P_POPS_PORT.

(* ---- vocabulary of the step-count theorems about the FURL pattern (FurlProofs.v: furl_search_steps ... furl_anchored_linear) *)
(* the pattern with a leading `^`: what `.match()` / an anchored pattern would try (position 0 only) *)
Definition anchored (p : pattern) : pattern := {| p_anch := true; p_body := p_body p; p_groups := p_groups p |}.

Fixpoint prefixb (w s : list Z) : bool :=
  match w, s with
  | [], _ => true
  | a :: w', x :: s' => (x =? a) && prefixb w' s'
  | _ :: _, [] => false
  end.

(* number of positions of s at which the word w starts *)
Fixpoint occ (w s : list Z) : N :=
  match s with
  | [] => 0%N
  | _ :: s' => ((if prefixb w s then 1 else 0) + occ w s')%N
  end.

(* "pb://" k times: the family of the known finding oracle/furl-quadratic *)
Definition pb_repeat (k : nat) : list Z := List.concat (repeat ENC_PREFIX k).

(* compact observation codes for the correspondence check *)
Definition ep_code (r : res endpoint) : list (list Z) :=
  match r with
  | Ok (EpTcp h p) => [[1]; h; [p]]
  | Ok (EpTor h p) => [[2]; h; [p]]
  | Ok (EpI2p h (Some p)) => [[3]; h; [p]]
  | Ok (EpI2p h None) => [[3]; h; []]
  | Exc e => if String.eqb e "InvalidHintError" then [[0]] else if String.eqb e "ValueError" then [[-1]]
             else if String.eqb e "TypeError" then [[-3]] else if String.eqb e "KeyError" then [[-4]] else [[-2]]
  end.

Definition furl_code (r : res (str * list str * str)) : list (list Z) :=
  match r with
  | Ok (t, hs, n) => [1] :: t :: n :: hs
  | Exc e => if String.eqb e "BadFURLError" then [[0]] else if String.eqb e "ValueError" then [[-1]]
             else if String.eqb e "UnicodeDecodeError" then [[-3]] else [[-2]]
  end.
