(* C05: the byte-level receive loop (lib/IdentityBytes.v) feeds the table model (lib/Identity.v: step / run) and the key model
   (lib/IdentityKeys.v: kstep / krun).  The three models are separate; these lemmas are the joints: a key k that the
   receive loop of one transport hands to Tub.brokerAttached IS a `Negotiated` (resp. `KNegotiated`) event of the table models, with
   claimed id k and the decision taken -- so the table theorems speak about exactly the registrations the byte-level theorems
   allow. *)
From Coq Require Import ZArith List String Bool.
Import ListNotations.
Require Import Verif.lib.PyLite Verif.gen.NegotiateGen Verif.lib.Negotiate Verif.lib.NegBytes Verif.gen.IdentityGen
               Verif.lib.NegSplit Verif.lib.Identity Verif.lib.IdentityProofs Verif.lib.IdentityBytes Verif.lib.IdentityBytesProofs
               Verif.lib.IdentityKeys Verif.lib.IdentityKeysProofs.
Local Open Scope Z_scope.

Section Compose.
Variable cert : Type.
Variable tubid_of : cert -> list Z.
Variable decode : list Z -> option (list Z).
Variable D : Type.
Variable parse : list Z -> res D.
Variable has_error : D -> bool.
Variable claimed_of : D -> option (list Z).
Variable pre_chk post_chk decision_chk : D -> res unit.
Variable redirect : list Z -> bool.

Notation brecv_all := (brecv_all cert tubid_of decode D parse has_error claimed_of pre_chk post_chk decision_chk redirect).

(* what the byte-level theorems say about a registered key, in the vocabulary of the table models: the hello evaluation of this
   transport accepts the claim k, and the key computed by switchToBanana from it is k *)
Lemma attached_key_is_accepted_hello r my tgt p chunks k :
  In k (b_attached (brecv_all r my tgt p chunks)) ->
  exists m, handle_hello cert tubid_of r my tgt p (Some k) = Accept k m /\ attach_key (is_client r) tgt k = k.
Proof.
  intros Hin.
  assert (Hne : b_attached (brecv_all r my tgt p chunks) <> []) by (intros E; rewrite E in Hin; destruct Hin).
  apply bytes_attach_proven in Hin as (crt & Hl & Hk & Hc).
  apply bytes_no_attach_before_identity in Hne as (hdr & d & t0 & m & _ & _ & _ & Hh).
  pose proof (handle_hello_bound cert tubid_of _ _ _ _ _ _ _ Hh) as (crt' & Hl' & Hk' & Hcl & _).
  rewrite Hl in Hl'. injection Hl' as <-. rewrite Hk in Hk'. subst t0.
  exists m. split; [rewrite <- Hcl; exact Hh|]. apply attach_key_accepted, Hc.
Qed.

(* ... hence the registration is this step of the Tub.brokers model of lib/Identity.v (whatever the decision timing and whether an
   older connection was dropped first) *)
Theorem bytes_attach_is_table_step r my tgt p chunks k t dropped arrives :
  In k (b_attached (brecv_all r my tgt p chunks)) ->
  step cert tubid_of my t (Negotiated cert r tgt p (Some k) true dropped) =
    broker_attached cert k {| conn_cert := leaf p; conn_loop := false |} (if dropped then tbl_remove cert k t else t) /\
  (i_am_master my k = true ->
   step cert tubid_of my t (Negotiated cert r tgt p (Some k) arrives dropped) =
    broker_attached cert k {| conn_cert := leaf p; conn_loop := false |} (if dropped then tbl_remove cert k t else t)).
Proof.
  intros Hin. destruct (attached_key_is_accepted_hello r my tgt p chunks k Hin) as (m & Hh & Hk).
  cbn [step]. rewrite Hh, Hk, orb_true_r. split; [reflexivity|].
  intros Hm. apply handle_hello_bound in Hh. destruct Hh as (_ & _ & _ & _ & _ & _ & Hm'). rewrite Hm in Hm'. subst m. reflexivity.
Qed.

(* the entry that step makes for it is a justified one: the table theorems (C05_table_invariant, C05_getReference_proven) apply to it *)
Corollary bytes_attach_entry_justified r my tgt p chunks k :
  In k (b_attached (brecv_all r my tgt p chunks)) ->
  justified cert tubid_of my (k, {| conn_cert := leaf p; conn_loop := false |}).
Proof.
  intros Hin. apply bytes_attach_proven in Hin. exact (justified_transport cert tubid_of my r tgt p k Hin).
Qed.

(* ... and this step of the TubRef-keyed model of lib/IdentityKeys.v; `target` is the connector's TubRef (any hints), the byte loop
   ran with its tub id *)
Theorem bytes_attach_is_key_step r my (target : sref) p chunks k (t : ktable cert) :
  In k (b_attached (brecv_all r my (tub_of target) p chunks)) ->
  kstep cert tubid_of my t (KNegotiated cert r target p (Some k) true) =
    k_attached cert (if is_client r then target else tubref_of_id k) {| conn_cert := leaf p; conn_loop := false |} t /\
  (r = Client -> sr_tub target = Some k).
Proof.
  intros Hin. destruct (attached_key_is_accepted_hello r my (tub_of target) p chunks k Hin) as (m & Hh & Hk).
  split.
  - cbn [kstep]. rewrite Hh, orb_true_r. reflexivity.
  - intros ->. apply handle_hello_bound in Hh as (_ & _ & _ & _ & _ & Hne & _). exact (tub_of_some target k Hk Hne).
Qed.

End Compose.

(* non-vacuity: the hypothesis `In k (b_attached (brecv_all ..))` is satisfiable (any parser: here one that accepts every block as a
   hello claiming "bb", at the listener "zz" which decides), and the table step it yields stores the entry *)
Definition exc_tubid (c : Z) : list Z := if c =? 2 then [98; 98] else [].
Definition exc_get : list Z := [71; 69; 84; 32; 47; 105; 100; 47; 122; 122; 32; 72; 84; 84; 80; 47; 49; 46; 49; 13; 10; 85; 112; 103; 114; 97; 100; 101; 58; 32; 84; 76; 83; 47; 49; 46; 48; 13; 10; 13; 10].
Definition exc_recv := brecv_all Z exc_tubid (fun b => Some b) unit (fun _ => Ok tt) (fun _ => false) (fun _ => Some [98; 98])
                                 (fun _ => Ok tt) (fun _ => Ok tt) (fun _ => Ok tt) (fun _ => false).
Example exc_attached :
  In [98; 98] (b_attached (exc_recv Server [122; 122] [] {| leaf := Some 2; extras := [] |} [exc_get ++ [104; 13; 10; 13; 10]])) /\
  step Z exc_tubid [122; 122] [] (Negotiated Z Server [] {| leaf := Some 2; extras := [] |} (Some [98; 98]) true false) =
    [([98; 98], {| conn_cert := Some 2; conn_loop := false |})].
Proof. vm_compute. split; [left; reflexivity|reflexivity]. Qed.
