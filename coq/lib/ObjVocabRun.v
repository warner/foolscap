(* C01: "objects separated by table replacements are delivered".  ObjVocab.vocab_switch_in_band says what the object
   layer SEES (plain tokens with the set-vocab sequences in place); here Obj.step itself (the KVocab frame of
   ReplaceVocabUnslicer at top level, its INT / STRING children with the word limit, its CLOSE that hands the root nothing)
   runs over such a stream, and the two are composed: sender queue -> wire -> receiver's expansion -> object layer -> the
   graphs of the terms, numbered as the sender numbered them (a set-vocab sequence takes one OPEN number). *)
From Coq Require Import ZArith List String Bool Lia.
Import ListNotations.
Require Import Verif.lib.PyLite Verif.gen.BananaGen Verif.gen.SlicersGen Verif.lib.Token Verif.lib.TokenProofs
        Verif.lib.Obj Verif.lib.ObjProofs Verif.lib.ObjDefer Verif.lib.ObjGuard Verif.lib.ObjVocab.
Local Open Scope Z_scope.

(* what goes through one storage Banana / connection at top level: an object, or a table replacement *)
Inductive seg := SegObj (t : obj) | SegTable (tbl : vtable).

Fixpoint seg_items (n : Z) (l : list seg) : list item :=
  match l with
  | [] => []
  | SegObj t :: r => map ITok (slice n t) ++ seg_items (n + opens t) r
  | SegTable tbl :: r => ISetVocab n tbl :: seg_items (n + 1) r
  end.
Fixpoint seg_vals (n : Z) (l : list seg) : list value :=
  match l with [] => [] | SegObj t :: r => val_of n t :: seg_vals (n + opens t) r | SegTable _ :: r => seg_vals (n + 1) r end.
Fixpoint seg_heap (n : Z) (l : list seg) : heap :=
  match l with [] => [] | SegObj t :: r => heap_of n t ++ seg_heap (n + opens t) r | SegTable _ :: r => seg_heap (n + 1) r end.
Fixpoint seg_regs (n : Z) (l : list seg) : list Z :=
  match l with [] => [] | SegObj t :: r => regs_of n t ++ seg_regs (n + opens t) r | SegTable _ :: r => seg_regs (n + 1) r end.
Fixpoint seg_opens (l : list seg) : Z :=
  match l with [] => 0 | SegObj t :: r => opens t + seg_opens r | SegTable _ :: r => 1 + seg_opens r end.

(* the guard, threaded through the sequence: every object is inside the guard of the delivery theorems in the context the
   earlier ones left (visible numbers, pending table), every table word fits the receiver's limit, nothing pending at the end *)
Fixpoint wf_segs (sc : bool) (vis : list Z) (w : wtab) (n : Z) (l : list seg) : bool :=
  match l with
  | [] => match w with [] => true | _ => false end
  | SegObj t :: r =>
    match wf_wide sc vis [] n t, dsim [] w n t with
    | Some vis', Some (w', None) => wf_segs sc vis' w' (n + opens t) r
    | _, _ => false
    end
  | SegTable tbl :: r => forallb word_ok (map fst tbl) && wf_segs sc vis w (n + 1) r
  end.

Lemma plain_tokens_app a b : plain_tokens (a ++ b) = plain_tokens a ++ plain_tokens b.
Proof.
  induction a as [|[t|n tbl] a IH]; cbn [app plain_tokens]; [reflexivity|rewrite IH; reflexivity|rewrite IH, app_assoc; reflexivity].
Qed.
Lemma plain_tokens_toks ts : plain_tokens (map ITok ts) = ts.
Proof. induction ts as [|t r IH]; cbn [map plain_tokens]; [reflexivity|rewrite IH; reflexivity]. Qed.

Definition root_only (st : mstate) : Prop := exists f b, s_stack st = [f] /\ f_kind f = KRoot b.

Lemma root_only_adv st vs ids h k : root_only st -> root_only (adv st vs ids h k).
Proof.
  intros (f & b & S & K). unfold adv. cbn [s_stack]. rewrite S. cbn [reg_many map push_many].
  eexists; exists b. split; [reflexivity|]. cbn [set_items f_kind]. rewrite kind_reg1. exact K.
Qed.

(* the table body inside the KVocab frame: INT / STRING pairs are collected, CLOSE pops the frame and hands the parent nothing *)
Lemma run_table_body tbl : forallb word_ok (map fst tbl) = true -> forall n c items below cnt hp rest,
  even_len items = true ->
  run (table_tokens tbl ++ TClose n :: rest)
      {| s_stack := {| f_kind := KVocab; f_open := n; f_count := c; f_items := items; f_refs := [] |} :: below;
         s_inopen := None; s_counter := cnt; s_heap := hp |}
  = run rest {| s_stack := below; s_inopen := None; s_counter := cnt; s_heap := hp |}.
Proof.
  induction tbl as [|[s i] r IH]; intros WK n c items below cnt hp rest EV.
  - cbn [table_tokens app run]. unfold step. cbn [s_inopen s_stack f_open f_kind f_items s_counter s_heap].
    rewrite Z.eqb_refl, EV. reflexivity.
  - cbn [map fst forallb] in WK. apply andb_true_iff in WK as [W1 W2].
    cbn [table_tokens app run]. unfold step at 1. cbn [s_inopen s_stack recv f_kind]. unfold push_item. cbn [f_kind f_open f_count f_items f_refs].
    cbn [s_counter s_heap]. unfold step at 1. cbn [s_inopen s_stack recv f_kind]. rewrite W1. unfold push_item. cbn [f_kind f_open f_count f_items f_refs].
    cbn [s_counter s_heap]. apply (IH W2). exact EV.
Qed.

(* a whole set-vocab sequence at top level (the stack is the root alone): the state is unchanged but for the OPEN number it took *)
Lemma run_setvocab st n tbl rest : root_only st -> s_inopen st = None -> s_counter st = n ->
  forallb word_ok (map fst tbl) = true ->
  run (setvocab_tokens n tbl ++ rest) st = run rest (adv st [] [] [] 1).
Proof.
  intros (f & b & S & K) Hi Hc WK. unfold setvocab_tokens. change (strs ot_set_vocab) with [TString sv].
  cbn [app run]. rewrite (step_open _ _ Hi). unfold step at 1. cbn [s_inopen s_stack]. rewrite S. cbn [app].
  change (open_kind true [sv]) with (Some (Some KVocab)). cbn [kind_registers s_counter s_heap].
  rewrite <- app_assoc. cbn [app]. rewrite (run_table_body tbl WK); [|reflexivity].
  f_equal. unfold adv. rewrite reg_many_nil, S, Hc. cbn [push_many rev app]. f_equal. f_equal.
  - destruct f; reflexivity.
  - rewrite app_nil_r. reflexivity.
Qed.

Lemma seg_run : forall l sc vis w n st, wf_segs sc vis w n l = true -> okst sc vis [] n st -> root_only st ->
  run (plain_tokens (seg_items n l)) st = Some (adv st (seg_vals n l) (seg_regs n l) (seg_heap n l) (seg_opens l)).
Proof.
  induction l as [|[t|tbl] r IH]; intros sc vis w n st W O RO.
  - cbn [seg_items plain_tokens run seg_vals seg_regs seg_heap seg_opens]. rewrite (adv_id _ (ok_in _ _ _ _ _ O)). reflexivity.
  - cbn [wf_segs] in W. destruct (wf_wide sc vis [] n t) as [vis'|] eqn:W1; [|discriminate].
    destruct (dsim [] w n t) as [[w' [k|]]|]; try discriminate.
    cbn [seg_items]. rewrite plain_tokens_app, plain_tokens_toks, run_app.
    destruct (run_slice t false n sc vis [] vis' st W1 O) as [R Sub]. rewrite R.
    assert (O2 : okst sc vis' [] (n + opens t) (adv st [val_of n t] (regs_of n t) (heap_of n t) (opens t))).
    { apply okst_adv with (vis := vis); [exact O|exact Sub]. }
    rewrite (IH sc vis' w' _ _ W O2 (root_only_adv _ _ _ _ _ RO)), adv_adv. reflexivity.
  - cbn [wf_segs] in W. apply andb_true_iff in W as [WK W].
    cbn [seg_items plain_tokens].
    rewrite (run_setvocab st n tbl _ RO (ok_in _ _ _ _ _ O) (ok_cnt _ _ _ _ _ O) WK).
    assert (O2 : okst sc vis [] (n + 1) (adv st [] [] [] 1)).
    { apply okst_adv with (vis := vis); [exact O|intros j Hj; left; exact Hj]. }
    rewrite (IH sc vis w _ _ W O2 (root_only_adv _ _ _ _ _ RO)), adv_adv. reflexivity.
Qed.

(* the object layer over a stream of objects and table replacements: every object is rebuilt, numbered like the sender's *)
Theorem segs_unslice scoped n l : wf_segs scoped [] [] n l = true ->
  unslice scoped n (plain_tokens (seg_items n l)) = Some (seg_heap n l, seg_vals n l).
Proof.
  intros W. apply unslice_of_run with (ids := seg_regs n l) (k := seg_opens l).
  apply (seg_run l scoped [] [] n (init scoped n) W (okst_init scoped n)).
  eexists; exists scoped. split; reflexivity.
Qed.

(* COMPOSED with the in-band switch: the sender's queue of objects and table replacements, abbreviated with the table in force
   at each point, read by a receiver that expands VOCAB tokens and replaces its table in band, is delivered as the graphs of
   the terms.  Hypotheses: distinct indices in every table, no object sequence is itself OPEN "set-vocab" (items_ok), every
   table word within the receiver's limit and every object inside the guard (wf_segs). *)
Theorem vocab_switch_objects_delivered scoped n l cur fuel :
  NoDup (map snd cur) -> tables_nodup (seg_items n l) -> items_ok (seg_items n l) = true -> wf_segs scoped [] [] n l = true ->
  (List.length (sender_wire cur (seg_items n l)) <= fuel)%nat ->
  exists toks, receiver_view fuel cur (sender_wire cur (seg_items n l)) = Some toks /\
               unslice scoped n toks = Some (seg_heap n l, seg_vals n l).
Proof.
  intros ND TN OK W L. exists (plain_tokens (seg_items n l)). split; [|apply segs_unslice; exact W].
  apply vocab_switch_in_band; try assumption.
  clear - W. revert n W. generalize (@nil Z) as vis, (@nil (Z * list Z)) as w. induction l as [|[t|tbl] r IH]; intros vis w n W; [reflexivity| |].
  - cbn [wf_segs] in W. destruct (wf_wide scoped vis [] n t) as [vis'|]; [|discriminate].
    destruct (dsim [] w n t) as [[w' [k|]]|]; try discriminate. cbn [seg_items].
    assert (A : forall a b, tables_words_ok (map ITok a ++ b) = tables_words_ok b) by (induction a as [|x a IHa]; intros b; [reflexivity|apply IHa]).
    rewrite A. apply (IH _ _ _ W).
  - cbn [wf_segs] in W. apply andb_true_iff in W as [WK W]. cbn [seg_items tables_words_ok]. rewrite WK. apply (IH _ _ _ W).
Qed.

(* non-vacuity: s = [1, "x"]; [s, (s,)] ; table [list, x] ; {"a": L} with L a fresh list [(2,)] and a reference back to s (number 0: the storage root is
   one scope) ; table [dict] ; a deferred tuple *)
Example ex_segs :
  let l := [SegObj (OList [OList [OInt 1; OText [120]]; OTuple [ORef 1]]);
            SegTable [([108; 105; 115; 116], 0); ([120], 1)];
            SegObj (ODict [(OText [97], OList [OTuple [OInt 2]; ORef 1])]);
            SegTable [([100; 105; 99; 116], 0)];
            SegObj (OTuple [OList [OTuple [ORef 12]]])] in
  let cur := [([116; 117; 112; 108; 101], 0)] in
  wf_segs true [] [] 0 l = true /\ items_ok (seg_items 0 l) = true /\
  Nat.leb (List.length (sender_wire cur (seg_items 0 l))) 200 = true /\
  match receiver_view 200 cur (sender_wire cur (seg_items 0 l)) with
  | Some toks => unslice true 0 toks = Some (seg_heap 0 l, seg_vals 0 l) /\ dunslice true 0 toks = Some (seg_heap 0 l, seg_vals 0 l)
  | None => False
  end.
Proof. vm_compute. repeat split; reflexivity. Qed.
