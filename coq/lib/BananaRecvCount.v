(* Object numbering of the receiver: every OPEN token consumes one number, whether the object it opens is
   built, rejected by a taster, or dropped because an enclosing object is being discarded.  The sender numbers
   every OPEN it emits (Token/Obj models; `sendOpen` shape fact in gen/BananaGen.v), and `reference` sequences
   quote those numbers: if discarded OPENs were not counted, every reference after a violation would resolve
   to the wrong container. *)
From Coq Require Import ZArith List Bool Lia.
Import ListNotations.
Require Import Verif.lib.PyLite Verif.gen.BananaGen Verif.lib.Token Verif.lib.Recv Verif.lib.BananaRecv Verif.lib.BananaRecvProofs.
Local Open Scope Z_scope.

Definition is_open (ty : Z) : Z := if ty =? tok_OPEN then 1 else 0.

(* every token: the counter advances by one exactly for OPEN, and the number given to that OPEN is the old counter
   value -- whatever the verdict on the token *)
Theorem tok_apply_objctr c ty hdr body c' es : tok_apply c ty hdr body = Ok' c' es ->
  objctr c' = objctr c + is_open ty /\ (ty = tok_OPEN -> inbObj c' = objctr c).
Proof.
  intros E. destruct (tok_apply_moves _ _ _ _ _ _ E) as (_ & (_ & _ & O & B) & _). rewrite O, B. unfold opened, is_open.
  destruct (Z.eqb_spec ty tok_OPEN); [split; reflexivity|split; [lia|contradiction]].
Qed.

Fixpoint count_opens (ts : list (Z * Z * list Z)) : Z :=
  match ts with [] => 0 | (ty, _, _) :: r => is_open ty + count_opens r end.

(* after any token sequence that does not end the connection, the counter has advanced by the number of OPEN tokens in it *)
Theorem apply_all_objctr ts : forall c c' es, apply_all c ts = Ok' c' es -> objctr c' = objctr c + count_opens ts.
Proof.
  induction ts as [|[[ty hdr] body] ts IH]; intros c c' es E; cbn [apply_all count_opens] in *.
  - inversion E; subst. lia.
  - destruct (tok_apply c ty hdr body) as [c1 es1|] eqn:E1; [|discriminate].
    destruct (apply_all c1 ts) as [c2 es2|] eqn:E2; [|discriminate]. inversion E; subst.
    destruct (tok_apply_objctr _ _ _ _ _ _ E1) as (H1 & _). rewrite (IH _ _ _ E2). lia.
Qed.

(* the OPEN token that follows `pre` is given the number (objects counted at the start) + (OPENs in pre): discarded and
   rejected OPENs of `pre` count like accepted ones *)
Theorem open_number_counts_every_open pre hdr : forall c c1 es1 c2 es2,
  apply_all c pre = Ok' c1 es1 -> tok_apply c1 tok_OPEN hdr [] = Ok' c2 es2 ->
  inbObj c2 = objctr c + count_opens pre.
Proof.
  intros c c1 es1 c2 es2 E1 E2.
  destruct (tok_apply_objctr _ _ _ _ _ _ E2) as (_ & H). rewrite (H eq_refl). apply (apply_all_objctr _ _ _ _ E1).
Qed.
