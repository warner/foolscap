(* C16: proofs about the Tub and all its Reconnectors (lib/ReconnectorTub.v + the translated m_tub_* methods).
   The Tub sees a Reconnector through three things only: whether it has a Tub, whether it was stopped, and how often
   an event makes it call _removeReconnector (step_facts).  Each Tub-level event is described once by what it does to
   every Reconnector, to the list and to the queue; the invariant TInv, the refinement of each Reconnector's history and
   the silence after shut-down are read off those descriptions. *)
From Coq Require Import QArith List Bool Arith Lia.
Import ListNotations.
Require Import Verif.lib.ReconnectorBase Verif.gen.ReconnectorGen Verif.lib.Reconnector Verif.lib.ReconnectorProofs
               Verif.lib.ReconnectorTub.

Lemma upd_length : forall A (l : list A) i x, List.length (upd i x l) = List.length l.
Proof. unfold upd. induction l as [|y r IH]; intros [|i] x; cbn; auto. Qed.

Lemma nth_upd : forall A (l : list A) i j x d, (i < List.length l)%nat ->
  nth j (upd i x l) d = if Nat.eqb j i then x else nth j l d.
Proof.
  unfold upd. induction l as [|y r IH]; intros [|i] [|j] x d H; cbn in *; try lia; auto. apply IH. lia.
Qed.

Lemma memb_In : forall i l, memb i l = true <-> In i l.
Proof.
  unfold memb. intros i l. rewrite existsb_exists. split.
  - intros [x [H1 H2]]. apply Nat.eqb_eq in H2. subst. exact H1.
  - intros H. exists i. split; [exact H | apply Nat.eqb_refl].
Qed.

Lemma remove_first_In : forall i l j, NoDup l -> (In j (remove_first i l) <-> In j l /\ j <> i).
Proof.
  induction l as [|y r IH]; intros j ND; cbn [remove_first In]; [tauto|].
  inversion ND as [|? ? Hy ND']; subst. destruct (Nat.eqb_spec y i) as [->|E].
  - intuition congruence.
  - cbn [In]. rewrite IH by assumption. intuition congruence.
Qed.

Lemma remove_first_NoDup : forall i l, NoDup l -> NoDup (remove_first i l).
Proof.
  induction l as [|y r IH]; intros ND; cbn [remove_first]; [constructor|].
  inversion ND as [|? ? Hy ND']; subst. destruct (Nat.eqb y i); [exact ND'|].
  constructor; [|apply IH; exact ND']. intros H. apply remove_first_In in H; [|exact ND']. tauto.
Qed.

Lemma removed_In : forall (b : bool) i l j, NoDup l ->
  In j (if b && memb i l then remove_first i l else l) <-> In j l /\ (j = i -> b = false).
Proof.
  intros b i l j ND. destruct (b && memb i l) eqn:Q.
  - apply andb_true_iff in Q. destruct Q as [-> _]. rewrite remove_first_In by exact ND. intuition congruence.
  - split; [intros H; split; [exact H | intros ->] | tauto]. apply memb_In in H. rewrite H, andb_true_r in Q. exact Q.
Qed.

Lemma removed_NoDup : forall (b : bool) i l, NoDup l -> NoDup (if b then remove_first i l else l).
Proof. intros [|] i l ND; [apply remove_first_NoDup|]; exact ND. Qed.

Lemma nth_app_new : forall A (l : list A) x d i,
  nth i (l ++ [x]) d = if Nat.eqb i (List.length l) then x else nth i l d.
Proof.
  intros A l x d i. destruct (Nat.eqb i (List.length l)) eqn:E.
  - apply Nat.eqb_eq in E. subst. rewrite app_nth2 by lia. rewrite Nat.sub_diag. reflexivity.
  - apply Nat.eqb_neq in E. destruct (Nat.lt_ge_cases i (List.length l)) as [H|H].
    + apply app_nth1. exact H.
    + rewrite app_nth2 by exact H. rewrite (nth_overflow l) by exact H.
      destruct (i - List.length l)%nat as [|[|k]] eqn:F; try reflexivity. lia.
Qed.

Lemma nth_app_default : forall A (l : list A) d i, nth i (l ++ [d]) d = nth i l d.
Proof.
  intros A l d i. rewrite nth_app_new. destruct (Nat.eqb i (List.length l)) eqn:E; [|reflexivity].
  apply Nat.eqb_eq in E. subst. symmetry. apply nth_overflow. lia.
Qed.

Lemma upd_app_last : forall A (l : list A) x y, upd (List.length l) y (l ++ [x]) = l ++ [y].
Proof. unfold upd. induction l as [|z r IH]; intros x y; cbn; [reflexivity | now rewrite IH]. Qed.

Definition count_rm (o : list out) : nat := List.length (filter is_remove o).
Definition nrem (s : st) (e : event) : nat :=
  match e with
  | Start => if stopped s then 1 else 0
  | Stop => if tub s then 1 else 0
  | AttemptOk u => if active s && tub s then count_stop u else 0
  | _ => 0
  end%nat.

Lemma count_rm_app : forall a b, count_rm (a ++ b) = (count_rm a + count_rm b)%nat.
Proof. intros. unfold count_rm. rewrite filter_app, app_length. reflexivity. Qed.

Lemma has_stop_count : forall u, has_stop u = (0 <? count_stop u)%nat.
Proof. induction u as [|[|] u IH]; cbn; auto. Qed.

Lemma step_facts0 : forall s e, simple e ->
  tub (fst (step s e)) = is_start e || tub s /\
  stopped (fst (step s e)) = (match e with Stop => true | AttemptOk u => active s && has_stop u | _ => false end) || stopped s /\
  count_rm (snd (step s e)) = nrem s e.
Proof.
  intros [a sp t d tm i w l inf] e Hs.
  simple_event e Hs; [destruct sp | destruct a, t | destruct a | destruct a | | | destruct tm | destruct tm, t]; repeat split.
Qed.

Lemma uops_facts : forall u s,
  let r := run s (map uop_event u) in
  tub (fst r) = tub s /\ stopped (fst r) = has_stop u || stopped s /\
  count_rm (snd r) = (if tub s then count_stop u else 0)%nat.
Proof.
  induction u as [|o u IH]; intros s; cbv zeta; cbn [map].
  - cbn [run fst snd]. destruct (tub s); repeat split.
  - rewrite run_cons. cbn [fst snd].
    destruct (step_facts0 s (uop_event o)) as (A & B & C); [destruct o; exact I|].
    destruct (IH (fst (step s (uop_event o)))) as (D & E & F). rewrite count_rm_app, C, F, D, E, A, B.
    destruct o; cbn [uop_event nrem is_start has_stop count_stop orb]; destruct (tub s); rewrite ?orb_true_r; repeat split.
Qed.

Lemma step_facts : forall s e,
  tub (fst (step s e)) = is_start e || tub s /\
  stopped (fst (step s e)) = (match e with Stop => true | AttemptOk u => active s && has_stop u | _ => false end) || stopped s /\
  count_rm (snd (step s e)) = nrem s e.
Proof.
  intros s e. destruct e as [|u| | | | | |]; try (apply step_facts0; exact I).
  destruct (step_facts0 s (AttemptOk []) I) as (A & B & C). rewrite ok_reentrant. cbn [nrem is_start has_stop] in *.
  destruct (active s); cbn [andb orb] in *; [|exact (conj A (conj B C))].
  rewrite run_cons. cbn [fst snd]. destruct (uops_facts u (fst (step s (AttemptOk [])))) as (D & E & F).
  rewrite count_rm_app, C, F, D, E, A, B. destruct (tub s); repeat split.
Qed.

Lemma inv_active_tub : forall s, Inv s -> active s = true -> tub s = true /\ stopped s = false.
Proof. intros s (_ & Ha & _) H. destruct (Ha H) as (A & B & _). split; assumption. Qed.

Lemma init_facts : tub init_state = false /\ stopped init_state = false /\ forgotten init_state = false.
Proof. repeat split. Qed.

Definition nrc (t : tub_st) : nat := List.length (t_rcs t).

(* Tub._removeReconnector is list.remove; rm1 is one call of it from inside a Reconnector method, skipped when an
   exception is already propagating *)
Lemma rm_is_remove : forall t, fst (m_tub__removeReconnector t) = fst (t_remove t).
Proof.
  intros t. unfold m_tub__removeReconnector, tseq, tret. destruct (t_remove t) as [t1 o1]. destruct (t_exc t1); reflexivity.
Qed.

Definition rm1 (t : tub_st) : tub_st := if t_exc t then t else fst (t_remove t).

Lemma iter_succ_r : forall A (f : A -> A) n x, Nat.iter (S n) f x = Nat.iter n f (f x).
Proof. induction n as [|n IH]; intros x; [reflexivity|]. change (f (Nat.iter (S n) f x) = f (Nat.iter n f (f x))). now rewrite IH. Qed.

Lemma t_removes_iter : forall outs t, t_removes m_tub__removeReconnector outs t = Nat.iter (count_rm outs) rm1 t.
Proof.
  unfold t_removes, count_rm. induction outs as [|o r IH]; intros t; cbn [fold_left filter]; [reflexivity|].
  destruct (is_remove o); cbn [List.length]; rewrite IH; [|reflexivity].
  rewrite rm_is_remove. symmetry. apply iter_succ_r.
Qed.

Lemma iter_rm1_exc : forall n t, t_exc t = true -> Nat.iter n rm1 t = t.
Proof.
  induction n as [|n IH]; intros t H; [reflexivity|]. rewrite iter_succ_r.
  replace (rm1 t) with t by (unfold rm1; rewrite H; reflexivity). apply IH, H.
Qed.

Definition set_list_exc (l : option (list nat)) (x : bool) (t : tub_st) : tub_st :=
  mkTub (t_running t) (t_shut t) l (t_queue t) (t_rcs t) (t_cur t) x.

Lemma rm1_eq : forall t, t_exc t = false ->
  rm1 t = match t_list t with
          | Some l => if memb (t_cur t) l then set_list_exc (Some (remove_first (t_cur t) l)) false t
                      else set_list_exc (Some l) true t
          | None => set_list_exc None true t
          end.
Proof.
  intros t X. unfold rm1, t_remove, t_raise, set_list_exc. rewrite X.
  destruct (t_list t) as [l|] eqn:L; [destruct (memb (t_cur t) l)|]; cbn [fst]; rewrite ?X, ?L; reflexivity.
Qed.

(* the list has no duplicates, so a second _removeReconnector for the same Reconnector raises *)
Lemma iter_rm1 : forall n t, t_exc t = false -> (forall l, t_list t = Some l -> NoDup l) ->
  Nat.iter n rm1 t =
  set_list_exc (match t_list t with
                | Some l => Some (if (0 <? n)%nat && memb (t_cur t) l then remove_first (t_cur t) l else l)
                | None => None end)
               (match n with
                | O => false
                | S m => match t_list t with Some l => if memb (t_cur t) l then (0 <? m)%nat else true | None => true end
                end) t.
Proof.
  intros [|m] t X ND.
  - destruct t as [rn sh [l|] q rcs c x]; cbn in X; subst x; reflexivity.
  - rewrite iter_succ_r, (rm1_eq t X).
    destruct (t_list t) as [l|] eqn:L; [destruct (memb (t_cur t) l) eqn:M|]; try (apply iter_rm1_exc; reflexivity).
    destruct m as [|m]; [reflexivity|]. rewrite iter_succ_r, rm1_eq by reflexivity. cbn [set_list_exc t_list t_cur].
    destruct (memb (t_cur t) (remove_first (t_cur t) l)) eqn:F; [|apply iter_rm1_exc; reflexivity].
    apply memb_In, remove_first_In in F; [tauto | exact (ND l eq_refl)].
Qed.

(* rc.<method>() for the Reconnector the variable rc names *)
Lemma call_rc_spec : forall a t, (t_cur t < nrc t)%nat ->
  t_call_rc m_tub__removeReconnector a t =
  (Nat.iter (count_rm (snd (a (rc_at t (t_cur t))))) rm1 (t_set_rcs (upd (t_cur t) (fst (a (rc_at t (t_cur t)))) (t_rcs t)) t),
   map (pair (t_cur t)) (snd (a (rc_at t (t_cur t))))).
Proof.
  intros a t H. unfold t_call_rc, rc_at. rewrite (nth_indep (t_rcs t) blank init_state H).
  destruct (a (nth (t_cur t) (t_rcs t) init_state)) as [s' outs]. cbn [fst snd]. rewrite t_removes_iter. reflexivity.
Qed.

(* a conjunction, so that it depends on t only through the fields it mentions *)
Definition takes (t t' : tub_st) (o : list tout) (i : nat) (e : event) (q : list nat) : Prop :=
  (i < nrc t)%nat /\ enabled (rc_at t i) e = true /\
  (forall j, rc_at t' j = if Nat.eqb j i then fst (step (rc_at t i) e) else rc_at t j) /\
  nrc t' = nrc t /\ t_queue t' = q /\ t_running t' = t_running t /\ t_shut t' = t_shut t /\
  t_list t' = match t_list t with
              | Some l => Some (if (0 <? nrem (rc_at t i) e)%nat && memb i l then remove_first i l else l)
              | None => None end /\
  o = map (pair i) (snd (step (rc_at t i) e)).

Lemma call_result : forall t i e, t_exc t = false -> (i < nrc t)%nat -> (forall l, t_list t = Some l -> NoDup l) ->
  enabled (rc_at t i) e = true ->
  let c := t_call_rc m_tub__removeReconnector (fun s => step s e) (t_set_cur i t) in
  takes t (fst c) (snd c) i e (t_queue t) /\
  t_exc (fst c) = match nrem (rc_at t i) e with
                  | O => false
                  | S m => match t_list t with Some l => if memb i l then (0 <? m)%nat else true | None => true end
                  end.
Proof.
  intros t i e X B ND EN c. unfold c. rewrite call_rc_spec by exact B. cbn [fst snd t_set_cur t_cur].
  change (rc_at (t_set_cur i t)) with (rc_at t). destruct (step_facts (rc_at t i) e) as (_ & _ & C). rewrite C.
  rewrite (iter_rm1 _ (t_set_rcs _ (t_set_cur i t)) X ND).
  split; [|reflexivity]. split; [exact B|]. split; [exact EN|]. split; [|split; [apply upd_length | repeat split]].
  intros j. apply nth_upd. exact B.
Qed.

Ltac tfields := cbn [t_running t_shut t_list t_queue t_rcs t_cur t_exc fst snd].
Ltac tunfold := unfold tseq, tcond, tret, t_new, t_append, t_del_list, t_set_running, t_assert_running, t_forbid,
                       t_enqueue_start, t_for_copy, t_for_live, t_set_cur, t_set_rcs, t_raise.

Definition started : st := fst (m_startConnecting init_state).
Definition started_outs : list out := snd (m_startConnecting init_state).
Lemma start_init_facts : count_rm started_outs = 0%nat /\ tub started = true /\
  forgotten started = false /\ enabled init_state Start = true.
Proof. repeat split. Qed.

Lemma call_fresh : forall (a : act) s0 rn sh li q rcs, count_rm (snd (a s0)) = 0%nat ->
  t_call_rc m_tub__removeReconnector a (mkTub rn sh li q (rcs ++ [s0]) (List.length rcs) false) =
  (mkTub rn sh li q (rcs ++ [fst (a s0)]) (List.length rcs) false, map (pair (List.length rcs)) (snd (a s0))).
Proof.
  intros a s0 rn sh li q rcs C0. rewrite call_rc_spec by (unfold nrc; tfields; rewrite app_length; cbn; lia). tfields.
  unfold rc_at. tfields. rewrite nth_app_new, Nat.eqb_refl.
  rewrite C0. unfold t_set_rcs. tfields. rewrite upd_app_last. reflexivity.
Qed.

Lemma connectTo_spec : forall t l, t_exc t = false -> t_list t = Some l ->
  m_tub_connectTo t =
  (mkTub (t_running t) (t_shut t) (Some (l ++ [List.length (t_rcs t)])) (t_queue t)
         (t_rcs t ++ [if t_running t then started else init_state]) (List.length (t_rcs t)) false,
   if t_running t then map (pair (List.length (t_rcs t))) started_outs else []).
Proof.
  intros [rn sh li q rcs c x] l H L. cbn in H, L. subst x li.
  unfold m_tub_connectTo. tunfold. tfields.
  destruct rn; tfields; cbn [negb].
  - rewrite call_fresh by apply start_init_facts. tfields. fold started. fold started_outs.
    rewrite ?app_nil_r. reflexivity.
  - reflexivity.
Qed.

Lemma skipn_nth_error : forall A (l : list A) k x, nth_error l k = Some x -> skipn k l = x :: skipn (S k) l.
Proof.
  induction l as [|y r IH]; intros [|k] x H; cbn in *; try discriminate.
  - congruence.
  - apply IH in H. exact H.
Qed.

(* `for rc in self.reconnectors: eventual.eventually(rc.startConnecting, self)` of Tub.startService runs over the live
   list; its body leaves the list alone, so from index k on the loop appends the rest of the list to the queue.
   enq_body is all that the loop needs of its body. *)
Definition enq_body (body : tact) : Prop :=
  forall t, t_exc t = false ->
    body t = (mkTub (t_running t) (t_shut t) (t_list t) (t_queue t ++ [t_cur t]) (t_rcs t) (t_cur t) false, []).

Lemma live_enqueue : forall body, enq_body body -> forall fuel k t l,
  t_list t = Some l -> t_exc t = false -> (List.length l - k < fuel)%nat ->
  exists c', t_live fuel k body t =
             (mkTub (t_running t) (t_shut t) (Some l) (t_queue t ++ skipn k l) (t_rcs t) c' false, []).
Proof.
  intros body HB. induction fuel as [|f IH]; intros k t l L X F; [lia|].
  cbn [t_live]. rewrite L. destruct (nth_error l k) as [i|] eqn:N.
  - unfold t_set_cur. rewrite HB by exact X. tfields.
    assert (k < List.length l)%nat by (apply nth_error_Some; congruence).
    edestruct (IH (S k) (mkTub (t_running t) (t_shut t) (t_list t) (t_queue t ++ [i]) (t_rcs t) i false) l) as [c' E];
      [exact L | reflexivity | lia |].
    rewrite E. tfields. exists c'. rewrite (skipn_nth_error _ _ _ _ N), <- app_assoc. reflexivity.
  - exists (t_cur t). rewrite skipn_all2, app_nil_r by (apply nth_error_None, N). destruct t as [rn sh li q rcs c x]. cbn in *. subst. reflexivity.
Qed.

Lemma enq_body_gen : enq_body (tseq t_enqueue_start tret).
Proof. intros t X. tunfold. tfields. rewrite X. rewrite app_nil_r. reflexivity. Qed.

(* Tub.startService: every Reconnector of the list gets a queued startConnecting *)
Lemma startService_spec : forall t l, t_exc t = false -> t_list t = Some l ->
  exists c', m_tub_startService t = (mkTub true (t_shut t) (Some l) (t_queue t ++ l) (t_rcs t) c' false, []).
Proof.
  intros [rn sh li q rcs c x] l H L. cbn in H, L. subst x li.
  unfold m_tub_startService. unfold tseq at 1. unfold t_set_running at 1. tfields.
  unfold tseq at 1. unfold t_for_live. tfields.
  edestruct (live_enqueue _ enq_body_gen (S (List.length l)) 0 (mkTub true sh (Some l) q rcs c false) l) as [c' E];
    [reflexivity | reflexivity | lia |].
  rewrite E. tfields. unfold tret. exists c'. cbn [skipn]. reflexivity.
Qed.

(* Tub.stopService: every Reconnector of the list is told to stop, in list order; none of these calls raises, since
   each is for a Reconnector still on the list *)
Definition stop_body (body : tact) : Prop :=
  forall t, body t = t_call_rc m_tub__removeReconnector (fun s => step s Stop) t.

Lemma each_stop : forall body, stop_body body -> forall ids t lc,
  t_list t = Some lc -> t_exc t = false -> NoDup lc -> NoDup ids -> incl ids lc ->
  (forall i, In i ids -> (i < nrc t)%nat) ->
  let r := t_each ids body t in
  t_exc (fst r) = false /\ (exists lc', t_list (fst r) = Some lc') /\
  (forall j, rc_at (fst r) j = if memb j ids then fst (step (rc_at t j) Stop) else rc_at t j) /\
  nrc (fst r) = nrc t /\ t_queue (fst r) = t_queue t /\ t_running (fst r) = t_running t /\ t_shut (fst r) = t_shut t /\
  snd r = flat_map (fun i => map (pair i) (snd (step (rc_at t i) Stop))) ids.
Proof.
  intros body HB. induction ids as [|i r IH]; intros t lc L X NDl NDi INC BND; cbn [t_each].
  - repeat split; [exact X | exists lc; exact L].
  - rewrite HB. apply NoDup_cons_iff in NDi. destruct NDi as [Hi NDr].
    destruct (call_result t i Stop X (BND i (or_introl eq_refl))) as [(_ & _ & RC & N & Q & R & SH & L1 & O) X1];
      [intros l E; congruence | reflexivity |].
    destruct (t_call_rc m_tub__removeReconnector (fun s => step s Stop) (t_set_cur i t)) as [t1 o1]. cbn [fst snd nrem] in *.
    rewrite L in L1, X1.
    (* i is still on the list, and stopConnecting calls _removeReconnector at most once *)
    assert (X1' : t_exc t1 = false).
    { rewrite (proj2 (memb_In i lc) (INC i (or_introl eq_refl))) in X1. destruct (tub (rc_at t i)); exact X1. }
    rewrite X1'.
    destruct (IH t1 _ L1 X1' (removed_NoDup _ i lc NDl) NDr) as (X2 & L2 & RC2 & N2 & Q2 & R2 & SH2 & O2).
    { intros j Hj. apply removed_In; [exact NDl|]. split; [apply INC; right; exact Hj | intros ->; contradiction]. }
    { intros j Hj. rewrite N. apply BND. right. exact Hj. }
    destruct (t_each r body t1) as [t2 o2]. cbn [fst snd] in *.
    split; [exact X2|]. split; [exact L2|]. split; [|rewrite N2, Q2, R2, SH2; repeat split; try assumption].
    + intros j. rewrite RC2, RC. unfold memb. cbn [existsb]. fold (memb j r). destruct (Nat.eqb j i) eqn:E; [|reflexivity].
      apply Nat.eqb_eq in E. subst j. destruct (memb i r) eqn:M; [apply memb_In in M; contradiction | reflexivity].
    + rewrite O, O2. cbn [flat_map]. f_equal. rewrite !flat_map_concat_map. f_equal. apply map_ext_in.
      intros j Hj. rewrite RC. destruct (Nat.eqb j i) eqn:E; [apply Nat.eqb_eq in E; subst; contradiction | reflexivity].
Qed.

Lemma stop_body_gen : stop_body (tseq (t_call_rc m_tub__removeReconnector m_stopConnecting) tret).
Proof.
  intros t. unfold tseq, tret. change m_stopConnecting with (fun s => step s Stop).
  destruct (t_call_rc m_tub__removeReconnector (fun s => step s Stop) t) as [t1 o1].
  destruct (t_exc t1); rewrite ?app_nil_r; reflexivity.
Qed.

Lemma stopService_spec : forall t l, t_exc t = false -> t_list t = Some l -> t_running t = true -> NoDup l ->
  (forall i, In i l -> (i < nrc t)%nat) ->
  let r := m_tub_stopService t in
  (forall j, rc_at (fst r) j = if memb j l then fst (step (rc_at t j) Stop) else rc_at t j) /\
  nrc (fst r) = nrc t /\ t_queue (fst r) = t_queue t /\ t_running (fst r) = true /\ t_shut (fst r) = true /\
  t_list (fst r) = None /\ snd r = flat_map (fun i => map (pair i) (snd (step (rc_at t i) Stop))) l.
Proof.
  intros [rn sh li q rcs c x] l H L R ND BND r. cbn in H, L, R. subst x li rn.
  set (p := t_each l (tseq (t_call_rc m_tub__removeReconnector m_stopConnecting) tret) (mkTub true true (Some l) q rcs c false)).
  destruct (each_stop _ stop_body_gen l (mkTub true true (Some l) q rcs c false) l eq_refl eq_refl ND ND (incl_refl l) BND)
    as (X1 & [l' L1] & RC & N & Q & R & SH & O). fold p in X1, L1, RC, N, Q, R, SH, O.
  assert (E : r = (mkTub (t_running (fst p)) (t_shut (fst p)) None (t_queue (fst p)) (t_rcs (fst p)) (t_cur (fst p)) false, snd p)).
  { unfold r, m_tub_stopService. unfold tseq at 1. unfold t_assert_running at 1. tfields.
    unfold tseq at 1. unfold t_forbid at 1. tfields.
    unfold tseq at 1. unfold t_for_copy at 1. tfields. fold p.
    destruct p as [t1 o1]. cbn [fst snd] in *. rewrite X1.
    unfold tseq, t_del_list, tret. rewrite L1. tfields. rewrite X1, !app_nil_r. reflexivity. }
  rewrite E. exact (conj RC (conj N (conj Q (conj R (conj SH (conj eq_refl O)))))).
Qed.

(* The invariant of a Tub.  Two parts carry the theorems: a queued startConnecting is for a Reconnector that has no Tub
   yet (ti_queue), which is what makes the Start that TTurn delivers enabled (turn_result); and once stopService has
   deleted the list every Reconnector is stopped (None case of ListOK), from which the silence follows (shut_step). *)
Definition ListOK (t : tub_st) : Prop :=
  match t_list t with
  | Some l => t_shut t = false /\ NoDup l /\ (forall i, In i l <-> ((i < nrc t)%nat /\ forgotten (rc_at t i) = false))
  | None => t_shut t = true /\ forall i, (i < nrc t)%nat -> stopped (rc_at t i) = true
  end.

Record TInv (t : tub_st) : Prop := {
  ti_inv : forall i, Inv (rc_at t i);
  ti_list : ListOK t;
  ti_queue : NoDup (t_queue t) /\ forall i, In i (t_queue t) -> (i < nrc t)%nat /\ tub (rc_at t i) = false;
  ti_idle : t_running t = false -> t_queue t = [] /\ forall i, tub (rc_at t i) = false;
  ti_queued : t_running t = true -> t_shut t = false ->
              forall i, (i < nrc t)%nat -> tub (rc_at t i) = false -> In i (t_queue t)
}.

Lemma tinv_init : TInv tub_init.
Proof.
  constructor; cbn.
  - intros i. unfold rc_at. cbn. destruct i; apply inv_init.
  - split; [reflexivity|]. split; [constructor|]. intros i. unfold nrc. cbn. split; [tauto | intros [H _]; lia].
  - split; [constructor | tauto].
  - intros _. split; [reflexivity|]. intros i. unfold rc_at. cbn. destruct i; reflexivity.
  - discriminate.
Qed.

Lemma ti_open : forall t l, TInv t -> t_list t = Some l ->
  t_shut t = false /\ NoDup l /\ (forall i, In i l <-> ((i < nrc t)%nat /\ forgotten (rc_at t i) = false)).
Proof. intros t l TI L. pose proof (ti_list t TI) as X. unfold ListOK in X. rewrite L in X. exact X. Qed.

Lemma ti_closed : forall t, TInv t -> t_list t = None ->
  t_shut t = true /\ forall i, (i < nrc t)%nat -> stopped (rc_at t i) = true.
Proof. intros t TI L. pose proof (ti_list t TI) as X. unfold ListOK in X. rewrite L in X. exact X. Qed.

Lemma tinv_nodup : forall t, TInv t -> forall l, t_list t = Some l -> NoDup l.
Proof. intros t TI l L. apply (ti_open t l TI L). Qed.

Lemma list_some : forall t, TInv t -> t_shut t = false -> exists l, t_list t = Some l.
Proof.
  intros t TI S. destruct (t_list t) as [l|] eqn:L; [exists l; reflexivity|]. destruct (ti_closed t TI L). congruence.
Qed.

Lemma step_forgotten : forall s e, enabled s e = true ->
  forgotten (fst (step s e)) = forgotten s || (0 <? nrem s e)%nat.
Proof.
  intros s e EN. destruct (step_facts s e) as (A & B & _). unfold forgotten. rewrite A, B.
  destruct e as [|u|z| | | | |]; cbn [is_start nrem] in *; rewrite ?orb_false_r; try reflexivity.
  - apply negb_true_iff in EN. rewrite EN. destruct (stopped s); reflexivity.
  - rewrite has_stop_count. destruct (stopped s), (active s), (tub s), (count_stop u); reflexivity.
  - destruct (stopped s), (tub s); reflexivity.
Qed.

Lemma step_stopped_mono : forall s e, stopped s = true -> stopped (fst (step s e)) = true.
Proof. intros s e H. destruct (step_facts s e) as (_ & B & _). rewrite B, H. apply orb_true_r. Qed.

Lemma list_after_call : forall t t' o i e q, ListOK t -> takes t t' o i e q -> ListOK t'.
Proof.
  intros t t' o i e q LO (B & EN & RC & N & _ & _ & SH & L & _). unfold ListOK in *. rewrite L, N, SH.
  pose proof (step_forgotten (rc_at t i) e EN) as FG.
  destruct (t_list t) as [l|].
  - destruct LO as (S0 & ND & M). split; [exact S0|].
    split; [apply removed_NoDup, ND|].
    intros j. rewrite removed_In, M, RC by exact ND. destruct (Nat.eqb_spec j i) as [->|NE]; [|tauto].
    rewrite FG, orb_false_iff. tauto.
  - destruct LO as (S0 & ST). split; [exact S0|]. intros j Hj. rewrite RC.
    destruct (Nat.eqb j i) eqn:E; [|apply ST; exact Hj]. apply Nat.eqb_eq in E. subst j.
    apply step_stopped_mono. apply ST. exact Hj.
Qed.

Lemma tinv_takes : forall t t' o i e q, TInv t -> takes t t' o i e q ->
  (if is_start e then t_queue t = i :: q else q = t_queue t) -> TInv t'.
Proof.
  intros t t' o i e q TI TK HQ. pose proof TK as (B & EN & RC & N & Q & R & SH & _).
  destruct (ti_queue t TI) as [NDq Bq].
  assert (TUB : forall j, tub (rc_at t' j) = (Nat.eqb j i && is_start e) || tub (rc_at t j)).
  { intros j. rewrite RC. destruct (Nat.eqb j i) eqn:E; [|reflexivity]. apply Nat.eqb_eq in E. subst j.
    apply (step_facts (rc_at t i) e). }
  constructor.
  - intros j. rewrite RC. destruct (Nat.eqb j i); [apply inv_step; [|exact EN]|]; apply (ti_inv t TI).
  - apply (list_after_call t t' o i e q (ti_list t TI) TK).
  - rewrite Q, N. destruct (is_start e).
    + rewrite HQ in NDq, Bq. apply NoDup_cons_iff in NDq. destruct NDq as [NI NDq]. split; [exact NDq|].
      intros j Hj. rewrite TUB. destruct (Nat.eqb j i) eqn:E; [apply Nat.eqb_eq in E; subst; contradiction|].
      apply Bq. right. exact Hj.
    + subst q. split; [exact NDq|]. intros j Hj. rewrite TUB, andb_false_r. apply Bq, Hj.
  - rewrite R, Q. intros H. destruct (ti_idle t TI H) as [A Bi]. destruct (is_start e); [rewrite A in HQ; discriminate|].
    subst q. split; [exact A|]. intros j. rewrite TUB, andb_false_r. apply Bi.
  - rewrite R, SH, Q, N. intros H1 H2 j Hj HT. rewrite TUB in HT. apply orb_false_iff in HT. destruct HT as [HT1 HT2].
    pose proof (ti_queued t TI H1 H2 j Hj HT2) as X. destruct (is_start e).
    + rewrite HQ in X. destruct X as [X|X]; [|exact X]. subst j. rewrite Nat.eqb_refl in HT1. discriminate.
    + subst q. exact X.
Qed.

Lemma rc_result : forall t i e, TInv t -> tenabled t (TRc i e) = true ->
  is_start e = false /\ takes t (fst (tstep t (TRc i e))) (snd (tstep t (TRc i e))) i e (t_queue t).
Proof.
  intros t i e TI EN. cbn [tenabled] in EN. apply andb_true_iff in EN. destruct EN as [EN E3].
  apply andb_true_iff in EN. destruct EN as [E1 E2]. apply Nat.ltb_lt in E2. apply negb_true_iff in E1.
  split; [exact E1|]. exact (proj1 (call_result (clear_exc t) i e eq_refl E2 (tinv_nodup t TI) E3)).
Qed.

Lemma turn_result : forall t i q, TInv t -> t_queue t = i :: q ->
  takes t (fst (tstep t TTurn)) (snd (tstep t TTurn)) i Start q.
Proof.
  intros t i q TI Q. destruct (ti_queue t TI) as [_ B]. destruct (B i) as [B1 B2]; [rewrite Q; left; reflexivity|].
  pose proof (tinv_nodup t TI) as ND. destruct t as [rn sh li qu rcs c x]. cbn [t_queue] in Q. subst qu.
  refine (proj1 (call_result (mkTub rn sh li q rcs c false) i Start eq_refl B1 ND _)).
  cbn [enabled]. change (negb (tub (rc_at (mkTub rn sh li (i :: q) rcs c x) i)) = true). rewrite B2. reflexivity.
Qed.

Lemma connectTo_result : forall t, TInv t -> tenabled t TConnectTo = true ->
  exists l, t_list t = Some l /\
    let r := tstep t TConnectTo in
    (forall j, rc_at (fst r) j = if Nat.eqb j (nrc t) then (if t_running t then started else init_state) else rc_at t j) /\
    nrc (fst r) = S (nrc t) /\ t_queue (fst r) = t_queue t /\ t_running (fst r) = t_running t /\ t_shut (fst r) = t_shut t /\
    t_list (fst r) = Some (l ++ [nrc t]) /\ snd r = if t_running t then map (pair (nrc t)) started_outs else [].
Proof.
  intros t TI EN. cbn [tenabled] in EN. apply negb_true_iff in EN. destruct (list_some t TI EN) as [l L].
  exists l. split; [exact L|]. cbn [tstep]. rewrite (connectTo_spec (clear_exc t) l eq_refl L). cbn [fst snd].
  split; [intros j; apply nth_app_new|]. unfold nrc. cbn [t_rcs clear_exc]. rewrite app_length, Nat.add_1_r. repeat split.
Qed.

Lemma tinv_connectTo : forall t, TInv t -> tenabled t TConnectTo = true -> TInv (fst (tstep t TConnectTo)).
Proof.
  intros t TI EN. destruct (connectTo_result t TI EN) as (l & L & RC & N & Q & R & SH & L' & _).
  set (t' := fst (tstep t TConnectTo)) in *. set (n := nrc t) in *.
  destruct (ti_open t l TI L) as (S0 & ND & M).
  destruct start_init_facts as (_ & F1 & F2 & _).
  assert (Hn : forall j, In j l -> (j < n)%nat) by (intros j Hj; apply M in Hj; apply Hj).
  constructor; unfold ListOK; rewrite ?L', ?N, ?Q, ?R, ?SH.
  - intros j. rewrite RC. destruct (Nat.eqb j n); [|apply (ti_inv t TI)].
    destruct (t_running t); [exact (inv_step init_state Start inv_init eq_refl) | apply inv_init].
  - split; [exact S0|]. split.
    + apply (NoDup_Add (Add_app n l [])). rewrite app_nil_r. split; [exact ND | intros H; apply Hn in H; lia].
    + intros j. rewrite in_app_iff, RC. cbn [In]. destruct (Nat.eqb j n) eqn:E.
      * apply Nat.eqb_eq in E. subst j. split; [intros _; split; [lia|] | intros _; right; left; reflexivity].
        destruct (t_running t); [exact F2 | reflexivity].
      * apply Nat.eqb_neq in E. rewrite M. fold n. intuition lia.
  - destruct (ti_queue t TI) as [A B]. split; [exact A|]. intros j Hj. destruct (B j Hj) as [B1 B2]. fold n in B1.
    rewrite RC. destruct (Nat.eqb j n) eqn:E; [apply Nat.eqb_eq in E; lia|]. split; [lia | exact B2].
  - intros H. destruct (ti_idle t TI H) as [A B]. split; [exact A|]. intros j. rewrite RC.
    destruct (Nat.eqb j n); [|apply B]. rewrite H. reflexivity.
  - intros H1 H2 j Hj HT. rewrite RC in HT. destruct (Nat.eqb j n) eqn:E.
    + rewrite H1 in HT. destruct (eq_true_false_abs _ F1 HT).
    + apply Nat.eqb_neq in E. apply (ti_queued t TI H1 H2 j); [fold n; lia | exact HT].
Qed.

Lemma startService_result : forall t, TInv t -> tenabled t TStartService = true ->
  exists l, t_list t = Some l /\ t_queue t = [] /\
    let r := tstep t TStartService in
    (forall j, rc_at (fst r) j = rc_at t j) /\ nrc (fst r) = nrc t /\ t_queue (fst r) = l /\ t_running (fst r) = true /\
    t_shut (fst r) = t_shut t /\ t_list (fst r) = Some l /\ snd r = [].
Proof.
  intros t TI EN. cbn [tenabled] in EN. apply andb_true_iff in EN. destruct EN as [E1 E2].
  apply negb_true_iff in E1. apply negb_true_iff in E2. destruct (list_some t TI E2) as [l L].
  destruct (ti_idle t TI E1) as [Q0 _]. exists l. split; [exact L|]. split; [exact Q0|].
  cbn [tstep]. destruct (startService_spec (clear_exc t) l eq_refl L) as [c' E]. rewrite E.
  cbn [clear_exc t_queue]. rewrite Q0. repeat split.
Qed.

Lemma tinv_startService : forall t, TInv t -> tenabled t TStartService = true -> TInv (fst (tstep t TStartService)).
Proof.
  intros t TI EN. destruct (startService_result t TI EN) as (l & L & Q0 & RC & N & Q & R & SH & L' & _).
  set (t' := fst (tstep t TStartService)) in *.
  destruct (ti_open t l TI L) as (S0 & ND & M).
  assert (TF : forall j, tub (rc_at t j) = false).
  { destruct (t_running t) eqn:E; [|apply (ti_idle t TI E)]. cbn [tenabled] in EN. rewrite E in EN. discriminate. }
  constructor; unfold ListOK; rewrite ?L', ?N, ?Q, ?R, ?SH.
  - intros j. rewrite RC. apply (ti_inv t TI).
  - split; [exact S0|]. split; [exact ND|]. intros j. rewrite RC. apply M.
  - split; [exact ND|]. intros j Hj. rewrite RC. split; [apply M, Hj | apply TF].
  - discriminate.
  - intros _ _ j Hj HT. apply M. split; [exact Hj|]. unfold forgotten. rewrite TF. apply andb_false_r.
Qed.

Lemma stopService_result : forall t, TInv t -> tenabled t TStopService = true ->
  exists l, t_list t = Some l /\ NoDup l /\
    let r := tstep t TStopService in
    (forall j, rc_at (fst r) j = if memb j l then fst (step (rc_at t j) Stop) else rc_at t j) /\
    nrc (fst r) = nrc t /\ t_queue (fst r) = t_queue t /\ t_running (fst r) = true /\ t_shut (fst r) = true /\
    t_list (fst r) = None /\ snd r = flat_map (fun i => map (pair i) (snd (step (rc_at t i) Stop))) l.
Proof.
  intros t TI EN. cbn [tenabled] in EN. apply andb_true_iff in EN. destruct EN as [E1 E2]. apply negb_true_iff in E2.
  destruct (list_some t TI E2) as [l L]. destruct (ti_open t l TI L) as (_ & ND & M). exists l. split; [exact L|]. split; [exact ND|].
  apply (stopService_spec (clear_exc t) l eq_refl L E1 ND). intros i Hi. apply M, Hi.
Qed.

Lemma tinv_stopService : forall t, TInv t -> tenabled t TStopService = true -> TInv (fst (tstep t TStopService)).
Proof.
  intros t TI EN. destruct (stopService_result t TI EN) as (l & L & ND & RC & N & Q & R & SH & LN & _).
  set (t' := fst (tstep t TStopService)) in *.
  destruct (ti_open t l TI L) as (_ & _ & M).
  assert (RCT : forall j, tub (rc_at t' j) = tub (rc_at t j)).
  { intros j. rewrite RC. destruct (memb j l); [|reflexivity]. apply (step_facts (rc_at t j) Stop). }
  constructor; unfold ListOK; rewrite ?N, ?Q, ?R, ?SH, ?LN.
  - intros j. rewrite RC. destruct (memb j l); [|apply (ti_inv t TI)]. apply inv_step; [apply (ti_inv t TI) | reflexivity].
  - split; [reflexivity|]. intros j Hj. rewrite RC. destruct (memb j l) eqn:Mj; [apply (step_facts (rc_at t j) Stop)|].
    destruct (forgotten (rc_at t j)) eqn:F.
    + unfold forgotten in F. apply andb_true_iff in F. apply F.
    + assert (In j l) by (apply M; split; assumption). apply memb_In in H. congruence.
  - destruct (ti_queue t TI) as [A B]. split; [exact A|]. intros j Hj. rewrite RCT. apply B, Hj.
  - discriminate.
  - discriminate.
Qed.

Lemma tinv_step : forall t e, TInv t -> tenabled t e = true -> TInv (fst (tstep t e)).
Proof.
  intros t [| | | |i e] TI EN; [apply tinv_connectTo | apply tinv_startService | apply tinv_stopService | |]; try assumption.
  - cbn [tenabled] in EN. destruct (t_queue t) as [|i q] eqn:Q; [discriminate|].
    apply (tinv_takes t _ _ i Start q TI (turn_result t i q TI Q)). exact Q.
  - destruct (rc_result t i e TI EN) as [S TK]. apply (tinv_takes t _ _ i e _ TI TK). rewrite S. reflexivity.
Qed.

Lemma trun_cons : forall t e r,
  trun t (e :: r) = (fst (trun (fst (tstep t e)) r), snd (tstep t e) ++ snd (trun (fst (tstep t e)) r)).
Proof. intros. cbn [trun]. destruct (tstep t e) as [t1 o1]. cbn [fst snd]. destruct (trun t1 r). reflexivity. Qed.

Lemma trun_snoc : forall a t e, fst (trun t (a ++ [e])) = fst (tstep (fst (trun t a)) e).
Proof. induction a as [|x a IH]; intros t e; cbn [app]; rewrite !trun_cons; cbn [fst]; [reflexivity | apply IH]. Qed.

Lemma tpermitted_app : forall a b t, tpermitted t (a ++ b) <-> tpermitted t a /\ tpermitted (fst (trun t a)) b.
Proof.
  induction a as [|e a IH]; intros b t; cbn [app tpermitted]; [cbn [trun fst]; tauto|].
  rewrite trun_cons, IH. cbn [fst]. tauto.
Qed.

Lemma tpermittedb_ok : forall h t, tpermittedb t h = true -> tpermitted t h.
Proof.
  induction h as [|e r IH]; intros t H; cbn [tpermitted tpermittedb] in *; [exact I|].
  apply andb_true_iff in H. destruct H as [H1 H2]. split; [exact H1 | apply IH, H2].
Qed.

Section TRunInvariant.
  Context (P : tub_st -> Prop) (O : tout -> Prop).
  Hypothesis step_inv : forall t e, TInv t -> P t -> tenabled t e = true -> P (fst (tstep t e)) /\ Forall O (snd (tstep t e)).

  Lemma trun_invariant : forall h t, TInv t -> P t -> tpermitted t h ->
    TInv (fst (trun t h)) /\ P (fst (trun t h)) /\ Forall O (snd (trun t h)).
  Proof.
    induction h as [|e r IH]; intros t TI HP HH; [split; [exact TI | split; [exact HP | constructor]]|].
    destruct HH as [He HH]. rewrite trun_cons. cbn [fst snd]. rewrite Forall_app.
    destruct (step_inv t e TI HP He) as [H1 H2]. destruct (IH _ (tinv_step t e TI He) H1 HH) as (A & B & C). auto.
  Qed.
End TRunInvariant.

Lemma tinv_run : forall h t, TInv t -> tpermitted t h -> TInv (fst (trun t h)).
Proof.
  intros h t TI HP. apply (trun_invariant (fun _ => True) (fun _ => True)); [|exact TI | exact I | exact HP].
  intros; split; [exact I | apply Forall_True].
Qed.

(* [proj j] and [tagged j] are both [sel j], at events and at outputs *)
Definition sel {A} (j : nat) (l : list (nat * A)) : list A := map snd (filter (fun p => Nat.eqb (fst p) j) l).

Lemma sel_app : forall A j (a b : list (nat * A)), sel j (a ++ b) = sel j a ++ sel j b.
Proof. intros. unfold sel. rewrite filter_app, map_app. reflexivity. Qed.

Lemma sel_map_pair : forall A j i (o : list A), sel j (map (pair i) o) = if Nat.eqb j i then o else [].
Proof.
  intros A j i o. unfold sel. rewrite (Nat.eqb_sym j i). destruct (Nat.eqb i j) eqn:E;
    induction o as [|x r IH]; cbn [map filter fst]; rewrite ?E; cbn [map snd]; congruence.
Qed.

Lemma sel_flat_map : forall A j l (f : nat -> list A), NoDup l ->
  sel j (flat_map (fun i => map (pair i) (f i)) l) = if memb j l then f j else [].
Proof.
  induction l as [|i r IH]; intros f ND; [reflexivity|]. inversion ND; subst.
  cbn [flat_map]. rewrite sel_app, sel_map_pair, IH by assumption. unfold memb. cbn [existsb]. fold (memb j r).
  destruct (Nat.eqb j i) eqn:E; cbn [orb app]; [|reflexivity].
  apply Nat.eqb_eq in E. subst. destruct (memb i r) eqn:M; [apply memb_In in M; contradiction | apply app_nil_r].
Qed.

Lemma map_tag : forall A (e : A) (l : list nat), map (fun i => (i, e)) l = flat_map (fun i => map (pair i) [e]) l.
Proof. induction l as [|i r IH]; [reflexivity|]. cbn [flat_map]. rewrite <- IH. reflexivity. Qed.

Lemma rc_at_overflow : forall t j, (nrc t <= j)%nat -> rc_at t j = init_state.
Proof. intros. unfold rc_at. apply nth_overflow. assumption. Qed.

Definition refines1 (t : tub_st) (e : tevent) (j : nat) : Prop :=
  permitted (rc_at t j) (proj j (tevents t e)) /\
  rc_at (fst (tstep t e)) j = fst (run (rc_at t j) (proj j (tevents t e))) /\
  tagged j (snd (tstep t e)) = snd (run (rc_at t j) (proj j (tevents t e))).

Lemma refines_one : forall s e, enabled s e = true ->
  permitted s [e] /\ fst (step s e) = fst (run s [e]) /\ snd (step s e) = snd (run s [e]).
Proof.
  intros s e EN. cbn [run permitted]. destruct (step s e). cbn [fst snd]. rewrite app_nil_r. repeat split. exact EN.
Qed.

Lemma refines_takes : forall t ev j i e q, tevents t ev = [(i, e)] ->
  takes t (fst (tstep t ev)) (snd (tstep t ev)) i e q -> refines1 t ev j.
Proof.
  intros t ev j i e q TE (_ & EN & RC & _ & _ & _ & _ & _ & O). unfold refines1.
  rewrite TE, O, RC. change (proj j [(i, e)]) with (sel j (map (pair i) [e])). change tagged with (@sel out).
  rewrite !sel_map_pair. destruct (Nat.eqb_spec j i) as [->|_]; [apply refines_one, EN | repeat split].
Qed.

Lemma tstep_refines : forall t e j, TInv t -> tenabled t e = true -> refines1 t e j.
Proof.
  intros t e j TI EN. destruct e as [| | | |i e].
  - destruct (connectTo_result t TI EN) as (l & _ & RC & _ & _ & _ & _ & _ & O). unfold refines1. rewrite RC, O.
    cbn [tevents]. fold (nrc t). change proj with (@sel event). change tagged with (@sel out).
    assert (E : Nat.eqb j (nrc t) = true -> rc_at t j = init_state)
      by (intros E; apply Nat.eqb_eq in E; subst j; apply rc_at_overflow; lia).
    destruct (t_running t).
    + change [(nrc t, Start)] with (map (pair (nrc t)) [Start]). rewrite !sel_map_pair.
      destruct (Nat.eqb j (nrc t)); [rewrite E by reflexivity; apply refines_one, start_init_facts | repeat split].
    + destruct (Nat.eqb j (nrc t)); [rewrite E by reflexivity|]; repeat split.
  - destruct (startService_result t TI EN) as (l & _ & _ & RC & _ & _ & _ & _ & _ & O). unfold refines1. rewrite RC, O.
    repeat split.
  - destruct (stopService_result t TI EN) as (l & L & ND & RC & _ & _ & _ & _ & _ & O). unfold refines1.
    cbn [tevents]. rewrite L, O, RC, map_tag. change proj with (@sel event). change tagged with (@sel out).
    rewrite !sel_flat_map by exact ND. destruct (memb j l); [apply refines_one; reflexivity | repeat split].
  - cbn [tenabled] in EN. destruct (t_queue t) as [|i q] eqn:Q; [discriminate|].
    apply (refines_takes t TTurn j i Start q); [cbn [tevents]; rewrite Q; reflexivity | exact (turn_result t i q TI Q)].
  - apply (refines_takes t (TRc i e) j i e (t_queue t)); [reflexivity | apply (rc_result t i e TI EN)].
Qed.

Theorem tub_refines_gen : forall h t j, TInv t -> tpermitted t h ->
  permitted (rc_at t j) (proj j (thistory t h)) /\
  rc_at (fst (trun t h)) j = fst (run (rc_at t j) (proj j (thistory t h))) /\
  tagged j (snd (trun t h)) = snd (run (rc_at t j) (proj j (thistory t h))).
Proof.
  induction h as [|e r IH]; intros t j TI HP; [repeat split|].
  destruct HP as [He HP]. destruct (tstep_refines t e j TI He) as (P1 & S1 & O1).
  destruct (IH _ j (tinv_step t e TI He) HP) as (P2 & S2 & O2). rewrite S1 in P2, S2, O2.
  cbn [thistory]. change proj with (@sel event) in *. change tagged with (@sel out) in *.
  rewrite trun_cons, sel_app, run_app. cbn [fst snd]. rewrite sel_app, O1, O2, S2.
  split; [apply permitted_app; split; assumption | split; reflexivity].
Qed.

(* what every Reconnector of a Tub sees is a history that lib/Reconnector.v permits: in particular the Tub
   calls startConnecting at most once per Reconnector, and only on one that has no Tub yet *)
Theorem tub_refines : forall h j, tpermitted tub_init h ->
  permitted init_state (proj j (thistory tub_init h)) /\
  rc_at (fst (trun tub_init h)) j = fst (run init_state (proj j (thistory tub_init h))) /\
  tagged j (snd (trun tub_init h)) = snd (run init_state (proj j (thistory tub_init h))).
Proof.
  intros h j HP. destruct (tub_refines_gen h tub_init j tinv_init HP) as (A & B & C).
  assert (E : rc_at tub_init j = init_state) by (unfold rc_at; cbn; destruct j; reflexivity).
  rewrite E in A, B, C. repeat split; assumption.
Qed.

(* hence every theorem about one Reconnector holds for every Reconnector of every Tub: the invariant *)
Theorem tub_one_activity : forall h j, tpermitted tub_init h ->
  let s := rc_at (fst (trun tub_init h)) j in
  leaked s = 0%nat /\
  (active s = true -> (inflight s + watching s + timer_count s = 1)%nat /\ info_agrees s) /\
  (active s = false -> timer s = None) /\
  (active s = true <-> (tub s = true /\ stopped s = false)).
Proof.
  intros h j HP. destruct (tub_refines h j HP) as (A & B & _). cbv zeta. rewrite B.
  pose proof (one_activity _ A) as (X & Y & Z). pose proof (active_iff_started_not_stopped _ A) as W.
  split; [exact X | split; [exact Y | split; [exact Z | exact W]]].
Qed.

(* stopConnecting of one Reconnector inside a Tub: silent for ever after, whatever the Tub and the other
   Reconnectors do *)
Lemma rc_silent_once_stopped : forall h t j, TInv t -> stopped (rc_at t j) = true -> tpermitted t h ->
  Forall (fun o => silent o = true) (tagged j (snd (trun t h))) /\
  active (rc_at (fst (trun t h)) j) = false /\ timer (rc_at (fst (trun t h)) j) = None.
Proof.
  intros h t j TI HS HP. destruct (tub_refines_gen h t j TI HP) as (P & S & O). rewrite S, O.
  destruct (stopped_run _ _ (inv_stopped _ (ti_inv t TI j) HS) P) as ((_ & H2 & H3) & H4). repeat split; assumption.
Qed.

Theorem tub_rc_silent_after_stop : forall h1 h2 j,
  tpermitted tub_init (h1 ++ TRc j Stop :: h2) ->
  let t1 := fst (trun tub_init (h1 ++ [TRc j Stop])) in
  Forall (fun o => silent o = true) (tagged j (snd (trun t1 h2))) /\
  active (rc_at (fst (trun t1 h2)) j) = false /\ timer (rc_at (fst (trun t1 h2)) j) = None.
Proof.
  intros h1 h2 j HP t1.
  replace (h1 ++ TRc j Stop :: h2) with ((h1 ++ [TRc j Stop]) ++ h2) in HP by (rewrite <- app_assoc; reflexivity).
  apply tpermitted_app in HP. destruct HP as [HP1 HP2].
  apply rc_silent_once_stopped; [exact (tinv_run _ _ tinv_init HP1) | | exact HP2].
  apply tpermitted_app in HP1. destruct HP1 as [HPa [He _]].
  destruct (rc_result _ j Stop (tinv_run _ _ tinv_init HPa) He) as [_ (_ & _ & RC & _)].
  unfold t1. rewrite trun_snoc, RC, Nat.eqb_refl. apply (step_facts _ Stop).
Qed.

Lemma Forall_tagged_map : forall i o, Forall (fun x => silent x = true) o -> Forall (fun p : tout => silent (snd p) = true) (map (pair i) o).
Proof. intros i o H. induction H; cbn [map]; constructor; assumption. Qed.

Lemma shut_takes : forall t t' o i e q, TInv t -> t_list t = None -> takes t t' o i e q ->
  t_list t' = None /\ Forall (fun p : tout => silent (snd p) = true) o.
Proof.
  intros t t' o i e q TI LN (B & EN & _ & _ & _ & _ & _ & L & O).
  destruct (ti_closed t TI LN) as [_ ST]. rewrite LN in L.
  split; [exact L|]. rewrite O. apply Forall_tagged_map.
  apply stopped_step; [apply inv_stopped; [apply (ti_inv t TI) | apply ST, B] | exact EN].
Qed.

Lemma shut_step : forall t e, TInv t -> t_list t = None -> tenabled t e = true ->
  t_list (fst (tstep t e)) = None /\ Forall (fun p : tout => silent (snd p) = true) (snd (tstep t e)).
Proof.
  intros t e TI LN EN. destruct (ti_closed t TI LN) as [SH _].
  destruct e as [| | | |i e]; try (cbn [tenabled] in EN; rewrite SH, ?andb_false_r in EN; discriminate EN).
  - cbn [tenabled] in EN. destruct (t_queue t) as [|i q] eqn:Q; [discriminate|].
    exact (shut_takes t _ _ i Start q TI LN (turn_result t i q TI Q)).
  - exact (shut_takes t _ _ i e _ TI LN (proj2 (rc_result t i e TI EN))).
Qed.

Lemma shut_inactive : forall t j, TInv t -> t_list t = None ->
  active (rc_at t j) = false /\ timer (rc_at t j) = None.
Proof.
  intros t j TI LN. destruct (ti_closed t TI LN) as [_ ST].
  destruct (Nat.lt_ge_cases j (nrc t)) as [H|H].
  - apply (inv_stopped _ (ti_inv t TI j) (ST j H)).
  - rewrite rc_at_overflow by exact H. split; reflexivity.
Qed.

(* Tub.stopService: every Reconnector the Tub ever created is told to stop, and none of them acts again *)
Theorem tub_silent_after_stopService : forall h1 h2,
  tpermitted tub_init (h1 ++ TStopService :: h2) ->
  let r := trun (fst (trun tub_init h1)) (TStopService :: h2) in
  Forall (fun p : tout => silent (snd p) = true) (snd r) /\
  (forall j, active (rc_at (fst r) j) = false /\ timer (rc_at (fst r) j) = None) /\
  t_list (fst r) = None.
Proof.
  intros h1 h2 HP r. apply tpermitted_app in HP. destruct HP as [HP1 [He HP2]].
  pose proof (tinv_run _ _ tinv_init HP1) as TI0. set (t0 := fst (trun tub_init h1)) in *.
  destruct (stopService_result t0 TI0 He) as (l & _ & _ & _ & _ & _ & _ & _ & LN & O).
  destruct (trun_invariant _ _ shut_step h2 _ (tinv_step t0 TStopService TI0 He) LN HP2) as (TI2 & LN2 & S2).
  subst r. rewrite trun_cons. cbn [fst snd]. rewrite Forall_app, O.
  split; [split; [|exact S2] | split; [intros j; apply shut_inactive; assumption | exact LN2]].
  apply Forall_flat_map, Forall_forall. intros i _. apply Forall_tagged_map, stop_stops.
Qed.

(* the Tub's list: exactly the Reconnectors it has not been told to forget, each once; on a running Tub every
   Reconnector either has been started or has its startConnecting queued ("startService starts the queued ones") *)
Theorem tub_membership : forall h, tpermitted tub_init h ->
  let t := fst (trun tub_init h) in
  match t_list t with
  | Some l => t_shut t = false /\ NoDup l /\
              forall i, In i l <-> ((i < List.length (t_rcs t))%nat /\ (stopped (rc_at t i) && tub (rc_at t i)) = false)
  | None => t_shut t = true
  end /\
  (t_running t = true -> t_shut t = false -> forall i, (i < List.length (t_rcs t))%nat ->
     tub (rc_at t i) = true \/ In i (t_queue t)) /\
  (t_running t = false -> forall i, tub (rc_at t i) = false).
Proof.
  intros h HP t. pose proof (tinv_run _ _ tinv_init HP) as TI. fold t in TI. split; [|split].
  - pose proof (ti_list t TI) as LO. unfold ListOK in LO. destruct (t_list t); [exact LO | apply LO].
  - intros H1 H2 i Hi. destruct (tub (rc_at t i)) eqn:E; [left; reflexivity | right; apply (ti_queued t TI H1 H2 i Hi E)].
  - intros H. apply (ti_idle t TI H).
Qed.

(* non-vacuity, and the histories on which Tub._removeReconnector raises (replayed on the real Tub by the
   correspondence: every observation carries "raised") *)
Definition ex_h : list tevent :=
  [TConnectTo; TRc 0 Stop; TConnectTo; TStartService; TTurn; TTurn; TRc 1 (AttemptOk [UReset]); TConnectTo;
   TRc 2 (AttemptFail (1 # 2)); TRc 1 Lost; TStopService; TRc 2 Reset].
Example ex_tub_permitted : tpermitted tub_init ex_h.
Proof. apply tpermittedb_ok. vm_compute. reflexivity. Qed.
Example ex_tub_polite_no_exception : raised tub_init ex_h = map (fun _ => false) ex_h.
Proof. vm_compute. reflexivity. Qed.
(* a second stopConnecting raises ValueError (list.remove); after Tub.stopService it raises AttributeError; a
   stopService in the turn of startService makes the queued startConnecting raise -- in every case AFTER the
   Reconnector has been silenced *)
Example ex_second_stop_raises :
  tpermitted tub_init [TStartService; TConnectTo; TRc 0 Stop; TRc 0 Stop] /\
  raised tub_init [TStartService; TConnectTo; TRc 0 Stop; TRc 0 Stop] = [false; false; false; true].
Proof. split; [apply tpermittedb_ok; vm_compute; reflexivity | vm_compute; reflexivity]. Qed.
Example ex_stop_after_tub_stop_raises :
  tpermitted tub_init [TStartService; TConnectTo; TStopService; TRc 0 Stop] /\
  raised tub_init [TStartService; TConnectTo; TStopService; TRc 0 Stop] = [false; false; false; true].
Proof. split; [apply tpermittedb_ok; vm_compute; reflexivity | vm_compute; reflexivity]. Qed.
Example ex_stop_in_the_turn_of_start_raises :
  tpermitted tub_init [TConnectTo; TStartService; TStopService; TTurn] /\
  raised tub_init [TConnectTo; TStartService; TStopService; TTurn] = [false; false; false; true].
Proof. split; [apply tpermittedb_ok; vm_compute; reflexivity | vm_compute; reflexivity]. Qed.
