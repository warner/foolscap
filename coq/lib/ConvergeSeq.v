(* C14: connection sequence numbers and incarnations, for all schedules of lib/Converge.v -- what the offers in flight
   can say about the master's current connection.  Main result: established_not_displaced. *)
From Coq Require Import ZArith List Bool Arith Lia.
Import ListNotations.
Require Import Verif.lib.PyLite Verif.gen.ConvergeGen Verif.lib.Converge Verif.lib.ConvergeProofs Verif.lib.ConvergeHist
  Verif.lib.ConvergeAttempts.
Local Open Scope Z_scope.

(* Clause (6) is what established_not_displaced uses: while S's end of the master's current connection is healthy, every offer
   in flight that names this master incarnation is strictly older than that connection.  It survives a dial, whose hello
   copies S's record, because that record is strictly older while S's end still negotiates (7: the top seqnum is in the
   decision S has not taken yet), and once S's end is a live Broker S has no connector to dial with (ConvergeAttempts.xinv).
   The other clauses bound by master_table every seqnum that names the master's current incarnation. *)
Definition yinv (s : state) : Prop :=
  (1 <= t_inc (tm s) /\ 0 <= t_master (tm s) /\ t_bseq (tm s) = t_master (tm s)) /\
  (forall c i last, In (Hello i last) (c_qsm (conns s c)) -> i = t_inc (ts s)) /\
  (forall lir lseq, t_slave (ts s) = Some (lir, lseq) -> 1 <= lir <= t_inc (tm s) /\ (lir = t_inc (tm s) -> lseq <= t_master (tm s))) /\
  (forall c i lir lseq, In (Hello i (Some (lir, lseq))) (c_qsm (conns s c)) ->
     (lir = IR_NONE \/ 1 <= lir <= t_inc (tm s)) /\ (lir = t_inc (tm s) -> lseq <= t_master (tm s))) /\
  (forall c2 i q, In (Decision i q) (c_qms (conns s c2)) ->
     i = t_inc (tm s) /\ q <= t_master (tm s) /\ (q = t_master (tm s) -> forall c, t_broker (tm s) = Some c -> c = c2)) /\
  (forall c, t_broker (tm s) = Some c -> healthy (c_s (conns s c)) = true ->
     forall c' i lseq, In (Hello i (Some (t_inc (tm s), lseq))) (c_qsm (conns s c')) -> lseq < t_master (tm s)) /\
  (forall c, t_broker (tm s) = Some c -> negotiating (c_s (conns s c)) = true ->
     forall lseq, t_slave (ts s) = Some (t_inc (tm s), lseq) -> lseq < t_master (tm s)) /\
  (forall c, t_broker (tm s) = Some c -> c_s (conns s c) <> ELost -> t_bir (tm s) = Some (t_inc (ts s))).

Lemma yinv_frame s s' : frame s s' -> yinv s -> yinv s'.
Proof.
  intros (_ & T & C) (Y1 & Y2 & Y3 & Y4 & Y5 & Y6 & Y7 & Y8).
  destruct (T TM) as (Cm & F2 & _), (T TS) as (Cs & _ & _). cbn [tubof] in *.
  destruct (core_eq _ _ Cm) as (E1 & E2 & E3 & E4 & _), (core_eq _ _ Cs) as (G1 & _ & _ & _ & G5).
  assert (Hh : forall c i l, In (Hello i l) (c_qsm (conns s' c)) -> In (Hello i l) (c_qsm (conns s c)))
    by (intros c i l; apply (C c); reflexivity).
  assert (Hd : forall c i q, In (Decision i q) (c_qms (conns s' c)) -> In (Decision i q) (c_qms (conns s c)))
    by (intros c i q; apply (C c); reflexivity).
  assert (He : forall c, end_le (c_s (conns s' c)) (c_s (conns s c))) by (intros c; destruct (C c) as (_ & _ & E & _); exact (E TS)).
  unfold yinv. rewrite E1, E2, E3, E4, G1, G5.
  split; [exact Y1|]. split; [intros c i l H; apply (Y2 c i l), Hh, H|]. split; [exact Y3|].
  split; [intros c i lir lseq H; apply (Y4 c i), Hh, H|].
  split.
  { intros c2 i q H. apply Hd in H. destruct (Y5 c2 i q H) as (A & B & K). split; [exact A|]. split; [exact B|].
    intros Eq c Eb. destruct F2 as [F2|F2]; [congruence|]. apply K; [exact Eq|congruence]. }
  split.
  { intros c Eb Hc c' i lseq H. destruct F2 as [F2|F2]; [congruence|]. rewrite F2 in Eb.
    eapply (Y6 c Eb); [apply (He c), Hc|apply Hh, H]. }
  split.
  { intros c Eb Hn lseq. destruct F2 as [F2|F2]; [congruence|]. rewrite F2 in Eb. apply (Y7 c Eb). apply (He c), Hn. }
  intros c Eb Hl. destruct F2 as [F2|F2]; [congruence|]. rewrite F2 in Eb. apply (Y8 c Eb). apply (He c), Hl.
Qed.

Lemma step_pos : 0 < seqnum_step.
Proof. unfold seqnum_step. lia. Qed.

(* the master accepts the offer on c; it has no current connection at that moment; the offer's incarnation is S's *)
Lemma yinv_master_accept c inc s :
  yinv s -> inc = t_inc (ts s) -> yinv (master_accept c inc s).
Proof.
  intros (Y1 & Y2 & Y3 & Y4 & Y5 & Y6 & Y7 & Y8) Einc. pose proof step_pos as SP. unfold master_accept.
  match goal with |- yinv (attach TM c ?s2') => set (s2 := s2') end.
  destruct (attach_spec TM c s2) as (_ & A3 & Ac & A2 & _ & A4 & _). cbv zeta in *. cbn [tubof] in *.
  set (m' := t_master (tm s) + seqnum_step) in *.
  destruct (core_eq _ _ Ac) as (B1 & B2 & B3 & B4 & _).
  change (t_inc (tm s2)) with (t_inc (tm s)) in B1. change (t_master (tm s2)) with m' in B2. change (t_bseq (tm s2)) with m' in B3.
  change (t_bir (tm s2)) with (Some inc) in B4. change (ts s2) with (ts s) in A3.
  destruct (accept_conn (Decision (t_inc (tm s)) m') (conns s c)) as (_ & _ & _ & _ & Kq & Kd). cbv zeta in Kq, Kd.
  assert (Hq : forall j i l, In (Hello i l) (c_qsm (conns (attach TM c s2) j)) -> In (Hello i l) (c_qsm (conns s j))).
  { intros j i l H. apply (A4 j) in H; [|reflexivity]. revert H. cbn [s2 set_tub set_conns conns]. unfold upd.
    destruct (Nat.eqb_spec j c); [subst j; rewrite Kq|]; auto. }
  assert (Hd : forall j i q, In (Decision i q) (c_qms (conns (attach TM c s2) j)) ->
                 In (Decision i q) (c_qms (conns s j)) \/ (j = c /\ i = t_inc (tm s) /\ q = m')).
  { intros j i q H. apply (A4 j) in H; [|reflexivity]. revert H. cbn [s2 set_tub set_conns conns]. unfold upd.
    destruct (Nat.eqb_spec j c); [subst j|auto]. intros H. apply Kd in H as [H|H]; [left; exact H|right]. inversion H. auto. }
  unfold yinv. rewrite B1, B2, B3, B4, A3, A2.
  split; [fold m'; lia|]. split; [intros j i l H; apply Hq in H; apply (Y2 j i l H)|].
  split; [intros lir lseq H; destruct (Y3 lir lseq H) as [H0 H1]; split; [assumption|intros E; fold m'; specialize (H1 E); lia]|].
  split; [intros j i lir lseq H; apply Hq in H; destruct (Y4 j i lir lseq H) as [H0 H1]; split; [exact H0|intros E; specialize (H1 E); lia]|].
  split.
  { intros j i q H. apply Hd in H. destruct H as [H|(-> & -> & ->)].
    - destruct (Y5 j i q H) as (P1 & P2 & _). split; [exact P1|]. split; [lia|]. intros E. lia.
    - split; [reflexivity|]. split; [lia|]. intros _ c0 E0. inversion E0. reflexivity. }
  split; [intros c0 _ _ c' i lseq H; apply Hq in H; destruct (Y4 c' i _ lseq H) as [_ H1]; specialize (H1 eq_refl); lia|].
  split; [intros c0 _ _ lseq H; destruct (Y3 _ lseq H) as [_ P]; specialize (P eq_refl); lia|].
  intros c0 _ _. rewrite Einc. reflexivity.
Qed.

Lemma yinv_slave_accept c inc seq rest s s1 :
  yinv s -> c_qms (conns s c) = Decision inc seq :: rest -> c_s (conns s c) = EDec ->
  frame s s1 -> tm s1 = tm s -> conns s1 c = conns s c ->
  yinv (attach TS c (set_tub TS (set_slave (Some (inc, seq)) (ts s1))
                       (set_conns (upd (conns s1) c (set_end TS EBrk (pop_ms (conns s1 c)))) s1))).
Proof.
  intros HY Eq Es F Etm Ec.
  match goal with |- yinv (attach TS c ?s2') => set (s2 := s2') end.
  destruct (attach_spec TS c s2) as (_ & A3 & Ac & _ & _ & A4 & _). cbv zeta in *. cbn [tubof] in *.
  destruct (core_eq _ _ Ac) as (B1 & _ & _ & _ & B5). destruct F as (_ & T & D4).
  destruct (core_eq _ _ (proj1 (T TS))) as (G1 & _). cbn [tubof] in G1.
  change (tm s2) with (tm s1) in A3. change (t_inc (ts s2)) with (t_inc (ts s1)) in B1.
  change (t_slave (ts s2)) with (Some (inc, seq)) in B5.
  (* per-connection relation between the final state and s *)
  assert (R : forall j,
     (healthy (c_s (conns (attach TS c s2) j)) = true -> healthy (c_s (conns s j)) = true) /\
     (negotiating (c_s (conns (attach TS c s2) j)) = true -> negotiating (c_s (conns s j)) = true /\ j <> c) /\
     (c_s (conns (attach TS c s2) j) <> ELost -> c_s (conns s j) <> ELost) /\
     (forall i l, In (Hello i l) (c_qsm (conns (attach TS c s2) j)) -> In (Hello i l) (c_qsm (conns s j))) /\
     (forall i q, In (Decision i q) (c_qms (conns (attach TS c s2) j)) -> In (Decision i q) (c_qms (conns s j)))).
  { intros j. destruct (A4 j) as (_ & _ & Pe & Pd & Ph), (D4 j) as (_ & _ & Qe & Qd & Qh).
    destruct (Pe TS) as (P2 & P1 & P3), (Qe TS) as (Q2 & Q1 & Q3). cbn [cend] in P1, P2, P3, Q1, Q2, Q3.
    cbn [s2 set_tub set_conns conns] in P1, P2, P3, Pd, Ph. unfold upd in P1, P2, P3, Pd, Ph.
    destruct (Nat.eqb_spec j c) as [Ejc|Hne]; [rewrite Ejc in *; clear Ejc|].
    - rewrite Es. split; [reflexivity|]. split; [intros H; apply P2 in H; discriminate H|]. split; [discriminate|]. split.
      + intros i l H. apply Qh; [reflexivity|]. apply Ph; [reflexivity|exact H].
      + intros i q H. apply Qd; [reflexivity|]. apply Pd in H; [|reflexivity]. apply in_tl. exact H.
    - split; [auto|]. split; [auto|]. split; [auto|].
      split; [intros i l H; apply Qh; [reflexivity|]; apply Ph; [reflexivity|exact H]|].
      intros i q H. apply Qd; [reflexivity|]. apply Pd; [reflexivity|exact H]. }
  destruct HY as (Y1 & Y2 & Y3 & Y4 & Y5 & Y6 & Y7 & Y8).
  assert (Hdec : In (Decision inc seq) (c_qms (conns s c))) by (rewrite Eq; left; reflexivity).
  destruct (Y5 c inc seq Hdec) as (Ci & Cq & Cb).
  unfold yinv. rewrite A3, Etm, B1, G1, B5.
  split; [exact Y1|]. split; [intros j i l H; apply (R j) in H; apply (Y2 j i l H)|].
  split; [intros lir lseq H; inversion H; subst lir lseq; split; [lia|intros _; exact Cq]|].
  split; [intros j i lir lseq H; apply (R j) in H; apply (Y4 j i lir lseq H)|].
  split; [intros j i q H; apply (R j) in H; apply (Y5 j i q H)|].
  split; [intros c0 E0 Hh c' i lseq H; apply (R c') in H; eapply (Y6 c0 E0); [apply (R c0), Hh|exact H]|].
  split.
  { intros c0 E0 Hn lseq H. inversion H; subst lseq. apply (R c0) in Hn as [_ Hne].
    destruct (Z.eq_dec seq (t_master (tm s))) as [E|E]; [|lia]. exfalso. apply Hne. apply (Cb E c0 E0). }
  intros c0 E0 Hl. apply (Y8 c0 E0). apply (R c0), Hl.
Qed.

(* one more hint is dialled *)
Lemma yinv_dial x s : inv s -> xinv s -> yinv s -> yinv (do_dial x s).
Proof.
  intros HI (X1 & _ & _) HY. unfold do_dial. destruct (t_connector (tubof x s)) as [g|] eqn:Ec; [|exact HY].
  destruct HY as (Y1 & Y2 & Y3 & Y4 & Y5 & Y6 & Y7 & Y8).
  assert (Hold : forall c0, t_broker (tm s) = Some c0 -> upd (conns s) (nconn s)
            (mkconn x g ENeg ENeg [Hello (t_inc (tm s)) None]
               [Hello (t_inc (ts s)) match x with TS => Some match t_slave (ts s) with Some r => r | None => (IR_NONE, 0) end | TM => None end] false) c0
            = conns s c0).
  { intros c0 E0. apply upd_other. apply (proj2 (proj2 HI TM)) in E0. lia. }
  unfold yinv. cbn [tm ts conns].
  split; [exact Y1|]. split.
  { intros c i l. unfold upd. destruct (Nat.eqb c (nconn s)); [|apply Y2]. cbn [c_qsm]. intros [H|[]]. inversion H. reflexivity. }
  split; [exact Y3|]. split.
  { intros c i lir lseq. unfold upd. destruct (Nat.eqb c (nconn s)); [|apply Y4]. cbn [c_qsm]. intros H. destruct H as [H|[]]. inversion H as [[Hi Hl]].
    destruct x; [discriminate|]. inversion Hl as [Hr]. destruct (t_slave (ts s)) as [[a b]|] eqn:Esl.
    - inversion Hr; subst a b. destruct (Y3 lir lseq eq_refl) as [H0 H1]. split; [right; exact H0|exact H1].
    - inversion Hr as [[Ha Hb]]. split; [left; reflexivity|]. intros E. unfold IR_NONE in E. lia. }
  split.
  { intros c2 i q. unfold upd. destruct (Nat.eqb c2 (nconn s)); [|apply Y5]. cbn [c_qms]. intros [H|[]]. discriminate H. }
  split.
  { intros c0 E0 Hh c' i lseq. rewrite (Hold c0 E0) in Hh. unfold upd. destruct (Nat.eqb c' (nconn s)); [|apply (Y6 c0 E0 Hh)].
    cbn [c_qsm]. intros [H|[]]. inversion H as [[Hi Hl]]. destruct x; [discriminate|]. inversion Hl as [Hr].
    destruct (t_slave (ts s)) as [[a b]|] eqn:Esl; [|inversion Hr as [[Ha Hb]]; unfold IR_NONE in Ha; lia].
    inversion Hr; subst a b.
    destruct (negotiating (c_s (conns s c0))) eqn:Hn; [apply (Y7 c0 E0 Hn lseq eq_refl)|]. exfalso.
    (* S's end of the master's current connection is a live Broker: then S has no connector and cannot dial *)
    assert (Es : c_s (conns s c0) = EBrk) by (destruct (c_s (conns s c0)); try discriminate; reflexivity).
    apply (inv_live s TS c0 HI) in Es. specialize (X1 TS). cbn [tubof] in *. rewrite Ec in X1.
    rewrite X1 in Es; [discriminate|discriminate]. }
  split.
  { intros c0 E0 Hn. rewrite (Hold c0 E0) in Hn. apply (Y7 c0 E0 Hn). }
  intros c0 E0 Hl. rewrite (Hold c0 E0) in Hl. apply (Y8 c0 E0 Hl).
Qed.

Lemma yinv_restart x s : yinv s -> yinv (do_restart x s).
Proof.
  intros (Y1 & Y2 & Y3 & Y4 & Y5 & Y6 & Y7 & Y8). unfold do_restart.
  assert (Eq1 : forall t c, c_qsm (conns (set_tub x t (map_conns (kill x) s)) c) = []) by (intros t c; destruct x; reflexivity).
  assert (Eq2 : forall t c, c_qms (conns (set_tub x t (map_conns (kill x) s)) c) = []) by (intros t c; destruct x; reflexivity).
  unfold yinv.
  split; [destruct x; cbn [set_tub map_conns set_conns tubof tm ts new_tub t_inc t_master t_bseq]; [lia|exact Y1]|].
  split; [intros c i l Hin; rewrite Eq1 in Hin; destruct Hin|].
  split.
  { destruct x; cbn [set_tub map_conns set_conns tubof tm ts new_tub t_inc t_master t_slave]; [|intros ? ? Hd; discriminate Hd].
    intros lir lseq Hs. destruct (Y3 lir lseq Hs). split; lia. }
  split; [intros c i lir lseq Hin; rewrite Eq1 in Hin; destruct Hin|].
  split; [intros c i q Hin; rewrite Eq2 in Hin; destruct Hin|].
  split; [intros c _ _ c' i lseq Hin; rewrite Eq1 in Hin; destruct Hin|].
  split.
  { destruct x; cbn [set_tub map_conns set_conns tm ts new_tub t_broker t_slave]; [intros c Hd; discriminate Hd|].
    intros c _ _ lseq Hd. discriminate Hd. }
  destruct x; cbn [set_tub map_conns set_conns tm ts conns new_tub t_broker]; [intros c Hd; discriminate Hd|].
  intros c _ Hl. exfalso. apply Hl. unfold kill. destruct (conns s c); reflexivity.
Qed.

Theorem run_yinv ops : yinv (run ops).
Proof.
  apply run_ind.
  - unfold yinv. cbn. split; [lia|]. split; [intros ? ? ? []|]. split; [intros ? ? Hd; discriminate Hd|].
    split; [intros ? ? ? ? []|]. split; [intros ? ? ? []|]. split; [intros ? Hd; discriminate Hd|].
    split; intros ? Hd; discriminate Hd.
  - exact yinv_frame.
  - intros ops' x g s _ H. apply yinv_dial; [apply run_inv|apply run_xinv|exact H].
  - intros ops' x. apply yinv_restart.
  - intros ops' c inc last q s1 s Hc Eq Em H F _ _. apply yinv_master_accept; [exact (yinv_frame _ _ F H)|].
    destruct F as (_ & T & _). destruct (core_eq _ _ (proj1 (T TS))) as (G1 & _). cbn [tubof] in G1. rewrite G1.
    destruct H as (_ & Y2 & _). apply (Y2 c inc last). rewrite Eq. left. reflexivity.
  - intros ops' c inc seq q s1 s Hc Eq Es H F Etm _ Ec. apply (yinv_slave_accept c inc seq q s s1); assumption.
Qed.

Lemma broker_connector_failed x g s : t_broker (tm (connector_failed x g s)) = t_broker (tm s).
Proof.
  unfold connector_failed. destruct (t_connector (tubof x s)); [|reflexivity]. destruct (_ && _)%bool; [|reflexivity].
  destruct x; cbn [set_tub tm tubof]; [apply broker_connector_gone|reflexivity].
Qed.

Lemma broker_conn_lost_m c' pre s :
  cend TM (pre (conns s c')) <> EBrk -> t_broker (tm (conn_lost TM c' pre s)) = t_broker (tm s).
Proof.
  intros Hne. unfold conn_lost. destruct (cend TM (pre (conns s c'))); try reflexivity; try contradiction;
    destruct (tub_eqb (c_client (pre (conns s c'))) TM); try reflexivity; rewrite broker_connector_failed; reflexivity.
Qed.

(* "an established healthy connection is not displaced by a redundant attempt from the same peer incarnation", for the
   SYSTEM: in every reachable state in which c is the master's current connection and the non-master's end of c is a live
   Broker, no delivery to the master replaces c -- provided the offer being delivered (the head of the queue of c') does not
   name a PAST LIFE of the master (the one excluded case: the master restarted and the non-master still remembers the
   previous incarnation; see established_displaced_after_master_restart) *)
Theorem established_not_displaced ops c c' :
  let s := run ops in
  t_broker (tm s) = Some c -> c_s (conns s c) = EBrk ->
  (forall i lir lseq rest, c_qsm (conns s c') = Hello i (Some (lir, lseq)) :: rest -> lir = IR_NONE \/ lir = t_inc (tm s)) ->
  t_broker (tm (step s (Deliver c' TM))) = Some c.
Proof.
  cbv zeta. intros Eb Es Hguard. set (s := run ops) in *.
  pose proof (run_inv ops) as HI. pose proof (run_yinv ops) as HY. fold s in HI, HY.
  cbn [step]. destruct (Nat.ltb c' (nconn s)) eqn:Hc; [|exact Eb]. unfold deliver_m.
  destruct (c_qsm (conns s c')) as [|m q] eqn:Eq; [exact Eb|].
  destruct m as [inc last|a b| |].
  - destruct (c_m (conns s c')) eqn:Em; try exact Eb.
    (* an offer is evaluated while c is current *)
    assert (Hstep : step s (Deliver c' TM) = deliver_m c' s) by (cbn [step]; rewrite Hc; reflexivity).
    assert (G : tm (step s (Deliver c' TM)) = tm s); [|unfold deliver_m in Hstep; rewrite Eq, Em in Hstep; rewrite <- Hstep, G; exact Eb].
    destruct (handle_old_unreachable ops c' inc last q (proj1 (Nat.ltb_lt _ _) Hc) Eq Em) as [Hl _];
      [fold s; rewrite Eb; discriminate|].
    destruct last as [[lir lseq]|]; [|contradiction Hl; reflexivity].
    apply (offer_refused s c' inc (Some (lir, lseq)) q c Hc Eq Em Eb).
    destruct HY as (Y1 & Y2 & _ & _ & _ & Y6 & _ & Y8).
    assert (Ei : t_bir (tm s) = Some inc).
    { rewrite (Y8 c Eb); [|rewrite Es; discriminate]. rewrite (Y2 c' inc (Some (lir, lseq))); [reflexivity|rewrite Eq; left; reflexivity]. }
    rewrite Ei. apply compare_same_incarnation_older_or_none.
    destruct (Hguard inc lir lseq q eq_refl) as [Hn|Hm]; [left; exact Hn|right]. split; [exact Hm|].
    destruct Y1 as (_ & _ & Ebs). rewrite Ebs. subst lir.
    apply (Y6 c Eb ltac:(rewrite Es; reflexivity) c' inc lseq). rewrite Eq. left. reflexivity.
  - destruct (c_m (conns s c')); exact Eb.
  - destruct (c_m (conns s c')); exact Eb.
  - assert (Hne : c_m (conns s c') <> EBrk).
    { intros E. apply (inv_live s TM c' HI) in E. cbn [tubof] in E. rewrite Eb in E. inversion E; subst c'.
      destruct (proj1 HI c) as (_ & _ & _ & G9). rewrite Eq in G9. specialize (G9 eq_refl). rewrite Es in G9. discriminate. }
    destruct (c_m (conns s c')) eqn:Em; try exact Eb;
      (rewrite broker_conn_lost_m; [exact Eb|destruct (conns s c'); cbn in *; rewrite Em; congruence]).
Qed.

(* the guard as a property of the history: the master is in its first incarnation (t_inc counts its restarts) *)
Theorem established_not_displaced_first_life ops c c' :
  let s := run ops in
  t_inc (tm s) = 1 -> t_broker (tm s) = Some c -> c_s (conns s c) = EBrk ->
  t_broker (tm (step s (Deliver c' TM))) = Some c.
Proof.
  cbv zeta. intros E1 Eb Es. apply established_not_displaced; [exact Eb|exact Es|].
  intros i lir lseq rest Eq. destruct (run_yinv ops) as (_ & _ & _ & Y4 & _).
  destruct (Y4 c' i lir lseq) as [[H|H] _]; [rewrite Eq; left; reflexivity|left; exact H|right; lia].
Qed.

(* the guard is exact: an offer that names a past life of the master DOES displace the established connection *)
Theorem past_life_offer_displaces ops c c' i lir lseq rest :
  let s := run ops in
  t_broker (tm s) = Some c -> Nat.ltb c' (nconn s) = true ->
  c_qsm (conns s c') = Hello i (Some (lir, lseq)) :: rest -> c_m (conns s c') = ENeg ->
  lir <> IR_NONE -> lir <> t_inc (tm s) ->
  t_broker (tm (step s (Deliver c' TM))) = Some c' /\ c' <> c.
Proof.
  cbv zeta. intros Eb Hc Eq Em H0 H1. split.
  - apply (offer_accepted (run ops) c' i (Some (lir, lseq)) rest c Hc Eq Em Eb).
    rewrite compare_total. f_equal. apply Z.eqb_neq in H0, H1. rewrite H0, H1. cbn. apply orb_true_r.
  - intros E. subst c'. apply (proj1 (broker_is_live_end ops c)) in Eb. congruence.
Qed.

(* ... and that situation is reachable: M restarts, S (remembering M's past life) dials two hints; the first is accepted
   and established at both ends, uncut; the second offer then takes its place *)
Theorem established_displaced_after_master_restart :
  exists ops c c',
    let s := run ops in
    t_broker (tm s) = Some c /\ t_broker (ts s) = Some c /\ c_m (conns s c) = EBrk /\ c_s (conns s c) = EBrk /\
    c_cut (conns s c) = false /\ t_bir (tm s) = Some (t_inc (ts s)) /\
    t_broker (tm (step s (Deliver c' TM))) = Some c' /\ c' <> c.
Proof.
  exists [GetRef TS; DialHint TS; Deliver 0 TM; Deliver 0 TS; Deliver 0 TS; Restart TM; CloseSeen 0 TS;
          GetRef TS; DialHint TS; DialHint TS; Deliver 1 TM; Deliver 1 TS; Deliver 1 TS], 1%nat, 2%nat.
  vm_compute. repeat split; discriminate.
Qed.

(* the hypotheses of established_not_displaced with a redundant offer really in flight *)
Example redundant_offer_in_flight :
  let s := run [GetRef TS; DialHint TS; DialHint TS; Deliver 0 TM; Deliver 0 TS; Deliver 0 TS] in
  t_broker (tm s) = Some 0%nat /\ c_s (conns s 0%nat) = EBrk /\ c_qsm (conns s 1%nat) = [Hello 1 (Some (IR_NONE, 0)); Fin] /\
  c_m (conns s 1%nat) = ENeg /\ t_broker (tm (step s (Deliver 1%nat TM))) = Some 0%nat.
Proof. vm_compute. repeat split. Qed.
