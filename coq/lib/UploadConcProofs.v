(* C19 -- two uploads at the same time: the refutation for ONE name, and the lifting of the single-upload theorems to every
   schedule of two uploads of DISTINCT names. *)
From Coq Require Import NArith List Bool Arith Lia.
Import ListNotations.
Require Import Verif.lib.UploadShape Verif.gen.UploadGen Verif.lib.Paths Verif.lib.PathsProofs
               Verif.lib.Upload Verif.lib.UploadProofs Verif.lib.UploadHist Verif.lib.UploadHistProofs Verif.lib.UploadConc.

(* two complete uploads of ONE name, B running between the last write and the close of A: the published file is torn *)
Local Open Scope N_scope.
Definition ex_A : list N := [65; 65; 65; 65].
Definition ex_B : list N := [66; 66; 66; 66; 66; 66; 66; 66].
Theorem concurrent_same_name_refuted :
  let s := run2 (lift2 (mk_st [] [])) (tear_schedule ex_final [ex_A] [ex_B]) in
  look2 s ex_final = VFile [65; 65; 65; 65; 66; 66; 66; 66] /\
  look2 s ex_final <> VFile ex_A /\ look2 s ex_final <> VFile ex_B /\
  fA s = true /\ fB s = false /\ fo2 s = false /\
  sched (upload_ops ex_final [ex_A] Done) (upload_ops ex_final [ex_B] Done) 6 6 (tear_schedule ex_final [ex_A] [ex_B]).
Proof.
  cbv zeta. split; [vm_compute; reflexivity|]. split; [vm_compute; discriminate|]. split; [vm_compute; discriminate|].
  split; [vm_compute; reflexivity|]. split; [vm_compute; reflexivity|]. split; [vm_compute; reflexivity|].
  assert (E : tear_schedule ex_final [ex_A] [ex_B] =
              ((((((((((([] ++ [(WA, UnlinkIfLink (ex_final ++ putfile_tmp_ext))]) ++ [(WA, Open (ex_final ++ putfile_tmp_ext))]) ++
                [(WA, Write (ex_final ++ putfile_tmp_ext) ex_A)]) ++
                [(WB, UnlinkIfLink (ex_final ++ putfile_tmp_ext))]) ++ [(WB, Open (ex_final ++ putfile_tmp_ext))]) ++
                [(WB, Write (ex_final ++ putfile_tmp_ext) ex_B)]) ++ [(WB, Close (ex_final ++ putfile_tmp_ext))]) ++
                [(WB, RenameElseUnlink (ex_final ++ putfile_tmp_ext) ex_final (ex_final ++ putfile_tmp_ext))]) ++ [(WB, Chmod ex_final)]) ++
                [(WA, Close (ex_final ++ putfile_tmp_ext))]) ++
                [(WA, RenameElseUnlink (ex_final ++ putfile_tmp_ext) ex_final (ex_final ++ putfile_tmp_ext))]) ++ [(WA, Chmod ex_final)])
    by reflexivity.
  rewrite E.
  repeat (first [apply sched_nil | apply sched_A; [|reflexivity] | apply sched_B; [|reflexivity]]).
Qed.
Local Close Scope N_scope.

Lemma step_o_failed : forall s o, failed s = true -> step_o s o = s.
Proof. intros s o H. destruct o; unfold step_o, step; rewrite H; reflexivity. Qed.

Lemma step_o_inv : forall s o, Inv s -> Inv (step_o s o).
Proof.
  intros s o H. destruct o; try (apply step_inv; exact H). unfold step_o.
  destruct (failed s); [exact H|]. destruct (handle s) as [[i pend]|]; exact H.
Qed.

Lemma overlay_nil : forall pend, overlay pend [] = pend.
Proof. intros. unfold overlay. rewrite skipn_nil, app_nil_r. reflexivity. Qed.

(* for a single writer the inode is empty when it is closed: the two semantics of close() coincide *)
Definition hempty (s : st) : Prop := forall i pend, handle s = Some (i, pend) -> data s i = [].
Lemma step_o_single : forall s o, hempty s -> step_o s o = step s o.
Proof.
  intros s o H. destruct o; try reflexivity. unfold step_o, step. destruct (failed s); [reflexivity|].
  destruct (handle s) as [[i pend]|] eqn:E; [|reflexivity]. rewrite (H i pend E), overlay_nil. reflexivity.
Qed.

(* the footprint of an operation on the paths T, as far as the OTHER call could notice it *)
Definition effect (s s' : st) (T : list str) : Prop :=
  (forall q, ~ In q T -> names s' q = names s q) /\
  (forall j, (forall p, In p T -> names s p <> Some (F j)) -> j <> next s -> (forall pend, handle s <> Some (j, pend)) ->
             data s' j = data s j) /\
  (next s <= next s')%nat /\
  (forall i pend, handle s' = Some (i, pend) ->
     (exists pend', handle s = Some (i, pend')) \/ (exists p, In p T /\ names s' p = Some (F i))) /\
  (forall q e, names s' q = Some e -> names s q = Some e \/ (exists a, In a T /\ names s a = Some e) \/ e = F (next s)).

Lemma effect_refl : forall s T, effect s s T.
Proof.
  intros s T. split; [reflexivity|]. split; [reflexivity|]. split; [lia|]. split.
  - intros i pend H. left. exists pend. exact H.
  - intros q e H. left. exact H.
Qed.

Lemma effect_names : forall s T n' h f fo, h = handle s \/ h = None ->
  (forall q, ~ In q T -> n' q = names s q) ->
  (forall q e, n' q = Some e -> names s q = Some e \/ exists a, In a T /\ names s a = Some e) ->
  effect s (mkst n' (data s) (next s) h f fo) T.
Proof.
  intros s T n' h f fo Hh H1 H5. split; [exact H1|]. split; [reflexivity|]. split; [cbn; lia|]. split.
  - intros i pend H. cbn [handle] in H. destruct Hh as [->| ->]; [left; exists pend; exact H|discriminate].
  - intros q e H. destruct (H5 q e H) as [X|X]; auto.
Qed.

(* states that differ from s only in handle / failed / followed *)
Lemma effect_same_fs : forall s T h f fo, h = handle s \/ h = None -> effect s (mkst (names s) (data s) (next s) h f fo) T.
Proof. intros s T h f fo Hh. apply effect_names; [exact Hh|reflexivity|]. intros q e H. left. exact H. Qed.

Lemma effect_remove : forall s T p h f fo, In p T -> (h = handle s \/ h = None) ->
  effect s (mkst (upd (names s) p None) (data s) (next s) h f fo) T.
Proof.
  intros s T p h f fo Hp Hh. apply effect_names; [exact Hh| |].
  - intros q Hq. apply upd_other. intros ->. exact (Hq Hp).
  - intros q e H. apply upd_in in H. destruct H as [[_ H]|[_ H]]; [discriminate|left; exact H].
Qed.

Lemma effect_move : forall s T a b h f fo, In a T -> In b T -> (h = handle s \/ h = None) ->
  effect s (mkst (upd (upd (names s) b (names s a)) a None) (data s) (next s) h f fo) T.
Proof.
  intros s T a b h f fo Ha Hb Hh. apply effect_names; [exact Hh| |].
  - intros q Hq. rewrite !upd_other by (intros ->; contradiction). reflexivity.
  - intros q e H. apply upd_in in H. destruct H as [[_ H]|[_ H]]; [discriminate|].
    apply upd_in in H. destruct H as [[_ H]|[_ H]]; [right; exists a; auto|left; exact H].
Qed.

Lemma step_o_effect : forall s o, okop o = true -> wf_st s -> effect s (step_o s o) (touched o).
Proof.
  intros s o Hok Hwf. destruct (failed s) eqn:Hf; [rewrite step_o_failed by exact Hf; apply effect_refl|].
  destruct o; try discriminate; unfold step_o, step; rewrite Hf; cbn [touched].
  - (* Open *)
    destruct (names s p) as [[i|t|]|] eqn:E; try (apply effect_same_fs; left; reflexivity).
    + split; [reflexivity|]. split; [|split; [cbn; lia|split]].
      * intros j H1 _ _. cbn [data]. apply updn_other. intros ->. apply (H1 p); [left; reflexivity|exact E].
      * intros i0 pend H. cbn [handle] in H. injection H as <- _. right. exists p. split; [left; reflexivity|exact E].
      * intros q e H. left. exact H.
    + split; [|split; [|split; [cbn; lia|split]]].
      * intros q Hq. cbn [names]. apply upd_other. intros ->. apply Hq. left. reflexivity.
      * intros j _ H2 _. cbn [data]. apply updn_other. exact H2.
      * intros i0 pend H. cbn [handle] in H. injection H as <- _. right. exists p. split; [left; reflexivity|]. cbn [names]. apply upd_same.
      * intros q e H. cbn [names] in H. apply upd_in in H. destruct H as [[_ H]|[_ H]]; [right; right; injection H as <-; reflexivity|left; exact H].
  - (* Write *)
    destruct (handle s) as [[i pend]|] eqn:E; [|apply effect_same_fs; left; reflexivity].
    split; [reflexivity|]. split; [reflexivity|]. split; [cbn; lia|]. split.
    + intros i0 pend0 H. cbn [handle] in H. injection H as <- _. left. exists pend. exact E.
    + intros q e H. left. exact H.
  - (* Close *)
    destruct (handle s) as [[i pend]|] eqn:E; [|apply effect_same_fs; left; reflexivity].
    split; [reflexivity|]. split; [|split; [cbn; lia|split]].
    + intros j _ _ H3. cbn [data]. apply updn_other. intros ->. exact (H3 pend E).
    + intros i0 pend0 H. discriminate.
    + intros q e H. left. exact H.
  - (* RenameElseUnlink *)
    rewrite step_rename_eq. destruct (rename_fails (look s a) (look s b)).
    + destruct (names s c) as [[i|t|]|]; try (apply effect_same_fs; left; reflexivity);
        (apply effect_remove; [right; right; left; reflexivity|left; reflexivity]).
    + destruct (str_eqb a b); [rewrite Hf; apply effect_refl|].
      apply effect_move; [left; reflexivity|right; left; reflexivity|left; reflexivity].
  - (* Chmod *)
    destruct (names s p) as [[i|t|]|]; try apply effect_refl; apply effect_same_fs; left; reflexivity.
  - (* Unlink *)
    destruct (names s p) as [e|]; [|apply effect_same_fs; left; reflexivity].
    apply effect_remove; [left; reflexivity|left; reflexivity].
  - (* UnlinkIfLink *)
    destruct (names s p) as [[i|t|]|]; try apply effect_refl. apply effect_remove; [left; reflexivity|left; reflexivity].
Qed.

(* two file systems that AGREE on a set of names P: the same views there, the same unflushed text *)
Definition hrel (P : str -> Prop) (x y : st) : Prop :=
  (handle x = None /\ handle y = None) \/
  (exists i i' pend, handle x = Some (i, pend) /\ handle y = Some (i', pend) /\ data x i = [] /\ data y i' = [] /\
     forall p, P p -> (names x p = Some (F i) <-> names y p = Some (F i'))).
Definition agree (P : str -> Prop) (x y : st) : Prop :=
  (forall p, P p -> look x p = look y p) /\ hrel P x y /\ failed x = failed y.
Definition agree_res (P : str -> Prop) (x y x' y' : st) : Prop :=
  agree P x' y' /\ exists f, followed x' = followed x || f /\ followed y' = followed y || f.

Lemma look_eq_cases : forall x y p, look x p = look y p ->
  (names x p = None /\ names y p = None) \/
  (exists t, names x p = Some (L t) /\ names y p = Some (L t)) \/
  (names x p = Some D /\ names y p = Some D) \/
  (exists i i', names x p = Some (F i) /\ names y p = Some (F i') /\ data x i = data y i').
Proof.
  intros x y p H. unfold look in H.
  destruct (names x p) as [[i|t|]|]; destruct (names y p) as [[i'|t'|]|]; try discriminate.
  - injection H as H. right. right. right. exists i, i'. auto.
  - injection H as ->. right. left. exists t'. auto.
  - right. right. left. auto.
  - left. auto.
Qed.

Lemma look_mk : forall s h f fo q, look (mkst (names s) (data s) (next s) h f fo) q = look s q.
Proof. reflexivity. Qed.

Lemma agree_flags : forall P x y f fo fo', agree P x y ->
  agree P (mkst (names x) (data x) (next x) (handle x) f fo) (mkst (names y) (data y) (next y) (handle y) f fo').
Proof. intros P x y f fo fo' (H1 & H2 & H3). split; [exact H1|]. split; [exact H2|reflexivity]. Qed.

(* entries that may be put at one name of two agreeing file systems *)
Definition shows (d : nat -> list N) (v : option ent) : view :=
  match v with None => VNone | Some (L t) => VLink t | Some (F i) => VFile (d i) | Some D => VDir end.
Definition corr (x y : st) (v v' : option ent) : Prop :=
  shows (data x) v = shows (data y) v' /\
  forall i i' pend pend', handle x = Some (i, pend) -> handle y = Some (i', pend') -> (v = Some (F i) <-> v' = Some (F i')).

Lemma corr_none : forall x y, corr x y None None.
Proof. intros x y. split; [reflexivity|]. intros i i' pend pend' _ _. split; discriminate. Qed.

Lemma agree_corr : forall (P : str -> Prop) x y p, agree P x y -> P p -> corr x y (names x p) (names y p).
Proof.
  intros P x y p (H1 & H2 & _) Pp. split; [exact (H1 p Pp)|]. intros i i' pend pend' Hx Hy.
  destruct H2 as [[A _]|(j & j' & pd & A & B & _ & _ & E)]; [congruence|].
  rewrite A in Hx. rewrite B in Hy. injection Hx as -> _. injection Hy as -> _. exact (E p Pp).
Qed.

Lemma agree_upd : forall P x y p v v' f fo fo', agree P x y -> corr x y v v' ->
  agree P (mkst (upd (names x) p v) (data x) (next x) (handle x) f fo)
          (mkst (upd (names y) p v') (data y) (next y) (handle y) f fo').
Proof.
  intros P x y p v v' f fo fo' (H1 & H2 & H3) [C1 C2]. split; [|split; [|reflexivity]].
  - intros q Hq. unfold look. cbn [names data]. destruct (upd_cases _ (names x) p v q) as [[-> _]|[Hn _]].
    + rewrite !upd_same. exact C1.
    + rewrite !upd_other by exact Hn. exact (H1 q Hq).
  - destruct H2 as [H2|(i & i' & pend & A & B & Cx & Cy & E)]; [left; exact H2|].
    right. exists i, i', pend. cbn [handle data names]. split; [exact A|]. split; [exact B|]. split; [exact Cx|]. split; [exact Cy|].
    intros q Hq. destruct (upd_cases _ (names x) p v q) as [[-> _]|[Hn _]].
    + rewrite !upd_same. exact (C2 i i' pend pend A B).
    + rewrite !upd_other by exact Hn. exact (E q Hq).
Qed.

Lemma agree_res_keep : forall P x y x' y', agree P x' y' -> followed x' = followed x -> followed y' = followed y ->
  agree_res P x y x' y'.
Proof. intros P x y x' y' H Ex Ey. split; [exact H|]. exists false. rewrite Ex, Ey, !orb_false_r. split; reflexivity. Qed.

Lemma agree_res_same : forall P x y, agree P x y -> agree_res P x y x y.
Proof. intros P x y H. apply agree_res_keep; [exact H|reflexivity|reflexivity]. Qed.

Lemma agree_res_fail : forall P x y, agree P x y -> agree_res P x y (fail x) (fail y).
Proof. intros P x y H. apply agree_res_keep; [apply agree_flags; exact H|reflexivity|reflexivity]. Qed.

Lemma agree_res_follow : forall P x y, agree P x y -> agree_res P x y (follow x) (follow y).
Proof.
  intros P x y H. split; [apply (agree_flags P x y true true true H)|]. exists true.
  split; cbn [follow followed]; symmetry; apply orb_true_r.
Qed.

Lemma agree_res_remove : forall P x y p f, agree P x y ->
  agree_res P x y (mkst (upd (names x) p None) (data x) (next x) (handle x) f (followed x))
                  (mkst (upd (names y) p None) (data y) (next y) (handle y) f (followed y)).
Proof. intros P x y p f H. apply agree_res_keep; [apply agree_upd; [exact H|apply corr_none]|reflexivity|reflexivity]. Qed.

Lemma agree_open : forall (P : str -> Prop) x y p, agree P x y -> Inv x -> Inv y -> failed x = false -> failed y = false ->
  (names x p = None \/ exists i, names x p = Some (F i)) -> (names y p = None \/ exists i, names y p = Some (F i)) ->
  agree_res P x y (step x (Open p)) (step y (Open p)).
Proof.
  intros P x y p (H1 & _) Ix Iy Hfx Hfy Ex Ey.
  destruct (open_facts x p (Inv_wf x Ix) (Inv_unshared x p Ix) Hfx) as (n & d & nx & j & Ox & ->);
    [intros t E; destruct Ex as [Ex|[i Ex]]; congruence|intros E; destruct Ex as [Ex|[i Ex]]; congruence|].
  destruct (open_facts y p (Inv_wf y Iy) (Inv_unshared y p Iy) Hfy) as (n' & d' & nx' & j' & Oy & ->);
    [intros t E; destruct Ey as [Ey|[i Ey]]; congruence|intros E; destruct Ey as [Ey|[i Ey]]; congruence|].
  pose proof (look_opened _ _ _ _ _ Ox) as Lx. pose proof (look_opened _ _ _ _ _ Oy) as Ly.
  destruct Ox as (Nx & Qx & _ & Dx & Fx). destruct Oy as (Ny & Qy & _ & Dy & Fy).
  apply agree_res_keep; [|reflexivity|reflexivity]. split; [|split; [|reflexivity]].
  - intros q Hq. destruct (list_eq_dec N.eq_dec q p) as [->|Hn].
    + unfold look. cbn [names data]. rewrite Nx, Ny, Dx, Dy. reflexivity.
    + rewrite Lx by first [exact Hn|reflexivity]. rewrite (H1 q Hq). symmetry. apply Ly; [exact Hn|reflexivity|reflexivity].
  - right. exists j, j', []. cbn [handle data names].
    split; [reflexivity|]. split; [reflexivity|]. split; [exact Dx|]. split; [exact Dy|].
    intros q Hq. destruct (list_eq_dec N.eq_dec q p) as [->|Hn]; [rewrite Nx, Ny; split; reflexivity|].
    rewrite (Qx q Hn), (Qy q Hn). split; intros Hc; [destruct (Fx q Hn Hc)|destruct (Fy q Hn Hc)].
Qed.

Lemma agree_step : forall (P : str -> Prop) x y o, okop o = true -> (forall p, In p (touched o) -> P p) -> Inv x -> Inv y ->
  agree P x y -> agree_res P x y (step_o x o) (step y o).
Proof.
  intros P x y o Hok HT Ix Iy Hag. pose proof Hag as (H1 & H2 & H3).
  destruct (failed x) eqn:Hfx.
  { rewrite step_o_failed by exact Hfx. rewrite step_failed by (symmetry; exact H3). apply agree_res_same. exact Hag. }
  assert (Hfy : failed y = false) by (symmetry; exact H3).
  destruct o; try discriminate; cbn [touched] in HT; [|unfold step_o, step; rewrite Hfx, Hfy..].
  - (* Open *)
    assert (Pp : P p) by (apply HT; left; reflexivity). change (step_o x (Open p)) with (step x (Open p)).
    destruct (look_eq_cases x y p (H1 p Pp)) as [[Ex Ey]|[(t & Ex & Ey)|[[Ex Ey]|(i & i' & Ex & Ey & _)]]].
    + apply agree_open; [exact Hag|exact Ix|exact Iy|exact Hfx|exact Hfy|left; exact Ex|left; exact Ey].
    + unfold step. rewrite Hfx, Hfy, Ex, Ey. apply agree_res_follow. exact Hag.
    + unfold step. rewrite Hfx, Hfy, Ex, Ey. apply agree_res_fail. exact Hag.
    + apply agree_open; [exact Hag|exact Ix|exact Iy|exact Hfx|exact Hfy|right; exists i; exact Ex|right; exists i'; exact Ey].
  - (* Write *)
    destruct H2 as [[Ax Ay]|(i & i' & pend & Ax & Ay & Dx & Dy & En)]; rewrite Ax, Ay.
    + apply agree_res_fail. exact Hag.
    + apply agree_res_keep; [|reflexivity|reflexivity]. split; [exact H1|]. split; [|reflexivity].
      right. exists i, i', (pend ++ d). cbn [handle data names]. auto.
  - (* Close *)
    destruct H2 as [[Ax Ay]|(i & i' & pend & Ax & Ay & Dx & Dy & En)]; rewrite Ax, Ay.
    + apply agree_res_fail. exact Hag.
    + rewrite Dx, Dy, overlay_nil. cbn [app].
      apply agree_res_keep; [|reflexivity|reflexivity]. split; [|split; [left; split; reflexivity|reflexivity]].
      intros q Hq. pose proof (En q Hq) as Enq.
      destruct (look_eq_cases x y q (H1 q Hq)) as [[Ex Ey]|[(t & Ex & Ey)|[[Ex Ey]|(j & j' & Ex & Ey & Ed)]]];
        unfold look; cbn [names data]; rewrite Ex, Ey; try reflexivity.
      destruct (Nat.eq_dec j i) as [->|Hji].
      * assert (Ey2 : names y q = Some (F i')) by (apply Enq; exact Ex).
        rewrite Ey in Ey2. injection Ey2 as ->. rewrite !updn_same. reflexivity.
      * assert (Hji' : j' <> i').
        { intros ->. apply Hji. assert (Ex2 : names x q = Some (F i)) by (apply Enq; exact Ey).
          rewrite Ex in Ex2. injection Ex2 as ->. reflexivity. }
        rewrite !updn_other by assumption. rewrite Ed. reflexivity.
  - (* RenameElseUnlink *)
    assert (Pa : P a) by (apply HT; left; reflexivity).
    assert (Pb : P b) by (apply HT; right; left; reflexivity).
    assert (Pc : P c) by (apply HT; right; right; left; reflexivity).
    rewrite !step_rename_eq, (H1 a Pa), (H1 b Pb). destruct (rename_fails (look y a) (look y b)).
    + destruct (look_eq_cases x y c (H1 c Pc)) as [[Ex Ey]|[(t & Ex & Ey)|[[Ex Ey]|(j & j' & Ex & Ey & _)]]]; rewrite Ex, Ey;
        [apply agree_res_fail|apply agree_res_remove|apply agree_res_fail|apply agree_res_remove]; exact Hag.
    + destruct (str_eqb a b); [rewrite Hfx, Hfy; apply agree_res_same; exact Hag|].
      apply agree_res_keep; [|reflexivity|reflexivity].
      exact (agree_upd P _ _ a None None false _ _
               (agree_upd P x y b _ _ false (followed x) (followed y) Hag (agree_corr P x y a Hag Pa)) (corr_none _ _)).
  - (* Chmod *)
    assert (Pp : P p) by (apply HT; left; reflexivity).
    destruct (look_eq_cases x y p (H1 p Pp)) as [[Ex Ey]|[(t & Ex & Ey)|[[Ex Ey]|(i & i' & Ex & Ey & Ed)]]]; rewrite Ex, Ey.
    + apply agree_res_fail. exact Hag.
    + apply agree_res_follow. exact Hag.
    + apply agree_res_same. exact Hag.
    + apply agree_res_same. exact Hag.
  - (* Unlink *)
    assert (Pp : P p) by (apply HT; left; reflexivity).
    destruct (look_eq_cases x y p (H1 p Pp)) as [[Ex Ey]|[(t & Ex & Ey)|[[Ex Ey]|(i & i' & Ex & Ey & Ed)]]]; rewrite Ex, Ey;
      [apply agree_res_fail|apply agree_res_remove|apply agree_res_remove|apply agree_res_remove]; exact Hag.
  - (* UnlinkIfLink *)
    assert (Pp : P p) by (apply HT; left; reflexivity).
    destruct (look_eq_cases x y p (H1 p Pp)) as [[Ex Ey]|[(t & Ex & Ey)|[[Ex Ey]|(i & i' & Ex & Ey & Ed)]]]; rewrite Ex, Ey;
      [apply agree_res_same|apply agree_res_remove|apply agree_res_same|apply agree_res_same]; exact Hag.
Qed.

Lemma agree_frame : forall (P : str -> Prop) z z' y, agree P z y ->
  (forall q, P q -> names z' q = names z q) ->
  (forall j, (exists q, P q /\ names z q = Some (F j)) \/ (exists pend, handle z = Some (j, pend)) -> data z' j = data z j) ->
  handle z' = handle z -> failed z' = failed z -> agree P z' y.
Proof.
  intros P z z' y (A1 & A2 & A3) Hn Hd Hh Hf. split; [|split; [|rewrite Hf; exact A3]].
  - intros q Hq. rewrite <- (A1 q Hq). apply look_frame; [exact (Hn q Hq)|]. intros j Hj. apply Hd. left. exists q. auto.
  - unfold hrel. rewrite Hh. destruct A2 as [A2|(i & i' & pend & Z1 & Z2 & Z3 & Z4 & Z5)]; [left; exact A2|].
    right. exists i, i', pend. split; [exact Z1|]. split; [exact Z2|]. split; [|split; [exact Z4|]].
    + rewrite Hd; [exact Z3|]. right. exists pend. exact Z1.
    + intros q Hq. rewrite (Hn q Hq). exact (Z5 q Hq).
Qed.

Lemma orb_absorb : forall a b c f, a || b || c || f = a || f || b || c /\ a || b || c || f = a || (b || f) || c.
Proof. intros [] [] [] []; split; reflexivity. Qed.

Lemma firstn_S_nth : forall (A : Type) (l : list A) k o, nth_error l k = Some o -> firstn (S k) l = firstn k l ++ [o].
Proof.
  induction l as [|a l IH]; intros k o H; [destruct k; discriminate|].
  destruct k as [|k]; [injection H as ->; reflexivity|]. cbn [nth_error] in H. change (firstn (S (S k)) (a :: l)) with (a :: firstn (S k) l).
  change (firstn (S k) (a :: l)) with (a :: firstn k l). rewrite (IH k o H). reflexivity.
Qed.

Definition other (w : who) : who := match w with WA => WB | WB => WA end.

Section TwoCalls.
Variables PA PB : str -> Prop.
Hypothesis disjoint : forall p, PA p -> PB p -> False.
Definition Pw (w : who) : str -> Prop := match w with WA => PA | WB => PB end.

Lemma Pw_disjoint : forall w p, Pw w p -> Pw (other w) p -> False.
Proof. intros [] p H1 H2; [exact (disjoint p H1 H2)|exact (disjoint p H2 H1)]. Qed.

(* one file system, two file objects: the inode a call holds open is below `next`, is named (if at all) only by that call's
   own names, and is not the inode the other call holds open *)
Definition G (s : st2) : Prop :=
  winv (n2 s) (nx2 s) /\
  (forall w i pend, hd2 s w = Some (i, pend) -> (i < nx2 s)%nat /\ forall q, n2 s q = Some (F i) -> Pw w q) /\
  (forall w i pend j pend', hd2 s w = Some (i, pend) -> hd2 s (other w) = Some (j, pend') -> i <> j).

Lemma as1_put_same : forall w s s1, as1 w (put w s s1) = s1.
Proof. intros [] s [n d nx h f fo]; reflexivity. Qed.
Lemma as1_put_other : forall w s s1,
  as1 (other w) (put w s s1) = mkst (names s1) (data s1) (next s1) (hd2 s (other w)) (fl2 s (other w)) (followed s1).
Proof. intros [] s s1; reflexivity. Qed.

Lemma str_in_dec : forall (q : str) l, {In q l} + {~ In q l}.
Proof. intros. apply in_dec. apply list_eq_dec. apply N.eq_dec. Qed.

Lemma G_step : forall w s2 o, okop o = true -> (forall p, In p (touched o) -> Pw w p) -> G s2 -> G (step2 s2 (w, o)).
Proof.
  intros w s2 o Hok HT (G1 & G2 & G3). unfold step2. cbn [fst snd].
  set (x := as1 w s2) in *. set (x' := step_o x o).
  assert (Ix : Inv x) by exact G1.
  assert (Ix' : Inv x') by (apply step_o_inv; exact Ix).
  destruct (step_o_effect x o Hok (Inv_wf _ Ix)) as (E1 & _ & E3 & E4 & E5). fold x' in E1, E3, E4, E5.
  (* the second clause for the OTHER call first (it is used for the third) *)
  assert (G2o : forall i pend, hd2 s2 (other w) = Some (i, pend) ->
                  (i < next x')%nat /\ forall q, names x' q = Some (F i) -> Pw (other w) q).
  { intros i pend Hh. destruct (G2 (other w) i pend Hh) as [Lt Nm]. change (nx2 s2) with (next x) in Lt. split; [lia|].
    intros q Hq. destruct (E5 q (F i) Hq) as [Hc|[(a & Ha & Hc)|Hc]].
    - apply Nm. exact Hc.
    - destruct (Pw_disjoint w a (HT a Ha) (Nm a Hc)).
    - injection Hc as ->. destruct (Nat.lt_irrefl (next x) Lt). }
  assert (G2w : forall i pend, handle x' = Some (i, pend) ->
                  (i < next x')%nat /\ forall q, names x' q = Some (F i) -> Pw w q).
  { intros i pend Hh. destruct (E4 i pend Hh) as [(pend' & Ho)|(p & Hp & Hn)].
    - destruct (G2 w i pend' Ho) as [Lt Nm]. change (nx2 s2) with (next x) in Lt. split; [lia|].
      intros q Hq. destruct (str_in_dec q (touched o)) as [Hin|Hnin]; [apply HT; exact Hin|].
      apply Nm. rewrite <- Hq. symmetry. exact (E1 q Hnin).
    - split; [exact (proj1 Ix' p i Hn)|]. intros q Hq. rewrite (proj2 Ix' q p i Hq Hn). apply HT. exact Hp. }
  assert (G3' : forall i pend j pend', handle x' = Some (i, pend) -> hd2 s2 (other w) = Some (j, pend') -> i <> j).
  { intros i pend j pend' Hh Ho. destruct (E4 i pend Hh) as [(pend0 & Hold)|(p & Hp & Hn)].
    - exact (G3 w i pend0 j pend' Hold Ho).
    - intros ->. exact (Pw_disjoint w p (HT p Hp) (proj2 (G2o j pend' Ho) p Hn)). }
  split; [destruct w; exact Ix'|]. split.
  - intros w0 i pend Hh. destruct w, w0; first [exact (G2w i pend Hh) | exact (G2o i pend Hh)].
  - intros w0 i pend j pend' Hi Hj.
    destruct w, w0; first [exact (G3' i pend j pend' Hi Hj) | exact (not_eq_sym (G3' j pend' i pend Hj Hi))].
Qed.

Lemma sim_step : forall w s2 sw so s0 o,
  okop o = true -> (forall p, In p (touched o) -> Pw w p) ->
  G s2 -> Inv sw ->
  agree (Pw w) (as1 w s2) sw -> agree (Pw (other w)) (as1 (other w) s2) so ->
  (forall q, ~ PA q -> ~ PB q -> look2 s2 q = look s0 q) ->
  G (step2 s2 (w, o)) /\
  agree (Pw w) (as1 w (step2 s2 (w, o))) (step sw o) /\
  agree (Pw (other w)) (as1 (other w) (step2 s2 (w, o))) so /\
  (forall q, ~ PA q -> ~ PB q -> look2 (step2 s2 (w, o)) q = look s0 q) /\
  exists f, fo2 (step2 s2 (w, o)) = fo2 s2 || f /\ followed (step sw o) = followed sw || f.
Proof.
  intros w s2 sw so s0 o Hok HT HG Isw Agw Ago Hfr. split; [exact (G_step w s2 o Hok HT HG)|].
  destruct HG as (G1 & G2 & G3). unfold step2. cbn [fst snd].
  set (x := as1 w s2) in *. set (x' := step_o x o).
  assert (Ix : Inv x) by exact G1.
  destruct (step_o_effect x o Hok (Inv_wf _ Ix)) as (E1 & E2 & _). fold x' in E1, E2.
  destruct (agree_step (Pw w) x sw o Hok HT Ix Isw Agw) as (Agw' & f & F1 & F2). fold x' in Agw', F1.
  (* data of an inode that the acting call neither names, nor holds open, nor is about to create *)
  assert (Hkeep : forall j, (forall p, Pw w p -> names x p <> Some (F j)) -> (j < next x)%nat ->
                            (forall pend, handle x <> Some (j, pend)) -> data x' j = data x j).
  { intros j K1 K2 K3. apply E2; [intros p Hp; apply K1; apply HT; exact Hp|lia|exact K3]. }
  (* an inode named at q outside the acting call's names *)
  assert (Hout : forall q j, ~ Pw w q -> names x q = Some (F j) -> data x' j = data x j).
  { intros q j Hq Hj. apply Hkeep.
    - intros p Hp Hc. apply Hq. rewrite (proj2 Ix q p j Hj Hc). exact Hp.
    - exact (proj1 Ix q j Hj).
    - intros pend Hc. apply Hq. exact (proj2 (G2 w j pend Hc) q Hj). }
  assert (Hnout : forall q, ~ Pw w q -> names x' q = names x q).
  { intros q Hq. apply E1. intros Hin. apply Hq. apply HT. exact Hin. }
  split; [|split; [|split]].
  - rewrite as1_put_same. exact Agw'.
  - rewrite as1_put_other. apply (agree_frame _ (as1 (other w) s2) _ so Ago); [| |reflexivity|reflexivity].
    + intros q Hq. apply Hnout. intros Hc. exact (Pw_disjoint w q Hc Hq).
    + intros j [(q & Hq & Hj)|(pend & Hj)].
      * apply (Hout q j); [intros Hc; exact (Pw_disjoint w q Hc Hq)|exact Hj].
      * destruct (G2 (other w) j pend Hj) as [Lt Nm]. apply Hkeep.
        -- intros p Hp Hc. exact (Pw_disjoint w p Hp (Nm p Hc)).
        -- exact Lt.
        -- intros pend0 Hc. exact (G3 w j pend0 j pend Hc Hj eq_refl).
  - intros q HqA HqB. rewrite <- (Hfr q HqA HqB).
    assert (Hq : ~ Pw w q) by (destruct w; assumption).
    transitivity (look x' q); [destruct w; reflexivity|].
    transitivity (look x q); [|reflexivity].
    apply look_frame; [exact (Hnout q Hq)|exact (fun j => Hout q j Hq)].
  - exists f. split; [|exact F2]. destruct w; exact F1.
Qed.

(* EVERY schedule of two calls whose operations stay within disjoint sets of names: the file system agrees, on each call's
   names, with that call run ALONE on the initial state for the same number of operations, and nothing else changes *)
Theorem disjoint_calls_simulation : forall s0 opsA opsB kA kB l,
  (forall o, In o opsA -> okop o = true /\ forall p, In p (touched o) -> PA p) ->
  (forall o, In o opsB -> okop o = true /\ forall p, In p (touched o) -> PB p) ->
  Inv s0 -> failed s0 = false -> handle s0 = None ->
  sched opsA opsB kA kB l ->
  G (run2 (lift2 s0) l) /\
  agree PA (as1 WA (run2 (lift2 s0) l)) (run s0 (firstn kA opsA)) /\
  agree PB (as1 WB (run2 (lift2 s0) l)) (run s0 (firstn kB opsB)) /\
  (forall q, ~ PA q -> ~ PB q -> look2 (run2 (lift2 s0) l) q = look s0 q) /\
  fo2 (run2 (lift2 s0) l) = followed (run s0 (firstn kA opsA)) || followed (run s0 (firstn kB opsB)) || followed s0.
Proof.
  intros s0 opsA opsB kA kB l HA HB HI Hf Hh Hs.
  induction Hs as [|kA kB l o Hs IH Hn|kA kB l o Hs IH Hn].
  - cbn [firstn run run2 fold_left]. split; [|split; [|split; [|split]]].
    + split; [exact HI|]. split; [intros [] i pend H; discriminate|intros [] i pend j pend' H; discriminate].
    + split; [reflexivity|]. split; [left; split; [reflexivity|exact Hh]|symmetry; exact Hf].
    + split; [reflexivity|]. split; [left; split; [reflexivity|exact Hh]|symmetry; exact Hf].
    + reflexivity.
    + cbn. destruct (followed s0); reflexivity.
  - destruct IH as (I1 & I2 & I3 & I4 & I5). destruct (HA o (nth_error_In _ _ Hn)) as [Hok HT].
    unfold run2 in *. rewrite fold_left_app. cbn [fold_left]. rewrite (firstn_S_nth _ _ _ _ Hn), run_app. cbn [run fold_left].
    destruct (sim_step WA _ _ _ s0 o Hok HT I1 (run_inv _ _ HI) I2 I3 I4) as (J1 & J2 & J3 & J4 & f & J5 & J6).
    split; [exact J1|]. split; [exact J2|]. split; [exact J3|]. split; [exact J4|].
    rewrite J5, J6, I5. exact (proj1 (orb_absorb _ _ _ f)).
  - destruct IH as (I1 & I2 & I3 & I4 & I5). destruct (HB o (nth_error_In _ _ Hn)) as [Hok HT].
    unfold run2 in *. rewrite fold_left_app. cbn [fold_left]. rewrite (firstn_S_nth _ _ _ _ Hn), run_app. cbn [run fold_left].
    destruct (sim_step WB _ _ _ s0 o Hok HT I1 (run_inv _ _ HI) I3 I2 I4) as (J1 & J2 & J3 & J4 & f & J5 & J6).
    split; [exact J1|]. split; [exact J3|]. split; [exact J2|]. split; [exact J4|].
    rewrite J5, J6, I5. exact (proj2 (orb_absorb _ _ _ f)).
Qed.
End TwoCalls.

Definition upload_names (final : str) (p : str) : Prop := p = final \/ p = final ++ putfile_tmp_ext.

Lemma upload_ops_ok : forall final blocks oc o, In o (upload_ops final blocks oc) ->
  okop o = true /\ forall p, In p (touched o) -> upload_names final p.
Proof.
  intros final blocks oc o Ho. split; [|intros p Hp; exact (upload_touches_only_tmp_and_final final blocks oc o p Ho Hp)].
  revert o Ho. apply upload_ops_forall; try intros b; reflexivity.
Qed.

(* EVERY schedule of two uploads whose final names differ and where neither final name is the other's temporary (this is the
   exact guard: the four names final_A, final_A.partial, final_B, final_B.partial are pairwise distinct): the file system
   agrees, on each call's names, with that call run ALONE on the initial state for the same number of operations -- so every
   single-upload theorem (atomic publish, interrupted upload, containment) holds for each of them, and nothing else changes *)
Theorem concurrent_simulation : forall s0 fa ba oca fb bb ocb kA kB l,
  Inv s0 -> failed s0 = false -> handle s0 = None ->
  fa <> fb -> fa <> fb ++ putfile_tmp_ext -> fb <> fa ++ putfile_tmp_ext ->
  sched (upload_ops fa ba oca) (upload_ops fb bb ocb) kA kB l ->
  G (upload_names fa) (upload_names fb) (run2 (lift2 s0) l) /\
  agree (upload_names fa) (as1 WA (run2 (lift2 s0) l)) (run s0 (firstn kA (upload_ops fa ba oca))) /\
  agree (upload_names fb) (as1 WB (run2 (lift2 s0) l)) (run s0 (firstn kB (upload_ops fb bb ocb))) /\
  (forall q, ~ upload_names fa q -> ~ upload_names fb q -> look2 (run2 (lift2 s0) l) q = look s0 q) /\
  fo2 (run2 (lift2 s0) l) = followed (run s0 (firstn kA (upload_ops fa ba oca))) || followed (run s0 (firstn kB (upload_ops fb bb ocb))) || followed s0.
Proof.
  intros s0 fa ba oca fb bb ocb kA kB l HI Hf Hh N1 N2 N3 Hs.
  assert (Hdis : forall p, upload_names fa p -> upload_names fb p -> False).
  { intros p [->| ->] [E|E].
    - exact (N1 E).
    - exact (N2 E).
    - exact (N3 (eq_sym E)).
    - exact (N1 (app_inv_tail _ _ _ E)). }
  exact (disjoint_calls_simulation _ _ Hdis s0 _ _ kA kB l (upload_ops_ok fa ba oca) (upload_ops_ok fb bb ocb) HI Hf Hh Hs).
Qed.

(* ... spelled out: after ANY schedule nothing went through a link, each final name shows its old entry or that call's
   complete file, and every name that is not one of the four is untouched *)
Theorem concurrent_distinct_names : forall s0 fa ba oca fb bb ocb kA kB l,
  Inv s0 -> failed s0 = false -> followed s0 = false -> handle s0 = None ->
  fa <> fb -> fa <> fb ++ putfile_tmp_ext -> fb <> fa ++ putfile_tmp_ext ->
  sched (upload_ops fa ba oca) (upload_ops fb bb ocb) kA kB l ->
  fo2 (run2 (lift2 s0) l) = false /\
  (look2 (run2 (lift2 s0) l) fa = look s0 fa \/ (oca = Done /\ look2 (run2 (lift2 s0) l) fa = VFile (concat ba))) /\
  (look2 (run2 (lift2 s0) l) fb = look s0 fb \/ (ocb = Done /\ look2 (run2 (lift2 s0) l) fb = VFile (concat bb))) /\
  (forall q, q <> fa -> q <> fa ++ putfile_tmp_ext -> q <> fb -> q <> fb ++ putfile_tmp_ext ->
     look2 (run2 (lift2 s0) l) q = look s0 q).
Proof.
  intros s0 fa ba oca fb bb ocb kA kB l HI Hf Hfl Hh N1 N2 N3 Hs.
  destruct (concurrent_simulation s0 fa ba oca fb bb ocb kA kB l HI Hf Hh N1 N2 N3 Hs) as (_ & (A1 & _) & (B1 & _) & Fr & Fo).
  destruct (usession s0 fa ba oca kA (Inv_wf _ HI) (Inv_unshared _ _ HI) Hf Hfl) as (_ & UA1 & _ & UA3).
  destruct (usession s0 fb bb ocb kB (Inv_wf _ HI) (Inv_unshared _ _ HI) Hf Hfl) as (_ & UB1 & _ & UB3).
  split; [rewrite Fo, UA1, UB1, Hfl; reflexivity|]. split; [|split].
  - assert (E : look2 (run2 (lift2 s0) l) fa = look (run s0 (firstn kA (upload_ops fa ba oca))) fa) by (apply A1; left; reflexivity).
    rewrite E. exact UA3.
  - assert (E : look2 (run2 (lift2 s0) l) fb = look (run s0 (firstn kB (upload_ops fb bb ocb))) fb) by (apply (B1 fb); left; reflexivity).
    rewrite E. exact UB3.
  - intros q Q1 Q2 Q3 Q4. apply Fr; intros [X|X]; auto.
Qed.

(* that the guard of concurrent_distinct_names is needed is concurrent_same_name_refuted *)
Example concurrent_guard_example :
  let fa := ex_final in let fb := ex_base ++ [47; 121]%N in
  fa <> fb /\ fa <> fb ++ putfile_tmp_ext /\ fb <> fa ++ putfile_tmp_ext /\ Inv (mk_st [] []) /\ handle (mk_st [] []) = None.
Proof.
  cbv zeta. split; [vm_compute; discriminate|]. split; [vm_compute; discriminate|]. split; [vm_compute; discriminate|].
  split; [exact Inv_empty|reflexivity].
Qed.
