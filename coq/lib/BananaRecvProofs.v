(* Theorems about the Banana receive instance (lib/BananaRecv.v): instantiations of the generic
   results of RecvProofs.v plus properties of the discard / stack bookkeeping. *)
From Coq Require Import ZArith List Bool Lia.
Import ListNotations.
Require Import Verif.lib.PyLite Verif.gen.BananaGen Verif.lib.Token Verif.lib.Recv Verif.lib.RecvProofs Verif.lib.BananaRecv.
Local Open Scope Z_scope.

(* ---- chunk independence for the real handler semantics ---- *)
Theorem banana_chunk_independent c cs cs' : concat cs = concat cs' -> bfeed_all (init c) cs = bfeed_all (init c) cs'.
Proof. apply chunk_independent. Qed.

Theorem banana_feed_is_run c cs : bfeed_all (init c) cs = brun c (concat cs).
Proof. apply feed_all_is_run. Qed.

Theorem banana_abandon_is_final s cs : r_dead s = true -> bfeed_all s cs = (s, []).
Proof. apply dead_is_final. Qed.

(* ---- every way of abandoning the connection tells the peer and closes ---- *)
Definition closes (es : list event) : Prop := In ELose es.

Lemma fatal_closes code : closes (fatal code).
Proof. unfold closes, fatal. cbn. auto. Qed.

(* ---- handleViolation: the stack never becomes empty and the root is never popped ---- *)
Definition root_at_bottom (st : list frame) : Prop := exists pre, st = pre ++ [root_frame] /\ Forall (fun f => f_kind f <> kR) pre.

Lemma root_pop top rest : root_at_bottom (top :: rest) -> f_kind top <> kR -> root_at_bottom rest.
Proof.
  intros ([|p pre] & E & F) Ht; inversion E; subst; [contradiction Ht; reflexivity|].
  inversion F; subst. exists pre. auto.
Qed.

Lemma root_app pre st : Forall (fun f => f_kind f <> kR /\ f_kind f <> kP) pre -> root_at_bottom (pre ++ st) -> root_at_bottom st.
Proof. induction 1 as [|p pre [NR _] _ IH]; intros B; [exact B|]. apply IH, (root_pop p), NR. exact B. Qed.

(* handleViolation pops the frames that hand the violation on, down to the first that absorbs it (the root, or a frame of kind
   kP); each popped frame counts as a discarded level, except the first when the violation comes from its own CLOSE *)
Lemma hv_loop_spec : forall st d ic st' d' es, hv_loop st d ic = Some (st', d', es) ->
  exists pre top rest, st = pre ++ st' /\ st' = top :: rest /\ (f_kind top = kR \/ f_kind top = kP) /\
    Forall (fun f => f_kind f <> kR /\ f_kind f <> kP) pre /\
    d' = d + Z.of_nat (List.length pre) - (if ic then match pre with [] => 0 | _ :: _ => 1 end else 0).
Proof.
  induction st as [|f st IH]; intros d ic st' d' es E; cbn [hv_loop] in E; [discriminate|].
  destruct (Z.eqb_spec (f_kind f) kR) as [K|NR]; [|destruct (Z.eqb_spec (f_kind f) kP) as [K|NP]].
  1, 2: inversion E; subst; exists [], f, st; (split; [reflexivity|]); (split; [reflexivity|]); (split; [auto|]);
    (split; [constructor|]); destruct ic; cbn; lia.
  destruct st as [|g st]; [discriminate|].
  destruct (hv_loop (g :: st) (if ic then d else d + 1) false) as [[[s2 d2] e2]|] eqn:E1; [|discriminate]. inversion E; subst.
  destruct (IH _ _ _ _ _ E1) as (pre & t & r & E2 & E3 & K & F & D). exists (f :: pre), t, r. cbn [app List.length]. rewrite <- E2.
  split; [reflexivity|]. split; [exact E3|]. split; [exact K|]. split; [constructor; [split; assumption|exact F]|]. destruct ic; lia.
Qed.

Lemma hv_loop_root st : root_at_bottom st -> forall d ic,
  exists st' d' es, hv_loop st d ic = Some (st', d', es) /\ root_at_bottom st' /\ d <= d' /\
                    (* exactly the popped frames are counted (the first one not when inClose) *)
                    d' - d = Z.of_nat (List.length st - List.length st') - (if ic then (if (List.length st' <? List.length st)%nat then 1 else 0) else 0).
Proof.
  intros B d ic.
  assert (T : hv_loop st d ic <> None).
  { destruct B as (pre & -> & Hp). revert d ic. induction Hp as [|f pre NR _ IH]; intros d ic; [cbn; discriminate|]. cbn [app hv_loop].
    destruct (Z.eqb_spec (f_kind f) kR); [contradiction|]. destruct (f_kind f =? kP); [discriminate|].
    destruct (pre ++ [root_frame]) as [|g rest] eqn:Er; [destruct pre; discriminate|]. specialize (IH (if ic then d else d + 1) false).
    destruct (hv_loop (g :: rest) _ false) as [[[s2 d2] e2]|]; [discriminate|exact IH]. }
  destruct (hv_loop st d ic) as [[[st' d'] es]|] eqn:E; [|contradiction]. exists st', d', es. split; [reflexivity|].
  destruct (hv_loop_spec _ _ _ _ _ _ E) as (pre & t & r & -> & -> & _ & F & ->). split; [apply (root_app pre _ F B)|].
  rewrite app_length. destruct (Nat.ltb_spec (List.length (t :: r)) (List.length pre + List.length (t :: r)));
    destruct pre; cbn [List.length] in *; destruct ic; lia.
Qed.

(* ---- C11: the tasters of size-limited frames accept a body only if it fits ---- *)
Lemma sized_is_body ty : is_sized ty = true -> has_body ty = true.
Proof.
  unfold is_sized, has_body. intros H. apply orb_true_iff in H as [H|H]; [apply orb_true_iff in H as [H|H]|];
    rewrite H; repeat rewrite orb_true_r; reflexivity.
Qed.

Theorem taster_respects_limit mode f ty size :
  check_frame mode f ty size = CkOk -> is_sized ty = true ->
  (f_kind f = kS -> size <= f_param f) /\ (f_kind f = kR -> 3 <= mode -> size <= mode - 3).
Proof.
  unfold check_frame. intros H S. rewrite S in H.
  destruct (f_kind f =? kB) eqn:EB; [discriminate|].
  destruct ((f_kind f =? kI) && negb ((ty =? tok_INT) || (ty =? tok_NEG))) eqn:EI; [discriminate|].
  split.
  - intros K. rewrite K in H. change (kS =? kS) with true in H. cbn [andb] in H.
    destruct (Z.ltb_spec (f_param f) size); [discriminate|lia].
  - intros K M. rewrite K in H.
    change (kR =? kS) with false in H. change (kR =? kN) with false in H. change (kR =? kQ) with false in H.
    change (kR =? kR) with true in H. cbn [andb] in H.
    destruct ((mode =? 1) && negb ((ty =? tok_INT) || (ty =? tok_NEG) || (ty =? tok_OPEN))); [discriminate|].
    destruct ((mode =? 2) && (ty =? tok_FLOAT)); [discriminate|].
    destruct (Z.leb_spec 3 mode); [|lia]. cbn [andb] in H.
    destruct (Z.ltb_spec (mode - 3) size); [discriminate|lia].
Qed.

(* index tokens are limited to INDEX_MAX bytes whatever the schema *)
Theorem index_token_limit ty size : opener_check ty size = CkOk -> ty = tok_STRING -> size <= INDEX_MAX.
Proof.
  unfold opener_check. intros H ->. rewrite Z.eqb_refl in H. destruct (Z.ltb_spec INDEX_MAX size); [discriminate|lia].
Qed.

(* Depth bookkeeping: discardCount + live unslicers + pending OPEN tracks the nesting depth of
   the token stream exactly, whatever violations occur.  Consequence: at the end of every
   balanced top-level object the receiver is back at top level (resynchronised). *)

Definition wfc (c : bctx) : Prop := 0 <= discard c /\ root_at_bottom (stack c).

Lemma root_nonempty st : root_at_bottom st -> (1 <= List.length st)%nat.
Proof. intros (pre & -> & _). rewrite app_length. cbn. lia. Qed.

Lemma od_push c d f : open_depth (with_stack c d (f :: stack c)) = d + Z.of_nat (List.length (stack c)) + (if inOpen c then 1 else 0).
Proof. unfold open_depth, with_stack. cbn [discard stack inOpen List.length]. lia. Qed.

Lemma root_push st f : root_at_bottom st -> f_kind f <> kR -> root_at_bottom (f :: st).
Proof. intros (pre & -> & F) H. exists (f :: pre). split; [reflexivity|constructor; assumption]. Qed.

Lemma root_top_open top rest : root_at_bottom (top :: rest) -> f_open top <> None -> f_kind top <> kR.
Proof.
  intros ([|p pre] & E & F) Ho; inversion E; subst; [contradiction Ho; reflexivity|].
  inversion F; subst. assumption.
Qed.

(* the fields that no handler writes (the OPEN bookkeeping of step_nobody_hr writes the two counters) *)
Definition keeps (c c' : bctx) : Prop :=
  rootmode c' = rootmode c /\ vocab c' = vocab c /\ objctr c' = objctr c /\ inbObj c' = inbObj c.

(* updates of opentype, inbOpen and the counters are invisible here: moves_refl covers them by conversion *)
Definition moves (c c' : bctx) (k : Z) : Prop :=
  keeps c c' /\ (wfc c -> wfc c' /\ open_depth c' = open_depth c + k).

Lemma moves_refl c : moves c c 0.
Proof. split; [repeat split|]. intros W. split; [exact W|lia]. Qed.

Lemma moves_trans c1 c2 c3 j k n : moves c1 c2 j -> moves c2 c3 k -> j + k = n -> moves c1 c3 n.
Proof.
  intros ((M1 & V1 & O1 & B1) & D1) ((M2 & V2 & O2 & B2) & D2) <-. split; [repeat split; congruence|].
  intros W. destruct (D1 W) as (W2 & E2). destruct (D2 W2) as (W3 & E3). split; [exact W3|lia].
Qed.

Lemma handle_violation_depth c io ic c' es : handle_violation c io ic = Ok' c' es ->
  inOpen c' = inOpen c /\ keeps c c' /\
  exists pre, stack c = pre ++ stack c' /\
    (forall top rest, stack c = top :: rest -> f_kind top <> kR -> f_kind top <> kP -> pre <> []) /\
    (wfc c -> wfc c' /\
       open_depth c' = open_depth c + (if io then 1 else 0) - (if ic then match pre with [] => 0 | _ :: _ => 1 end else 0)).
Proof.
  unfold handle_violation.
  destruct (hv_loop (stack c) (if io then discard c + 1 else discard c) ic) as [[[st' d'] es']|] eqn:EL; [|discriminate].
  destruct (hv_loop_spec _ _ _ _ _ _ EL) as (pre & t & r & Es & -> & K & F & ->). intros E; inversion E; subst.
  split; [reflexivity|]. split; [repeat split|]. exists pre. cbn [with_stack stack]. split; [exact Es|]. split.
  - intros top rest Et NR NP ->. rewrite Et in Es. inversion Es; subst. destruct K; contradiction.
  - intros (Hd & Hr). unfold wfc, open_depth. cbn [with_stack discard stack inOpen]. rewrite Es in Hr |- *. rewrite app_length.
    split; [split; [|apply (root_app pre _ F Hr)]|]; destruct io, ic, pre; cbn [List.length]; lia.
Qed.

Lemma violation_moves c io c' es : handle_violation c io false = Ok' c' es -> moves c c' (if io then 1 else 0).
Proof.
  intros E. destruct (handle_violation_depth _ _ _ _ _ E) as (_ & F & pre & _ & _ & D). split; [exact F|].
  intros W. destruct (D W) as (W' & D'). split; [exact W'|lia].
Qed.

(* a violation raised by receiveClose or finish: the closing frame is popped without being counted *)
Lemma violation_in_close_moves c top rest c' es : stack c = top :: rest -> f_open top <> None -> f_kind top <> kP ->
  handle_violation c false true = Ok' c' es -> moves c c' (-1).
Proof.
  intros Es Ho NP E. destruct (handle_violation_depth _ _ _ _ _ E) as (_ & F & pre & _ & NE & D). split; [exact F|].
  intros W. destruct (D W) as (W' & D'). split; [exact W'|]. destruct W as (_ & Hr). rewrite Es in Hr.
  specialize (NE _ _ Es (root_top_open _ _ Hr Ho) NP). destruct pre; [contradiction|lia].
Qed.

(* a violation of the taster, or an ABORT: a pending index phase is counted as one discarded level and ended *)
Lemma violation_in_index_moves c c' es : handle_violation c (inOpen c) false = Ok' c' es -> moves c (with_inOpen c' false) 0.
Proof.
  intros E. destruct (handle_violation_depth _ _ _ _ _ E) as (I & F & pre & _ & _ & D). split; [exact F|].
  intros W. destruct (D W) as (W' & D'). split; [exact W'|].
  unfold open_depth in *. cbn [with_inOpen discard stack inOpen]. rewrite I in D'. destruct (inOpen c); lia.
Qed.

Lemma handle_token_moves c v c' es : handle_token c v = Ok' c' es -> moves c c' 0.
Proof.
  unfold handle_token. destruct (stack c) as [|top rest] eqn:Es; [discriminate|].
  destruct (Z.eqb_spec (f_kind top) kR) as [|NR]; [intros E; inversion E; subst; apply moves_refl|].
  destruct ((f_kind top =? kC) && (Z.of_nat (List.length (f_items top)) =? f_param top)).
  - destruct (handle_violation c false false) as [c1 es1|] eqn:EV; [|discriminate]. intros E; inversion E; subst.
    apply (violation_moves _ _ _ _ EV).
  - intros E; inversion E; subst. split; [repeat split|]. intros (Hd & Hr). rewrite Es in Hr.
    unfold wfc, open_depth. cbn [with_stack discard stack inOpen]. rewrite Es. cbn [List.length].
    split; [split; [exact Hd|apply root_push; [apply (root_pop top rest Hr NR)|exact NR]]|lia].
Qed.

Lemma handle_close_moves c n c' es : handle_close c n = Ok' c' es -> moves c c' (-1).
Proof.
  unfold handle_close. destruct (stack c) as [|top rest] eqn:Es; [discriminate|].
  destruct (f_open top) as [oc|] eqn:Eo; [|discriminate]. destruct (negb (oc =? n)); [discriminate|].
  assert (Ho : f_open top <> None) by congruence.
  destruct (Z.eqb_spec (f_kind top) kX) as [EK|_]; [|destruct (Z.eqb_spec (f_kind top) kF) as [EK|_]].
  1, 2: destruct (handle_violation c false true) as [c1 es1|] eqn:EV; [|discriminate]; intros E; inversion E; subst;
    refine (violation_in_close_moves _ _ _ _ _ Es Ho _ EV); rewrite EK; discriminate.
  - destruct (handle_token _ _) as [c1 es1|] eqn:ET; [|discriminate]. intros E; inversion E; subst.
    refine (moves_trans _ _ _ (-1) 0 _ _ (handle_token_moves _ _ _ _ ET) eq_refl).
    split; [repeat split|]. intros (Hd & Hr). rewrite Es in Hr.
    unfold wfc, open_depth. cbn [with_stack discard stack inOpen]. rewrite Es. cbn [List.length].
    split; [split; [exact Hd|apply (root_pop top rest Hr (root_top_open _ _ Hr Ho))]|lia].
Qed.

Lemma do_open_child_kind top ot k p : do_open top ot = OChild k p -> k <> kR.
Proof.
  unfold do_open. destruct ot as [|head more]; [discriminate|]. destruct head as [|k0 digits]; [discriminate|].
  destruct (k0 =? k2).
  - destruct more; [discriminate|]. destruct (f_kind top =? kI); [discriminate|]. intros E; inversion E; subst. discriminate.
  - destruct (negb (known_kind k0) || negb (forallb is_digit digits)) eqn:EK; [discriminate|].
    destruct (f_kind top =? kI); [discriminate|]. intros E; inversion E; subst.
    apply orb_false_iff in EK as [EK _]. apply negb_false_iff in EK. intros ->. discriminate EK.
Qed.

(* an index token: the pending OPEN stays pending, becomes a live unslicer, or becomes a discarded level *)
Lemma handle_open_moves c v c' es : inOpen c = true -> handle_open c v = Ok' c' es -> moves c c' 0.
Proof.
  intros IO. unfold handle_open. destruct v as [z|b|b|k items]; try discriminate.
  destruct (negb (ascii_only b)); [discriminate|].
  destruct (stack c) as [|top rest] eqn:Es; [discriminate|]. rewrite <- Es.
  destruct (do_open top (opentype c ++ [b])) as [| |k p] eqn:ED.
  - intros E; inversion E; subst. exact (moves_refl c).
  - destruct (handle_violation _ true false) as [c1 es1|] eqn:EV; [|discriminate]. intros E; inversion E; subst.
    refine (moves_trans _ _ _ (-1) 1 _ _ (violation_moves _ _ _ _ EV) eq_refl).
    split; [repeat split|]. intros W. split; [exact W|]. unfold open_depth. cbn [with_inOpen with_opentype discard stack inOpen].
    rewrite IO. lia.
  - set (c2 := with_stack _ _ _).
    assert (M2 : moves c c2 0).
    { split; [repeat split|]. intros (Hd & Hr). split; [split; [exact Hd|apply (root_push _ _ Hr), (do_open_child_kind _ _ _ _ ED)]|].
      unfold c2, open_depth. cbn [with_stack with_inOpen with_opentype discard stack inOpen List.length]. rewrite IO. lia. }
    destruct (k =? kT).
    + destruct (handle_violation c2 false false) as [c3 es3|] eqn:EV; [|discriminate]. intros E; inversion E; subst.
      apply (moves_trans _ _ _ 0 0 _ M2 (violation_moves _ _ _ _ EV) eq_refl).
    + intros E; inversion E; subst. exact M2.
Qed.

Lemma deliver_moves c v c' es : deliver c v = Ok' c' es -> moves c c' 0.
Proof. unfold deliver. destruct (inOpen c) eqn:IO; [apply handle_open_moves; exact IO|apply handle_token_moves]. Qed.

Lemma begin_body_reject_moves c ty hdr c' es : begin_body c ty hdr = BReject c' es -> moves c c' 0.
Proof.
  unfold begin_body. destruct (0 <? discard c); [intros E; inversion E; subst; apply moves_refl|].
  destruct (taste c ty hdr); try discriminate.
  destruct (handle_violation c (inOpen c) false) as [c1 es1|] eqn:EV; [|discriminate]. intros E; inversion E; subst.
  apply (violation_in_index_moves _ _ _ EV).
Qed.

(* the OPEN bookkeeping that comes before the taste *)
Definition opened (c : bctx) (ty : Z) : bctx :=
  if ty =? tok_OPEN then
    {| discard := discard c; inOpen := true; opentype := opentype c; stack := stack c; objctr := objctr c + 1;
       inbObj := objctr c; inbOpen := inbOpen c; rootmode := rootmode c; vocab := vocab c |}
  else c.

(* the taste: the context to go on with, what the violation handler emitted, and whether the token is rejected *)
Definition tasted (c1 : bctx) (wasInOpen rejected0 : bool) (ty hdr : Z) : option (bctx * list event * bool) :=
  if rejected0 || ((ty =? tok_PING) || (ty =? tok_PONG) || (ty =? tok_ABORT) || (ty =? tok_CLOSE)) then Some (c1, [], rejected0)
  else match (match stack c1 with
              | [] => CkBanana
              | top :: _ => if wasInOpen then opener_check ty hdr else check_frame (rootmode c1) top ty hdr
              end) with
       | CkOk => Some (c1, [], false)
       | CkBanana => None
       | CkViol => match handle_violation c1 (inOpen c1) false with
                   | Ok' c' es => Some (with_inOpen c' false, es, true)
                   | Fatal' _ => None
                   end
       end.

Definition pre (es : list event) (r : hr) : hr :=
  match r with Ok' c' es' => Ok' c' (es ++ es') | Fatal' es' => Fatal' (es ++ es') end.

Definition clause (c2 : bctx) (es : list event) (rejected : bool) (ty hdr : Z) : hr :=
  if ty =? tok_OPEN then
    let c3 := {| discard := discard c2; inOpen := inOpen c2; opentype := opentype c2; stack := stack c2; objctr := objctr c2;
                 inbObj := inbObj c2; inbOpen := hdr; rootmode := rootmode c2; vocab := vocab c2 |} in
    if rejected then
      if inOpen c3 then Ok' (with_inOpen (with_stack c3 (discard c3 + 1) (stack c3)) false) es
      else Ok' c3 es
    else Ok' (with_opentype (with_inOpen c3 true) []) es
  else if ty =? tok_CLOSE then
    if inOpen c2 && (discard c2 =? 0) then Fatal' (es ++ fatal 0)
    else if 0 <? discard c2 then Ok' (with_stack c2 (discard c2 - 1) (stack c2)) es
    else pre es (handle_close c2 hdr)
  else if ty =? tok_ABORT then
    if rejected then Ok' c2 es
    else pre es (match handle_violation c2 (inOpen c2) false with
                 | Ok' c' es' => Ok' (with_inOpen c' false) es' | Fatal' es' => Fatal' es' end)
  else if ty =? tok_INT then (if rejected then Ok' c2 es else pre es (deliver c2 (VInt hdr)))
  else if ty =? tok_NEG then (if rejected then Ok' c2 es else pre es (deliver c2 (VInt (- hdr))))
  else if ty =? tok_VOCAB then
    match vocab_get (vocab c2) hdr with
    | None => Fatal' (es ++ fatal 1)
    | Some w => if rejected then Ok' c2 es else pre es (deliver c2 (VStr w))
    end
  else if ty =? tok_PING then Ok' c2 (es ++ [EPong hdr])
  else if ty =? tok_PONG then Ok' c2 es
  else Fatal' (es ++ fatal 0).

Lemma step_nobody_hr_phases c ty hdr : step_nobody_hr c ty hdr =
  if (ty =? tok_OPEN) && inOpen c then Fatal' (fatal 0)
  else match tasted (opened c ty) (inOpen c) (0 <? discard c) ty hdr with
       | None => Fatal' (fatal 0)
       | Some (c2, es, rejected) => clause c2 es rejected ty hdr
       end.
Proof. reflexivity. Qed.

Lemma pre_ok es r c' es' : pre es r = Ok' c' es' -> exists es0, r = Ok' c' es0.
Proof. destruct r; intros E; inversion E; subst; eauto. Qed.

Lemma tasted_moves c1 w r0 ty hdr c2 es rej : tasted c1 w r0 ty hdr = Some (c2, es, rej) ->
  moves c1 c2 0 /\ (rej = false -> c2 = c1).
Proof.
  unfold tasted. destruct (r0 || _); [intros E; inversion E; subst; split; [apply moves_refl|reflexivity]|].
  destruct (match stack c1 with [] => _ | _ => _ end); try discriminate.
  - intros E; inversion E; subst; split; [apply moves_refl|reflexivity].
  - destruct (handle_violation c1 (inOpen c1) false) as [c3 es3|] eqn:EV; [|discriminate]. intros E; inversion E; subst.
    split; [apply (violation_in_index_moves _ _ _ EV)|discriminate].
Qed.

(* an accepted OPEN finds the index phase begun by `opened`; a rejected one counts it as a discarded level *)
Lemma clause_moves c es rej ty hdr c' es' : (ty = tok_OPEN -> rej = false -> inOpen c = true) ->
  clause c es rej ty hdr = Ok' c' es' -> moves c c' (if ty =? tok_CLOSE then -1 else 0).
Proof.
  intros IO. unfold clause.
  assert (same : forall es0, Ok' c es0 = Ok' c' es' -> moves c c' 0) by (intros es0 E; inversion E; subst; apply moves_refl).
  assert (deliv : forall v, pre es (deliver c v) = Ok' c' es' -> moves c c' 0).
  { intros v E. apply pre_ok in E as (es0 & E). apply (deliver_moves _ _ _ _ E). }
  destruct (Z.eqb_spec ty tok_OPEN) as [->|_].
  { change (tok_OPEN =? tok_CLOSE) with false. cbv zeta. cbn [inOpen]. destruct rej.
    - destruct (inOpen c) eqn:I; intros E; inversion E; subst; (split; [repeat split|]); intros (Hd & Hr);
        unfold wfc, open_depth; cbn [with_inOpen with_stack discard stack inOpen]; rewrite I; (split; [split; [lia|exact Hr]|lia]).
    - intros E; inversion E; subst. split; [repeat split|]. intros W. split; [exact W|].
      unfold open_depth. cbn [with_opentype with_inOpen discard stack inOpen]. rewrite (IO eq_refl eq_refl). lia. }
  destruct (ty =? tok_CLOSE).
  { destruct (inOpen c && (discard c =? 0)); [discriminate|]. destruct (Z.ltb_spec 0 (discard c)).
    - intros E; inversion E; subst. split; [repeat split|]. intros (Hd & Hr).
      unfold wfc, open_depth. cbn [with_stack discard stack inOpen]. split; [split; [lia|exact Hr]|lia].
    - intros E. apply pre_ok in E as (es0 & E). apply (handle_close_moves _ _ _ _ E). }
  destruct (ty =? tok_ABORT).
  { destruct rej; [apply same|]. intros E. apply pre_ok in E as (es0 & E).
    destruct (handle_violation c (inOpen c) false) as [c1 es1|] eqn:EV; [|discriminate]. inversion E; subst.
    apply (violation_in_index_moves _ _ _ EV). }
  destruct (ty =? tok_INT); [destruct rej; [apply same|apply deliv]|].
  destruct (ty =? tok_NEG); [destruct rej; [apply same|apply deliv]|].
  destruct (ty =? tok_VOCAB); [destruct (vocab_get (vocab c) hdr); [destruct rej; [apply same|apply deliv]|discriminate]|].
  destruct (ty =? tok_PING); [apply same|]. destruct (ty =? tok_PONG); [apply same|discriminate].
Qed.

Lemma step_nobody_moves c ty hdr c' es : step_nobody_hr c ty hdr = Ok' c' es ->
  (ty = tok_OPEN -> inOpen c = false) /\ moves (opened c ty) c' (if ty =? tok_CLOSE then -1 else 0).
Proof.
  rewrite step_nobody_hr_phases. intros E.
  assert (IO : ty = tok_OPEN -> inOpen c = false) by (intros ->; destruct (inOpen c); [discriminate E|reflexivity]).
  split; [exact IO|]. destruct ((ty =? tok_OPEN) && inOpen c); [discriminate|].
  destruct (tasted _ _ _ ty hdr) as [[[c2 es2] rej]|] eqn:ET; [|discriminate].
  destruct (tasted_moves _ _ _ _ _ _ _ _ ET) as (M2 & Acc).
  refine (moves_trans _ _ _ 0 _ _ M2 (clause_moves _ _ _ _ _ _ _ _ E) eq_refl).
  intros -> R. rewrite (Acc R). reflexivity.
Qed.

Lemma has_body_delta ty : has_body ty = true -> tok_delta ty = 0.
Proof.
  unfold has_body, tok_delta. intros H.
  destruct (Z.eqb_spec ty tok_OPEN) as [->|_]; [discriminate|].
  destruct (Z.eqb_spec ty tok_CLOSE) as [->|_]; [discriminate|]. reflexivity.
Qed.

Theorem tok_apply_moves c ty hdr body c' es : tok_apply c ty hdr body = Ok' c' es ->
  (ty = tok_OPEN -> inOpen c = false) /\ moves (opened c ty) c' (if ty =? tok_CLOSE then -1 else 0).
Proof.
  unfold tok_apply. destruct (has_body ty) eqn:HB; [|apply step_nobody_moves].
  pose proof (has_body_delta ty HB) as D. unfold tok_delta, opened in *.
  destruct (Z.eqb_spec ty tok_OPEN); [discriminate|]. destruct (ty =? tok_CLOSE); [discriminate|].
  intros E. split; [intros; contradiction|].
  destruct (begin_body c ty hdr) as [|c1 es1|es1] eqn:EB; [| |discriminate].
  - apply (deliver_moves _ _ _ _ E).
  - inversion E; subst. apply (begin_body_reject_moves _ _ _ _ _ EB).
Qed.

(* every complete token moves the receiver's depth exactly as it moves the stream's nesting depth *)
Theorem tok_apply_depth c ty hdr body c' es : wfc c -> tok_apply c ty hdr body = Ok' c' es ->
  wfc c' /\ rootmode c' = rootmode c /\ vocab c' = vocab c /\ open_depth c' = open_depth c + tok_delta ty.
Proof.
  intros W E. destruct (tok_apply_moves _ _ _ _ _ _ E) as (IO & (M & V & _) & D). unfold opened, tok_delta in *.
  destruct (Z.eqb_spec ty tok_OPEN) as [->|_].
  - destruct (D W) as (W' & D'). repeat split; try assumption; try apply W'. rewrite D'. unfold open_depth. cbn [discard stack inOpen].
    rewrite (IO eq_refl). change (tok_OPEN =? tok_CLOSE) with false. lia.
  - destruct (D W) as (W' & D'). repeat split; try assumption; apply W'.
Qed.

Fixpoint delta_sum (ts : list (Z * Z * list Z)) : Z :=
  match ts with [] => 0 | (ty, _, _) :: r => tok_delta ty + delta_sum r end.

Theorem apply_all_depth ts : forall c c' es, wfc c -> apply_all c ts = Ok' c' es ->
  wfc c' /\ rootmode c' = rootmode c /\ vocab c' = vocab c /\ open_depth c' = open_depth c + delta_sum ts.
Proof.
  induction ts as [|[[ty hdr] body] ts IH]; intros c c' es W E; cbn [apply_all delta_sum] in *.
  - inversion E; subst. repeat split; try apply W; lia.
  - destruct (tok_apply c ty hdr body) as [c1 es1|] eqn:E1; [|discriminate].
    destruct (apply_all c1 ts) as [c2 es2|] eqn:E2; [|discriminate]. inversion E; subst.
    destruct (tok_apply_depth _ _ _ _ _ _ W E1) as (W1 & M1 & V1 & D1).
    destruct (IH _ _ _ W1 E2) as (W2 & M2 & V2 & D2).
    split; [exact W2|]. split; [congruence|]. split; [congruence|]. lia.
Qed.

Lemma ctx0_wf m v : wfc (ctx0 m v).
Proof. split; [cbn; lia|]. exists []. split; [reflexivity|constructor]. Qed.

Lemma at_top_depth c : at_top c -> open_depth c = 0.
Proof. intros (D & I & S). unfold open_depth. rewrite D, I, S. reflexivity. Qed.

Lemma depth_zero_top c : wfc c -> open_depth c = 0 -> at_top c.
Proof.
  intros (Hd & Hr) D. unfold open_depth in D. pose proof (root_nonempty _ Hr) as L.
  destruct (inOpen c) eqn:I.
  - lia.
  - assert (discard c = 0) by lia. assert (HL : List.length (stack c) = 1%nat) by lia.
    split; [assumption|]. split; [exact I|].
    destruct Hr as (pre & E & _). rewrite E in HL |- *. rewrite app_length in HL. cbn in HL.
    destruct pre; [reflexivity|cbn in HL; lia].
Qed.

(* RESYNCHRONISATION.  Whatever happens inside a top-level object -- violations at any depth,
   absorbed or propagated, ABORTs, rejected or skipped tokens -- as long as the connection is not
   abandoned, after a token sequence whose OPENs and CLOSEs balance the receiver is back at top
   level: nothing is being discarded, no unslicer is left on the stack, no index phase is pending.
   The following object is therefore decoded exactly as after a violation-free object. *)
Theorem resync c ts c' es : at_top c -> wfc c -> delta_sum ts = 0 -> apply_all c ts = Ok' c' es -> at_top c'.
Proof.
  intros T W B E. destruct (apply_all_depth ts c c' es W E) as (W' & _ & _ & D).
  apply depth_zero_top; [exact W'|]. rewrite D, (at_top_depth c T), B. reflexivity.
Qed.

(* ... and the depth never goes negative: a prefix of tokens cannot close more than was opened
   without the connection being abandoned *)
Theorem depth_nonneg c ts c' es : wfc c -> apply_all c ts = Ok' c' es -> 0 <= open_depth c + delta_sum ts.
Proof.
  intros W E. destruct (apply_all_depth ts c c' es W E) as ((Hd & Hr) & _ & _ & D).
  rewrite <- D. unfold open_depth. pose proof (root_nonempty _ Hr). destruct (inOpen c'); lia.
Qed.

Theorem banana_ping_exact c n : tok_apply c tok_PING n [] = Ok' c [EPong n].
Proof.
  change (tok_apply c tok_PING n []) with (step_nobody_hr c tok_PING n). rewrite step_nobody_hr_phases.
  unfold tasted. destruct (0 <? discard c); reflexivity.
Qed.

(* PING is transparent and answered by exactly one PONG with the same number, in every context *)
Theorem ping_transparent c n : exists c', tok_apply c tok_PING n [] = Ok' c' [EPong n] \/
                                           (exists es, tok_apply c tok_PING n [] = Fatal' es).
Proof. exists c. left. apply banana_ping_exact. Qed.

(* ---- byte level and token level agree: once a token is complete in the buffer, the tokenizer
   applies exactly tok_apply to it and continues with the remaining bytes ---- *)
Notation btok_step := (tok_step bctx event begin_body finish_body step_nobody (fatal 0) (fatal 0) (fun _ => [ELose])).

Theorem tok_step_complete c b ds ty rest :
  scan_header 64 [] b = HOk ds ty rest -> ty <> tok_ERROR ->
  (has_body ty = true -> blen ty (le128 ds) <= lenZ rest) ->
  let n := if has_body ty then blen ty (le128 ds) else 0 in
  btok_step c b =
  match tok_apply c ty (le128 ds) (firstn (Z.to_nat n) rest) with
  | Ok' c' es => TCont bctx event c' es (skipn (Z.to_nat n) rest)
  | Fatal' es => TDead bctx event es
  end.
Proof.
  intros S NE HB. unfold Recv.tok_step. rewrite S.
  destruct (Z.eqb_spec ty tok_ERROR); [contradiction|].
  unfold tok_apply. destruct (has_body ty) eqn:Hb.
  - specialize (HB eq_refl). destruct (begin_body c ty (le128 ds)) as [|c1 es1|es1]; [| |reflexivity].
    + destruct (Z.ltb_spec (lenZ rest) (blen ty (le128 ds))); [lia|].
      unfold finish_body, to_generic. destruct (deliver c (body_val ty _)); reflexivity.
    + destruct (Z.ltb_spec (lenZ rest) (blen ty (le128 ds))); [lia|]. reflexivity.
  - cbn [Z.to_nat firstn skipn]. unfold step_nobody, to_generic. destruct (step_nobody_hr c ty (le128 ds)); reflexivity.
Qed.
