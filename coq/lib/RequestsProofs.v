(* C03 -- proofs about the request-table model (lib/Requests.v) instantiated with the programs translated
   from call.py / broker.py into gen/RequestsGen.v.  The closed-form lemmas (complete_step_closed, fail_step_closed,
   finish_step_closed) are where a change of the translated source shows up: they are proved by running the
   interpreter on the generated programs.  The property theorems are read off one invariant of every reachable state
   (Inv). *)
From Coq Require Import ZArith List Bool Lia.
Import ListNotations.
Require Import Verif.gen.RequestsGen Verif.lib.Requests.
Local Open Scope Z_scope.

Lemma run_is_exec_ps h o ps : forall x,
  (fix run (ps : list pstmt) (x : st * bool) {struct ps} : st * bool :=
     match ps with [] => x | p' :: ps' => run ps' (exec_p p' h o x) end) ps x = exec_ps ps h o x.
Proof. induction ps as [|p ps IH]; intros x; cbn [exec_ps]; [reflexivity|]. apply IH. Qed.

Lemma exec_p_raised p h o s : exec_p p h o (s, true) = (s, true).
Proof. destruct p; reflexivity. Qed.

Lemma exec_ps_raised ps h o s : exec_ps ps h o (s, true) = (s, true).
Proof. induction ps as [|p ps IH]; cbn [exec_ps]; [reflexivity|]. rewrite exec_p_raised. exact IH. Qed.

Lemma exec_ps_none ps h o s : get s h = None -> exec_ps ps h o (s, false) = (s, false).
Proof.
  intros G. induction ps as [|p ps IH]; cbn [exec_ps]; [reflexivity|].
  replace (exec_p p h o (s, false)) with (s, false); [exact IH|]. destruct p; cbn [exec_p snd fst]; rewrite G; reflexivity.
Qed.

Lemma exec_p_at p h o s c : get s h = Some c ->
  exec_p p h o (s, false) =
  match p with
  | PIfBroker body => if c_tracked c then exec_ps body h o (s, false) else (s, false)
  | PIfActive th el => if c_active c then exec_ps th h o (s, false) else exec_ps el h o (s, false)
  | PRemove => do_remove s (c_rid c)
  | PSetActive b => (set_calls s (upd h (set_active b) (calls s)), false)
  | PCallback => (set_calls s (upd h (add_fire OResult) (calls s)), false)
  | PErrback => (set_calls s (upd h (add_fire o) (calls s)), false)
  | PSetFailure | PLog => (s, false)
  end.
Proof.
  intros G. destruct p; cbn [exec_p snd fst]; rewrite G; try reflexivity.
  - destruct (c_tracked c); [apply run_is_exec_ps | reflexivity].
  - destruct (c_active c); apply run_is_exec_ps.
Qed.

Lemma run_from_app s ops1 ops2 : run_from s (ops1 ++ ops2) = run_from (run_from s ops1) ops2.
Proof. apply fold_left_app. Qed.

Lemma run_app ops1 ops2 : run (ops1 ++ ops2) = run_from (run ops1) ops2.
Proof. apply run_from_app. Qed.

Lemma run_snoc ops x : run (ops ++ [x]) = step (run ops) x.
Proof. apply run_app. Qed.

Lemma nth_upd (l : list call) : forall h h' f,
  nth_error (upd h f l) h' = if Nat.eqb h h' then option_map f (nth_error l h') else nth_error l h'.
Proof.
  induction l as [|a l IH]; intros [|h] [|h'] f; cbn; try reflexivity.
  - destruct (Nat.eqb h h'); reflexivity.
  - apply IH.
Qed.

Lemma length_upd (l : list call) : forall h f, List.length (upd h f l) = List.length l.
Proof. induction l as [|a l IH]; intros [|h] f; cbn; auto. Qed.

Lemma upd_upd (l : list call) : forall h f g, upd h g (upd h f l) = upd h (fun c => g (f c)) l.
Proof. induction l as [|a l IH]; intros [|h] f g; cbn; try reflexivity. f_equal. apply IH. Qed.

Lemma tbl_has_true rid t : tbl_has rid t = true <-> In rid (map fst t).
Proof.
  unfold tbl_has. rewrite existsb_exists. split.
  - intros [e [H1 H2]]. apply Z.eqb_eq in H2. subst. apply in_map. exact H1.
  - intros H. apply in_map_iff in H as [e [H1 H2]]. exists e. split; auto. apply Z.eqb_eq. auto.
Qed.

Lemma tbl_del_in rid t e : In e (tbl_del rid t) <-> In e t /\ fst e <> rid.
Proof.
  unfold tbl_del. rewrite filter_In. split; intros [H1 H2]; split; auto.
  - apply negb_true_iff in H2. apply Z.eqb_neq in H2. exact H2.
  - apply negb_true_iff. apply Z.eqb_neq. exact H2.
Qed.

Lemma tbl_del_sub rid t e : In e (tbl_del rid t) -> In e t.
Proof. intros H. apply tbl_del_in in H. apply H. Qed.

Lemma tbl_find_some rid t h : tbl_find rid t = Some h -> In (rid, h) t.
Proof.
  induction t as [|[r k] t IH]; cbn; [discriminate|].
  destruct (Z.eqb_spec r rid) as [->|N]; intros H.
  - inversion H; subst. left. reflexivity.
  - right. auto.
Qed.

Lemma tbl_find_none rid t : tbl_find rid t = None -> ~ In rid (map fst t).
Proof.
  induction t as [|[r k] t IH]; cbn; [tauto|].
  destruct (Z.eqb_spec r rid) as [->|N]; intros H; [discriminate|].
  intros [E|E]; [congruence | apply IH; auto].
Qed.

Lemma NoDup_map_filter {A B} (f : A -> B) (p : A -> bool) l : NoDup (map f l) -> NoDup (map f (filter p l)).
Proof.
  induction l as [|a l IH]; cbn; intros H; [constructor|].
  apply NoDup_cons_iff in H as [N H]. destruct (p a); cbn; auto.
  constructor; auto. intros X. apply N. apply in_map_iff in X as [y [E Y]]. apply filter_In in Y as [Y _].
  rewrite <- E. apply in_map. exact Y.
Qed.

Definition deactivate_and_fire (o : outcome) (c : call) : call := add_fire o (set_active false c).
Definition fire (s : st) (h : nat) (o : outcome) : st := set_calls s (upd h (deactivate_and_fire o) (calls s)).

Definition complete_closed (s : st) (h : nat) : st :=
  match get s h with
  | None => s
  | Some c =>
    if c_tracked c then
      if tbl_has (c_rid c) (table s) then
        let s1 := set_table s (tbl_del (c_rid c) (table s)) in
        if c_active c then fire s1 h OResult else s1
      else bump_raised s
    else if c_active c then fire s h OResult else s
  end.

Definition fail_closed (s : st) (h : nat) (o : outcome) : st :=
  match get s h with
  | None => s
  | Some c =>
    if c_active c then
      if c_tracked c then
        if tbl_has (c_rid c) (table s) then fire (set_table s (tbl_del (c_rid c) (table s))) h o
        else bump_raised s
      else fire s h o
    else s
  end.

Lemma get_set_table s t h : get (set_table s t) h = get s h. Proof. reflexivity. Qed.
Lemma get_set_calls_upd s h f c : get s h = Some c -> get (set_calls s (upd h f (calls s))) h = Some (f c).
Proof. unfold get. cbn [calls set_calls]. intros G. rewrite nth_upd, Nat.eqb_refl, G. reflexivity. Qed.

Lemma complete_step_closed s h : complete_step s h = complete_closed s h.
Proof.
  unfold complete_step, complete_closed, PendingRequest_complete.
  destruct (get s h) as [c|] eqn:G; [|rewrite exec_ps_none; auto].
  assert (A : forall s', get s' h = Some c ->
            fst (exec_p (PIfActive [PSetActive false; PCallback] [PLog]) h OResult (s', false)) =
            if c_active c then fire s' h OResult else s').
  { intros s' G'. rewrite (exec_p_at _ _ _ _ _ G'). destruct (c_active c); cbn [exec_ps].
    - rewrite (exec_p_at _ _ _ _ _ G'), (exec_p_at _ _ _ _ _ (get_set_calls_upd _ _ _ _ G')).
      cbn [fst calls set_calls]. unfold fire. rewrite upd_upd. reflexivity.
    - rewrite (exec_p_at _ _ _ _ _ G'). reflexivity. }
  cbn [exec_ps]. rewrite (exec_p_at _ _ _ _ _ G). destruct (c_tracked c); [|exact (A s G)].
  cbn [exec_ps]. rewrite (exec_p_at _ _ _ _ _ G). unfold do_remove, removeRequest_kind.
  destruct (tbl_has (c_rid c) (table s)); [exact (A (set_table s _) G) | rewrite exec_p_raised; reflexivity].
Qed.

Lemma fail_step_closed s h o : fail_step s h o = fail_closed s h o.
Proof.
  unfold fail_step, fail_closed, PendingRequest_fail.
  destruct (get s h) as [c|] eqn:G; [|rewrite exec_ps_none; auto].
  assert (A : forall s', get s' h = Some c ->
            fst (exec_ps [PSetActive false; PSetFailure; PLog; PErrback] h o (s', false)) = fire s' h o).
  { intros s' G'. pose proof (get_set_calls_upd _ _ (set_active false) _ G') as G2. cbn [exec_ps].
    rewrite (exec_p_at _ _ _ _ _ G'), (exec_p_at PSetFailure _ _ _ _ G2), (exec_p_at PLog _ _ _ _ G2),
      (exec_p_at PErrback _ _ _ _ G2).
    cbn [fst calls set_calls]. unfold fire. rewrite upd_upd. reflexivity. }
  cbn [exec_ps]. rewrite (exec_p_at _ _ _ _ _ G). destruct (c_active c); cbn [exec_ps].
  2:{ rewrite (exec_p_at _ _ _ _ _ G). reflexivity. }
  rewrite (exec_p_at _ _ _ _ _ G). destruct (c_tracked c); [|exact (A s G)].
  cbn [exec_ps]. rewrite (exec_p_at _ _ _ _ _ G). unfold do_remove, removeRequest_kind.
  destruct (tbl_has (c_rid c) (table s)); [exact (A (set_table s _) G) | rewrite !exec_p_raised; reflexivity].
Qed.

Definition finish_closed (s : st) (o : outcome) : st :=
  if disconnected s then s
  else set_evq (set_disconnected s) (evq s ++ map (fun e => EFail (snd e) o) (table s)).

Lemma finish_step_closed s o : finish_step s o = finish_closed s o.
Proof.
  unfold finish_step, finish_closed, Broker_finish. cbn [exec_f].
  destruct (disconnected s); reflexivity.
Qed.

Definition call_ok (c : call) : Prop :=
  (List.length (c_fires c) <= 1)%nat /\
  (c_active c = true -> c_fires c = []) /\
  (c_active c = false -> c_twoway c = true -> List.length (c_fires c) = 1%nat) /\
  (c_tracked c = true -> c_twoway c = true) /\
  (c_twoway c = true -> c_active c = true -> c_tracked c = true).

Record Inv0 (s : st) : Prop := {
  I_calls : forall h c, get s h = Some c -> call_ok c;
  I_tbl : forall rid h, In (rid, h) (table s) ->
          exists c, get s h = Some c /\ c_rid c = rid /\ c_tracked c = true /\ c_active c = true;
  I_pend : forall h c, get s h = Some c -> c_tracked c = true -> c_active c = true -> In (c_rid c, h) (table s);
  I_fresh : forall h c, get s h = Some c -> c_tracked c = true -> first_reqid <= c_rid c < nextid s;
  I_uniq : forall h1 h2 c1 c2, get s h1 = Some c1 -> get s h2 = Some c2 ->
           c_tracked c1 = true -> c_tracked c2 = true -> c_rid c1 = c_rid c2 -> h1 = h2;
  I_nodup : NoDup (map fst (table s));
  I_next : first_reqid <= nextid s
}.

Definition Disc (s : st) : Prop :=
  disconnected s = true -> forall rid h, In (rid, h) (table s) -> exists o, In (EFail h o) (evq s).

(* only finish() queues a req.fail, and it sets disconnected *)
Definition Quiet (s : st) : Prop := disconnected s = false -> forall h o, ~ In (EFail h o) (evq s).

Definition Inv (s : st) : Prop := Inv0 s /\ Disc s /\ Quiet s.

Lemma get_push_old s c h c' : get s h = Some c' -> get (push s c) h = Some c'.
Proof.
  unfold get, push. cbn [calls set_calls]. intros H.
  rewrite nth_error_app1; [exact H | apply nth_error_Some; congruence].
Qed.

Lemma get_push_new s c : get (push s c) (List.length (calls s)) = Some c.
Proof. unfold get, push. cbn [calls set_calls]. rewrite nth_error_app2 by lia. rewrite Nat.sub_diag. reflexivity. Qed.

Lemma get_push s c h c' : get (push s c) h = Some c' ->
  get s h = Some c' \/ (h = List.length (calls s) /\ c' = c).
Proof.
  unfold get, push. cbn [calls set_calls]. intros H.
  destruct (Nat.lt_ge_cases h (List.length (calls s))) as [L|L].
  - rewrite nth_error_app1 in H by auto. left. exact H.
  - rewrite nth_error_app2 in H by auto. right.
    destruct (h - List.length (calls s))%nat as [|k] eqn:E.
    + cbn in H. inversion H. split; [lia | reflexivity].
    + cbn in H. destruct k; discriminate.
Qed.

Lemma get_fire s h o h' :
  get (fire s h o) h' = if Nat.eqb h h' then option_map (deactivate_and_fire o) (get s h') else get s h'.
Proof. unfold get, fire. cbn [calls set_calls]. apply nth_upd. Qed.

Lemma inv0_init : Inv0 init.
Proof.
  split; unfold init, get; cbn; intros; try (destruct h; discriminate); try contradiction.
  - destruct h1; discriminate.
  - constructor.
  - lia.
Qed.

Lemma call_ok_fired o c : c_active c = true -> call_ok c -> call_ok (deactivate_and_fire o c).
Proof.
  intros A [H1 [H2 [H3 [H4 H5]]]]. unfold call_ok, deactivate_and_fire, add_fire, set_active. cbn.
  rewrite (H2 A). cbn. repeat split; auto; intros; discriminate.
Qed.

Lemma inv0_frame s s' : calls s' = calls s -> table s' = table s -> nextid s' = nextid s -> Inv0 s -> Inv0 s'.
Proof. intros Ec Et En []. split; unfold get; rewrite ?Ec, ?Et, ?En; assumption. Qed.

Lemma inv0_set_batch s b : Inv0 s -> Inv0 (set_batch s b).
Proof. apply inv0_frame; reflexivity. Qed.

Lemma inv0_set_evq s q : Inv0 s -> Inv0 (set_evq s q).
Proof. apply inv0_frame; reflexivity. Qed.

Lemma has_iff_active s h c : Inv0 s -> get s h = Some c -> c_tracked c = true ->
  tbl_has (c_rid c) (table s) = c_active c.
Proof.
  intros I G T. destruct (c_active c) eqn:A.
  - apply tbl_has_true. exact (in_map fst _ _ (I_pend _ I _ _ G T A)).
  - destruct (tbl_has (c_rid c) (table s)) eqn:H; [|reflexivity].
    apply tbl_has_true, in_map_iff in H as [[r k] [E H]]. cbn in E. subst r.
    destruct (I_tbl _ I _ _ H) as [c' [G' [R' [T' A']]]].
    assert (k = h) by apply (I_uniq _ I k h c' c G' G T' T R'). subst k. congruence.
Qed.

Definition retire (s : st) (h : nat) (o : outcome) (c : call) : st :=
  fire (set_table s (if c_tracked c then tbl_del (c_rid c) (table s) else table s)) h o.

(* By has_iff_active, under Inv0 complete() and fail() do the same to an active request, and differ on a retired one
   only in that complete() still calls removeRequest and gets its KeyError. *)
Definition settle (keyerror : bool) (s : st) (h : nat) (o : outcome) : st :=
  match get s h with
  | None => s
  | Some c => if c_active c then retire s h o c else if keyerror && c_tracked c then bump_raised s else s
  end.

Lemma complete_settle s h : Inv0 s -> complete_closed s h = settle true s h OResult.
Proof.
  intros I. unfold complete_closed, settle, retire. destruct (get s h) as [c|] eqn:G; [|reflexivity].
  destruct (c_tracked c) eqn:T; [rewrite (has_iff_active s h c I G T)|]; destruct (c_active c); reflexivity.
Qed.

Lemma fail_settle s h o : Inv0 s -> fail_closed s h o = settle false s h o.
Proof.
  intros I. unfold fail_closed, settle, retire. destruct (get s h) as [c|] eqn:G; [|reflexivity].
  destruct (c_active c) eqn:A; [|reflexivity].
  destruct (c_tracked c) eqn:T; [rewrite (has_iff_active s h c I G T), A|]; reflexivity.
Qed.

Lemma inv0_retire s h c o : Inv0 s -> get s h = Some c -> c_active c = true -> Inv0 (retire s h o c).
Proof.
  intros I G A. unfold retire. set (t' := if c_tracked c then _ else _).
  assert (Htbl : forall rid h', In (rid, h') t' <-> In (rid, h') (table s) /\ h' <> h).
  { intros rid h'. unfold t'. destruct (c_tracked c) eqn:T.
    - rewrite tbl_del_in. cbn [fst]. split; intros [He N]; (split; [exact He|]);
        destruct (I_tbl _ I _ _ He) as [c' [G' [R' [T' _]]]].
      + intros ->. congruence.
      + intros E. apply N, (I_uniq _ I h' h c' c G' G T' T). congruence.
    - split; [intros He; split; [exact He|] | tauto].
      intros ->. destruct (I_tbl _ I _ _ He) as [c' [G' [_ [T' _]]]]. congruence. }
  assert (Hget : forall h' c', get (fire (set_table s t') h o) h' = Some c' ->
            (h' = h /\ c' = deactivate_and_fire o c) \/ (h' <> h /\ get s h' = Some c')).
  { intros h' c'. rewrite get_fire, get_set_table. destruct (Nat.eqb_spec h h') as [<-|N].
    - rewrite G. cbn. intros X. inversion X. auto.
    - intros X. right. split; congruence. }
  split; cbn [table nextid fire set_calls set_table].
  - intros h' c' H. apply Hget in H as [[-> ->]|[_ H]]; [apply call_ok_fired; eauto using I_calls | eauto using I_calls].
  - intros rid h' He. apply Htbl in He as [He N].
    destruct (I_tbl _ I _ _ He) as [c' [G' R]]. exists c'. split; auto.
    rewrite get_fire, get_set_table. destruct (Nat.eqb_spec h h'); congruence.
  - intros h' c' H T' A'. apply Hget in H as [[-> ->]|[N H]]; [cbn in A'; discriminate|].
    apply Htbl. split; [apply (I_pend _ I _ _ H T' A') | exact N].
  - intros h' c' H T'. apply Hget in H as [[-> ->]|[_ H]]; [exact (I_fresh _ I _ _ G T') | exact (I_fresh _ I _ _ H T')].
  - intros h1 h2 c1 c2 H1 H2 T1 T2 E.
    apply Hget in H1 as [[-> ->]|[_ H1]]; apply Hget in H2 as [[-> ->]|[_ H2]]; [reflexivity | ..];
      eapply (I_uniq _ I); eassumption.
  - unfold t'. destruct (c_tracked c); [apply NoDup_map_filter|]; apply (I_nodup _ I).
  - apply (I_next _ I).
Qed.

Lemma inv0_settle b s h o : Inv0 s -> Inv0 (settle b s h o).
Proof.
  intros I. unfold settle. destruct (get s h) as [c|] eqn:G; [|exact I].
  destruct (c_active c) eqn:A; [apply inv0_retire; assumption|].
  destruct (b && c_tracked c); [apply (inv0_frame s); auto | exact I].
Qed.

Lemma NoDup_snoc {A} (l : list A) a : NoDup l -> ~ In a l -> NoDup (l ++ [a]).
Proof. intros H N. apply (NoDup_Add (Add_app a l [])). rewrite app_nil_r. auto. Qed.

Lemma inv0_push s s' c : Inv0 s -> call_ok c ->
  calls s' = calls s ++ [c] -> nextid s <= nextid s' ->
  (c_tracked c = true -> nextid s <= c_rid c < nextid s') ->
  table s' = table s ++ (if c_tracked c && c_active c then [(c_rid c, List.length (calls s))] else []) ->
  Inv0 s'.
Proof.
  intros I OK Ec En Ef Et. pose proof (I_next _ I) as Nx.
  assert (Hget : forall h c', get s' h = Some c' -> get s h = Some c' \/ (h = List.length (calls s) /\ c' = c)).
  { intros h c'. unfold get at 1. rewrite Ec. apply (get_push s c). }
  split.
  - intros h c' G. apply Hget in G as [G|[_ ->]]; eauto using I_calls.
  - intros rid h He. rewrite Et in He. apply in_app_or in He as [He|He].
    + destruct (I_tbl _ I _ _ He) as (c' & G & R). exists c'. split; [|exact R].
      unfold get. rewrite Ec. apply (get_push_old s c), G.
    + destruct (c_tracked c && c_active c) eqn:TA; [|destruct He]. destruct He as [[= <- <-]|[]].
      apply andb_true_iff in TA as [T A]. exists c. repeat split; auto.
      unfold get. rewrite Ec. apply (get_push_new s c).
  - intros h c' G T A. rewrite Et. apply in_or_app. apply Hget in G as [G|[-> ->]].
    + left. apply (I_pend _ I _ _ G T A).
    + right. rewrite T, A. left. reflexivity.
  - intros h c' G T. apply Hget in G as [G|[_ ->]]; [pose proof (I_fresh _ I _ _ G T) | specialize (Ef T)]; lia.
  - intros h1 h2 c1 c2 G1 G2 T1 T2 E. apply Hget in G1 as [G1|[-> ->]]; apply Hget in G2 as [G2|[-> ->]]; auto.
    + eapply (I_uniq _ I); eauto.
    + pose proof (I_fresh _ I _ _ G1 T1). specialize (Ef T2). lia.
    + pose proof (I_fresh _ I _ _ G2 T2). specialize (Ef T1). lia.
  - rewrite Et, map_app. destruct (c_tracked c && c_active c) eqn:TA; [|rewrite app_nil_r; apply (I_nodup _ I)].
    apply andb_true_iff in TA as [T _]. apply NoDup_snoc; [apply (I_nodup _ I)|].
    intros X. apply in_map_iff in X as [[r k] [E X]]. cbn in E. subst r.
    destruct (I_tbl _ I _ _ X) as (c' & G & R & T' & _). pose proof (I_fresh _ I _ _ G T'). specialize (Ef T). lia.
  - lia.
Qed.

Lemma inv0_call s k : Inv0 s -> Inv0 (call_step s k).
Proof.
  intros I. unfold call_step, oneway_silent_when_disconnected, newRequestID_refuses_when_disconnected.
  rewrite !andb_true_r.
  destruct k; destruct (disconnected s);
    (eapply (inv0_push s); [exact I | | reflexivity | cbn; lia | cbn; intros T; first [discriminate T | lia] |
      first [reflexivity | symmetry; apply app_nil_r]]);
    unfold call_ok; cbn; repeat split; auto; intros; discriminate.
Qed.

Inductive touched (s : st) (h : nat) (o : outcome) : st -> Prop :=
| t_same : touched s h o s
| t_raised : touched s h o (bump_raised s)
| t_removed t : (forall e, In e t -> In e (table s)) -> touched s h o (set_table s t)
| t_fired t : (forall e, In e t -> In e (table s)) -> touched s h o (fire (set_table s t) h o).

Lemma complete_touched s h : touched s h OResult (complete_closed s h).
Proof.
  unfold complete_closed. destruct (get s h) as [c|]; [|constructor].
  destruct (c_tracked c).
  - destruct (tbl_has (c_rid c) (table s)); [|constructor]. destruct (c_active c); constructor; apply tbl_del_sub.
  - destruct (c_active c); [|constructor]. apply (t_fired s h OResult (table s)). auto.
Qed.

Lemma fail_touched s h o : touched s h o (fail_closed s h o).
Proof.
  unfold fail_closed. destruct (get s h) as [c|]; [|constructor]. destruct (c_active c); [|constructor].
  destruct (c_tracked c); [destruct (tbl_has (c_rid c) (table s)); constructor; apply tbl_del_sub|].
  apply (t_fired s h o (table s)). auto.
Qed.

Lemma frame_touched s h o s' : touched s h o s' ->
  disconnected s' = disconnected s /\ evq s' = evq s /\ nextid s' = nextid s /\
  List.length (calls s') = List.length (calls s) /\ (forall e, In e (table s') -> In e (table s)).
Proof. intros []; cbn; rewrite ?length_upd; auto 6. Qed.

Lemma frame_complete s h :
  disconnected (complete_closed s h) = disconnected s /\ evq (complete_closed s h) = evq s /\
  nextid (complete_closed s h) = nextid s /\
  List.length (calls (complete_closed s h)) = List.length (calls s) /\
  (forall e, In e (table (complete_closed s h)) -> In e (table s)).
Proof. apply (frame_touched s h OResult), complete_touched. Qed.

Lemma frame_fail s h o :
  disconnected (fail_closed s h o) = disconnected s /\ evq (fail_closed s h o) = evq s /\
  nextid (fail_closed s h o) = nextid s /\
  List.length (calls (fail_closed s h o)) = List.length (calls s) /\
  (forall e, In e (table (fail_closed s h o)) -> In e (table s)).
Proof. apply (frame_touched s h o), fail_touched. Qed.

Lemma frame_call s k :
  disconnected (call_step s k) = disconnected s /\ evq (call_step s k) = evq s /\
  (disconnected s = true -> table (call_step s k) = table s).
Proof.
  unfold call_step, oneway_silent_when_disconnected, newRequestID_refuses_when_disconnected.
  rewrite !andb_true_r. destruct k; destruct (disconnected s) eqn:E; cbn; rewrite ?E; repeat split; auto; intros H; discriminate H.
Qed.

(* one iteration of _turn under the translated turn_mode_of_source *)
Lemma turn_cases s :
  (evq s = [] /\ turn_step s = set_batch s 0) \/
  (exists h o q b, evq s = EFail h o :: q /\ turn_step s = fail_closed (set_batch (set_evq s q) b) h o) \/
  (exists r q b, evq s = EForeign r :: q /\ turn_step s = set_batch (set_evq s q) b).
Proof.
  unfold turn_step, turn_mode_of_source. destruct (evq s) as [|[h o|r] q] eqn:Q.
  - left. auto.
  - right. left. eexists h, o, q, _. split; [reflexivity|]. rewrite fail_step_closed. reflexivity.
  - right. right. eexists r, q, _. split; [reflexivity|]. destruct r; reflexivity.
Qed.

Lemma step_cases s (P : st -> Prop) :
  P s -> (forall k, P (call_step s k)) -> (forall h, P (complete_closed s h)) -> (forall h o, P (fail_closed s h o)) ->
  (forall o, P (finish_closed s o)) -> (forall r, P (set_evq s (evq s ++ [EForeign r]))) -> P (turn_step s) ->
  forall x, P (step s x).
Proof.
  intros P0 Pk Pc Pf Pfin Pq Pt x. destruct x; cbn [step]; try destruct (tbl_find rid (table s));
    rewrite ?complete_step_closed, ?fail_step_closed, ?finish_step_closed; auto.
Qed.

(* what an answer / an error / a Violation / a send failure DOES (the functional half of the property):
   the request that is pending under that id fires with exactly that outcome, leaves the table, and nothing else changes *)
Definition resolves (s s' : st) (h : nat) (rid : Z) (o : outcome) : Prop :=
  (exists c c', get s h = Some c /\ c_fires c = [] /\ c_rid c = rid /\ get s' h = Some c' /\ c_fires c' = [o] /\ c_active c' = false) /\
  ~ In rid (map fst (table s')) /\
  (forall h2, h2 <> h -> get s' h2 = get s h2) /\
  (forall e, In e (table s') <-> In e (table s) /\ fst e <> rid) /\
  evq s' = evq s /\ disconnected s' = disconnected s /\ raised s' = raised s /\
  List.length (calls s') = List.length (calls s).

Lemma fire_resolves s h c o : get s h = Some c -> c_fires c = [] ->
  resolves s (fire (set_table s (tbl_del (c_rid c) (table s))) h o) h (c_rid c) o.
Proof.
  intros G F. unfold resolves. split; [|split; [|split; [|split]]].
  - exists c, (deactivate_and_fire o c). repeat split; auto.
    + rewrite get_fire, get_set_table, Nat.eqb_refl, G. reflexivity.
    + cbn. rewrite F. reflexivity.
  - cbn [fire set_calls table set_table]. intros X. apply in_map_iff in X as [e [E1 E2]]. apply tbl_del_in in E2. tauto.
  - intros h2 N. rewrite get_fire, get_set_table. destruct (Nat.eqb_spec h h2); [congruence|reflexivity].
  - intros e. cbn [fire set_calls table set_table]. apply tbl_del_in.
  - cbn. rewrite length_upd. repeat split; reflexivity.
Qed.

Lemma settle_pending b s rid h o : Inv0 s -> In (rid, h) (table s) -> resolves s (settle b s h o) h rid o.
Proof.
  intros I H. destruct (I_tbl _ I _ _ H) as (c & G & <- & T & A). destruct (I_calls _ I _ _ G) as (_ & F & _).
  unfold settle, retire. rewrite G, A, T. apply fire_resolves; auto.
Qed.

Lemma fail_pending s rid h o : Inv0 s -> In (rid, h) (table s) -> resolves s (fail_closed s h o) h rid o.
Proof. intros I. rewrite fail_settle by exact I. apply settle_pending, I. Qed.

Lemma pending_fires s rid h o : Inv0 s -> In (rid, h) (table s) ->
  resolves s (fail_step s h o) h rid o /\ resolves s (complete_step s h) h rid OResult.
Proof.
  intros I H. rewrite fail_step_closed, complete_step_closed, fail_settle, complete_settle by exact I.
  split; apply settle_pending; assumption.
Qed.

Lemma inv_frame s s' : Inv s -> Inv0 s' -> disconnected s' = disconnected s -> evq s' = evq s ->
  (disconnected s = true -> forall e, In e (table s') -> In e (table s)) -> Inv s'.
Proof.
  intros (_ & D & Q) I' Ed Eq Sub. split; [exact I'|split].
  - intros Hd rid h He. rewrite Ed in Hd. rewrite Eq. apply (D Hd rid h), (Sub Hd), He.
  - intros Hd. rewrite Eq. apply Q. congruence.
Qed.

Lemma inv_pop s s' e q : Inv s -> Inv0 s' -> evq s = e :: q ->
  disconnected s' = disconnected s -> evq s' = q -> (forall x, In x (table s') -> In x (table s)) ->
  (forall h o rid, e = EFail h o -> ~ In (rid, h) (table s')) -> Inv s'.
Proof.
  intros (_ & D & Q) I' E Ed Eq Sub Hh. split; [exact I'|split]; intros Hd; rewrite Ed in Hd; rewrite Eq.
  - intros rid h He. destruct (D Hd rid h (Sub _ He)) as [o X]. rewrite E in X.
    destruct X as [X|X]; [|eauto]. destruct (Hh h o rid X He).
  - intros h o X. apply (Q Hd h o). rewrite E. right. exact X.
Qed.

Lemma inv_turn s : Inv s -> Inv (turn_step s).
Proof.
  intros Iv. pose proof Iv as (I & _).
  destruct (turn_cases s) as [[_ ->]|[(h & o & q & b & E & ->)|(r & q & b & E & ->)]].
  - apply (inv_frame s); auto using inv0_set_batch.
  - set (s1 := set_batch (set_evq s q) b). assert (I1 : Inv0 s1) by apply inv0_set_batch, inv0_set_evq, I.
    destruct (frame_fail s1 h o) as (Ed & Eq & _ & _ & Sub).
    apply (inv_pop s _ (EFail h o) q); auto.
    + rewrite fail_settle by exact I1. apply inv0_settle, I1.
    + intros h0 o0 rid [= <- <-] He.
      destruct (fail_pending s1 rid h o I1 (Sub _ He)) as (_ & N & _). apply N. exact (in_map fst _ _ He).
  - apply (inv_pop s _ (EForeign r) q); auto using inv0_set_batch, inv0_set_evq. discriminate.
Qed.

Lemma inv_init : Inv init.
Proof. split; [apply inv0_init | split; [intros H; discriminate | intros _ h o X; exact X]]. Qed.

Lemma inv_step s x : Inv s -> Inv (step s x).
Proof.
  intros Iv. pose proof Iv as (I & D & Q). apply step_cases.
  - exact Iv.
  - intros k. destruct (frame_call s k) as (Ed & Eq & Et). apply (inv_frame s); auto using inv0_call.
    intros Hd e. rewrite (Et Hd). auto.
  - intros h. destruct (frame_complete s h) as (Ed & Eq & _ & _ & Sub).
    apply (inv_frame s); auto. rewrite complete_settle by exact I. apply inv0_settle, I.
  - intros h o. destruct (frame_fail s h o) as (Ed & Eq & _ & _ & Sub).
    apply (inv_frame s); auto. rewrite fail_settle by exact I. apply inv0_settle, I.
  - intros o. unfold finish_closed. destruct (disconnected s) eqn:Hd; [exact Iv|].
    split; [apply (inv0_frame s); auto|split].
    + intros _ rid h He. cbn in *. exists o. apply in_app_iff. right. apply in_map_iff. exists (rid, h). auto.
    + intros X. discriminate X.
  - intros r. split; [apply inv0_set_evq, I|split]; intros Hd; cbn in *.
    + intros rid h He. destruct (D Hd rid h He) as [o Ho]. exists o. apply in_app_iff. auto.
    + intros h o X. apply in_app_iff in X as [X|[X|[]]]; [apply (Q Hd h o X) | discriminate].
  - apply inv_turn, Iv.
Qed.

Lemma inv_run_from ops : forall s, Inv s -> Inv (run_from s ops).
Proof. induction ops as [|x ops IH]; intros s I; cbn; auto. apply IH. apply inv_step. exact I. Qed.

Lemma inv_run ops : Inv (run ops).
Proof. apply inv_run_from. apply inv_init. Qed.

(* nothing fires twice *)
Theorem at_most_once : forall ops h c, get (run ops) h = Some c -> (List.length (c_fires c) <= 1)%nat.
Proof. intros ops h c G. destruct (inv_run ops) as [I _]. apply (I_calls _ I _ _ G). Qed.

Lemma call_ok_unfired c : call_ok c -> c_twoway c = true -> c_fires c = [] -> c_active c = true /\ c_tracked c = true.
Proof.
  intros (_ & _ & K3 & _ & K5) T F. destruct (c_active c); [auto|].
  specialize (K3 eq_refl T). rewrite F in K3. discriminate K3.
Qed.

(* every callRemote that has not fired is registered and reachable by an answer: its id is in the table under its handle *)
Theorem pending_is_in_table : forall ops h c, get (run ops) h = Some c -> c_twoway c = true -> c_fires c = [] ->
  In (c_rid c, h) (table (run ops)) /\ tbl_find (c_rid c) (table (run ops)) = Some h.
Proof.
  intros ops h c G Tw F. destruct (inv_run ops) as [I _].
  destruct (call_ok_unfired c (I_calls _ I _ _ G) Tw F) as [A T].
  pose proof (I_pend _ I _ _ G T A) as P. split; [exact P|].
  destruct (tbl_find (c_rid c) (table (run ops))) as [h'|] eqn:E.
  - apply tbl_find_some in E. destruct (I_tbl _ I _ _ E) as [c' [G' [R' [T' _]]]].
    f_equal. apply (I_uniq _ I h' h c' c G' G T' T R').
  - destruct (tbl_find_none _ _ E). exact (in_map fst _ _ P).
Qed.

(* the table holds exactly the requests that were registered and have not fired *)
Theorem table_iff_pending : forall ops rid,
  In rid (map fst (table (run ops))) <->
  exists h c, get (run ops) h = Some c /\ c_tracked c = true /\ c_rid c = rid /\ c_fires c = [].
Proof.
  intros ops rid. destruct (inv_run ops) as [I _]. split.
  - intros H. apply in_map_iff in H as [[r h] [E H]]. cbn in E. subst r.
    destruct (I_tbl _ I _ _ H) as [c [G [R [T A]]]]. exists h, c. repeat split; auto.
    apply (I_calls _ I _ _ G), A.
  - intros (h & c & G & T & <- & F). destruct (I_calls _ I _ _ G) as (_ & _ & _ & Tw & _).
    exact (in_map fst _ _ (proj1 (pending_is_in_table ops h c G (Tw T) F))).
Qed.

Theorem table_keys_unique : forall ops, NoDup (map fst (table (run ops))).
Proof. intros ops. destruct (inv_run ops) as [I _]. apply (I_nodup _ I). Qed.

Theorem reqids_unique_and_fresh : forall ops h1 h2 c1 c2,
  get (run ops) h1 = Some c1 -> get (run ops) h2 = Some c2 -> c_tracked c1 = true -> c_tracked c2 = true ->
  (c_rid c1 = c_rid c2 -> h1 = h2) /\ oneway_reqid < c_rid c1 < nextid (run ops).
Proof.
  intros ops h1 h2 c1 c2 G1 G2 T1 T2. destruct (inv_run ops) as [I _]. split.
  - eapply (I_uniq _ I); eauto.
  - pose proof (I_fresh _ I _ _ G1 T1). unfold oneway_reqid, first_reqid in *. lia.
Qed.

(* complete() / fail(why) on a pending request object (late answer, serialization failure of the arguments, ...) fires it
   with exactly that outcome *)
Theorem fail_on_pending_fires : forall ops rid h o, In (rid, h) (table (run ops)) ->
  resolves (run ops) (step (run ops) (Fail h o)) h rid o /\
  resolves (run ops) (step (run ops) (Complete h)) h rid OResult.
Proof. intros ops rid h o. cbn [step]. apply pending_fires, inv_run. Qed.

Lemma wire_pending s rid h : Inv0 s -> tbl_find rid (table s) = Some h ->
  resolves s (step s (Answer rid)) h rid OResult /\ resolves s (step s (Error rid)) h rid ORemoteError /\
  resolves s (step s (AnswerViolation rid)) h rid OViolation.
Proof.
  intros I H. cbn [step]. rewrite H. apply tbl_find_some in H.
  destruct (pending_fires s rid h ORemoteError I H) as [E A], (pending_fires s rid h OViolation I H) as [V _].
  split; [exact A|split; [exact E|exact V]].
Qed.

(* an answer sequence for a pending request id fires that request with the method's result *)
Theorem answer_fires_result : forall ops rid h, tbl_find rid (table (run ops)) = Some h ->
  resolves (run ops) (step (run ops) (Answer rid)) h rid OResult.
Proof. intros ops rid h H. exact (proj1 (wire_pending _ rid h (proj1 (inv_run ops)) H)). Qed.

(* an error sequence fires it with the remote failure *)
Theorem error_fires_remote_failure : forall ops rid h, tbl_find rid (table (run ops)) = Some h ->
  resolves (run ops) (step (run ops) (Error rid)) h rid ORemoteError.
Proof. intros ops rid h H. exact (proj1 (proj2 (wire_pending _ rid h (proj1 (inv_run ops)) H))). Qed.

(* a Violation while its answer or error sequence is being received fires it with the Violation *)
Theorem violation_fires_violation : forall ops rid h, tbl_find rid (table (run ops)) = Some h ->
  resolves (run ops) (step (run ops) (AnswerViolation rid)) h rid OViolation.
Proof. intros ops rid h H. exact (proj2 (proj2 (wire_pending _ rid h (proj1 (inv_run ops)) H))). Qed.

Example resolves_inhabited :
  resolves (run [Call KTwoWay; Call KTwoWay]) (step (run [Call KTwoWay; Call KTwoWay]) (Answer 2)) 1%nat 2 OResult.
Proof. apply (answer_fires_result [Call KTwoWay; Call KTwoWay] 2 1%nat). reflexivity. Qed.

(* after the connection is gone and the eventual queue has drained, nothing is pending and every
   callRemote has fired exactly once *)
Lemma drained_state s : Inv s -> disconnected s = true -> evq s = [] ->
  table s = [] /\ forall h c, get s h = Some c -> c_twoway c = true -> List.length (c_fires c) = 1%nat.
Proof.
  intros [I [D _]] Hd Q.
  assert (Tn : table s = []).
  { destruct (table s) as [|[r h] t] eqn:E; auto. destruct (D Hd r h) as [o Ho]; [rewrite E; left; reflexivity|].
    rewrite Q in Ho. contradiction. }
  split; auto. intros h c G Tw.
  destruct (I_calls _ I _ _ G) as [_ [_ [F1 [_ F3]]]].
  destruct (c_active c) eqn:A; auto.
  pose proof (I_pend _ I _ _ G (F3 Tw eq_refl) A) as P. rewrite Tn in P. contradiction.
Qed.

Theorem drained_after_loss : forall ops,
  disconnected (run ops) = true -> evq (run ops) = [] ->
  table (run ops) = [] /\
  forall h c, get (run ops) h = Some c -> c_twoway c = true -> List.length (c_fires c) = 1%nat.
Proof. intros ops. apply drained_state. apply inv_run. Qed.

Lemma turn_frame s : disconnected (step s Turn) = disconnected s /\ evq (step s Turn) = tl (evq s) /\
  List.length (calls (step s Turn)) = List.length (calls s).
Proof.
  change (step s Turn) with (turn_step s).
  destruct (turn_cases s) as [[Q ->]|[[h [o [q [b [Q ->]]]]]|[r [q [b [Q ->]]]]]]; rewrite Q.
  - cbn. rewrite Q. auto.
  - destruct (frame_fail (set_batch (set_evq s q) b) h o) as [E1 [E2 [_ [E4 _]]]]. rewrite E1, E2, E4. auto.
  - auto.
Qed.

Lemma turns_drain n : forall s, disconnected (run_from s (repeat Turn n)) = disconnected s /\
  evq (run_from s (repeat Turn n)) = skipn n (evq s) /\
  List.length (calls (run_from s (repeat Turn n))) = List.length (calls s).
Proof.
  induction n as [|n IH]; intros s; [cbn; auto|].
  cbn [repeat run_from fold_left]. destruct (IH (step s Turn)) as [E1 [E2 E3]]. unfold run_from in *.
  destruct (turn_frame s) as [F1 [F2 F3]]. rewrite E1, E2, E3, F1, F2, F3.
  repeat split; auto. destruct (evq s); cbn; [destruct n|]; reflexivity.
Qed.

Lemma calls_finish s o : calls (finish_closed s o) = calls s.
Proof. unfold finish_closed. destruct (disconnected s); reflexivity. Qed.

Lemma finish_disconnects s r : disconnected (step s (Finish r)) = true.
Proof. cbn [step]. rewrite finish_step_closed. unfold finish_closed. destruct (disconnected s) eqn:E; auto. Qed.

(* ... and that state is always reached: losing the connection and letting the queued eventual-sends run
   (as many turns as there are queued entries) drains everything *)
Theorem loss_then_drain : forall ops r,
  let s1 := run (ops ++ [Finish r]) in
  let s2 := run_from s1 (repeat Turn (List.length (evq s1))) in
  disconnected s2 = true /\ evq s2 = [] /\ table s2 = [] /\
  List.length (calls s2) = List.length (calls (run ops)) /\
  forall h c, get s2 h = Some c -> c_twoway c = true -> List.length (c_fires c) = 1%nat.
Proof.
  intros ops r s1 s2.
  assert (I2 : Inv s2) by apply inv_run_from, inv_run.
  destruct (turns_drain (List.length (evq s1)) s1) as [E1 [E2 E3]]. fold s2 in E1, E2, E3.
  rewrite skipn_all in E2. unfold s1 in E1, E3. rewrite run_snoc in E1, E3. rewrite finish_disconnects in E1.
  cbn [step] in E3. rewrite finish_step_closed, calls_finish in E3.
  destruct (drained_state s2 I2 E1 E2) as [Tn F]. auto.
Qed.

Definition extends (c c' : call) : Prop :=
  c_rid c' = c_rid c /\ c_twoway c' = c_twoway c /\ c_tracked c' = c_tracked c /\
  exists extra, c_fires c' = c_fires c ++ extra.

Lemma extends_refl c : extends c c.
Proof. repeat split; auto. exists []. rewrite app_nil_r. reflexivity. Qed.

Lemma extends_trans a b c : extends a b -> extends b c -> extends a c.
Proof.
  intros [A1 [A2 [A3 [e1 A4]]]] [B1 [B2 [B3 [e2 B4]]]]. repeat split; try congruence.
  exists (e1 ++ e2). rewrite B4, A4, app_assoc. reflexivity.
Qed.

Lemma touched_extends s h o s' h' c : touched s h o s' -> get s h' = Some c ->
  exists c', get s' h' = Some c' /\ extends c c'.
Proof.
  intros [| |t _|t _] G; [exists c; split; [exact G|apply extends_refl]..|].
  rewrite get_fire, get_set_table. destruct (Nat.eqb h h'); [|exists c; split; [exact G|apply extends_refl]].
  rewrite G. eexists; split; [reflexivity|]. repeat split; auto. exists [o]. reflexivity.
Qed.

Lemma call_extends s k h c : get s h = Some c -> get (call_step s k) h = Some c.
Proof.
  intros G. unfold call_step. destruct k; destruct (disconnected s); apply get_push_old, G.
Qed.

Lemma step_extends s x h c : get s h = Some c -> exists c', get (step s x) h = Some c' /\ extends c c'.
Proof.
  intros G. apply (step_cases s (fun s' => exists c', get s' h = Some c' /\ extends c c')); intros;
    eauto using extends_refl, call_extends, touched_extends, complete_touched, fail_touched.
  - exists c. split; [unfold get; rewrite calls_finish; exact G | apply extends_refl].
  - destruct (turn_cases s) as [[_ ->]|[(h' & o & q & b & _ & ->)|(r & q & b & _ & ->)]];
      eauto using extends_refl, touched_extends, fail_touched.
Qed.

Lemma run_from_extends ops : forall s h c, get s h = Some c ->
  exists c', get (run_from s ops) h = Some c' /\ extends c c'.
Proof.
  induction ops as [|x ops IH]; intros s h c G; cbn; [eauto using extends_refl|].
  destruct (step_extends s x h c G) as [c1 [G1 E1]].
  destruct (IH _ _ _ G1) as [c2 [G2 E2]]. exists c2. split; auto. eapply extends_trans; eauto.
Qed.

(* handles are stable: a call never disappears and keeps its request id *)
Theorem calls_persist : forall ops1 ops2 h c,
  get (run ops1) h = Some c -> exists c', get (run (ops1 ++ ops2)) h = Some c' /\ extends c c'.
Proof. intros ops1 ops2 h c G. rewrite run_app. apply run_from_extends, G. Qed.

(* whatever happens later (ops2 arbitrary), a Deferred that has fired with outcome o keeps exactly that one firing *)
Theorem first_outcome_is_final : forall ops1 ops2 h c o,
  get (run ops1) h = Some c -> c_fires c = [o] ->
  exists c', get (run (ops1 ++ ops2)) h = Some c' /\ c_fires c' = [o] /\ c_rid c' = c_rid c /\ c_twoway c' = c_twoway c.
Proof.
  intros ops1 ops2 h c o G F. destruct (calls_persist ops1 ops2 h c G) as (c' & G' & E1 & E2 & _ & extra & E4).
  exists c'. repeat split; auto.
  pose proof (at_most_once _ _ _ G') as L. rewrite E4, F in *. destruct extra; [reflexivity | cbn in L; lia].
Qed.

(* a wire answer for an id that is not pending (never issued, already answered, already failed) changes nothing *)
Theorem unknown_reqid_ignored : forall ops rid,
  ~ In rid (map fst (table (run ops))) ->
  step (run ops) (Answer rid) = run ops /\ step (run ops) (Error rid) = run ops /\
  step (run ops) (AnswerViolation rid) = run ops.
Proof.
  intros ops rid N. cbn [step].
  destruct (tbl_find rid (table (run ops))) eqn:F; [|auto].
  exfalso. apply N. apply tbl_find_some in F. apply in_map_iff. eexists; split; [|exact F]. reflexivity.
Qed.

Theorem late_events_fire_nothing : forall ops h c,
  get (run ops) h = Some c -> c_active c = false ->
  calls (step (run ops) (Complete h)) = calls (run ops) /\
  table (step (run ops) (Complete h)) = table (run ops) /\
  (forall o, step (run ops) (Fail h o) = run ops) /\
  (c_tracked c = true ->
     step (run ops) (Answer (c_rid c)) = run ops /\ step (run ops) (Error (c_rid c)) = run ops /\
     step (run ops) (AnswerViolation (c_rid c)) = run ops).
Proof.
  intros ops h c G A. destruct (inv_run ops) as [I _].
  assert (C : step (run ops) (Complete h) = if c_tracked c then bump_raised (run ops) else run ops).
  { cbn [step]. rewrite complete_step_closed, complete_settle by exact I. unfold settle. rewrite G, A. reflexivity. }
  rewrite C. split; [|split; [|split]].
  - destruct (c_tracked c); reflexivity.
  - destruct (c_tracked c); reflexivity.
  - intros o. cbn [step]. rewrite fail_step_closed, fail_settle by exact I. unfold settle. rewrite G, A. reflexivity.
  - intros T. apply unknown_reqid_ignored. rewrite <- tbl_has_true, (has_iff_active _ _ _ I G T), A. discriminate.
Qed.

Lemma raised_settle b s h o :
  raised (settle b s h o) = raised s \/
  (b = true /\ raised (settle b s h o) = S (raised s) /\
   exists c, get s h = Some c /\ c_tracked c = true /\ c_active c = false /\
             calls (settle b s h o) = calls s /\ table (settle b s h o) = table s).
Proof.
  unfold settle. destruct (get s h) as [c|]; auto. destruct (c_active c) eqn:A; auto.
  destruct b; auto. destruct (c_tracked c) eqn:T; auto. right. repeat split. exists c. auto.
Qed.

(* PendingRequest.fail never raises, Answer/Error from the wire never raise; the only exception is the KeyError of
   removeRequest when complete() is called on a request object that was registered and is already retired -- and
   that changes no Deferred and no table entry *)
Theorem keyerror_only_from_late_complete : forall ops x,
  raised (step (run ops) x) = raised (run ops) \/
  (raised (step (run ops) x) = S (raised (run ops)) /\
   exists h c, x = Complete h /\ get (run ops) h = Some c /\ c_tracked c = true /\ c_active c = false /\
               calls (step (run ops) x) = calls (run ops) /\ table (step (run ops) x) = table (run ops)).
Proof.
  intros ops x. destruct (inv_run ops) as [I _]. set (s := run ops) in *.
  assert (HF : forall s0 h o, Inv0 s0 -> raised (fail_closed s0 h o) = raised s0).
  { intros s0 h o I0. rewrite fail_settle by exact I0.
    destruct (raised_settle false s0 h o) as [E|[E _]]; [exact E | discriminate E]. }
  destruct x; cbn [step].
  - left. unfold call_step. destruct k; destruct (disconnected s); reflexivity.
  - left. destruct (tbl_find rid (table s)) as [h|] eqn:F; [|reflexivity].
    rewrite complete_step_closed, complete_settle by exact I.
    destruct (raised_settle true s h OResult) as [E|(_ & _ & c & G & _ & A & _)]; [exact E|]. exfalso.
    apply tbl_find_some in F. destruct (I_tbl _ I _ _ F) as [c' [G' [_ [_ A']]]]. congruence.
  - left. destruct (tbl_find rid (table s)); [rewrite fail_step_closed; apply HF, I | reflexivity].
  - left. destruct (tbl_find rid (table s)); [rewrite fail_step_closed; apply HF, I | reflexivity].
  - rewrite complete_step_closed, complete_settle by exact I.
    destruct (raised_settle true s h OResult) as [E|(_ & E & c & R)]; [left; exact E|].
    right. split; [exact E|]. exists h, c. split; [reflexivity | exact R].
  - left. rewrite fail_step_closed. apply HF, I.
  - rewrite finish_step_closed. unfold finish_closed. destruct (disconnected s); auto.
  - left. reflexivity.
  - left. destruct (turn_cases s) as [[_ ->]|[[h [o [q [b [_ ->]]]]]|[r [q [b [_ ->]]]]]]; try reflexivity.
    rewrite HF by (apply inv0_set_batch; apply inv0_set_evq; auto). reflexivity.
Qed.

(* a callRemote on a dead connection fails at once with DeadReferenceError and is never registered *)
Theorem call_after_loss_is_dead : forall ops k,
  disconnected (run ops) = true -> k <> KOneWay ->
  let s' := step (run ops) (Call k) in
  exists c, get s' (List.length (calls (run ops))) = Some c /\ c_fires c = [ODeadRef] /\ c_tracked c = false /\
            table s' = table (run ops) /\ evq s' = evq (run ops).
Proof.
  intros ops k Hd Hk s'. unfold s'. cbn [step]. unfold call_step, newRequestID_refuses_when_disconnected.
  rewrite Hd. cbn [andb]. destruct k; try congruence;
    (eexists; split; [apply get_push_new | repeat split; reflexivity]).
Qed.

(* the code's test (translated: lost_test_of_source, lost_connection_errors_listed) implements the documented mapping
   "all connection-lost errors become DeadReferenceError": listed classes AND their subclasses *)
Theorem lost_reason_is_DeadReferenceError : forall r, is_lost r = true -> reason_outcome r = ODeadRef.
Proof. intros [c|c|]; cbn; try discriminate; intros _; destruct c; reflexivity. Qed.

Theorem unrelated_reason_passes_through : reason_outcome RUnrelated = OOther.
Proof. reflexivity. Qed.

Lemma fail_closed_get s h' o h c : Inv0 s -> get s h = Some c ->
  get (fail_closed s h' o) h = Some c \/
  (h' = h /\ c_fires c = [] /\
   exists c', get (fail_closed s h' o) h = Some c' /\ c_fires c' = [o] /\ c_twoway c' = c_twoway c).
Proof.
  intros I G. rewrite fail_settle by exact I. unfold settle, retire.
  destruct (get s h') as [d|] eqn:G'; auto. destruct (c_active d) eqn:A; auto.
  rewrite get_fire, get_set_table. destruct (Nat.eqb_spec h' h) as [->|N]; auto.
  right. rewrite G in G' |- *. injection G' as <-. destruct (I_calls _ I _ _ G) as (_ & E & _).
  repeat split; auto. eexists. split; [reflexivity|]. cbn. rewrite (E A). split; reflexivity.
Qed.

(* Kept by every turn of the queue; holds after finish() with o = the outcome of the reason; loss_then_drain then
   rules out "unfired". *)
Definition outP (h : nat) (o : outcome) (s : st) : Prop :=
  (forall o', In (EFail h o') (evq s) -> o' = o) /\
  exists c, get s h = Some c /\ c_twoway c = true /\ (c_fires c = [] \/ c_fires c = [o]).

Lemma outP_turn h o s : Inv0 s -> outP h o s -> outP h o (step s Turn).
Proof.
  intros I [Q [c [G [Tw F]]]]. change (step s Turn) with (turn_step s).
  destruct (turn_cases s) as [[E ->]|[[h' [o' [q [b [E ->]]]]]|[r [q [b [E ->]]]]]].
  - split; eauto.
  - destruct (frame_fail (set_batch (set_evq s q) b) h' o') as [_ [E2 _]].
    split.
    + intros o'' H. rewrite E2 in H. cbn in H. apply Q. rewrite E. right. exact H.
    + destruct (fail_closed_get (set_batch (set_evq s q) b) h' o' h c (inv0_set_batch _ _ (inv0_set_evq _ _ I)) G)
        as [X|[-> [F0 [c' [X [Y Z]]]]]].
      * exists c. auto.
      * exists c'. split; [exact X|]. split; [congruence|]. right. rewrite Y. f_equal. apply Q. rewrite E. left. reflexivity.
  - split.
    + intros o'' H. cbn in H. apply Q. rewrite E. right. exact H.
    + exists c. auto.
Qed.

Lemma outP_turns h o n : forall s, Inv s -> outP h o s -> outP h o (run_from s (repeat Turn n)).
Proof.
  induction n as [|n IH]; intros s I P; [exact P|].
  cbn [repeat run_from fold_left]. apply (IH (step s Turn)); [apply inv_step; auto | apply outP_turn; [apply I | auto]].
Qed.

(* every callRemote that is pending when the connection ends (connected until then) fires with exactly the outcome the
   reason maps to -- and nothing else; with lost_reason_is_DeadReferenceError: DeadReferenceError for every lost-connection
   reason, subclasses included *)
Theorem loss_outcome : forall ops r h c,
  disconnected (run ops) = false -> get (run ops) h = Some c -> c_twoway c = true -> c_fires c = [] ->
  let s1 := run (ops ++ [Finish r]) in
  let s2 := run_from s1 (repeat Turn (List.length (evq s1))) in
  exists c', get s2 h = Some c' /\ c_fires c' = [reason_outcome r].
Proof.
  intros ops r h c Hd G Tw F s1 s2.
  destruct (inv_run ops) as [I [_ Qt]].
  assert (S1 : s1 = finish_closed (run ops) (reason_outcome r)) by (unfold s1; rewrite run_snoc; apply finish_step_closed).
  assert (P1 : outP h (reason_outcome r) s1).
  { rewrite S1. unfold finish_closed. rewrite Hd. split.
    - intros o' H. cbn in H. apply in_app_iff in H as [H|H]; [exfalso; exact (Qt Hd h o' H)|].
      apply in_map_iff in H as [e [E _]]. congruence.
    - exists c. auto. }
  assert (I1 : Inv s1) by apply inv_run.
  pose proof (outP_turns h (reason_outcome r) (List.length (evq s1)) s1 I1 P1) as [_ [c' [G' [Tw' F']]]]. fold s2 in G'.
  exists c'. split; [exact G'|].
  destruct (loss_then_drain ops r) as [_ [_ [_ [_ L]]]]. fold s1 s2 in L. specialize (L h c' G' Tw').
  destruct F' as [X|X]; [rewrite X in L; discriminate L | exact X].
Qed.

Corollary lost_connection_gives_DeadReferenceError : forall ops r h c,
  is_lost r = true ->
  disconnected (run ops) = false -> get (run ops) h = Some c -> c_twoway c = true -> c_fires c = [] ->
  let s1 := run (ops ++ [Finish r]) in
  let s2 := run_from s1 (repeat Turn (List.length (evq s1))) in
  exists c', get s2 h = Some c' /\ c_fires c' = [ODeadRef].
Proof.
  intros ops r h c L Hd G Tw F. rewrite <- (lost_reason_is_DeadReferenceError r L).
  apply (loss_outcome ops r h c); auto.
Qed.

Example ex_lost_subclass :
  let ops := [Call KTwoWay; Call KTwoWay; Answer 1; Finish (RSubclass SSLErrorC); Turn] in
  map (fun c => map ocode (c_fires c)) (calls (run ops)) = [[1]; [4]].
Proof. vm_compute. reflexivity. Qed.

Example ex_unrelated_reason :
  let ops := [Call KTwoWay; Finish RUnrelated; Turn] in
  map (fun c => map ocode (c_fires c)) (calls (run ops)) = [[7]].
Proof. vm_compute. reflexivity. Qed.

(* the eventual queue: an event that raises affects nothing but itself *)
Theorem turn_runs_exactly_one_event : forall ops,
  evq (step (run ops) Turn) = tl (evq (run ops)) /\ disconnected (step (run ops) Turn) = disconnected (run ops).
Proof. intros ops. destruct (turn_frame (run ops)) as [A [B _]]. auto. Qed.

Theorem foreign_event_changes_no_request : forall ops r q,
  evq (run ops) = EForeign r :: q ->
  calls (step (run ops) Turn) = calls (run ops) /\ table (step (run ops) Turn) = table (run ops) /\
  evq (step (run ops) Turn) = q.
Proof.
  intros ops r q E. cbn [step]. unfold turn_step, turn_mode_of_source. rewrite E.
  destruct r; repeat split; reflexivity.
Qed.

Example ex_raising_bystander :
  let ops := [Call KTwoWay; Call KTwoWay; Enqueue true; Finish (RListed ConnectionLostC); Enqueue true; Turn; Turn; Turn; Turn] in
  map (fun c => map ocode (c_fires c)) (calls (run ops)) = [[4]; [4]] /\ evq (run ops) = [] /\ table (run ops) = [].
Proof. vm_compute. repeat split; reflexivity. Qed.

Example ex_trace :
  let ops := [Call KTwoWay; Call KTwoWay; Call KOneWay; Call KTwoWay; Call KLocalReject;
              Answer 1; Fail 3 OSendFail; Finish (RListed ConnectionDoneC); Complete 0; Call KTwoWay; Turn; Turn] in
  snapshot (run ops) =
  ([], [[1]; [4]; []; [5]; [6]; [4]], (true, [], 1)).
Proof. vm_compute. reflexivity. Qed.

Example ex_keyerror :
  let ops := [Call KTwoWay; Error 1; Complete 0] in
  raised (run ops) = 1%nat /\ map (fun c => List.length (c_fires c)) (calls (run ops)) = [1%nat].
Proof. vm_compute. split; reflexivity. Qed.

Example ex_pending_after_loss_before_turn :
  let ops := [Call KTwoWay; Call KTwoWay; Answer 2; Finish (RSubclass ConnectionLostC)] in
  disconnected (run ops) = true /\ map fst (table (run ops)) = [1] /\ evq (run ops) = [EFail 0 ODeadRef].
Proof. vm_compute. repeat split; reflexivity. Qed.

Example ex_first_outcome :
  exists c, get (run [Call KTwoWay; Answer 1]) 0 = Some c /\ c_fires c = [OResult].
Proof. eexists. split; vm_compute; reflexivity. Qed.
