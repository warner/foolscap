(* ConnectorProofs.v -- after ANY history of getReference calls and passage of time, with the connector stored before
   connect() (the translated order), every stored connector is running, every unanswered getReference waits for a
   running connector whose timer ends within the timeout, so: all are answered once the timeout has passed (no_stall),
   and a usable FURL for a tub without a running connector starts an attempt (attempt_starts).  The other order is
   refuted by a two-step history (stall_refuted). *)
From Coq Require Import ZArith List Bool Lia.
Import ListNotations.
Require Import Verif.lib.Connector.
Local Open Scope Z_scope.

Lemma zin_In x l : zin x l = true <-> In x l.
Proof.
  unfold zin. rewrite existsb_exists. split.
  - intros (y & Hy & E). apply Z.eqb_eq in E. subst. assumption.
  - intros H. exists x. split; [assumption | apply Z.eqb_refl].
Qed.

Definition has_live (t : Z) (s : cst) : Prop := exists dl, In (t, dl) (live s).

Record Inv (timeout : Z) (s : cst) : Prop := {
  inv_table : forall t, In t (table s) -> has_live t s;
  inv_wait : forall w t, In (w, t) (waiters s) -> In t (table s);
  inv_dl : forall t dl, In (t, dl) (live s) -> dl <= now s + timeout
}.

Lemma inv_init timeout : Inv timeout cinit.
Proof. split; cbn; intros; contradiction. Qed.

Lemma expired_zin n t dl l : In (t, dl) l -> expired n (t, dl) = true -> zin t (map fst (filter (expired n) l)) = true.
Proof. intros H E. apply zin_In, in_map_iff. exists (t, dl). split; [reflexivity | apply filter_In; auto]. Qed.

(* Tub.connectionFailed for the tubs ts restores the invariant when only they lack a running connector *)
Lemma inv_conn_failed timeout ts s :
  (forall t, In t (table s) -> zin t ts = false -> has_live t s) ->
  (forall w t, In (w, t) (waiters s) -> In t (table s)) ->
  (forall t dl, In (t, dl) (live s) -> dl <= now s + timeout) ->
  Inv timeout (conn_failed ts s).
Proof.
  intros I1 I2 I3. unfold conn_failed. split; cbn [table live waiters now has_live].
  - intros t H. apply filter_In in H as [H Hn]. apply I1; [exact H | destruct (zin t ts); [discriminate | reflexivity]].
  - intros w t H. apply filter_In in H as [H Hn]. cbn [snd] in Hn. apply filter_In. split; [eauto | exact Hn].
  - exact I3.
Qed.

Lemma inv_step timeout s e : 0 <= timeout -> Inv timeout s -> Inv timeout (cstep true timeout s e).
Proof.
  intros Ht [I1 I2 I3]. destruct e as [t usable|dt]; cbn [cstep].
  - cbn [table]. destruct (zin t (table s)) eqn:Et.
    + apply zin_In in Et. split; cbn [table live waiters now]; auto.
      intros w t' [E|H]; [injection E as _ <-; exact Et | eauto].
    + destruct usable; unfold connect, store; cbn [now table live waiters fired started next].
      * split; cbn [table live waiters now has_live].
        -- intros t' [<-|H]; [exists (now s + timeout); left; reflexivity|].
           destruct (I1 t' H) as [dl Hdl]. exists dl. right. assumption.
        -- intros w t' [E|H]; [injection E as _ <-; left; reflexivity | right; eauto].
        -- intros t' dl [E|H]; [injection E as _ <-; lia | eauto].
      * apply inv_conn_failed; cbn [table live waiters now has_live].
        -- intros t' [<-|H] Hn; [cbn in Hn; rewrite Z.eqb_refl in Hn; discriminate | exact (I1 t' H)].
        -- intros w t' [E|H]; [injection E as _ <-; left; reflexivity | right; eauto].
        -- exact I3.
  - apply inv_conn_failed; cbn [table live waiters now has_live].
    + intros t H Hn. destruct (I1 t H) as [dl Hdl]. exists dl. apply filter_In. split; [exact Hdl|].
      destruct (expired _ (t, dl)) eqn:Ex; [|reflexivity]. rewrite (expired_zin _ _ _ _ Hdl Ex) in Hn. discriminate.
    + exact I2.
    + intros t dl H. apply filter_In in H as [H _]. specialize (I3 t dl H). lia.
Qed.

Lemma inv_run timeout evs : 0 <= timeout -> Inv timeout (crun true timeout evs).
Proof.
  intros Ht. unfold crun. generalize (inv_init timeout). generalize cinit.
  induction evs as [|e evs IH]; intros s Hs; cbn [fold_left]; [assumption|].
  apply IH. apply inv_step; assumption.
Qed.

(* every getReference is answered once the connect timeout has passed, whatever happened before *)
Theorem no_stall : forall timeout evs, 0 <= timeout ->
  waiters (cstep true timeout (crun true timeout evs) (Advance timeout)) = [].
Proof.
  intros timeout evs Ht. destruct (inv_run timeout evs Ht) as [I1 I2 I3].
  set (s := crun true timeout evs) in *. cbn [cstep]. unfold conn_failed. cbn [waiters].
  rewrite Z.max_l by assumption.
  destruct (filter _ (waiters s)) as [|[w t] rest] eqn:E; [reflexivity|]. exfalso.
  assert (H : In (w, t) (filter (fun w0 => negb (zin (snd w0) (map fst (filter (expired (now s + timeout)) (live s))))) (waiters s)))
    by (rewrite E; left; reflexivity).
  apply filter_In in H as [H Hn]. cbn [snd] in Hn.
  destruct (I1 t (I2 w t H)) as [dl Hdl].
  rewrite (expired_zin (now s + timeout) t dl (live s) Hdl) in Hn; [discriminate|].
  apply Z.leb_le. exact (I3 t dl Hdl).
Qed.

(* ... and until then each of them is attached to a running connector *)
Theorem waiting_is_attached : forall timeout evs w t, 0 <= timeout ->
  In (w, t) (waiters (crun true timeout evs)) -> has_live t (crun true timeout evs).
Proof. intros timeout evs w t Ht H. destruct (inv_run timeout evs Ht) as [I1 I2 _]. eauto. Qed.

(* a FURL with a usable hint, for a tub without a running connector, starts an attempt *)
Theorem attempt_starts : forall timeout evs t, 0 <= timeout ->
  ~ has_live t (crun true timeout evs) ->
  let s := crun true timeout evs in
  In (next s) (started (cstep true timeout s (GetRef t true))) /\ has_live t (cstep true timeout s (GetRef t true)).
Proof.
  intros timeout evs t Ht Hn s. destruct (inv_run timeout evs Ht) as [I1 _ _]. fold s in I1, Hn.
  cbn [cstep table]. destruct (zin t (table s)) eqn:Et.
  - apply zin_In in Et. exfalso. apply Hn. auto.
  - unfold connect, store, has_live; cbn [now table live waiters fired started next]. split; [left; reflexivity|]. exists (now s + timeout). left. reflexivity.
Qed.

(* the other order (connect, then store): an unusable FURL leaves a dead connector behind and the next,
   perfectly good FURL for the same tub is never answered *)
Example stall_refuted :
  let s := crun false 120 [GetRef 7 false; GetRef 7 true; Advance 1000000] in
  waiters s = [(1%nat, 7)] /\ started s = [] /\ live s = [].
Proof. vm_compute. repeat split. Qed.

Example no_stall_example :
  let s := crun true 120 [GetRef 7 false; GetRef 7 true; Advance 60; GetRef 7 true; GetRef 8 false; Advance 60] in
  waiters s = [] /\ fired s = [0; 3; 2; 1]%nat /\ started s = [1%nat].
Proof. vm_compute. repeat split. Qed.
