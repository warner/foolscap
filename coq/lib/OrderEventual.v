(* C04 x C17: the eventual queue under the ordering model.  lib/Order.v runs a Turn as "take the batch that is queued now,
   run it front to back, what is enqueued meanwhile waits for the next Turn", with the three facts it needs read from
   eventual.py by translate/g_order.py.  C17 owns the full translated model of eventual.py (lib/Eventual.v over
   gen/EventualGen.v, ~30 facts) and proves exactly that batch discipline for every reachable queue state
   (EventualProofs.ev_fifo / ev_isolation).  Here the two readings of the source are shown to coincide and C17's theorems
   are imported for the queue the Broker uses -- not re-proved. *)
From Coq Require Import ZArith List Bool Lia.
Import ListNotations.
Require Import Verif.gen.EventualGen Verif.lib.Eventual Verif.lib.EventualProofs.
Require Import Verif.gen.OrderGen Verif.lib.Order Verif.lib.OrderProofs.

(* the facts of gen/OrderGen.v are the corresponding facts of C17's configuration *)
Definition push_of (p : endpos) : push_end := match p with Tail => PushBack | Head => PushFront end.
Definition iter_of (o : iterorder) : iter_dir := match o with Forward => IterForward | Backward => IterReverse end.

Theorem two_readings_agree :
  evq_push = push_of (c_pos src_cfg) /\ evq_iter = iter_of (c_order src_cfg) /\
  (evq_isolates_exceptions = true <-> c_catch src_cfg = CatchAll).
Proof. rewrite src_is_good. split; [reflexivity|]. split; [reflexivity|]. split; reflexivity. Qed.

(* one Turn of the ordering model, unfolded *)
Lemma turn_is_batch s :
  Order.turn s = fold_left run_thunk (evq s)
                   (mk (next_id s) (sendq s) (cur s) (wire s) (inq s) (waiting s) [] (trace s) (lost s) (dropped s) (early s) (cut s)).
Proof. unfold Order.turn. destruct evq_is_fifo as [_ ->]. reflexivity. Qed.

(* ... and that is what the real queue does with its batch, by C17: in every reachable state of the real queue, one _turn runs
   exactly the callables queued when it started, in submission order, and leaves what they enqueue for a later turn; and
   at any moment submitted = run ++ still queued, in order.  The two models meet only in the LENGTH of the queue (a C04 thunk
   is always doNextCall: n thunks queued = n entries of the real queue); the C04 state s occurs nowhere else in the statement. *)
Theorem turn_batch_is_C17_batch : forall eops st t st' t' (s : state),
  Eventual.run src_cfg q0 eops = (st, t) -> Eventual.turn src_cfg st = (st', t') ->
  List.length (events st) = List.length (evq s) ->
  List.length (rans t') = List.length (evq s) /\ rans t' = map sid (events st) /\
  map sid (events st') = subs t' /\ subs t = rans t ++ map sid (events st).
Proof.
  intros eops st t st' t' s H Ht Hl. destruct (ev_isolation eops st t st' t' H Ht) as [A B].
  split; [rewrite A, map_length; exact Hl|]. split; [exact A|]. split; [exact B|]. apply (ev_fifo eops st t H).
Qed.
