(* C17: theorems about the reference machine of lib/EventualSpec.v with the shape of the current code (good_cfg);
   lib/EventualProofs.v transfers them to the translated code.
   acts_spec says what a list of actions does whoever performs it; flows is the balance of a stretch of execution
   (submitted = run ++ queued, deferred = popped ++ registered); the theorems are read off run_good: every program keeps
   the invariant wft and balances.  The file ends with the programs that refute the statements for the other
   configurations of lib/EventualSpec.v. *)
From Coq Require Import ZArith List Bool Lia.
Import ListNotations.
Require Import Verif.lib.EventualBase Verif.gen.EventualGen Verif.lib.EventualSpec.
Local Open Scope Z_scope.

(* induction over actions whose flush callbacks are again lists of actions (nested inductive):
   to prove P for every action it is enough to prove it for eventually(s) from P for every action of s, and for a
   flush request from P for every action of its callback *)
Fixpoint act_nested_ind (P : act -> Prop)
    (HE : forall s, Forall P (sacts s) -> P (AEnq s))
    (HF : forall fid cb, Forall P cb -> P (AFlush fid cb)) (a : act) {struct a} : P a :=
  match a with
  | AEnq s =>
      match s return P (AEnq s) with
      | Sc i acts k =>
          HE (Sc i acts k) ((fix go (l : list act) : Forall P l :=
                    match l with
                    | [] => Forall_nil P
                    | x :: l' => Forall_cons x (act_nested_ind P HE HF x) (go l')
                    end) acts)
      end
  | AFlush fid cb =>
      HF fid cb ((fix go (l : list act) : Forall P l :=
                    match l with
                    | [] => Forall_nil P
                    | x :: l' => Forall_cons x (act_nested_ind P HE HF x) (go l')
                    end) cb)
  end.

Definition ids (l : list script) : list Z := map sid l.

Lemma subs_app a b : subs (a ++ b) = subs a ++ subs b.
Proof. induction a as [|e a IH]; [reflexivity|]. destruct e; cbn [app subs]; rewrite ?IH; reflexivity. Qed.
Lemma rans_app a b : rans (a ++ b) = rans a ++ rans b.
Proof. induction a as [|e a IH]; [reflexivity|]. destruct e; cbn [app rans]; rewrite ?IH; reflexivity. Qed.
Lemma fdeferred_app a b : fdeferred (a ++ b) = fdeferred a ++ fdeferred b.
Proof.
  induction a as [|e a IH]; [reflexivity|].
  destruct e as [| | | | |f d|]; cbn [app fdeferred]; try destruct d; rewrite ?IH; reflexivity.
Qed.
Lemma fpopped_app a b : fpopped (a ++ b) = fpopped a ++ fpopped b.
Proof. induction a as [|e a IH]; [reflexivity|]. destruct e; cbn [app fpopped]; rewrite ?IH; reflexivity. Qed.
Lemma ffired_app a b : ffired (a ++ b) = ffired a ++ ffired b.
Proof. induction a as [|e a IH]; [reflexivity|]. destruct e; cbn [app ffired]; rewrite ?IH; reflexivity. Qed.
Lemma fanswered_app a b : fanswered (a ++ b) = fanswered a ++ fanswered b.
Proof.
  induction a as [|e a IH]; [reflexivity|].
  destruct e as [| | | | |f d|]; cbn [app fanswered]; try destruct d; rewrite ?IH; reflexivity.
Qed.
Lemma freqs_app a b : freqs (a ++ b) = freqs a ++ freqs b.
Proof. induction a as [|e a IH]; [reflexivity|]. destruct e; cbn [app freqs]; rewrite ?IH; reflexivity. Qed.

Lemma ids_app a b : ids (a ++ b) = ids a ++ ids b.
Proof. apply map_app. Qed.

Lemma is_nil_true {A} (l : list A) : is_nil l = true <-> l = [].
Proof. destruct l; split; [reflexivity|reflexivity|discriminate|discriminate]. Qed.

(* between operations: the timer flag mirrors the reactor, and pending work is always scheduled *)
Definition wfq (st : qstate) : Prop :=
  timer st = sched st /\ (events st <> [] -> sched st = true).

Lemma wfq_nil st : timer st = sched st -> events st = [] -> wfq st.
Proof. intros H He. split; [exact H|]. intros C; contradiction. Qed.

(* an observer is registered only while work is queued (outside the batch loop) *)
Definition qinv (st : qstate) : Prop := events st = [] -> flushers st = [].

Definition noflushfired (t : list ev) : Prop :=
  Forall (fun e => match e with FlushFired _ _ _ => False | _ => True end) t.

Lemma noflushfired_ok t : noflushfired t -> Forall flush_ok t.
Proof. intros H. eapply Forall_impl; [|exact H]. intros e; destruct e; cbn; tauto. Qed.

Lemma enq1_good st s :
  ids (events (enq1 good_cfg st s)) = ids (events st) ++ [sid s] /\
  in_turn (enq1 good_cfg st s) = in_turn st /\ flushers (enq1 good_cfg st s) = flushers st /\
  (wfq st -> wfq (enq1 good_cfg st s)) /\ (sched st = true -> sched (enq1 good_cfg st s) = true) /\
  events (enq1 good_cfg st s) <> [].
Proof.
  unfold enq1. cbn [good_cfg c_pos c_arms events in_turn flushers timer sched].
  split; [apply ids_app|]. split; [reflexivity|]. split; [reflexivity|]. split; [|split].
  - intros [H1 H2]. unfold wfq; cbn [timer sched events]. rewrite H1, andb_true_r.
    split; [reflexivity|]. intros _. destruct (sched st); reflexivity.
  - intros ->. reflexivity.
  - intros C. apply app_eq_nil in C as [_ C]. discriminate.
Qed.

(* flush(): `if not self._events and not self._in_turn` *)
Lemma flush_idle_good st : flush_idle good_cfg st = true <-> events st = [] /\ in_turn st = false.
Proof.
  unfold flush_idle. cbn [good_cfg c_guard]. rewrite andb_true_iff, negb_true_iff, is_nil_true. reflexivity.
Qed.

(* what a list of actions does, under the current code (good_cfg), whoever performs it:
   nothing runs; the queue grows by what was submitted; deferred flush requests are appended to the
   observers, in order; every notification answers a request made on the idle queue *)
Definition acts_spec (ctx : option (list script)) (st st' : qstate) (t : list ev) : Prop :=
  rans t = [] /\ fpopped t = [] /\
  ids (events st') = ids (events st) ++ subs t /\
  in_turn st' = in_turn st /\
  map fst (flushers st') = map fst (flushers st) ++ fdeferred t /\
  ffired t = fanswered t /\
  (wfq st -> wfq st') /\
  (sched st = true -> sched st' = true) /\
  (in_turn st = true -> noflushfired t) /\
  (ctx = None -> Forall flush_ok t) /\
  (in_turn st = false -> qinv st -> qinv st') /\
  (events st <> [] -> events st' <> []).

Lemma acts_spec_refl ctx st : acts_spec ctx st st [].
Proof.
  unfold acts_spec. cbn [rans fpopped subs fdeferred ffired fanswered]. rewrite !app_nil_r.
  repeat (split; [first [reflexivity | solve [auto] | intros; constructor]|]). auto.
Qed.

Lemma acts_spec_trans ctx st st1 st2 t1 t2 :
  acts_spec ctx st st1 t1 -> acts_spec ctx st1 st2 t2 -> acts_spec ctx st st2 (t1 ++ t2).
Proof.
  intros (A1 & A2 & A3 & A4 & A5 & A6 & A7 & A8 & A9 & A10 & A11 & A12)
         (B1 & B2 & B3 & B4 & B5 & B6 & B7 & B8 & B9 & B10 & B11 & B12).
  unfold acts_spec.
  split; [rewrite rans_app, A1; exact B1|]. split; [rewrite fpopped_app, A2; exact B2|].
  split; [rewrite subs_app, app_assoc, <- A3; exact B3|]. split; [congruence|].
  split; [rewrite fdeferred_app, app_assoc, <- A5; exact B5|].
  split; [rewrite ffired_app, fanswered_app, A6, B6; reflexivity|]. split; [auto|]. split; [auto|].
  split; [|split; [|split]].
  - intros Hi. apply Forall_app. split; [apply A9; exact Hi|]. apply B9. congruence.
  - intros Hc. apply Forall_app. split; [apply A10; exact Hc|apply B10; exact Hc].
  - intros Hi Hq. apply B11; [congruence|]. apply A11; assumption.
  - auto.
Qed.

Lemma acts_spec_enq ctx st s : acts_spec ctx st (enq1 good_cfg st s) [Sub (sid s)].
Proof.
  destruct (enq1_good st s) as (A1 & A2 & A3 & A4 & A5 & A6).
  unfold acts_spec. cbn [rans fpopped subs fdeferred ffired fanswered]. rewrite A3, app_nil_r.
  split; [reflexivity|]. split; [reflexivity|]. split; [exact A1|]. split; [exact A2|].
  split; [reflexivity|]. split; [reflexivity|]. split; [exact A4|]. split; [exact A5|].
  split; [intros _; repeat constructor|]. split; [intros _; repeat constructor|].
  split; [intros _ _ C; contradiction|]. intros _; exact A6.
Qed.

Lemma acts_spec_idle ctx st fid :
  flush_idle good_cfg st = true -> acts_spec ctx st st [FlushReq fid false; fired_ev ctx st fid].
Proof.
  intros [He Hi]%flush_idle_good.
  unfold acts_spec, fired_ev. cbn [rans fpopped subs fdeferred ffired fanswered]. rewrite He, !app_nil_r.
  split; [reflexivity|]. split; [reflexivity|]. split; [reflexivity|]. split; [reflexivity|].
  split; [reflexivity|]. split; [reflexivity|]. split; [auto|]. split; [auto|].
  split; [congruence|]. split; [|auto]. intros ->. repeat constructor.
Qed.

(* the request is registered: work is queued or a batch is running *)
Lemma acts_spec_defer ctx st fid cb :
  flush_idle good_cfg st = false ->
  acts_spec ctx st (set_flushers st (flushers st ++ [(fid, cb)])) [FlushReq fid true].
Proof.
  intros E. unfold acts_spec.
  cbn [set_flushers events in_turn timer sched flushers rans fpopped subs fdeferred ffired fanswered].
  rewrite app_nil_r, map_app.
  split; [reflexivity|]. split; [reflexivity|]. split; [reflexivity|]. split; [reflexivity|].
  split; [reflexivity|]. split; [reflexivity|]. split; [auto|]. split; [auto|].
  split; [intros _; repeat constructor|]. split; [intros _; repeat constructor|].
  split; [|auto]. intros Hi _ He. cbn [events] in He.
  rewrite (proj2 (flush_idle_good st) (conj He Hi)) in E. discriminate.
Qed.

Lemma run_list_cons f a l st :
  run_list f (a :: l) st = let '(st1, t1) := f st a in let '(st2, t2) := run_list f l st1 in (st2, t1 ++ t2).
Proof. reflexivity. Qed.

Lemma run_list_spec ctx l :
  Forall (fun a => forall st st' t, do_act good_cfg ctx st a = (st', t) -> acts_spec ctx st st' t) l ->
  forall st st' t, run_list (do_act good_cfg ctx) l st = (st', t) -> acts_spec ctx st st' t.
Proof.
  induction 1 as [|a l Ha _ IH]; intros st st' t; cbn [run_list].
  - intros [= <- <-]. apply acts_spec_refl.
  - destruct (do_act good_cfg ctx st a) as [st1 t1] eqn:E1.
    destruct (run_list (do_act good_cfg ctx) l st1) as [st2 t2] eqn:E2.
    intros [= <- <-]. eapply acts_spec_trans; [apply Ha; exact E1|apply IH; exact E2].
Qed.

Lemma do_act_unfold c ctx st fid cb :
  do_act c ctx st (AFlush fid cb) =
  if flush_idle c st
  then let '(st', t) := run_acts c ctx st cb in (st', FlushReq fid false :: fired_ev ctx st fid :: t)
  else (set_flushers st (flushers st ++ [(fid, cb)]), [FlushReq fid true]).
Proof. reflexivity. Qed.

Lemma do_act_spec ctx a : forall st st' t,
  do_act good_cfg ctx st a = (st', t) -> acts_spec ctx st st' t.
Proof.
  induction a as [s _|fid cb IH] using act_nested_ind; intros st st' t.
  - cbn [do_act good_cfg c_append_runs]. intros [= <- <-]. apply acts_spec_enq.
  - rewrite do_act_unfold. unfold run_acts. destruct (flush_idle good_cfg st) eqn:E.
    + destruct (run_list (do_act good_cfg ctx) cb st) as [st1 t1] eqn:E1. intros [= <- <-].
      apply (acts_spec_trans ctx st st _ [_; _]); [apply acts_spec_idle, E|apply (run_list_spec ctx cb IH), E1].
    + intros [= <- <-]. apply acts_spec_defer, E.
Qed.

Lemma run_acts_spec ctx l st st' t :
  run_acts good_cfg ctx st l = (st', t) -> acts_spec ctx st st' t.
Proof.
  unfold run_acts. apply run_list_spec. apply Forall_forall. intros a _. apply do_act_spec.
Qed.

Lemma notify_spec st f cb st' t :
  notify good_cfg None st f cb = (st', t) -> events st = [] -> in_turn st = false ->
  exists t', t = FlushFired f 0%nat false :: t' /\ acts_spec None st st' t'.
Proof.
  unfold notify. destruct (run_acts good_cfg None st cb) as [st1 t1] eqn:E.
  intros [= <- <-] He Hi. exists t1. unfold fired_ev. rewrite He. split; [reflexivity|].
  eapply run_acts_spec. exact E.
Qed.

(* the batch loop: `except:` catches whatever a callable raises: the loop goes on after every entry *)
Definition raised (s : script) : list ev := match sraises s with RNo => [] | _ => [Raised (sid s)] end.

Lemma run_batch_cons st s rest :
  run_batch good_cfg st (s :: rest) =
  let '(st1, t1) := run_acts good_cfg (Some rest) st (sacts s) in
  let '(st2, t2, ok) := run_batch good_cfg st1 rest in (st2, Ran (sid s) :: t1 ++ raised s ++ t2, ok).
Proof.
  cbn [run_batch]. unfold raised. destruct (run_acts good_cfg (Some rest) st (sacts s)) as [st1 t1].
  destruct (run_batch good_cfg st1 rest) as [[st2 t2] ok]. destruct (sraises s); reflexivity.
Qed.

Lemma raised_silent s :
  subs (raised s) = [] /\ rans (raised s) = [] /\ fdeferred (raised s) = [] /\ fpopped (raised s) = [] /\
  ffired (raised s) = [] /\ fanswered (raised s) = [] /\ noflushfired (raised s).
Proof. unfold raised. destruct (sraises s); repeat split; repeat constructor. Qed.

Lemma run_batch_good batch : forall st st' t ok,
  run_batch good_cfg st batch = (st', t, ok) ->
  ok = true /\ rans t = ids batch /\ ids (events st') = ids (events st) ++ subs t /\
  in_turn st' = in_turn st /\ (wfq st -> wfq st') /\ (in_turn st = true -> noflushfired t) /\
  fpopped t = [] /\ map fst (flushers st') = map fst (flushers st) ++ fdeferred t /\ ffired t = fanswered t.
Proof.
  induction batch as [|s rest IH]; intros st st' t ok.
  - intros [= <- <- <-]. cbn [rans subs ids map fpopped fdeferred ffired fanswered]. rewrite !app_nil_r.
    repeat (split; [first [reflexivity | solve [auto] | intros; constructor]|]). reflexivity.
  - rewrite run_batch_cons.
    destruct (run_acts good_cfg (Some rest) st (sacts s)) as [st1 t1] eqn:E1.
    destruct (run_batch good_cfg st1 rest) as [[st2 t2] ok2] eqn:E2.
    apply run_acts_spec in E1 as (A1 & A2 & A3 & A4 & A5 & A6 & A7 & _ & A9 & _).
    apply IH in E2 as (-> & B1 & B2 & B3 & B4 & B5 & B6 & B7 & B8).
    destruct (raised_silent s) as (R1 & R2 & R3 & R4 & R5 & R6 & R7). intros [= <- <- <-].
    cbn [rans subs fpopped fdeferred ffired fanswered ids map].
    split; [reflexivity|]. split; [rewrite !rans_app, A1, R2, B1; reflexivity|].
    split; [rewrite !subs_app, R1, B2, A3, app_assoc; reflexivity|]. split; [congruence|]. split; [auto|].
    split; [|split; [rewrite !fpopped_app, A2, R4; exact B6|split;
      [rewrite !fdeferred_app, R3, B7, A5, app_assoc; reflexivity|rewrite !ffired_app, !fanswered_app, R5, R6, A6, B8; reflexivity]]].
    intros Hi. constructor; [exact I|]. apply Forall_app. split; [apply A9, Hi|].
    apply Forall_app. split; [exact R7|]. apply B5. congruence.
Qed.

(* the observer loop never runs out of fuel, for EVERY configuration: one notification takes one
   registered observer away and its callback can register at most as many as it contains flush requests *)
Lemma act_flushes_unfold fid cb : act_flushes (AFlush fid cb) = S (acts_flushes cb).
Proof.
  reflexivity.
Qed.

Lemma act_flushes_enq s : act_flushes (AEnq s) = acts_flushes (sacts s).
Proof. destruct s. reflexivity. Qed.

Lemma obs_weight_cons f cb fl : obs_weight ((f, cb) :: fl) = S (acts_flushes cb + obs_weight fl).
Proof. reflexivity. Qed.

Lemma obs_weight_app a b : obs_weight (a ++ b) = (obs_weight a + obs_weight b)%nat.
Proof. induction a as [|[f cb] a IH]; [reflexivity|]. cbn [app]. rewrite !obs_weight_cons, IH. lia. Qed.

Lemma enq1_flushers c st s : flushers (enq1 c st s) = flushers st.
Proof. reflexivity. Qed.

Lemma run_list_weight c l :
  Forall (fun a => forall ctx st, (obs_weight (flushers (fst (do_act c ctx st a))) <= obs_weight (flushers st) + act_flushes a)%nat) l ->
  forall ctx st, (obs_weight (flushers (fst (run_list (do_act c ctx) l st))) <= obs_weight (flushers st) + acts_flushes l)%nat.
Proof.
  induction 1 as [|a l Ha _ IH]; intros ctx st; cbn [run_list].
  - cbn. lia.
  - specialize (Ha ctx st). destruct (do_act c ctx st a) as [st1 t1]. cbn [fst] in Ha.
    specialize (IH ctx st1). destruct (run_list (do_act c ctx) l st1) as [st2 t2]. cbn [fst] in *.
    unfold acts_flushes in *. cbn [fold_right]. lia.
Qed.

Lemma do_act_weight c a : forall ctx st,
  (obs_weight (flushers (fst (do_act c ctx st a))) <= obs_weight (flushers st) + act_flushes a)%nat.
Proof.
  induction a as [s IH|fid cb IH] using act_nested_ind; intros ctx st.
  - rewrite act_flushes_enq. destruct s as [i acts k]. cbn [do_act sacts] in *. destruct (c_append_runs c).
    + pose proof (run_list_weight c acts IH (Some match ctx with Some r => r | None => [] end) (enq1 c st (Sc i acts k))) as W.
      destruct (run_list _ acts (enq1 c st (Sc i acts k))) as [st1 t1]. cbn [fst] in *.
      rewrite enq1_flushers in W. lia.
    + cbn [fst]. rewrite enq1_flushers. lia.
  - rewrite do_act_unfold, act_flushes_unfold. unfold run_acts. destruct (flush_idle c st).
    + pose proof (run_list_weight c cb IH ctx st) as W.
      destruct (run_list (do_act c ctx) cb st) as [st1 t1]. cbn [fst] in *. lia.
    + cbn [fst set_flushers flushers]. rewrite obs_weight_app, obs_weight_cons. cbn. lia.
Qed.

Lemma run_acts_weight c ctx l st :
  (obs_weight (flushers (fst (run_acts c ctx st l))) <= obs_weight (flushers st) + acts_flushes l)%nat.
Proof. unfold run_acts. apply run_list_weight. apply Forall_forall. intros a _. apply do_act_weight. Qed.

(* the `while` loop of _turn ends because its condition is false, never because the model's fuel is used up *)
Theorem fire_while_complete : forall c fuel st,
  (obs_weight (flushers st) <= fuel)%nat ->
  flushers (fst (fire_while c fuel st)) = [] \/ events (fst (fire_while c fuel st)) <> [].
Proof.
  intros c fuel. induction fuel as [|fuel IH]; intros st Hw; cbn [fire_while];
    destruct (flushers st) as [|[f cb] rest] eqn:Ef; try (left; exact Ef).
  - rewrite obs_weight_cons in Hw. lia.
  - destruct (is_nil (events st)) eqn:En.
    + unfold notify.
      pose proof (run_acts_weight c None cb (set_flushers st rest)) as W.
      destruct (run_acts c None (set_flushers st rest) cb) as [st1 t1]. cbn [fst set_flushers flushers] in W.
      rewrite obs_weight_cons in Hw.
      assert (W1 : (obs_weight (flushers st1) <= fuel)%nat) by lia.
      specialize (IH st1 W1). destruct (fire_while c fuel st1) as [st2 t2]. exact IH.
    + right. cbn [fst]. intros C. rewrite C in En. discriminate.
Qed.

(* between operations no batch is running, and observers are registered only while work is queued *)
Definition wft (st : qstate) : Prop :=
  wfq st /\ in_turn st = false /\ qinv st.

Definition flows (st st' : qstate) (t : list ev) : Prop :=
  Forall flush_ok t /\ ids (events st) ++ subs t = rans t ++ ids (events st') /\
  map fst (flushers st) ++ fdeferred t = fpopped t ++ map fst (flushers st') /\ ffired t = fanswered t.

Lemma flows_refl st : flows st st [].
Proof.
  unfold flows. cbn [subs rans fdeferred fpopped ffired fanswered app]. rewrite !app_nil_r.
  split; [constructor|]. auto.
Qed.

Lemma flows_trans st st1 st2 t1 t2 : flows st st1 t1 -> flows st1 st2 t2 -> flows st st2 (t1 ++ t2).
Proof.
  intros (A1 & A2 & A3 & A4) (B1 & B2 & B3 & B4). unfold flows.
  split; [apply Forall_app; split; assumption|].
  split; [rewrite subs_app, rans_app, app_assoc, A2, <- !app_assoc, B2; reflexivity|].
  split; [rewrite fdeferred_app, fpopped_app, app_assoc, A3, <- !app_assoc, B3; reflexivity|].
  rewrite ffired_app, fanswered_app, A4, B4. reflexivity.
Qed.

Lemma acts_flows st st' t : acts_spec None st st' t -> flows st st' t.
Proof.
  intros (A1 & A2 & A3 & _ & A5 & A6 & _ & _ & _ & A10 & _). unfold flows. rewrite A1, A2, A3, A5. auto.
Qed.

Lemma fire_while_flows fuel : forall st st' t,
  fire_while good_cfg fuel st = (st', t) -> wfq st -> in_turn st = false ->
  wfq st' /\ in_turn st' = false /\ rans t = [] /\ flows st st' t.
Proof.
  induction fuel as [|fuel IH]; intros st st' t; cbn [fire_while];
    [|destruct (flushers st) as [|[f cb] rest] eqn:Ef; [|destruct (is_nil (events st)) eqn:En]].
  1, 2, 4: intros [= <- <-] W Hi; auto using flows_refl.
  destruct (notify good_cfg None (set_flushers st rest) f cb) as [st1 t1] eqn:E1.
  destruct (fire_while good_cfg fuel st1) as [st2 t2] eqn:E2. intros [= <- <-] W Hi.
  apply notify_spec in E1 as (t1' & -> & A); [|apply is_nil_true, En|exact Hi].
  apply IH in E2 as (B1 & B2 & B3 & B4); [|apply A, W|rewrite <- Hi; apply A].
  split; [exact B1|]. split; [exact B2|]. split.
  - cbn [rans app]. rewrite rans_app, B3, app_nil_r. apply A.
  - apply (flows_trans st (set_flushers st rest) _ [_; _]); [|eapply flows_trans; [apply acts_flows, A|exact B4]].
    unfold flows. cbn [set_flushers events flushers subs rans fdeferred fpopped ffired fanswered]. rewrite Ef.
    split; [repeat constructor|]. rewrite !app_nil_r. auto.
Qed.

Lemma fire_while_good fuel : forall st st' t,
  fire_while good_cfg fuel st = (st', t) -> wfq st -> in_turn st = false ->
  wfq st' /\ in_turn st' = false /\ Forall flush_ok t /\ rans t = [] /\
  ids (events st') = ids (events st) ++ subs t /\
  map fst (flushers st) ++ fdeferred t = fpopped t ++ map fst (flushers st') /\
  ffired t = fanswered t.
Proof.
  intros st st' t H W Hi. destruct (fire_while_flows fuel st st' t H W Hi) as (A & B & R & F & E & C).
  rewrite R in E. split; [exact A|]. split; [exact B|]. split; [exact F|]. split; [exact R|].
  split; [symmetry; exact E|exact C].
Qed.

(* wft st' /\ flows st st' t, written out *)
Definition step_spec (st st' : qstate) (t : list ev) : Prop :=
  wft st' /\ Forall flush_ok t /\ ids (events st) ++ subs t = rans t ++ ids (events st') /\
  map fst (flushers st) ++ fdeferred t = fpopped t ++ map fst (flushers st') /\ ffired t = fanswered t.

Lemma turn_good st st' t :
  turn good_cfg st = (st', t) -> wft st ->
  wft st' /\ Forall flush_ok t /\
  ids (events st) ++ subs t = rans t ++ ids (events st') /\
  firstn (List.length (events st)) (rans t) = ids (events st) /\
  (exists t1 t2, t = t1 ++ t2 /\ rans t1 = ids (events st) /\ rans t2 = []) /\
  map fst (flushers st) ++ fdeferred t = fpopped t ++ map fst (flushers st') /\
  ffired t = fanswered t.
Proof.
  intros H W.
  enough (step_spec st st' t /\ exists t1 t2, t = t1 ++ t2 /\ rans t1 = ids (events st) /\ rans t2 = [])
    as ((A & B & C & D & E) & t1 & t2 & -> & R1 & R2).
  { split; [exact A|]. split; [exact B|]. split; [exact C|]. split; [|split; [exists t1, t2; auto|auto]].
    rewrite rans_app, R1, R2, app_nil_r. unfold ids. rewrite <- (map_length sid (events st)). apply firstn_all. }
  revert H W. unfold turn. intros H (W & Hi & Q). destruct (sched st) eqn:Es; cbn [negb] in H.
  - cbn [good_cfg c_clears c_marks c_order] in H.
    destruct (run_batch good_cfg _ (events st)) as [[st1 t1] ok] eqn:E in H.
    apply run_batch_good in E as (-> & B1 & B2 & _ & B4 & B5 & B6 & B7 & B8).
    unfold fire in H. cbn [good_cfg c_fire flushers] in H.
    match type of H with context [fire_while good_cfg ?n ?s] =>
      pose proof (fire_while_complete good_cfg n s (le_n _)) as Hx; destruct (fire_while good_cfg n s) as [st2 t2] eqn:E2 end.
    injection H as <- <-.
    apply fire_while_flows in E2 as (C1 & C2 & C3 & C4); [|apply B4, wfq_nil; reflexivity|reflexivity].
    split; [split|exists t1, t2; auto].
    + split; [exact C1|]. split; [exact C2|]. intros He. destruct Hx as [Hx|Hx]; [exact Hx|contradiction].
    + eapply flows_trans; [|exact C4]. unfold flows. cbn [events flushers] in *.
      rewrite B1, B2, B6, B7, B8. split; [apply noflushfired_ok, B5; reflexivity|]. split; [reflexivity|auto].
  - injection H as <- <-.
    assert (He : events st = []).
    { destruct W as [_ W2]. destruct (events st); [reflexivity|]. rewrite W2 in Es; discriminate. }
    split; [exact (conj (conj W (conj Hi Q)) (flows_refl st))|]. exists [], []. rewrite He. auto.
Qed.

Lemma act_top_good st a st' t :
  do_act good_cfg None st a = (st', t) -> wft st ->
  wft st' /\ Forall flush_ok t /\ ids (events st) ++ subs t = rans t ++ ids (events st') /\
  map fst (flushers st) ++ fdeferred t = fpopped t ++ map fst (flushers st') /\ ffired t = fanswered t.
Proof.
  intros H (W & Hi & Q). apply do_act_spec in H. split; [|apply acts_flows, H].
  destruct H as (_ & _ & _ & A4 & _ & _ & A7 & _ & _ & _ & A11 & _).
  split; [auto|]. split; [congruence|auto].
Qed.

Lemma step_good st o st' t :
  step good_cfg st o = (st', t) -> wft st -> step_spec st st' t.
Proof.
  destruct o as [a|]; cbn [step]; intros H W.
  - eapply act_top_good; eassumption.
  - apply turn_good in H as (A & B & C & _ & _ & D); [|exact W]. unfold step_spec. auto.
Qed.

Lemma run_good ops : forall st st' t,
  run good_cfg st ops = (st', t) -> wft st -> step_spec st st' t.
Proof.
  induction ops as [|o ops IH]; intros st st' t; cbn [run].
  - intros [= <- <-] W. exact (conj W (flows_refl st)).
  - destruct (step good_cfg st o) as [st1 t1] eqn:E1. destruct (run good_cfg st1 ops) as [st2 t2] eqn:E2.
    intros [= <- <-] W. apply step_good in E1 as [W1 F1]; [|exact W]. apply IH in E2 as [W2 F2]; [|exact W1].
    exact (conj W2 (flows_trans _ _ _ _ _ F1 F2)).
Qed.

Lemma wft_q0 : wft q0.
Proof. split; [apply wfq_nil; reflexivity|]. split; [reflexivity|]. intros _; reflexivity. Qed.

(* eventually(f) only records f: nothing runs, whatever the state and whoever calls it
   (top level, a callable of the running batch, the callback of a flush Deferred).
   This rests on c_append_runs good_cfg = false: see [ev_never_sync_needs_fact] below. *)
Theorem ev_never_sync : forall ctx st s,
  snd (do_act good_cfg ctx st (AEnq s)) = [Sub (sid s)] /\
  forall l, rans (snd (run_acts good_cfg ctx st l)) = [].
Proof.
  intros ctx st s. split; [reflexivity|].
  intros l. destruct (run_acts good_cfg ctx st l) as [st' t] eqn:E. apply run_acts_spec in E. apply E.
Qed.

(* ... and the dependence on that fact is real: for a configuration whose append() calls cb, the statement fails --
   the callable runs inside eventually() (and once more in its turn) *)
Lemma ev_never_sync_needs_fact :
  exists c ctx st s, c_append_runs c = true /\ In (Ran (sid s)) (snd (do_act c ctx st (AEnq s))).
Proof.
  exists append_sync_cfg, None, q0, (Sc 1 [] RNo). split; [reflexivity|]. vm_compute. tauto.
Qed.

Lemma ev_never_sync_append_sync_refuted :
  let ops := [OAct (AEnq (Sc 1 [AEnq (Sc 2 [] RNo); AFlush 7 []] RExc)); OTurn; OTurn] in
  snd (run append_sync_cfg q0 ops) =
    [Sub 1; Ran 1; Sub 2; Ran 2; FlushReq 7 true; Raised 1; Escaped 1;
     Ran 1; Sub 2; Ran 2; FlushReq 7 true; Raised 1; Ran 2; Ran 2; FlushPop 7; FlushFired 7 0%nat false;
     FlushPop 7; FlushFired 7 0%nat false].
Proof. vm_compute. reflexivity. Qed.

Example ev_never_sync_now :
  let ops := [OAct (AEnq (Sc 1 [AEnq (Sc 2 [] RNo); AFlush 7 []] RExc)); OTurn; OTurn] in
  c_append_runs good_cfg = false /\
  snd (do_act good_cfg None q0 (AEnq (Sc 1 [AEnq (Sc 2 [] RNo); AFlush 7 []] RExc))) = [Sub 1] /\
  snd (run good_cfg q0 ops) =
    [Sub 1; Ran 1; Sub 2; FlushReq 7 true; Raised 1; Ran 2; FlushPop 7; FlushFired 7 0%nat false].
Proof. vm_compute. repeat split; reflexivity. Qed.

(* run order = submission order: at any moment the callables submitted so far (at top level,
   re-entrantly, or by flush callbacks) are, in order, those already run followed by those still queued *)
Theorem ev_fifo : forall ops st t,
  run good_cfg q0 ops = (st, t) -> subs t = rans t ++ map sid (events st).
Proof.
  intros ops st t H. apply run_good in H as (_ & _ & H & _); [|exact wft_q0]. exact H.
Qed.

Corollary ev_exactly_once : forall ops st t,
  run good_cfg q0 ops = (st, t) -> events st = [] -> rans t = subs t.
Proof. intros ops st t H He. apply ev_fifo in H. rewrite He, app_nil_r in H. auto. Qed.

(* one turn runs exactly the callables queued when it started, in order, whether or not some
   of them raise; what they (or the flush callbacks served at the end of the turn) enqueue is
   left for a later turn *)
Theorem ev_isolation : forall ops st t st' t',
  run good_cfg q0 ops = (st, t) -> turn good_cfg st = (st', t') ->
  rans t' = map sid (events st) /\ map sid (events st') = subs t'.
Proof.
  intros ops st t st' t' H Ht.
  apply run_good in H as (W & _ & _); [|exact wft_q0].
  apply turn_good in Ht as (_ & _ & A & _ & (t1 & t2 & -> & B1 & B2) & _); [|exact W].
  rewrite rans_app, B1, B2, app_nil_r in *. split; [reflexivity|].
  apply app_inv_head in A. auto.
Qed.

Lemma qinv_sched st : wfq st -> qinv st -> flushers st <> [] -> sched st = true.
Proof.
  intros [_ W2] Q Hf. apply W2. intros C. apply Hf. apply Q. exact C.
Qed.

(* work that is queued always has a reactor call pending, and so has a registered flush observer *)
Theorem ev_scheduled : forall ops st t,
  run good_cfg q0 ops = (st, t) ->
  (events st <> [] -> sched st = true) /\ (flushers st <> [] -> sched st = true) /\ in_turn st = false.
Proof.
  intros ops st t H. apply run_good in H as ((W & Hi & Q) & _ & _); [|exact wft_q0].
  split; [apply W|]. split; [apply qinv_sched; assumption|exact Hi].
Qed.

(* the flush notification fires only when nothing is queued and no callable of a batch is running *)
Theorem ev_flush : forall ops st t,
  run good_cfg q0 ops = (st, t) -> Forall flush_ok t.
Proof.
  intros ops st t H. apply run_good in H as (_ & H & _); [|exact wft_q0]. exact H.
Qed.

(* No flush observer is lost, none is notified twice, and the deferred ones are served in request order:
   for every program,
   - the deferred requests made so far are, in order, the observers taken out of the list so far followed by
     those still registered;
   - the notifications are, in order and one for one, the requests answered at once (made on the idle queue)
     and the observers taken out of the list. *)
Theorem ev_flush_accounting : forall ops st t,
  run good_cfg q0 ops = (st, t) ->
  fdeferred t = fpopped t ++ map fst (flushers st) /\ ffired t = fanswered t.
Proof.
  intros ops st t H. apply run_good in H as (_ & _ & _ & A & B); [|exact wft_q0].
  cbn [q0 flushers map app] in A. auto.
Qed.

(* Whenever the queue is empty between two operations -- in particular after a turn that leaves it
   empty -- no observer remains registered: every deferred request made so far has been notified *)
Theorem ev_flush_drained : forall ops st t,
  run good_cfg q0 ops = (st, t) -> events st = [] ->
  flushers st = [] /\ fdeferred t = fpopped t.
Proof.
  intros ops st t H He. pose proof (ev_flush_accounting _ _ _ H) as [A _].
  apply run_good in H as ((_ & _ & Q) & _); [|exact wft_q0].
  specialize (Q He). rewrite Q in A. cbn [map] in A. rewrite app_nil_r in A. auto.
Qed.

(* A flush request made between two operations is answered at once exactly when nothing is queued *)
Theorem ev_flush_sync_iff : forall ops st t fid cb,
  run good_cfg q0 ops = (st, t) ->
  (events st = [] -> exists t', snd (do_act good_cfg None st (AFlush fid cb)) = FlushReq fid false :: FlushFired fid 0%nat false :: t') /\
  (events st <> [] -> do_act good_cfg None st (AFlush fid cb) = (set_flushers st (flushers st ++ [(fid, cb)]), [FlushReq fid true])).
Proof.
  intros ops st t fid cb H.
  apply run_good in H as ((_ & Hi & _) & _); [|exact wft_q0].
  rewrite do_act_unfold. unfold flush_idle, fired_ev. cbn [good_cfg c_guard]. rewrite Hi. split.
  - intros ->. cbn [is_nil andb negb]. destruct (run_acts good_cfg None st cb) as [st1 t1]. cbn [snd].
    exists t1. cbn [List.length]. destruct st; reflexivity.
  - intros Hn. destruct (events st); [contradiction|]. reflexivity.
Qed.

(* D11, for the record: the guard `if not self._events` of the earlier code admits a notification
   while a later callable of the same batch has not run *)
Definition d11_witness : list op :=
  [OAct (AEnq (Sc 1 [AFlush 7 []] RNo)); OAct (AEnq (Sc 2 [] RNo)); OTurn].

Lemma ev_flush_old_guard_refuted :
  exists ops st t, run old_cfg q0 ops = (st, t) /\ In (FlushFired 7 1%nat true) t.
Proof. exists d11_witness. eexists. eexists. split; [vm_compute; reflexivity|]. cbn. tauto. Qed.

Example d11_witness_now :
  snd (run good_cfg q0 d11_witness) =
  [Sub 1; Sub 2; Ran 1; FlushReq 7 true; Ran 2; FlushPop 7; FlushFired 7 0%nat false].
Proof. vm_compute. reflexivity. Qed.

(* the second repair, for the record: with `if not self._events: fire every observer` a later observer is
   notified although the callback of an earlier one has just enqueued work *)
Definition d17_witness : list op :=
  [OAct (AEnq (Sc 1 [] RNo)); OAct (AFlush 7 [AEnq (Sc 2 [] RNo)]); OAct (AFlush 8 []); OTurn].

Lemma ev_flush_old_loop_refuted :
  exists ops st t, run old2_cfg q0 ops = (st, t) /\ In (FlushFired 8 1%nat false) t.
Proof. exists d17_witness. eexists. eexists. split; [vm_compute; reflexivity|]. cbn. tauto. Qed.

Example d17_witness_now :
  snd (run good_cfg q0 (d17_witness ++ [OTurn])) =
  [Sub 1; FlushReq 7 true; FlushReq 8 true; Ran 1; FlushPop 7; FlushFired 7 0%nat false; Sub 2; Ran 2;
   FlushPop 8; FlushFired 8 0%nat false].
Proof. vm_compute. reflexivity. Qed.

(* non-vacuity: a program with re-entrant enqueueing, a raising callable and flushes *)
Example ev_example :
  let ops := [OAct (AEnq (Sc 1 [AEnq (Sc 3 [] RNo); AFlush 8 [AEnq (Sc 4 [] RBase)]] RExc)); OAct (AFlush 9 []);
              OAct (AEnq (Sc 2 [] RNo)); OTurn; OTurn; OTurn; OAct (AFlush 10 [])] in
  snd (run good_cfg q0 ops) =
    [Sub 1; FlushReq 9 true; Sub 2; Ran 1; Sub 3; FlushReq 8 true; Raised 1; Ran 2; Ran 3;
     FlushPop 9; FlushFired 9 0%nat false; FlushPop 8; FlushFired 8 0%nat false; Sub 4;
     Ran 4; Raised 4; FlushReq 10 false; FlushFired 10 0%nat false]
  /\ events (fst (run good_cfg q0 ops)) = [].
Proof. vm_compute. split; reflexivity. Qed.

(* non-vacuity of the nested callbacks.
   (1) a callback that calls flush on the idle queue: the inner Deferred comes back fired and ITS callback runs
       at once, nested (request 2 is answered before the outer callback goes on to enqueue callable 5) *)
Example ev_nested_sync :
  snd (run good_cfg q0 [OAct (AFlush 1 [AFlush 2 [AEnq (Sc 4 [] RNo)]; AEnq (Sc 5 [] RNo)]); OTurn]) =
  [FlushReq 1 false; FlushFired 1 0%nat false; FlushReq 2 false; FlushFired 2 0%nat false; Sub 4; Sub 5; Ran 4; Ran 5].
Proof. vm_compute. reflexivity. Qed.

(* (2) a callback that first enqueues work and then calls flush: the request is deferred, stays registered behind
       the observers that were not served yet (8), and both wait for the turn that runs the new work *)
Example ev_nested_deferred :
  let ops := [OAct (AEnq (Sc 1 [] RNo)); OAct (AFlush 7 [AEnq (Sc 2 [] RNo); AFlush 9 []]); OAct (AFlush 8 []); OTurn] in
  snd (run good_cfg q0 ops) =
    [Sub 1; FlushReq 7 true; FlushReq 8 true; Ran 1; FlushPop 7; FlushFired 7 0%nat false; Sub 2; FlushReq 9 true]
  /\ map fst (flushers (fst (run good_cfg q0 ops))) = [8; 9]
  /\ snd (run good_cfg q0 (ops ++ [OTurn])) =
    [Sub 1; FlushReq 7 true; FlushReq 8 true; Ran 1; FlushPop 7; FlushFired 7 0%nat false; Sub 2; FlushReq 9 true;
     Ran 2; FlushPop 8; FlushFired 8 0%nat false; FlushPop 9; FlushFired 9 0%nat false]
  /\ flushers (fst (run good_cfg q0 (ops ++ [OTurn]))) = [].
Proof. vm_compute. repeat split; reflexivity. Qed.

(* (3) two levels of nesting inside the observer loop of _turn: observer 7's callback calls flush (3, answered at
       once: the queue is empty and no batch is running), whose callback calls flush (4, at once), whose callback
       enqueues 5 and calls flush (6, deferred: it is appended to the LIVE list behind observer 8, which the
       loop has not served yet); a request answered at once overtakes the registered observer 8 *)
Example ev_nested_two_levels :
  let ops := [OAct (AEnq (Sc 1 [AFlush 7 [AFlush 3 [AFlush 4 [AEnq (Sc 5 [] RNo); AFlush 6 []]]]; AFlush 8 []] RNo)); OTurn] in
  snd (run good_cfg q0 ops) =
    [Sub 1; Ran 1; FlushReq 7 true; FlushReq 8 true; FlushPop 7; FlushFired 7 0%nat false;
     FlushReq 3 false; FlushFired 3 0%nat false; FlushReq 4 false; FlushFired 4 0%nat false; Sub 5; FlushReq 6 true]
  /\ map fst (flushers (fst (run good_cfg q0 ops))) = [8; 6]
  /\ snd (run good_cfg q0 (ops ++ [OTurn])) = snd (run good_cfg q0 ops) ++
       [Ran 5; FlushPop 8; FlushFired 8 0%nat false; FlushPop 6; FlushFired 6 0%nat false]
  /\ flushers (fst (run good_cfg q0 (ops ++ [OTurn]))) = [].
Proof. vm_compute. repeat split; reflexivity. Qed.

(* the snapshot loop of the earlier code (old2_cfg, seeded change C17-s1) on the same program: observer 8 is notified
   although callable 5 -- enqueued by the nested callback of observer 7 -- has not run *)
Lemma ev_flush_old_loop_nested_refuted :
  let ops := [OAct (AEnq (Sc 1 [AFlush 7 [AFlush 3 [AFlush 4 [AEnq (Sc 5 [] RNo); AFlush 6 []]]]; AFlush 8 []] RNo)); OTurn] in
  In (FlushFired 8 1%nat false) (snd (run old2_cfg q0 ops)) /\ map fst (flushers (fst (run old2_cfg q0 ops))) = [6].
Proof. vm_compute. split; [tauto|reflexivity]. Qed.

(* a loop over a snapshot of the observers that forgets what the callbacks registered meanwhile would lose observer 6
   of that program; the live loop of the current code keeps it: this is what [ev_flush_accounting] excludes *)
Example ev_live_list_keeps_late_observers :
  let ops := [OAct (AEnq (Sc 1 [] RNo)); OAct (AFlush 7 [AEnq (Sc 2 [] RNo); AFlush 9 [AFlush 10 []]]); OTurn; OTurn] in
  ffired (snd (run good_cfg q0 ops)) = [7; 9; 10] /\ freqs (snd (run good_cfg q0 ops)) = [7; 9; 10] /\
  flushers (fst (run good_cfg q0 ops)) = [].
Proof. vm_compute. repeat split; reflexivity. Qed.

(* `except Exception:` (seeded change C17-r2s1), for the record: a callable that raises a BaseException which is not
   an Exception ends the turn, and the callables queued behind it never run *)
Lemma ev_isolation_exc_only_refuted :
  let ops := [OAct (AEnq (Sc 1 [] RNo)); OAct (AEnq (Sc 2 [] RBase)); OAct (AEnq (Sc 3 [] RNo)); OTurn; OTurn] in
  rans (snd (run exc_only_cfg q0 ops)) = [1; 2] /\ in_turn (fst (run exc_only_cfg q0 ops)) = true.
Proof. vm_compute. split; reflexivity. Qed.

Example ev_isolation_base_now :
  let ops := [OAct (AEnq (Sc 1 [] RNo)); OAct (AEnq (Sc 2 [] RBase)); OAct (AEnq (Sc 3 [] RNo)); OTurn; OTurn] in
  snd (run good_cfg q0 ops) = [Sub 1; Sub 2; Sub 3; Ran 1; Ran 2; Raised 2; Ran 3].
Proof. vm_compute. reflexivity. Qed.
