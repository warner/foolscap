(* C19 -- theorems about the path model: what FilePath.child (+ the parent() guard) lets through. *)
From Coq Require Import NArith List Bool Arith Lia.
Import ListNotations.
Require Import Verif.lib.UploadShape Verif.lib.Paths.
Local Open Scope N_scope.

Lemma str_eqb_refl : forall s, str_eqb s s = true.
Proof. induction s as [|c s IH]; cbn [str_eqb]; [reflexivity|]. rewrite N.eqb_refl, IH. reflexivity. Qed.

Lemma str_eqb_eq : forall a b, str_eqb a b = true -> a = b.
Proof.
  induction a as [|x a IH]; destruct b as [|y b]; cbn [str_eqb]; intros H; try discriminate; [reflexivity|].
  apply andb_prop in H. destruct H as [H1 H2]. apply N.eqb_eq in H1. subst. f_equal. apply IH. exact H2.
Qed.

Lemma str_eqb_neq : forall a b, a <> b -> str_eqb a b = false.
Proof. intros a b H. destruct (str_eqb a b) eqn:E; [|reflexivity]. apply str_eqb_eq in E. contradiction. Qed.

Lemma str_eqb_false_neq : forall a b, str_eqb a b = false -> a <> b.
Proof. intros a b E ->. rewrite str_eqb_refl in E. discriminate. Qed.

Lemma prefixb_app : forall a b, prefixb a (a ++ b) = true.
Proof. induction a as [|x a IH]; intros b; cbn [prefixb app]; [reflexivity|]. rewrite N.eqb_refl, IH. reflexivity. Qed.

Lemma prefixb_refl : forall a, prefixb a a = true.
Proof. intros a. rewrite <- (app_nil_r a) at 2. apply prefixb_app. Qed.

Lemma prefixb_length : forall a b, prefixb a b = true -> (List.length a <= List.length b)%nat.
Proof.
  induction a as [|x a IH]; intros b H; cbn [List.length]; [lia|].
  destruct b as [|y b]; cbn [prefixb] in H; [discriminate|]. apply andb_prop in H. destruct H as [_ H].
  apply IH in H. cbn [List.length]. lia.
Qed.

Definition nosep (c : str) : Prop := has_sep c = false.

Lemma goodb_parts : forall c, goodb c = true ->
  is_nil c = false /\ has_sep c = false /\ is_dot c = false /\ is_dotdot c = false.
Proof.
  intros c H. unfold goodb in H.
  apply andb_prop in H. destruct H as [H H4]. apply andb_prop in H. destruct H as [H H3].
  apply andb_prop in H. destruct H as [H1 H2].
  apply negb_true_iff in H1, H2, H3, H4. auto.
Qed.

Lemma goodb_intro : forall c, is_nil c = false -> has_sep c = false -> is_dot c = false -> is_dotdot c = false -> goodb c = true.
Proof. intros c H1 H2 H3 H4. unfold goodb. rewrite H1, H2, H3, H4. reflexivity. Qed.

Lemma has_sep_app : forall a b, has_sep (a ++ b) = has_sep a || has_sep b.
Proof. intros. unfold has_sep. apply existsb_app. Qed.

Lemma has_sep_cons : forall c s, has_sep (c :: s) = is_sep c || has_sep s.
Proof. reflexivity. Qed.

Lemma split_nonnil : forall s, split s <> [].
Proof.
  induction s as [|c s IH]; cbn [split]; [discriminate|].
  destruct (is_sep c); [discriminate|]. destruct (split s); discriminate.
Qed.

Lemma split_app_sep : forall a b, split (a ++ sep :: b) = split a ++ split b.
Proof.
  induction a as [|c a IH]; intros b.
  - cbn [app split]. change (is_sep sep) with true. cbn. reflexivity.
  - cbn [app split]. destruct (is_sep c) eqn:E.
    + rewrite IH. reflexivity.
    + rewrite IH. destruct (split a) as [|h t] eqn:Ea; [exfalso; eapply split_nonnil; eauto|]. reflexivity.
Qed.

Lemma split_nosep : forall c, has_sep c = false -> split c = [c].
Proof.
  induction c as [|x c IH]; intros H; [reflexivity|].
  rewrite has_sep_cons in H. apply orb_false_iff in H. destruct H as [H1 H2].
  cbn [split]. rewrite H1, (IH H2). reflexivity.
Qed.

Lemma split_comp_path_of : forall cs c, has_sep c = false -> forallb goodb cs = true ->
  split (c ++ path_of cs) = c :: cs.
Proof.
  induction cs as [|c' cs IH]; intros c Hc Hcs.
  - cbn [path_of]. rewrite app_nil_r. apply split_nosep. exact Hc.
  - cbn [path_of]. cbn [forallb] in Hcs. apply andb_prop in Hcs. destruct Hcs as [Hg Hcs].
    rewrite split_app_sep, (split_nosep c Hc). cbn [app]. f_equal. apply IH; [|exact Hcs].
    apply goodb_parts in Hg. tauto.
Qed.

Lemma split_path_of : forall cs, forallb goodb cs = true -> split (path_of cs) = [] :: cs.
Proof.
  intros cs H. destruct cs as [|c cs]; [reflexivity|].
  cbn [path_of]. cbn [split]. change (is_sep sep) with true. cbn [forallb] in H. apply andb_prop in H. destruct H as [Hg H].
  f_equal. apply split_comp_path_of; [|exact H]. apply goodb_parts in Hg. tauto.
Qed.

Lemma path_of_app : forall a b, path_of (a ++ b) = path_of a ++ path_of b.
Proof. induction a as [|c a IH]; intros b; cbn [app path_of]; [reflexivity|]. rewrite IH, app_assoc. reflexivity. Qed.

Lemma sep_join : forall cs, cs <> [] -> sep :: join_sep cs = path_of cs.
Proof.
  induction cs as [|c cs IH]; intros H; [contradiction|].
  destruct cs as [|c' cs].
  - cbn. rewrite app_nil_r. reflexivity.
  - cbn [join_sep path_of]. cbn [join_sep path_of] in IH. rewrite <- IH; [reflexivity|discriminate].
Qed.

Lemma norm_go_good : forall cs init stack rest, forallb goodb cs = true ->
  norm_go init stack (cs ++ rest) = norm_go init (rev cs ++ stack) rest.
Proof.
  induction cs as [|c cs IH]; intros init stack rest H; [reflexivity|].
  cbn [forallb] in H. apply andb_prop in H. destruct H as [Hg H].
  apply goodb_parts in Hg. destruct Hg as (H1 & _ & H3 & H4).
  cbn [app norm_go]. rewrite H1, H3, H4. cbn [orb negb].
  rewrite IH by exact H. cbn [rev]. rewrite <- app_assoc. reflexivity.
Qed.

(* a well-formed directory path: "/c1/.../cn", n >= 1, every ci a good component *)
Definition wf_comps (comps : list str) : Prop := comps <> [] /\ forallb goodb comps = true.
Definition wf_base (base : str) : Prop := exists comps, wf_comps comps /\ base = path_of comps.

Lemma wf_head : forall comps, wf_comps comps ->
  exists a c1 cs, comps = (a :: c1) :: cs /\ is_sep a = false.
Proof.
  intros comps [Hn Hg]. destruct comps as [|c cs]; [contradiction|].
  cbn [forallb] in Hg. apply andb_prop in Hg. destruct Hg as [Hg _]. apply goodb_parts in Hg.
  destruct Hg as (H1 & H2 & _). destruct c as [|a c1]; [discriminate|].
  rewrite has_sep_cons in H2. apply orb_false_iff in H2. exists a, c1, cs. tauto.
Qed.

Lemma wf_last : forall comps, wf_comps comps ->
  exists cs cl, comps = cs ++ [cl] /\ goodb cl = true /\ forallb goodb cs = true.
Proof.
  intros comps [Hn Hg]. destruct (exists_last Hn) as (cs & cl & E). subst comps.
  rewrite forallb_app in Hg. apply andb_prop in Hg. destruct Hg as [Hcs Hcl]. cbn [forallb] in Hcl.
  rewrite andb_true_r in Hcl. eauto.
Qed.

Lemma initial_slashes_base : forall comps rest, wf_comps comps -> initial_slashes (path_of comps ++ rest) = 1%nat.
Proof.
  intros comps rest H. destruct (wf_head comps H) as (a & c1 & cs & E & Ha). subst comps.
  cbn [path_of app initial_slashes]. change (is_sep sep) with true. cbn match. rewrite Ha. reflexivity.
Qed.

Lemma norm_comps_base : forall comps x, wf_comps comps -> has_sep x = false ->
  norm_go true [] (split (path_of comps ++ sep :: x)) = norm_go true (rev comps) [x].
Proof.
  intros comps x [Hn Hg] Hx.
  rewrite split_app_sep, (split_path_of comps Hg), (split_nosep x Hx).
  cbn [app norm_go is_nil orb]. rewrite norm_go_good by exact Hg. rewrite app_nil_r. reflexivity.
Qed.

Lemma normpath_unfold_base : forall comps x, wf_comps comps -> has_sep x = false ->
  normpath (path_of comps ++ sep :: x) = sep :: join_sep (norm_go true (rev comps) [x]).
Proof.
  intros comps x H Hx. unfold normpath.
  destruct (wf_head comps H) as (a & c1 & cs & E & Ha).
  assert (Hnil : is_nil (path_of comps ++ sep :: x) = false) by (subst comps; reflexivity).
  rewrite Hnil. cbv zeta. rewrite (initial_slashes_base comps _ H). change (negb (Nat.eqb 1 0)) with true.
  rewrite (norm_comps_base comps x H Hx). reflexivity.
Qed.

(* the three behaviours of normpath(base + "/" + x) for a separator-free x *)
Lemma normpath_base_skip : forall comps x, wf_comps comps -> has_sep x = false ->
  is_nil x || is_dot x = true -> normpath (path_of comps ++ sep :: x) = path_of comps.
Proof.
  intros comps x H Hx Hs. rewrite (normpath_unfold_base comps x H Hx). cbn [norm_go]. rewrite Hs. rewrite rev_involutive. apply sep_join. apply H.
Qed.

Lemma normpath_base_good : forall comps x, wf_comps comps -> goodb x = true ->
  normpath (path_of comps ++ sep :: x) = path_of comps ++ sep :: x.
Proof.
  intros comps x H Hg. pose proof (goodb_parts x Hg) as (H1 & H2 & H3 & H4).
  rewrite (normpath_unfold_base comps x H H2). cbn [norm_go]. rewrite H1, H3, H4. cbn [orb negb]. cbn [rev]. rewrite rev_involutive.
  rewrite sep_join by (destruct comps; discriminate).
  rewrite path_of_app. cbn [path_of]. rewrite app_nil_r. reflexivity.
Qed.

Lemma normpath_base_dotdot : forall cs cl x, wf_comps (cs ++ [cl]) -> is_dotdot x = true ->
  normpath (path_of (cs ++ [cl]) ++ sep :: x) = sep :: join_sep cs.
Proof.
  intros cs cl x H Hd.
  assert (Ex : x = [dot; dot]) by (apply str_eqb_eq; exact Hd). subst x.
  rewrite (normpath_unfold_base _ _ H) by reflexivity.
  destruct (wf_last _ H) as (cs' & cl' & E & Hcl & Hcs). apply app_inj_tail in E. destruct E; subst cs' cl'.
  rewrite rev_app_distr. cbn [rev app].
  apply goodb_parts in Hcl. destruct Hcl as (_ & _ & _ & Hdd).
  cbn [norm_go]. change (is_nil [dot; dot]) with false. change (is_dot [dot; dot]) with false.
  change (is_dotdot [dot; dot]) with true. rewrite Hdd. cbn [orb negb andb]. rewrite rev_involutive. reflexivity.
Qed.

Lemma last_nosep : forall c, c <> [] -> has_sep c = false -> is_sep (last c 0) = false.
Proof.
  induction c as [|x c IH]; intros Hn H; [contradiction|].
  rewrite has_sep_cons in H. apply orb_false_iff in H. destruct H as [H1 H2].
  destruct c as [|y c]; [exact H1|]. change (last (x :: y :: c) 0) with (last (y :: c) 0). apply IH; [discriminate|exact H2].
Qed.

Lemma last_app_nonnil : forall (a b : str) d, b <> [] -> last (a ++ b) d = last b d.
Proof.
  induction a as [|x a IH]; intros b d H; [reflexivity|].
  cbn [app]. destruct (a ++ b) eqn:E.
  - apply app_eq_nil in E. destruct E. contradiction.
  - rewrite <- E. cbn [last]. rewrite E. rewrite <- E. apply IH. exact H.
Qed.

Lemma base_not_ends_with_sep : forall comps, wf_comps comps -> ends_with_sep (path_of comps) = false.
Proof.
  intros comps H. destruct (wf_last _ H) as (cs & cl & E & Hcl & _). subst comps.
  apply goodb_parts in Hcl. destruct Hcl as (H1 & H2 & _).
  unfold ends_with_sep. rewrite path_of_app. cbn [path_of]. rewrite app_nil_r.
  assert (Hn : cl <> []) by (destruct cl; [discriminate|discriminate]).
  rewrite last_app_nonnil by discriminate.
  change (sep :: cl) with ([sep] ++ cl). rewrite last_app_nonnil by exact Hn. apply last_nosep; assumption.
Qed.

Lemma join_base : forall comps x, wf_comps comps -> has_sep x = false ->
  join (path_of comps) x = path_of comps ++ sep :: x.
Proof.
  intros comps x H Hx. unfold join.
  assert (Ha : isabs x = false).
  { destruct x as [|c x]; [reflexivity|]. rewrite has_sep_cons in Hx. apply orb_false_iff in Hx. apply Hx. }
  rewrite Ha, (base_not_ends_with_sep comps H).
  destruct (wf_head comps H) as (a & c1 & cs & E & _). subst comps. reflexivity.
Qed.

Lemma abspath_base : forall cwd comps rest, wf_comps comps -> abspath cwd (path_of comps ++ rest) = normpath (path_of comps ++ rest).
Proof.
  intros cwd comps rest H. unfold abspath.
  destruct (wf_head comps H) as (a & c1 & cs & E & _). subst comps. reflexivity.
Qed.

Lemma path_of_length_app : forall cs cl, goodb cl = true ->
  (List.length (sep :: join_sep cs) < List.length (path_of (cs ++ [cl])))%nat.
Proof.
  intros cs cl Hg. apply goodb_parts in Hg. destruct Hg as (H1 & _).
  destruct cl as [|a cl]; [discriminate|].
  rewrite path_of_app. cbn [path_of]. rewrite app_nil_r, app_length.
  destruct cs as [|c cs].
  - cbn. lia.
  - rewrite sep_join by discriminate. cbn [List.length]. lia.
Qed.

(* child either refuses, or returns the directory itself (name normalises to "."), or base/<one good component>,
   that component being normpath(name) *)
Theorem child_spec : forall cwd base name p, wf_base base -> child cwd base name = Some p ->
  (p = base /\ goodb (normpath name) = false) \/
  (goodb (normpath name) = true /\ p = base ++ sep :: normpath name).
Proof.
  intros cwd base name p (comps & Hwf & Eb) H. subst base. unfold child in H.
  set (norm := normpath name) in *.
  destruct (has_sep norm) eqn:Hs; [discriminate|].
  rewrite (join_base comps norm Hwf Hs), (abspath_base cwd comps _ Hwf) in H.
  destruct (is_nil norm || is_dot norm) eqn:Hskip.
  - rewrite (normpath_base_skip comps norm Hwf Hs Hskip), prefixb_refl in H. injection H as <-.
    left. split; [reflexivity|]. unfold goodb. apply orb_true_iff in Hskip. destruct Hskip as [E|E]; rewrite E; cbn; [reflexivity|].
    rewrite andb_false_r. reflexivity.
  - apply orb_false_iff in Hskip. destruct Hskip as [Hn Hd].
    destruct (is_dotdot norm) eqn:Hdd.
    + exfalso. destruct (wf_last _ Hwf) as (cs & cl & E & Hcl & _). subst comps.
      rewrite (normpath_base_dotdot cs cl norm Hwf Hdd) in H.
      destruct (prefixb (path_of (cs ++ [cl])) (sep :: join_sep cs)) eqn:Hp; [|discriminate].
      apply prefixb_length in Hp. pose proof (path_of_length_app cs cl Hcl). lia.
    + assert (Hg : goodb norm = true) by (apply goodb_intro; assumption).
      rewrite (normpath_base_good comps norm Hwf Hg), prefixb_app in H. injection H as <-.
      right. split; [exact Hg|reflexivity].
Qed.

Lemma dropwhile_app_all : forall f a b, forallb f a = true -> dropwhile f (a ++ b) = dropwhile f b.
Proof.
  induction a as [|x a IH]; intros b H; [reflexivity|].
  cbn [forallb] in H. apply andb_prop in H. destruct H as [H1 H2]. cbn [app dropwhile]. rewrite H1. apply IH. exact H2.
Qed.

Lemma takewhile_app_all : forall f a x b, forallb f a = true -> f x = false -> takewhile f (a ++ x :: b) = a.
Proof.
  induction a as [|y a IH]; intros x b H Hx.
  - cbn [app takewhile]. rewrite Hx. reflexivity.
  - cbn [forallb] in H. apply andb_prop in H. destruct H as [H1 H2]. cbn [app takewhile]. rewrite H1. f_equal. apply IH; assumption.
Qed.

Lemma nosep_forallb_rev : forall c, has_sep c = false -> forallb (fun x => negb (is_sep x)) (rev c) = true.
Proof.
  intros c H. apply forallb_forall. intros x Hin. apply in_rev in Hin.
  destruct (is_sep x) eqn:E; [|reflexivity]. exfalso.
  assert (has_sep c = true) by (apply existsb_exists; eauto). congruence.
Qed.

Lemma basename_app : forall x c, has_sep c = false -> basename (x ++ sep :: c) = c.
Proof.
  intros x c H. unfold basename. rewrite rev_app_distr. cbn [rev]. rewrite <- app_assoc. cbn [app].
  rewrite takewhile_app_all; [apply rev_involutive|apply nosep_forallb_rev; exact H|reflexivity].
Qed.

Lemma dirname_head : forall x c, has_sep c = false ->
  dirname (x ++ sep :: c) =
    if forallb is_sep (x ++ [sep]) then x ++ [sep] else rev (dropwhile is_sep (rev (x ++ [sep]))).
Proof.
  intros x c H. unfold dirname. rewrite rev_app_distr. cbn [rev]. rewrite <- app_assoc. cbn [app].
  rewrite dropwhile_app_all by (apply nosep_forallb_rev; exact H).
  cbn [dropwhile]. change (negb (is_sep sep)) with false. cbn match.
  cbn [rev]. rewrite rev_involutive. reflexivity.
Qed.

Lemma dirname_base_child : forall comps c, wf_comps comps -> has_sep c = false ->
  dirname (path_of comps ++ sep :: c) = path_of comps.
Proof.
  intros comps c H Hc. rewrite (dirname_head _ c Hc).
  destruct (wf_head comps H) as (a & c1 & cs & E & Ha).
  assert (Hf : forallb is_sep (path_of comps ++ [sep]) = false).
  { subst comps. cbn [path_of app forallb]. rewrite Ha. rewrite andb_false_r. reflexivity. }
  rewrite Hf. rewrite rev_app_distr. cbn [rev app dropwhile]. change (is_sep sep) with true. cbn match.
  pose proof (base_not_ends_with_sep comps H) as He. unfold ends_with_sep in He.
  assert (Hn : path_of comps <> []) by (subst comps; discriminate).
  destruct (exists_last Hn) as (pre & l & El). rewrite El in *.
  rewrite last_app_nonnil in He by discriminate. cbn [last] in He.
  rewrite rev_app_distr. cbn [rev app dropwhile]. rewrite He.
  change (l :: rev pre) with (rev [l] ++ rev pre). rewrite <- rev_app_distr. apply rev_involutive.
Qed.

Lemma ext_neq : forall (p ext : str), ext <> [] -> p ++ ext <> p.
Proof.
  intros p ext Hn E. assert (H : List.length (p ++ ext) = List.length p) by (rewrite E; reflexivity).
  rewrite app_length in H. destruct ext; [contradiction|]. cbn [List.length] in H. lia.
Qed.

Lemma dirname_base_itself : forall comps, wf_comps comps -> str_eqb (dirname (path_of comps)) (path_of comps) = false.
Proof.
  intros comps H. destruct (wf_last _ H) as (cs & cl & E & Hcl & Hcs). subst comps.
  pose proof (goodb_parts cl Hcl) as (H1 & H2 & _).
  apply str_eqb_neq. rewrite path_of_app. cbn [path_of]. rewrite app_nil_r.
  destruct cs as [|c0 cs].
  - cbn [path_of app]. change (sep :: cl) with ([] ++ sep :: cl) at 1.
    rewrite (dirname_head [] cl H2). destruct cl; discriminate.
  - assert (Hw : wf_comps (c0 :: cs)) by (split; [discriminate|exact Hcs]).
    rewrite (dirname_base_child (c0 :: cs) cl Hw H2).
    apply not_eq_sym, ext_neq. discriminate.
Qed.

(* directly inside base: base + "/" + one good component *)
Definition inside (base q : str) : Prop := exists c, goodb c = true /\ q = base ++ sep :: c.

Theorem guarded_spec : forall cwd base name p, wf_base base ->
  guarded GuardParentEq cwd base name = Some p ->
  goodb (normpath name) = true /\ p = base ++ sep :: normpath name /\
  dirname p = base /\ basename p = normpath name.
Proof.
  intros cwd base name p Hb H. unfold guarded in H.
  destruct (child cwd base name) as [q|] eqn:Hc; [|discriminate].
  destruct (child_spec cwd base name q Hb Hc) as [[Eq _]|[Hg Eq]]; destruct Hb as (comps & Hwf & Eb); subst base q.
  - rewrite (dirname_base_itself comps Hwf) in H. discriminate.
  - pose proof (goodb_parts _ Hg) as (_ & Hs & _).
    rewrite (dirname_base_child comps _ Hwf Hs), str_eqb_refl in H. injection H as <-.
    split; [exact Hg|]. split; [reflexivity|]. split; [apply dirname_base_child; assumption|apply basename_app; exact Hs].
Qed.

Corollary guarded_inside : forall cwd base name p, wf_base base ->
  guarded GuardParentEq cwd base name = Some p -> inside base p.
Proof. intros cwd base name p Hb H. destruct (guarded_spec _ _ _ _ Hb H) as (Hg & E & _). exists (normpath name). auto. Qed.

(* without the guard the directory itself gets through (D13 and its twins) *)
Theorem unguarded_lets_directory_through : forall cwd base, wf_base base -> guarded NoGuard cwd base [] = Some base.
Proof.
  intros cwd base (comps & Hwf & Eb). subst base. unfold guarded, child.
  change (normpath []) with [dot]. change (has_sep [dot]) with false. cbn match.
  rewrite (join_base comps [dot] Hwf) by reflexivity. rewrite (abspath_base cwd comps _ Hwf).
  rewrite (normpath_base_skip comps [dot] Hwf) by reflexivity. rewrite prefixb_refl. reflexivity.
Qed.

Lemma normpath_good : forall c, goodb c = true -> normpath c = c.
Proof.
  intros c Hg. pose proof (goodb_parts c Hg) as (H1 & H2 & H3 & H4). unfold normpath. rewrite H1.
  destruct c as [|a c]; [discriminate|]. rewrite has_sep_cons in H2. apply orb_false_iff in H2. destruct H2 as [Ha H2].
  assert (Hi : initial_slashes (a :: c) = 0%nat) by (cbn [initial_slashes]; rewrite Ha; reflexivity).
  rewrite Hi. rewrite split_nosep by (rewrite has_sep_cons, Ha, H2; reflexivity).
  cbn [norm_go]. rewrite H1, H3, H4. cbn. reflexivity.
Qed.

(* honest names are not refused, and land under their own name *)
Theorem guarded_accepts_good : forall g cwd base c, wf_base base -> goodb c = true ->
  guarded g cwd base c = Some (base ++ sep :: c).
Proof.
  intros g cwd base c (comps & Hwf & Eb) Hg. subst base. unfold guarded, child. rewrite (normpath_good c Hg).
  pose proof (goodb_parts c Hg) as (_ & Hs & _). rewrite Hs.
  rewrite (join_base comps c Hwf Hs), (abspath_base cwd comps _ Hwf), (normpath_base_good comps c Hwf Hg), prefixb_app.
  destruct g; [|reflexivity]. rewrite (dirname_base_child comps c Hwf Hs), str_eqb_refl. reflexivity.
Qed.

(* a good component stays good when an extension without separator (length >= 2) is appended *)
Lemma goodb_ext : forall c ext, goodb c = true -> has_sep ext = false -> (2 <= List.length ext)%nat -> goodb (c ++ ext) = true.
Proof.
  intros c ext Hg Hs Hl. pose proof (goodb_parts c Hg) as (H1 & H2 & _).
  destruct c as [|a c]; [discriminate|].
  destruct ext as [|e1 [|e2 ext]]; cbn [List.length] in Hl; try lia.
  apply goodb_intro.
  - reflexivity.
  - rewrite has_sep_app, H2, Hs. reflexivity.
  - unfold is_dot. cbn [app str_eqb]. destruct c; cbn [app str_eqb]; rewrite ?andb_false_r; reflexivity.
  - unfold is_dotdot. cbn [app str_eqb]. destruct c as [|b c]; cbn [app str_eqb]; rewrite ?andb_false_r; [reflexivity|].
    destruct c; cbn [app str_eqb]; rewrite ?andb_false_r; reflexivity.
Qed.

Lemma inside_ext : forall base p ext, inside base p -> has_sep ext = false -> (2 <= List.length ext)%nat -> inside base (p ++ ext).
Proof.
  intros base p ext (c & Hg & E) Hs Hl. subst p. exists (c ++ ext). split; [apply goodb_ext; assumption|].
  rewrite <- app_assoc. reflexivity.
Qed.

(* the names below are "a/../b", "", ".", "..", "a/b" and, without the guard, "a/.." *)
Example wf_example : wf_base [47; 115; 114; 118; 47; 117; 112].   (* "/srv/up" *)
Proof. exists [[115; 114; 118]; [117; 112]]. split; [split; [discriminate|reflexivity]|reflexivity]. Qed.
Example child_examples :
  let base := [47; 115; 114; 118; 47; 117; 112] in
  guarded GuardParentEq [47] base [97; 47; 46; 46; 47; 98] = Some (base ++ [47; 98]) /\      (* "a/../b" -> base/b *)
  guarded GuardParentEq [47] base [] = None /\ guarded GuardParentEq [47] base [46] = None /\
  guarded GuardParentEq [47] base [46; 46] = None /\ guarded GuardParentEq [47] base [97; 47; 98] = None /\
  guarded NoGuard [47] base [97; 47; 46; 46] = Some base.
Proof. vm_compute. repeat split. Qed.
