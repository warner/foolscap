(* Round-trip theorems for the TRANSLATED integer codecs of banana.py
   (gen/BananaGen.v: int2b128, b1282int, long_to_bytes, bytes_to_long, send_int). *)
From Coq Require Import ZArith List String Bool Lia.
Import ListNotations.
Require Import Verif.lib.PyLite Verif.gen.BananaGen.
Local Open Scope Z_scope.

(* little-endian value of a digit list in base b *)
Fixpoint le_val (b : Z) (ds : list Z) : Z :=
  match ds with [] => 0 | d :: r => d + b * le_val b r end.

Lemma le_val_app b xs ys : le_val b (xs ++ ys) = le_val b xs + b ^ Z.of_nat (List.length xs) * le_val b ys.
Proof.
  induction xs as [|x xs IH]; cbn [le_val app List.length].
  - rewrite Z.pow_0_r. lia.
  - rewrite IH, Nat2Z.inj_succ, Z.pow_succ_r by lia. ring.
Qed.

Definition digits_ok (b : Z) (ds : list Z) : Prop := Forall (fun d => 0 <= d < b) ds.

Lemma land_ones_mod n k : 0 <= k -> Z.land n (2 ^ k - 1) = n mod 2 ^ k.
Proof. intros Hk. replace (2 ^ k - 1) with (Z.ones k) by (rewrite Z.ones_equiv; lia). apply Z.land_ones; exact Hk. Qed.

Lemma land127 n : Z.land n 127 = n mod 128.
Proof. change 127 with (2 ^ 7 - 1). rewrite land_ones_mod by lia. reflexivity. Qed.

Lemma land255 n : Z.land n 255 = n mod 256.
Proof. change 255 with (2 ^ 8 - 1). rewrite land_ones_mod by lia. reflexivity. Qed.

Lemma shiftr7 n : Z.shiftr n 7 = n / 128.
Proof. rewrite Z.shiftr_div_pow2 by lia. reflexivity. Qed.

Lemma shiftr8 n : Z.shiftr n 8 = n / 256.
Proof. rewrite Z.shiftr_div_pow2 by lia. reflexivity. Qed.

Lemma half_bound n f : 0 <= n < 2 ^ Z.of_nat (S f) -> forall b, 2 <= b -> 0 <= n / b < 2 ^ Z.of_nat f.
Proof.
  intros [H0 H1] b Hb. rewrite Nat2Z.inj_succ, Z.pow_succ_r in H1 by lia.
  split; [apply Z.div_pos; lia|].
  apply Z.div_lt_upper_bound; [lia|]. nia.
Qed.

(* the little-endian digits of n in base b, at most f of them: what both translated loops compute *)
Fixpoint digits (b : Z) (f : nat) (n : Z) : list Z :=
  match f with
  | O => []
  | S f => if n =? 0 then [] else n mod b :: digits b f (n / b)
  end.

Lemma digits_spec b : 2 <= b -> forall f n, 0 <= n < 2 ^ Z.of_nat f ->
  le_val b (digits b f n) = n /\ digits_ok b (digits b f n).
Proof.
  intros Hb. induction f as [|f IH]; intros n Hn; cbn [digits].
  - split; [cbn in *; lia|constructor].
  - destruct (Z.eqb_spec n 0) as [->|Hnz]; [split; [reflexivity|constructor]|].
    destruct (IH (n / b) (half_bound n f Hn b Hb)) as [V D]. cbn [le_val]. rewrite V.
    pose proof (Z.div_mod n b ltac:(lia)). pose proof (Z.mod_pos_bound n b ltac:(lia)).
    split; [lia|constructor; assumption].
Qed.

Lemma digits_last b : 2 <= b -> forall f n, 0 < n < 2 ^ Z.of_nat f -> exists ds m, digits b f n = ds ++ [m] /\ 0 < m.
Proof.
  intros Hb. induction f as [|f IH]; intros n Hn; cbn [digits]; [cbn in Hn; lia|].
  destruct (Z.eqb_spec n 0) as [|_]; [lia|].
  pose proof (half_bound n f ltac:(lia) b Hb) as Hq.
  destruct (Z.eq_dec (n / b) 0) as [Hz|Hz].
  - exists [], (n mod b). rewrite Hz. split; [destruct f; reflexivity|].
    pose proof (Z.div_mod n b ltac:(lia)). lia.
  - destruct (IH (n / b) ltac:(lia)) as (ds & m & -> & Hm). exists (n mod b :: ds), m. split; [reflexivity|exact Hm].
Qed.

Lemma digits_length b : 2 <= b -> forall f n k, 0 <= n < b ^ Z.of_nat k -> (List.length (digits b f n) <= k)%nat.
Proof.
  intros Hb. induction f as [|f IH]; intros n k Hn; cbn [digits]; [apply Nat.le_0_l|].
  destruct (Z.eqb_spec n 0) as [|Hnz]; [apply Nat.le_0_l|].
  destruct k as [|k]; [cbn in Hn; lia|]. rewrite Nat2Z.inj_succ, Z.pow_succ_r in Hn by lia.
  apply le_n_S, IH. split; [apply Z.div_pos; lia|apply Z.div_lt_upper_bound; lia].
Qed.

Lemma le_val_bound b ds : 2 <= b -> digits_ok b ds -> 0 <= le_val b ds < b ^ Z.of_nat (List.length ds).
Proof.
  intros Hb D. induction D as [|d ds Hd D IH]; cbn [le_val List.length].
  - rewrite Z.pow_0_r. lia.
  - rewrite Nat2Z.inj_succ, Z.pow_succ_r by lia. nia.
Qed.

Lemma le_val_top b ds m : 2 <= b -> digits_ok b ds -> 0 < m -> b ^ Z.of_nat (List.length ds) <= le_val b (ds ++ [m]).
Proof.
  intros Hb D Hm. rewrite le_val_app. cbn [le_val]. pose proof (le_val_bound b ds Hb D).
  assert (0 < b ^ Z.of_nat (List.length ds)) by (apply Z.pow_pos_nonneg; lia). nia.
Qed.

Lemma log2_fuel n : 0 < n -> 0 <= n < 2 ^ Z.of_nat (S (Z.to_nat (Z.log2 n))).
Proof.
  intros Hn. pose proof (Z.log2_nonneg n) as Hl. pose proof (Z.log2_spec n Hn) as [_ Hs].
  rewrite Nat2Z.inj_succ, Z2Nat.id by lia. lia.
Qed.

Lemma int2b128_loop_unfold k n acc :
  int2b128_loop1 (S k) n acc =
  if negb (n =? 0) then int2b128_loop1 k (Z.shiftr n 7) (acc ++ [Z.land n 127]) else Ok acc.
Proof. reflexivity. Qed.

Lemma int2b128_loop_digits f : forall n acc, 0 <= n < 2 ^ Z.of_nat f -> int2b128_loop1 (S f) n acc = Ok (acc ++ digits 128 f n).
Proof.
  induction f as [|f IH]; intros n acc Hn; rewrite int2b128_loop_unfold; cbn [digits].
  - replace n with 0 by (cbn in Hn; lia). cbn. rewrite app_nil_r. reflexivity.
  - destruct (n =? 0); cbn [negb]; [rewrite app_nil_r; reflexivity|].
    rewrite land127, shiftr7, (IH _ _ (half_bound n f Hn 128 ltac:(lia))), <- app_assoc. reflexivity.
Qed.

Lemma int2b128_digits n acc : 0 < n -> int2b128 n acc = Ok (acc ++ digits 128 (S (Z.to_nat (Z.log2 n))) n).
Proof.
  intros Hp. unfold int2b128. destruct (Z.eqb_spec n 0); [lia|]. destruct (Z.gtb_spec n 0); [|lia].
  exact (int2b128_loop_digits _ n acc (log2_fuel n Hp)).
Qed.

Theorem int2b128_spec n acc : 0 <= n ->
  exists ds, int2b128 n acc = Ok (acc ++ ds) /\ le_val 128 ds = n /\ digits_ok 128 ds /\ ds <> [].
Proof.
  intros Hn. destruct (Z.eq_dec n 0) as [->|Hnz].
  - exists [0]. repeat split; [constructor; [lia|constructor] | discriminate].
  - assert (Hp : 0 < n) by lia. pose proof (log2_fuel n Hp) as F. eexists. split; [exact (int2b128_digits n acc Hp)|].
    destruct (digits_spec 128 ltac:(lia) _ n F) as [V D]. split; [exact V|]. split; [exact D|].
    destruct (digits_last 128 ltac:(lia) _ n (conj Hp (proj2 F))) as (ds & m & -> & _). destruct ds; discriminate.
Qed.

Lemma int2b128_negative n acc : n < 0 -> int2b128 n acc = Exc "AssertionError"%string.
Proof.
  intros Hn. unfold int2b128. destruct (Z.eqb_spec n 0); [lia|]. destruct (Z.gtb_spec n 0); [lia|reflexivity].
Qed.

Lemma b1282int_fold ds : forall i p, 0 <= p ->
  fold_left (fun '(i, place) num => (i + num * 128 ^ place, place + 1)) ds (i, p)
  = (i + 128 ^ p * le_val 128 ds, p + Z.of_nat (List.length ds)).
Proof.
  induction ds as [|d ds IH]; intros i p Hp; cbn [fold_left le_val List.length].
  - rewrite Z.mul_0_r, !Z.add_0_r. reflexivity.
  - rewrite IH by lia. rewrite Z.pow_add_r, Z.pow_1_r by lia. f_equal; [ring|lia].
Qed.

Theorem b1282int_spec ds : b1282int ds = Ok (le_val 128 ds).
Proof.
  unfold b1282int. cbv zeta.
  change (fold_left _ ds (0, 0)) with
    (fold_left (fun '(i, place) num => (i + num * 128 ^ place, place + 1)) ds (0, 0)).
  rewrite b1282int_fold by lia. rewrite Z.pow_0_r. f_equal. lia.
Qed.

(* the header codec round-trips for every non-negative integer *)
Theorem b128_roundtrip n : 0 <= n ->
  exists ds, int2b128 n [] = Ok ds /\ b1282int ds = Ok n /\ digits_ok 128 ds /\ ds <> [].
Proof.
  intros Hn. destruct (int2b128_spec n [] Hn) as (ds & E & V & D & NE).
  exists ds. cbn [app] in E. repeat split; auto. rewrite b1282int_spec, V. reflexivity.
Qed.

(* the encoder emits the minimal number of digits: at most k digits for n < 128^k *)
Theorem int2b128_length n acc ds k : 0 <= n < 128 ^ Z.of_nat k -> (1 <= k)%nat ->
  int2b128 n acc = Ok (acc ++ ds) -> (List.length ds <= k)%nat.
Proof.
  intros Hn Hk E. destruct (Z.eq_dec n 0) as [->|Hnz].
  - injection E as E. apply app_inv_head in E. subst ds. exact Hk.
  - rewrite (int2b128_digits n acc ltac:(lia)) in E.
    assert (Eds : digits 128 (S (Z.to_nat (Z.log2 n))) n = ds) by (injection E as E; exact (app_inv_head _ _ _ E)).
    subst ds. apply digits_length; [lia|exact Hn].
Qed.

Lemma long_to_bytes_loop_unfold k n out :
  long_to_bytes_loop1 (S k) n out =
  if negb (n =? 0) then long_to_bytes_loop1 k (Z.shiftr n 8) (out ++ [Z.land n 255]) else Ok (rev out).
Proof. reflexivity. Qed.

Lemma long_to_bytes_loop_digits f : forall n out, 0 <= n < 2 ^ Z.of_nat f ->
  long_to_bytes_loop1 (S f) n out = Ok (rev (out ++ digits 256 f n)).
Proof.
  induction f as [|f IH]; intros n out Hn; rewrite long_to_bytes_loop_unfold; cbn [digits].
  - replace n with 0 by (cbn in Hn; lia). cbn. rewrite app_nil_r. reflexivity.
  - destruct (n =? 0); cbn [negb]; [rewrite app_nil_r; reflexivity|].
    rewrite land255, shiftr8, (IH _ _ (half_bound n f Hn 256 ltac:(lia))), <- app_assoc. reflexivity.
Qed.

Theorem long_to_bytes_spec n : 0 <= n ->
  exists ds, long_to_bytes n = Ok (rev ds) /\ le_val 256 ds = n /\ digits_ok 256 ds /\
             (0 < n -> exists ds' m, ds = ds' ++ [m] /\ 0 < m).
Proof.
  intros Hn. unfold long_to_bytes. destruct (Z.geb_spec n 0) as [_|]; [|lia]. cbv zeta.
  assert (F : 0 <= n < 2 ^ Z.of_nat (S (Z.to_nat (Z.log2 n)))).
  { destruct (Z.eq_dec n 0) as [->|]; [cbn; lia|apply log2_fuel; lia]. }
  eexists. split; [exact (long_to_bytes_loop_digits _ n [] F)|]. cbn [app].
  destruct (digits_spec 256 ltac:(lia) _ n F) as [V D]. split; [exact V|]. split; [exact D|].
  intros Hp. exact (digits_last 256 ltac:(lia) _ n (conj Hp (proj2 F))).
Qed.

Lemma long_to_bytes_negative n : n < 0 -> long_to_bytes n = Exc "AssertionError"%string.
Proof. intros Hn. unfold long_to_bytes. destruct (Z.geb_spec n 0); [lia|reflexivity]. Qed.

Lemma shiftl8 a : Z.shiftl a 8 = a * 256.
Proof. rewrite Z.shiftl_mul_pow2 by lia. reflexivity. Qed.

Lemma bytes_to_long_fold bs : forall acc,
  fold_left (fun acc i => Z.shiftl acc 8 + i) bs acc = acc * 256 ^ Z.of_nat (List.length bs) + le_val 256 (rev bs).
Proof.
  induction bs as [|b bs IH]; intros acc; cbn [fold_left List.length rev le_val].
  - rewrite Z.pow_0_r. lia.
  - rewrite IH, shiftl8, le_val_app, rev_length. cbn [le_val].
    rewrite Nat2Z.inj_succ, Z.pow_succ_r by lia. ring.
Qed.

Theorem bytes_to_long_spec bs : bytes_to_long bs = Ok (le_val 256 (rev bs)).
Proof.
  unfold bytes_to_long. cbv zeta.
  change (fold_left _ bs 0) with (fold_left (fun acc i => Z.shiftl acc 8 + i) bs 0).
  rewrite bytes_to_long_fold. f_equal; lia.
Qed.

Theorem longbytes_roundtrip n : 0 <= n ->
  exists bs, long_to_bytes n = Ok bs /\ bytes_to_long bs = Ok n /\ digits_ok 256 bs.
Proof.
  intros Hn. destruct (long_to_bytes_spec n Hn) as (ds & E & V & D & _).
  exists (rev ds). repeat split; auto.
  - rewrite bytes_to_long_spec, rev_involutive, V. reflexivity.
  - unfold digits_ok in *. apply Forall_rev. exact D.
Qed.

Theorem long_to_bytes_length n bs : 0 < n -> long_to_bytes n = Ok bs ->
  256 ^ (Z.of_nat (List.length bs) - 1) <= n < 256 ^ Z.of_nat (List.length bs).
Proof.
  intros Hn E. destruct (long_to_bytes_spec n ltac:(lia)) as (ds & E' & V & D & T).
  rewrite E in E'. injection E' as ->. rewrite rev_length.
  pose proof (le_val_bound 256 ds ltac:(lia) D) as B. rewrite V in B. split; [|lia].
  destruct (T Hn) as (ds' & m & -> & Hm). apply Forall_app in D as [D _].
  pose proof (le_val_top 256 ds' m ltac:(lia) D Hm) as Top. rewrite V in Top.
  rewrite app_length. cbn [List.length]. replace (Z.of_nat (List.length ds' + 1) - 1) with (Z.of_nat (List.length ds')) by lia.
  exact Top.
Qed.
