(* C19 -- theorems about the write-then-rename protocols, for the operation orders translated from the source
   (gen/UploadGen.v).  Every statement is about ALL prefixes of the operation list (= a crash / kill at any point),
   all block lists, all initial directory states satisfying the stated hypotheses. *)
From Coq Require Import NArith List Bool Arith Lia.
Import ListNotations.
Require Import Verif.lib.UploadShape Verif.gen.UploadGen Verif.lib.Paths Verif.lib.PathsProofs Verif.lib.Upload.

Definition wf_st (s : st) : Prop := forall p i, names s p = Some (F i) -> (i < next s)%nat.
(* a pre-existing temporary file is not a hard link to some other entry *)
Definition unshared (s : st) (tmp : str) : Prop :=
  forall q i, q <> tmp -> names s tmp = Some (F i) -> names s q <> Some (F i).
Definition clean (s : st) : Prop := failed s = false /\ followed s = false.
Definition no_link_at (s : st) (p : str) : Prop := forall t, names s p <> Some (L t).
Definition no_dir_at (s : st) (p : str) : Prop := names s p <> Some D.

Lemma upd_same : forall A (f : str -> A) p v, upd f p v p = v.
Proof. intros. unfold upd. rewrite str_eqb_refl. reflexivity. Qed.
Lemma upd_other : forall A (f : str -> A) p v q, q <> p -> upd f p v q = f q.
Proof. intros. unfold upd. rewrite str_eqb_neq by assumption. reflexivity. Qed.
Lemma upd_cases : forall A (f : str -> A) p v q, (q = p /\ upd f p v q = v) \/ (q <> p /\ upd f p v q = f q).
Proof.
  intros. unfold upd. destruct (str_eqb q p) eqn:E.
  - left. split; [apply str_eqb_eq; exact E|reflexivity].
  - right. split; [intros ->; rewrite str_eqb_refl in E; discriminate|reflexivity].
Qed.
Lemma upd_in {n : str -> option ent} {p v q e} : upd n p v q = Some e ->
  (q = p /\ v = Some e) \/ (q <> p /\ n q = Some e).
Proof. intros H. destruct (upd_cases _ n p v q) as [[Hq E]|[Hq E]]; rewrite E in H; auto. Qed.
Lemma updn_same : forall f i v, updn f i v i = v.
Proof. intros. unfold updn. rewrite Nat.eqb_refl. reflexivity. Qed.
Lemma updn_other : forall f i v j, j <> i -> updn f i v j = f j.
Proof. intros. unfold updn. destruct (Nat.eqb j i) eqn:E; [apply Nat.eqb_eq in E; contradiction|reflexivity]. Qed.

Lemma run_app : forall s a b, run s (a ++ b) = run (run s a) b.
Proof. intros. unfold run. apply fold_left_app. Qed.
Lemma run_cons : forall s o l, run s (o :: l) = run (step s o) l.
Proof. reflexivity. Qed.
Lemma step_failed : forall s o, failed s = true -> step s o = s.
Proof. intros s o H. unfold step. rewrite H. reflexivity. Qed.
Lemma run_failed : forall ops s, failed s = true -> run s ops = s.
Proof.
  induction ops as [|o ops IH]; intros s H; [reflexivity|]. rewrite run_cons, (step_failed s o H). apply IH. exact H.
Qed.

Lemma look_frame : forall s0 s q, names s q = names s0 q ->
  (forall j, names s0 q = Some (F j) -> data s j = data s0 j) -> look s q = look s0 q.
Proof.
  intros s0 s q Hn Hd. unfold look. rewrite Hn. destruct (names s0 q) as [[j|t|]|] eqn:E; [|reflexivity|reflexivity|reflexivity].
  rewrite (Hd j eq_refl). reflexivity.
Qed.

(* all the writes of the block stream only grow the handle's buffer *)
Lemma run_writes : forall p bs n d nx i pend fl,
  run (mkst n d nx (Some (i, pend)) false fl) (map (Write p) bs) = mkst n d nx (Some (i, pend ++ concat bs)) false fl.
Proof.
  induction bs as [|b bs IH]; intros; cbn [map concat].
  - rewrite app_nil_r. reflexivity.
  - rewrite run_cons. cbn [step failed handle names data next followed]. rewrite IH, app_assoc. reflexivity.
Qed.

Definition opened (s0 : st) (tmp : str) (n : str -> option ent) (d : nat -> list N) (i : nat) : Prop :=
  n tmp = Some (F i) /\ (forall q, q <> tmp -> n q = names s0 q) /\
  (forall j, j <> i -> d j = data s0 j) /\ d i = [] /\ (forall q, q <> tmp -> names s0 q <> Some (F i)).

Lemma open_facts : forall s0 tmp, wf_st s0 -> unshared s0 tmp -> failed s0 = false -> no_link_at s0 tmp -> no_dir_at s0 tmp ->
  exists n d nx i, opened s0 tmp n d i /\ step s0 (Open tmp) = mkst n d nx (Some (i, [])) false (followed s0).
Proof.
  intros s0 tmp Hwf Hun Hf Hnl Hnd. unfold step. rewrite Hf.
  destruct (names s0 tmp) as [[i|t|]|] eqn:E.
  - exists (names s0), (updn (data s0) i []), (next s0), i. split; [|reflexivity].
    split; [exact E|]. split; [reflexivity|]. split; [intros j Hj; apply updn_other; exact Hj|].
    split; [apply updn_same|]. intros q Hq. exact (Hun q i Hq E).
  - destruct (Hnl t E).
  - destruct (Hnd E).
  - exists (upd (names s0) tmp (Some (F (next s0)))), (updn (data s0) (next s0) []), (S (next s0)), (next s0).
    split; [|reflexivity].
    split; [apply upd_same|]. split; [intros q Hq; apply upd_other; exact Hq|].
    split; [intros j Hj; apply updn_other; exact Hj|]. split; [apply updn_same|].
    intros q Hq Hc. apply Hwf in Hc. lia.
Qed.

Lemma look_opened : forall s0 tmp n d i, opened s0 tmp n d i ->
  forall s q, q <> tmp -> names s q = n q -> (forall j, j <> i -> data s j = d j) -> look s q = look s0 q.
Proof.
  intros s0 tmp n d i (_ & Hnq & Hdj & _ & Hfresh) s q Hq Hn Hd. apply look_frame.
  - rewrite Hn. apply Hnq. exact Hq.
  - intros j Hj. assert (j <> i) by (intros ->; exact (Hfresh q Hq Hj)).
    rewrite Hd by assumption. apply Hdj. assumption.
Qed.

(* k <= |chunks| + 2: nothing of tl has run; the text is buffered in the file object or, after the close, in inode i *)
Lemma session_prefix : forall s0 tmp chunks tl k,
  wf_st s0 -> unshared s0 tmp -> clean s0 -> no_link_at s0 tmp -> no_dir_at s0 tmp ->
  exists n d nx i, opened s0 tmp n d i /\
    let s := run s0 (firstn k (Open tmp :: map (Write tmp) chunks ++ Close tmp :: tl)) in
    ((k <= List.length chunks + 2)%nat /\ clean s /\ forall q, q <> tmp -> look s q = look s0 q) \/
    exists m, k = (List.length chunks + 3 + m)%nat /\
      s = run (mkst n (updn d i (concat chunks)) nx None false false) (firstn (S m) tl).
Proof.
  intros s0 tmp chunks tl k Hwf Hun Hcl Hnl Hnd. pose proof Hcl as [Hf Hfl].
  destruct (open_facts s0 tmp Hwf Hun Hf Hnl Hnd) as (n & d & nx & i & Ho & Es). rewrite Hfl in Es.
  exists n, d, nx, i. split; [exact Ho|]. cbv zeta. pose proof (look_opened _ _ _ _ _ Ho) as Hlk.
  destruct k as [|k]; [left; split; [lia|split; [exact Hcl|reflexivity]]|].
  cbn [firstn]. rewrite run_cons, Es, firstn_app, run_app, firstn_map, run_writes, map_length.
  destruct (k - List.length chunks)%nat as [|m] eqn:Em.
  - left. split; [lia|]. split; [split; reflexivity|]. intros q Hq. apply Hlk; [exact Hq|reflexivity|reflexivity].
  - rewrite firstn_all2 by lia. cbn [firstn]. rewrite run_cons.
    cbn [step failed handle names data next followed app]. rewrite (proj1 (proj2 (proj2 (proj2 Ho)))).
    destruct m as [|m]; [left|right; exists m; split; [lia|reflexivity]].
    split; [lia|]. split; [split; reflexivity|]. intros q Hq. apply Hlk; [exact Hq|reflexivity|apply updn_other].
Qed.

(* what the success path of remote_putfile and save_service_data have in common; mv is the move each of them uses *)
Definition core_ops (mv : op) (tmp final : str) (chunks : list (list N)) : list op :=
  Open tmp :: map (Write tmp) chunks ++ [Close tmp; mv; Chmod final].

Lemma core_ops_length : forall mv tmp final chunks, List.length (core_ops mv tmp final chunks) = (List.length chunks + 4)%nat.
Proof. intros. unfold core_ops. cbn [List.length]. rewrite app_length, map_length. cbn [List.length]. lia. Qed.

Lemma core_ops_forall : forall (P : op -> Prop) mv tmp final chunks,
  P (Open tmp) -> (forall b, P (Write tmp b)) -> P (Close tmp) -> P mv -> P (Chmod final) ->
  forall o, In o (core_ops mv tmp final chunks) -> P o.
Proof.
  intros P mv tmp final chunks P1 P2 P3 P4 P5 o Ho. unfold core_ops in Ho.
  destruct Ho as [<-|Ho]; [exact P1|]. apply in_app_or in Ho. destruct Ho as [Ho|Ho].
  - apply in_map_iff in Ho. destruct Ho as (b & <- & _). apply P2.
  - destruct Ho as [<-|[<-|[<-|[]]]]; assumption.
Qed.

(* rename(2) fails without a source (ENOENT) and onto a directory (EISDIR); otherwise the entry moves.  Whether it fails
   is decided by what the two names SHOW: two file systems that show the same there take the same branch *)
Definition rename_fails (va vb : view) : bool :=
  match va, vb with VNone, _ | _, VDir => true | _, _ => false end.

Lemma step_rename_eq : forall s a b, step_rename s a b =
  if rename_fails (look s a) (look s b) then fail s
  else if str_eqb a b then s
  else mkst (upd (upd (names s) b (names s a)) a None) (data s) (next s) (handle s) false (followed s).
Proof.
  intros s a b. unfold step_rename, rename_fails, look.
  destruct (names s a) as [[i|t|]|]; [| | |reflexivity]; destruct (names s b) as [[j|t'|]|]; reflexivity.
Qed.

Lemma rename_fails_false : forall s a b,
  rename_fails (look s a) (look s b) = false <-> (exists e, names s a = Some e) /\ names s b <> Some D.
Proof.
  intros s a b. unfold rename_fails, look. split.
  - intros H. destruct (names s a) as [e|]; [|discriminate H]. split; [exists e; reflexivity|].
    intros Eb. rewrite Eb in H. destruct e; discriminate H.
  - intros [[e Ea] Hb]. rewrite Ea. destruct (names s b) as [[j|t|]|]; [| |destruct (Hb eq_refl)|]; destruct e; reflexivity.
Qed.

Lemma step_rename_moves : forall s a b e, names s a = Some e -> names s b <> Some D -> a <> b ->
  step_rename s a b = mkst (upd (upd (names s) b (Some e)) a None) (data s) (next s) (handle s) false (followed s).
Proof.
  intros s a b e Ha Hb Hne. rewrite step_rename_eq, (proj2 (rename_fails_false s a b) (conj (ex_intro _ e Ha) Hb)).
  rewrite (str_eqb_neq a b Hne), Ha. reflexivity.
Qed.

(* a move operation that behaves like rename(tmp, final) whenever that rename succeeds *)
Definition moves (mv : op) (tmp final : str) : Prop :=
  forall s e, failed s = false -> names s tmp = Some e -> names s final <> Some D -> tmp <> final ->
    step s mv = mkst (upd (upd (names s) final (Some e)) tmp None) (data s) (next s) (handle s) false (followed s).

Lemma moves_rename : forall tmp final, moves (Rename tmp final) tmp final.
Proof. intros tmp final s e Hf Ha Hb Hne. unfold step. rewrite Hf. apply step_rename_moves; assumption. Qed.

Lemma moves_rename_else_unlink : forall tmp final c, moves (RenameElseUnlink tmp final c) tmp final.
Proof.
  intros tmp final c s e Hf Ha Hb Hne. unfold step. rewrite Hf, (step_rename_moves s tmp final e Ha Hb Hne). reflexivity.
Qed.

Lemma core_prefix : forall mv s0 tmp final chunks k, moves mv tmp final -> no_dir_at s0 final ->
  tmp <> final -> wf_st s0 -> unshared s0 tmp -> clean s0 -> no_link_at s0 tmp -> no_dir_at s0 tmp ->
  let s := run s0 (firstn k (core_ops mv tmp final chunks)) in
  (look s final = look s0 final \/ look s final = VFile (concat chunks)) /\
  followed s = false /\ failed s = false /\
  (forall q, q <> tmp -> q <> final -> look s q = look s0 q) /\
  ((List.length chunks + 3 <= k)%nat -> look s final = VFile (concat chunks) /\ names s tmp = None).
Proof.
  intros mv s0 tmp final chunks k Hmv Hndf Hne Hwf Hun Hcl Hnl Hnd. unfold core_ops.
  destruct (session_prefix s0 tmp chunks [mv; Chmod final] k Hwf Hun Hcl Hnl Hnd) as (n & d & nx & i & Ho & Hk).
  cbv zeta in *. set (C := mkst n (updn d i (concat chunks)) nx None false false) in *.
  pose proof (look_opened _ _ _ _ _ Ho) as Hlk. pose proof Ho as (Hnt & Hnq & _).
  destruct Hk as [(Hk & [Hf Hfl] & Hq)|(m & -> & ->)].
  - split; [left; apply Hq; exact (not_eq_sym Hne)|]. split; [exact Hfl|]. split; [exact Hf|].
    split; [intros q Hq1 _; exact (Hq q Hq1)|intros; lia].
  - set (M := mkst (upd (upd n final (Some (F i))) tmp None) (updn d i (concat chunks)) nx None false false).
    assert (Hfin : names M final = Some (F i)) by (cbn [M names]; rewrite upd_other by exact (not_eq_sym Hne); apply upd_same).
    assert (EM : run C (firstn (S m) [mv; Chmod final]) = M).
    { cbn [firstn]. rewrite run_cons, (Hmv _ (F i)); cbn [C failed names data next handle followed];
        [|reflexivity|exact Hnt|rewrite (Hnq final) by exact (not_eq_sym Hne); exact Hndf|exact Hne].
      fold M. destruct m as [|m]; [reflexivity|]. cbn [firstn]. rewrite run_cons.
      replace (step M (Chmod final)) with M by (unfold step; rewrite Hfin; reflexivity). destruct m; reflexivity. }
    rewrite EM.
    assert (Hlf : look M final = VFile (concat chunks)) by (unfold look; rewrite Hfin; cbn [M data]; rewrite updn_same; reflexivity).
    split; [right; exact Hlf|]. split; [reflexivity|]. split; [reflexivity|]. split.
    + intros q Hq Hq2. apply Hlk; [exact Hq| |intros j Hj; apply updn_other; exact Hj].
      cbn [M names]. rewrite upd_other by exact Hq. apply upd_other. exact Hq2.
    + intros _. split; [exact Hlf|apply upd_same].
Qed.

(* the error path of remote_putfile *)
Definition err_ops (tmp : str) (chunks : list (list N)) : list op :=
  Open tmp :: map (Write tmp) chunks ++ [Close tmp; Unlink tmp].

Lemma err_ops_length : forall tmp chunks, List.length (err_ops tmp chunks) = (List.length chunks + 3)%nat.
Proof. intros. unfold err_ops. cbn [List.length]. rewrite app_length, map_length. cbn [List.length]. lia. Qed.

Lemma err_prefix : forall s0 tmp chunks k,
  wf_st s0 -> unshared s0 tmp -> clean s0 -> no_link_at s0 tmp -> no_dir_at s0 tmp ->
  let s := run s0 (firstn k (err_ops tmp chunks)) in
  (forall q, q <> tmp -> look s q = look s0 q) /\ followed s = false /\ failed s = false /\
  ((List.length chunks + 3 <= k)%nat -> names s tmp = None).
Proof.
  intros s0 tmp chunks k Hwf Hun Hcl Hnl Hnd. unfold err_ops.
  destruct (session_prefix s0 tmp chunks [Unlink tmp] k Hwf Hun Hcl Hnl Hnd) as (n & d & nx & i & Ho & Hk).
  cbv zeta in *. pose proof (look_opened _ _ _ _ _ Ho) as Hlk. destruct Ho as (Hnt & _).
  destruct Hk as [(Hk & [Hf Hfl] & Hq)|(m & -> & ->)].
  - split; [exact Hq|split; [exact Hfl|split; [exact Hf|intros; lia]]].
  - cbn [firstn]. rewrite run_cons. cbn [step failed names]. rewrite Hnt.
    replace (firstn m []) with (@nil op) by (destruct m; reflexivity).
    split; [|split; [reflexivity|split; [reflexivity|intros _; apply upd_same]]].
    intros q Hq. apply Hlk; [exact Hq|apply upd_other; exact Hq|intros j Hj; apply updn_other; exact Hj].
Qed.

(* the final name is an existing DIRECTORY: rename(2) fails, the temporary is removed, the exception is re-raised *)
Lemma publish_fail_prefix : forall s0 tmp final chunks k,
  tmp <> final -> names s0 final = Some D ->
  wf_st s0 -> unshared s0 tmp -> clean s0 -> no_link_at s0 tmp -> no_dir_at s0 tmp ->
  let s := run s0 (firstn k (core_ops (RenameElseUnlink tmp final tmp) tmp final chunks)) in
  (forall q, q <> tmp -> look s q = look s0 q) /\ followed s = false /\
  ((List.length chunks + 3 <= k)%nat -> names s tmp = None /\ failed s = true).
Proof.
  intros s0 tmp final chunks k Hne Hfd Hwf Hun Hcl Hnl Hnd. unfold core_ops.
  destruct (session_prefix s0 tmp chunks [RenameElseUnlink tmp final tmp; Chmod final] k Hwf Hun Hcl Hnl Hnd)
    as (n & d & nx & i & Ho & Hk).
  cbv zeta in *. set (C := mkst n (updn d i (concat chunks)) nx None false false) in *.
  pose proof (look_opened _ _ _ _ _ Ho) as Hlk. destruct Ho as (Hnt & Hnq & _).
  destruct Hk as [(Hk & [Hf Hfl] & Hq)|(m & -> & ->)].
  - split; [exact Hq|split; [exact Hfl|intros; lia]].
  - cbn [firstn]. rewrite run_cons.
    set (R := mkst (upd n tmp None) (updn d i (concat chunks)) nx None true false).
    replace (step C (RenameElseUnlink tmp final tmp)) with R
      by (unfold step, step_rename; cbn [C failed names fail]; rewrite Hnt, (Hnq final (not_eq_sym Hne)), Hfd; reflexivity).
    replace (run R (firstn m [Chmod final])) with R by (destruct m as [|[|m]]; reflexivity).
    split; [|split; [reflexivity|intros _; split; [apply upd_same|reflexivity]]].
    intros q Hq. apply Hlk; [exact Hq|apply upd_other; exact Hq|intros j Hj; apply updn_other; exact Hj].
Qed.

(* `if tmp.islink(): tmp.remove()` establishes the hypotheses of core_prefix / err_prefix *)
Lemma unlink_if_link_facts : forall s0 tmp, wf_st s0 -> unshared s0 tmp -> clean s0 -> no_dir_at s0 tmp ->
  let s := step s0 (UnlinkIfLink tmp) in
  wf_st s /\ unshared s tmp /\ clean s /\ no_link_at s tmp /\ no_dir_at s tmp /\
  (forall q, q <> tmp -> look s q = look s0 q).
Proof.
  intros s0 tmp Hwf Hun [Hf Hfl] Hnd. unfold step. rewrite Hf. cbv zeta.
  assert (Hkeep : no_link_at s0 tmp ->
            wf_st s0 /\ unshared s0 tmp /\ clean s0 /\ no_link_at s0 tmp /\ no_dir_at s0 tmp /\
            forall q, q <> tmp -> look s0 q = look s0 q) by (intros Hnl; repeat split; assumption).
  destruct (names s0 tmp) as [[i|t|]|] eqn:E.
  - apply Hkeep. intros t' Ht. congruence.
  - split; [|split; [|split; [|split; [|split]]]].
    + intros p i. cbn [names next]. destruct (str_eqb p tmp) eqn:Ep.
      * apply str_eqb_eq in Ep. subst p. rewrite upd_same. discriminate.
      * unfold upd. rewrite Ep. apply Hwf.
    + intros q i Hq. cbn [names]. rewrite upd_same. discriminate.
    + split; [reflexivity|exact Hfl].
    + intros t'. cbn [names]. rewrite upd_same. discriminate.
    + unfold no_dir_at. cbn [names]. rewrite upd_same. discriminate.
    + intros q Hq. apply look_frame; cbn [names data]; [apply upd_other; exact Hq|reflexivity].
  - destruct (Hnd E).
  - apply Hkeep. intros t' Ht. congruence.
Qed.

(* the guard in front of open() is the lstat-based one.  (`if tmp.exists(): tmp.remove()` is NOT enough: see
   exists_guard_insufficient below.) *)
Lemma putfile_guard_is_islink : hd_error putfile_main = Some (SUnlinkIfLink Tmp).
Proof. reflexivity. Qed.

(* the translated operation lists are these protocols *)
Lemma upload_ops_done : forall final blocks,
  upload_ops final blocks Done =
    UnlinkIfLink (final ++ putfile_tmp_ext) ::
    core_ops (RenameElseUnlink (final ++ putfile_tmp_ext) final (final ++ putfile_tmp_ext)) (final ++ putfile_tmp_ext) final blocks.
Proof. intros. unfold upload_ops, interps, core_ops. cbn [putfile_main putfile_done flat_map interp pth app]. rewrite !app_nil_r. reflexivity. Qed.

Lemma upload_ops_err : forall final blocks,
  upload_ops final blocks SrcError =
    UnlinkIfLink (final ++ putfile_tmp_ext) :: err_ops (final ++ putfile_tmp_ext) blocks.
Proof. intros. unfold upload_ops, interps, err_ops. cbn [putfile_main putfile_err flat_map interp pth app]. rewrite !app_nil_r. reflexivity. Qed.

Lemma upload_ops_badblock : forall final blocks, upload_ops final blocks BadBlock = upload_ops final blocks SrcError.
Proof. reflexivity. Qed.

Lemma registry_ops_core : forall basedir chunks,
  registry_ops basedir chunks =
    firstn (List.length chunks + 3)
      (core_ops (Rename (registry_final basedir ++ registry_tmp_ext) (registry_final basedir))
                (registry_final basedir ++ registry_tmp_ext) (registry_final basedir) chunks).
Proof.
  intros. unfold registry_ops, interps, core_ops. cbn [registry_steps flat_map interp pth app].
  replace (List.length chunks + 3)%nat with (S (List.length chunks + 2)) by lia. cbn [firstn]. f_equal.
  rewrite firstn_app, map_length. rewrite firstn_all2 by (rewrite map_length; lia).
  replace (List.length chunks + 2 - List.length chunks)%nat with 2%nat by lia. reflexivity.
Qed.

Lemma interp_touched : forall tmp final chunks k o p,
  In o (interp tmp final chunks k) -> In p (touched o) -> p = final \/ p = tmp.
Proof.
  intros tmp final chunks k o p Ho Hp.
  assert (Ht : forall t, pth tmp final t = final \/ pth tmp final t = tmp) by (intros []; auto).
  destruct k; cbn [interp] in Ho; try (apply in_map_iff in Ho; destruct Ho as (b & <- & _)); try (destruct Ho as [<-|[]]);
    cbn [touched] in Hp; repeat (destruct Hp as [<-|Hp]; [apply Ht|]); destruct Hp.
Qed.

Theorem upload_touches_only_tmp_and_final : forall final blocks oc o p,
  In o (upload_ops final blocks oc) -> In p (touched o) -> p = final \/ p = final ++ putfile_tmp_ext.
Proof.
  intros final blocks oc o p Ho Hp. unfold upload_ops, interps in Ho. cbv zeta in Ho. apply in_app_or in Ho.
  destruct Ho as [Ho|Ho]; apply in_flat_map in Ho; destruct Ho as (k & _ & Ho); exact (interp_touched _ _ _ k o p Ho Hp).
Qed.

(* every path named by any operation of a served putfile lies directly inside the target directory,
   whatever name the client supplied *)
Theorem putfile_contained : forall cwd base name blocks oc ops o p, wf_base base ->
  putfile cwd base name blocks oc = Some ops -> In o ops -> In p (touched o) -> inside base p.
Proof.
  intros cwd base name blocks oc ops o p Hb H Ho Hp. unfold putfile, putfile_final in H.
  destruct (existsb (str_eqb name) putfile_refused); [discriminate|].
  assert (Eg : putfile_guard = GuardParentEq) by reflexivity. rewrite Eg in H.
  destruct (guarded GuardParentEq cwd base name) as [final|] eqn:Hg; [|discriminate]. injection H as <-.
  pose proof (guarded_inside _ _ _ _ Hb Hg) as Hin.
  destruct (upload_touches_only_tmp_and_final final blocks oc o p Ho Hp) as [->| ->]; [exact Hin|].
  apply inside_ext; [exact Hin|reflexivity|cbn; lia].
Qed.

(* honest names (one good component) are served under their own name: an up-front literal refusal, if the code has one,
   refuses no such name *)
Theorem putfile_serves_good : forall cwd base c, wf_base base -> goodb c = true ->
  putfile_final cwd base c = Some (base ++ sep :: c).
Proof.
  intros cwd base c Hb Hc. unfold putfile_final.
  assert (Hr : forallb (fun n => negb (goodb n)) putfile_refused = true) by reflexivity.
  destruct (existsb (str_eqb c) putfile_refused) eqn:E.
  - apply existsb_exists in E. destruct E as (n & Hn & En). apply str_eqb_eq in En. subst n.
    rewrite forallb_forall in Hr. apply Hr in Hn. rewrite Hc in Hn. discriminate.
  - apply guarded_accepts_good; assumption.
Qed.

Lemma tmp_ext_neq : forall final, final ++ putfile_tmp_ext <> final.
Proof. intros. apply ext_neq. discriminate. Qed.

Lemma look_dir : forall s p, look s p = VDir <-> names s p = Some D.
Proof. intros s p. unfold look. destruct (names s p) as [[i|t|]|]; split; (discriminate || reflexivity). Qed.

Lemma upload_done_prefix : forall s0 final blocks k, no_dir_at s0 final ->
  wf_st s0 -> unshared s0 (final ++ putfile_tmp_ext) -> clean s0 -> no_dir_at s0 (final ++ putfile_tmp_ext) ->
  let s := run s0 (firstn k (upload_ops final blocks Done)) in
  (look s final = look s0 final \/ look s final = VFile (concat blocks)) /\
  followed s = false /\ failed s = false /\
  (forall q, q <> final ++ putfile_tmp_ext -> q <> final -> look s q = look s0 q) /\
  ((List.length (upload_ops final blocks Done) <= k)%nat ->
   look s final = VFile (concat blocks) /\ names s (final ++ putfile_tmp_ext) = None).
Proof.
  intros s0 final blocks k Hndf Hwf Hun Hcl Hnd. rewrite upload_ops_done. cbn [List.length]. rewrite core_ops_length.
  destruct k as [|k]; [cbn [firstn run fold_left]; destruct Hcl; repeat split; auto; intros; lia|].
  cbn [firstn]. rewrite run_cons.
  destruct (unlink_if_link_facts s0 _ Hwf Hun Hcl Hnd) as (Hwf' & Hun' & Hcl' & Hnl' & Hnd' & Hlk). cbv zeta in *.
  pose proof (Hlk final (not_eq_sym (tmp_ext_neq final))) as Hlf.
  assert (Hndf' : no_dir_at (step s0 (UnlinkIfLink (final ++ putfile_tmp_ext))) final).
  { unfold no_dir_at. rewrite <- look_dir, Hlf, look_dir. exact Hndf. }
  pose proof (core_prefix _ _ _ final blocks k (moves_rename_else_unlink _ final (final ++ putfile_tmp_ext)) Hndf' (tmp_ext_neq final) Hwf' Hun' Hcl' Hnl' Hnd')
    as (Ha & Hb & Hc & Hd & He).
  cbv zeta in *. rewrite Hlf in Ha.
  split; [exact Ha|split; [exact Hb|split; [exact Hc|split]]].
  - intros q Hq Hq2. rewrite (Hd q Hq Hq2). apply Hlk. exact Hq.
  - intros Hk. apply He. lia.
Qed.

Theorem upload_atomic : forall s0 final blocks k, no_dir_at s0 final ->
  wf_st s0 -> unshared s0 (final ++ putfile_tmp_ext) -> clean s0 -> no_dir_at s0 (final ++ putfile_tmp_ext) ->
  let s := run s0 (firstn k (upload_ops final blocks Done)) in
  (look s final = look s0 final \/ look s final = VFile (concat blocks)) /\
  followed s = false /\ failed s = false /\
  (forall q, q <> final ++ putfile_tmp_ext -> q <> final -> look s q = look s0 q).
Proof.
  intros s0 final blocks k Hndf Hwf Hun Hcl Hnd.
  destruct (upload_done_prefix s0 final blocks k Hndf Hwf Hun Hcl Hnd) as (Ha & Hb & Hc & Hd & _). cbv zeta. auto.
Qed.

Theorem upload_completes : forall s0 final blocks, no_dir_at s0 final ->
  wf_st s0 -> unshared s0 (final ++ putfile_tmp_ext) -> clean s0 -> no_dir_at s0 (final ++ putfile_tmp_ext) ->
  let s := run s0 (upload_ops final blocks Done) in
  look s final = VFile (concat blocks) /\ names s (final ++ putfile_tmp_ext) = None /\ failed s = false.
Proof.
  intros s0 final blocks Hndf Hwf Hun Hcl Hnd.
  pose proof (upload_done_prefix s0 final blocks (List.length (upload_ops final blocks Done)) Hndf Hwf Hun Hcl Hnd)
    as (_ & _ & Hc & _ & He).
  cbv zeta in *. rewrite firstn_all in *. destruct (He (le_n _)). auto.
Qed.

(* the upload was received completely but cannot be published because the final name is a directory: nothing appears
   under the final name (it stays the directory), no other entry changes, and once the failure path has run the
   temporary is gone and the call fails *)
Theorem upload_publish_failure : forall s0 final blocks k, names s0 final = Some D ->
  wf_st s0 -> unshared s0 (final ++ putfile_tmp_ext) -> clean s0 -> no_dir_at s0 (final ++ putfile_tmp_ext) ->
  let s := run s0 (firstn k (upload_ops final blocks Done)) in
  (forall q, q <> final ++ putfile_tmp_ext -> look s q = look s0 q) /\ followed s = false /\
  ((List.length (upload_ops final blocks Done) <= k)%nat -> names s (final ++ putfile_tmp_ext) = None /\ failed s = true).
Proof.
  intros s0 final blocks k Hfd Hwf Hun Hcl Hnd. rewrite upload_ops_done. cbn [List.length]. rewrite core_ops_length.
  destruct k as [|k]; [cbn [firstn run fold_left]; destruct Hcl; repeat split; auto; lia|].
  cbn [firstn]. rewrite run_cons.
  destruct (unlink_if_link_facts s0 _ Hwf Hun Hcl Hnd) as (Hwf' & Hun' & Hcl' & Hnl' & Hnd' & Hlk). cbv zeta in *.
  assert (Hfd' : names (step s0 (UnlinkIfLink (final ++ putfile_tmp_ext))) final = Some D).
  { rewrite <- look_dir, (Hlk final (not_eq_sym (tmp_ext_neq final))), look_dir. exact Hfd. }
  pose proof (publish_fail_prefix _ _ final blocks k (tmp_ext_neq final) Hfd' Hwf' Hun' Hcl' Hnl' Hnd') as (Ha & Hb & Hc).
  cbv zeta in *. split; [|split; [exact Hb|]].
  - intros q Hq. rewrite (Ha q Hq). apply Hlk. exact Hq.
  - intros Hk. apply Hc. lia.
Qed.

(* an upload that is interrupted -- the source's read() fails, the connection is lost, or the source delivers a block that
   cannot be written --, and any crash during it: the final name and every other entry stay as they were; once the error
   path has run, the temporary is gone *)
Theorem upload_interrupted : forall oc s0 final blocks k, oc <> Done ->
  wf_st s0 -> unshared s0 (final ++ putfile_tmp_ext) -> clean s0 -> no_dir_at s0 (final ++ putfile_tmp_ext) ->
  let s := run s0 (firstn k (upload_ops final blocks oc)) in
  (forall q, q <> final ++ putfile_tmp_ext -> look s q = look s0 q) /\ followed s = false /\ failed s = false /\
  ((List.length (upload_ops final blocks oc) <= k)%nat -> names s (final ++ putfile_tmp_ext) = None).
Proof.
  intros oc s0 final blocks k Hoc Hwf Hun Hcl Hnd.
  replace (upload_ops final blocks oc) with (UnlinkIfLink (final ++ putfile_tmp_ext) :: err_ops (final ++ putfile_tmp_ext) blocks)
    by (destruct oc; [contradiction|symmetry; apply upload_ops_err|rewrite upload_ops_badblock; symmetry; apply upload_ops_err]).
  cbn [List.length]. rewrite err_ops_length.
  destruct k as [|k]; [cbn [firstn run fold_left]; destruct Hcl; repeat split; auto; intros; lia|].
  cbn [firstn]. rewrite run_cons.
  destruct (unlink_if_link_facts s0 _ Hwf Hun Hcl Hnd) as (Hwf' & Hun' & Hcl' & Hnl' & Hnd' & Hlk). cbv zeta in *.
  pose proof (err_prefix _ _ blocks k Hwf' Hun' Hcl' Hnl' Hnd') as (Ha & Hb & Hc & Hd). cbv zeta in *.
  split; [|split; [exact Hb|split; [exact Hc|]]].
  - intros q Hq. rewrite (Ha q Hq). apply Hlk. exact Hq.
  - intros Hk. apply Hd. lia.
Qed.

(* core_prefix for the bare rename, cut before the chmod that save_service_data does not have *)
Lemma registry_prefix : forall s0 basedir chunks k,
  let final := registry_final basedir in
  let tmp := final ++ registry_tmp_ext in
  wf_st s0 -> unshared s0 tmp -> clean s0 -> no_link_at s0 tmp -> no_dir_at s0 tmp -> no_dir_at s0 final ->
  let s := run s0 (firstn k (registry_ops basedir chunks)) in
  (look s final = look s0 final \/ look s final = VFile (concat chunks)) /\ followed s = false /\ failed s = false /\
  (forall q, q <> tmp -> q <> final -> look s q = look s0 q) /\
  ((List.length (registry_ops basedir chunks) <= k)%nat -> look s final = VFile (concat chunks) /\ names s tmp = None).
Proof.
  intros s0 basedir chunks k final tmp Hwf Hun Hcl Hnl Hnd Hndf.
  assert (Hne : tmp <> final) by (apply ext_neq; discriminate).
  rewrite registry_ops_core. fold final. fold tmp. rewrite firstn_firstn.
  pose proof (core_prefix _ s0 tmp final chunks (Nat.min k (List.length chunks + 3)) (moves_rename tmp final) Hndf Hne Hwf Hun Hcl Hnl Hnd) as (Ha & Hb & Hc & Hd & He).
  cbv zeta in *. split; [exact Ha|split; [exact Hb|split; [exact Hc|split; [exact Hd|]]]].
  intros Hk. apply He. rewrite firstn_length, core_ops_length in Hk. lia.
Qed.

Theorem registry_atomic : forall s0 basedir chunks k,
  let final := registry_final basedir in
  let tmp := final ++ registry_tmp_ext in
  wf_st s0 -> unshared s0 tmp -> clean s0 -> no_link_at s0 tmp -> no_dir_at s0 tmp -> no_dir_at s0 final ->
  let s := run s0 (firstn k (registry_ops basedir chunks)) in
  (look s final = look s0 final \/ look s final = VFile (concat chunks)) /\ failed s = false /\
  (forall q, q <> tmp -> q <> final -> look s q = look s0 q) /\
  ((List.length (registry_ops basedir chunks) <= k)%nat -> look s final = VFile (concat chunks) /\ names s tmp = None).
Proof.
  intros s0 basedir chunks k final tmp Hwf Hun Hcl Hnl Hnd Hndf.
  destruct (registry_prefix s0 basedir chunks k Hwf Hun Hcl Hnl Hnd Hndf) as (Ha & _ & Hc & Hd & He). cbv zeta. auto.
Qed.

(* operations without an exception handler of their own: when one fails, nothing else happens *)
Definition plain (o : op) : bool :=
  match o with RenameElseUnlink _ _ _ | RenameRetry _ _ => false | _ => true end.

Lemma step_fault_plain : forall s o q, plain o = true -> look (step_fault s o) q = look s q.
Proof. intros s o q H. unfold step_fault. destruct (failed s); [reflexivity|]. destruct o; try discriminate; reflexivity. Qed.

Lemma In_firstn : forall (A : Type) n (l : list A) x, In x (firstn n l) -> In x l.
Proof.
  induction n as [|n IH]; intros l x H; [contradiction|]. destruct l as [|y l]; [contradiction|].
  cbn [firstn] in H. destruct H as [->|H]; [left; reflexivity|right; apply IH; exact H].
Qed.

(* the registry is rewritten with plain system calls only: in particular the move is a bare rename(tmp, final), with no
   "remove the destination and try again" fallback (which would delete the old registry when the rename fails) *)
Lemma registry_ops_plain : forall basedir chunks, forallb plain (registry_ops basedir chunks) = true.
Proof.
  intros. apply forallb_forall. intros o Ho. rewrite registry_ops_core in Ho. apply In_firstn in Ho.
  revert o Ho. apply core_ops_forall; intros; reflexivity.
Qed.

Theorem registry_fault_atomic : forall s0 basedir chunks k,
  let final := registry_final basedir in
  let tmp := final ++ registry_tmp_ext in
  wf_st s0 -> unshared s0 tmp -> clean s0 -> no_link_at s0 tmp -> no_dir_at s0 tmp -> no_dir_at s0 final ->
  let s := run_fault k s0 (registry_ops basedir chunks) in
  look s final = look s0 final \/ look s final = VFile (concat chunks).
Proof.
  intros s0 basedir chunks k final tmp Hwf Hun Hcl Hnl Hnd Hndf. cbv zeta. unfold run_fault.
  destruct (nth_error (registry_ops basedir chunks) k) as [o|] eqn:E.
  - pose proof (registry_ops_plain basedir chunks) as Hp. rewrite forallb_forall in Hp.
    rewrite step_fault_plain by (apply Hp; eapply nth_error_In; eauto).
    apply (registry_atomic s0 basedir chunks k Hwf Hun Hcl Hnl Hnd Hndf).
  - pose proof (registry_atomic s0 basedir chunks (List.length (registry_ops basedir chunks)) Hwf Hun Hcl Hnl Hnd Hndf) as H.
    cbv zeta in H. rewrite firstn_all in H. apply H.
Qed.

(* why the fallback must not be there: with `try rename except: remove(dest); rename` a failing rename deletes the old
   registry and leaves nothing in its place (seeded change C19-r4s1) *)
Theorem rename_retry_loses_registry :
  let s0 := mk_st [([47; 114]%N, F 0%nat); ([47; 116]%N, F 1%nat)] [[111]%N; [110]%N] in      (* "/r" = old, "/t" = new *)
  look (step_fault s0 (RenameRetry [47; 116]%N [47; 114]%N)) [47; 114]%N = VNone /\
  look (step_fault s0 (Rename [47; 116]%N [47; 114]%N)) [47; 114]%N = VFile [111]%N.
Proof. vm_compute. split; reflexivity. Qed.

Theorem gatherer_contained : forall cwd base name q, wf_base base -> gatherer_path cwd base name = Some q -> inside base q.
Proof.
  intros cwd base name q Hb H. unfold gatherer_path in H.
  assert (Eg : gatherer_guard = GuardParentEq) by reflexivity. rewrite Eg in H.
  assert (Es : gatherer_path_source = FromValidated) by reflexivity. rewrite Es in H.
  destruct (guarded GuardParentEq cwd base name) as [p|] eqn:Hg; [|discriminate]. injection H as <-.
  apply inside_ext; [exact (guarded_inside _ _ _ _ Hb Hg)|reflexivity|cbn; lia].
Qed.

Theorem publisher_contained : forall cwd base name l q, wf_base base ->
  publisher_paths cwd base name = Some l -> In q l -> inside base q.
Proof.
  intros cwd base name l q Hb H Hq. unfold publisher_paths in H.
  destruct (prefixb publisher_prefix name); [|discriminate].
  assert (Eg : publisher_guard = GuardParentEq) by reflexivity. rewrite Eg in H.
  destruct (guarded GuardParentEq cwd base name) as [p|] eqn:Hg; [|discriminate]. injection H as <-.
  pose proof (guarded_inside _ _ _ _ Hb Hg) as Hin.
  destruct Hq as [<-|[<-|[]]]; apply inside_ext; try exact Hin; try reflexivity; cbn; lia.
Qed.

Local Open Scope N_scope.
Definition ex_base : str := [47; 115; 114; 118; 47; 117; 112].            (* "/srv/up" *)
Definition ex_final : str := ex_base ++ [47; 120].                          (* "/srv/up/x" *)
Definition ex_s0 : st := mk_st [(ex_final, F 0%nat); (ex_final ++ putfile_tmp_ext, L [47; 101; 116; 99])] [[111; 108; 100]].

Example ex_hyps : wf_st ex_s0 /\ unshared ex_s0 (ex_final ++ putfile_tmp_ext) /\ clean ex_s0 /\ no_dir_at ex_s0 (ex_final ++ putfile_tmp_ext).
Proof.
  split; [|split; [|split; [split; reflexivity|intros H; vm_compute in H; discriminate]]].
  - intros p i. unfold ex_s0, mk_st. cbn [names next find fst snd].
    destruct (str_eqb ex_final p); [intros H; injection H as <-; cbn; lia|].
    destruct (str_eqb (ex_final ++ putfile_tmp_ext) p); discriminate.
  - intros q i _ H. vm_compute in H. discriminate.
Qed.

Example ex_runs :
  map (fun k => code_view (look (run ex_s0 (firstn k (upload_ops ex_final [[97]; [98]] Done))) ex_final)) (seq 0%nat 8%nat)
  = [[2; 111; 108; 100]; [2; 111; 108; 100]; [2; 111; 108; 100]; [2; 111; 108; 100]; [2; 111; 108; 100]; [2; 111; 108; 100];
     [2; 97; 98]; [2; 97; 98]]%N /\
  putfile [47] ex_base [120] [[97]; [98]] Done = Some (upload_ops ex_final [[97]; [98]] Done) /\
  putfile [47] ex_base [] [[97]] Done = None.
Proof. vm_compute. repeat split. Qed.

(* why the guard has to be islink(): with `if tmp.exists(): tmp.remove()` a DANGLING symlink at the temporary name
   survives the guard (stat follows it and finds nothing) and open() then creates the file THROUGH it *)
Definition ex_dangling : st := mk_st [(ex_final ++ putfile_tmp_ext, L [47; 101; 116; 99; 47; 110; 101; 119])] [].   (* -> "/etc/new" *)
Theorem exists_guard_insufficient :
  let tmp := ex_final ++ putfile_tmp_ext in
  wf_st ex_dangling /\ unshared ex_dangling tmp /\ clean ex_dangling /\ no_dir_at ex_dangling tmp /\
  followed (run ex_dangling [UnlinkIfExists tmp; Open tmp]) = true /\
  followed (run ex_dangling [UnlinkIfLink tmp; Open tmp]) = false.
Proof.
  cbv zeta. split; [|split; [|split; [split; reflexivity|split; [intros H; vm_compute in H; discriminate|split; vm_compute; reflexivity]]]].
  - intros p i H. unfold ex_dangling, mk_st in H. cbn [names find fst snd] in H.
    destruct (str_eqb (ex_final ++ putfile_tmp_ext) p); discriminate.
  - intros q i _ H. vm_compute in H. discriminate.
Qed.
