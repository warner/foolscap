(* C01, sender: sharing is pinned RELATIVE TO THE PYTHON HEAP.
   SendHeapProofs shows machine = canonical descent; both use scopes_register / scopes_lookup, so every theorem there holds
   just as well of a registerRefID that forgets (scopes_register = no-op), under which [s, s] denotes [[1], [1]].  Here, for the
   descent (hence, by send_heap_unique, for the machine): the FIRST encounter of a heap object in a scope emits a container and
   records the object under ITS OWN OPEN number; EVERY LATER encounter in that scope, whatever was sliced in between, emits
   `reference` to that very number (object |-> OPEN number is a function that never changes while the scope lives). *)
From Coq Require Import ZArith List String Bool Lia.
Import ListNotations.
Require Import Verif.lib.PyLite Verif.gen.BananaGen Verif.gen.SlicersGen Verif.lib.Token Verif.lib.Obj Verif.lib.SendHeap.
Local Open Scope Z_scope.

Definition leaf (v : sval) : option obj :=
  match v with
  | SInt z => Some (OInt z) | SFloat b => Some (OFloat b) | SBytes b => Some (OBytes b) | SText u => Some (OText u)
  | SBool b => Some (OBool b) | SNone => Some ONone | SDecimal s => Some (ODecimal s) | SObj _ => None
  end.

Definition enter (c : ckind) (scs : list stable) (oid n : Z) : list stable :=
  let scs1 := if tracked c then scopes_register scs oid n else scs in if is_scope c then [] :: scs1 else scs1.

Lemma bcanon_leaf fu h scs n v t : leaf v = Some t -> bcanon (S fu) h scs n v = Some (t, n + opens t, scs).
Proof. destruct v; intros [= <-]; cbn [bcanon opens]; rewrite ?Z.add_0_r; reflexivity. Qed.

Lemma bcanon_obj fu h scs n oid : bcanon (S fu) h scs n (SObj oid) =
  match scopes_lookup scs oid with
  | Some k => Some (ORef k, n + 1, scs)
  | None =>
    match sfind oid h with
    | None => None
    | Some nd =>
      match bcanon_list fu h (enter (sn_kind nd) scs oid n) (n + 1) (sn_items nd) with
      | Some (os, m, scs3) => Some (OCont (sn_kind nd) os, m, if is_scope (sn_kind nd) then tl scs3 else scs3)
      | None => None
      end
    end
  end.
Proof. reflexivity. Qed.

Lemma bcanon_obj_inv fu h scs n oid nd t n' scs' :
  scopes_lookup scs oid = None -> sfind oid h = Some nd -> bcanon (S fu) h scs n (SObj oid) = Some (t, n', scs') ->
  exists os scs3, bcanon_list fu h (enter (sn_kind nd) scs oid n) (n + 1) (sn_items nd) = Some (os, n', scs3) /\
                  t = OCont (sn_kind nd) os /\ scs' = if is_scope (sn_kind nd) then tl scs3 else scs3.
Proof.
  intros L F H. rewrite bcanon_obj, L, F in H.
  destruct (bcanon_list fu h _ (n + 1) (sn_items nd)) as [[[os m] scs3]|]; [|discriminate].
  injection H as <- <- <-. exists os, scs3. repeat split.
Qed.

Lemma enter_tracked c scs oid n : tracked c = true -> enter c scs oid n = scopes_register scs oid n /\ is_scope c = false.
Proof. intros T. unfold enter. rewrite T. destruct c; try discriminate T; split; reflexivity. Qed.

Lemma enter_scope c scs oid n : is_scope c = true -> enter c scs oid n = [] :: scs.
Proof. destruct c; try discriminate; reflexivity. Qed.

Lemma bcanon_list_cons fu h scs n x r : bcanon_list fu h scs n (x :: r) =
  match bcanon fu h scs n x with
  | Some (o, m, scs1) =>
    match bcanon_list fu h scs1 m r with Some (os, m', scs2) => Some (o :: os, m', scs2) | None => None end
  | None => None
  end.
Proof. reflexivity. Qed.

(* Induction over the successful runs of the descent.  The OPEN number after is given as the number before plus the OPENs of
   the term. *)
Lemma bcanon_ind h (P : list stable -> Z -> sval -> obj -> Z -> list stable -> Prop)
                   (Q : list stable -> Z -> list sval -> list obj -> Z -> list stable -> Prop) :
  (forall scs n v t, leaf v = Some t -> P scs n v t (n + opens t) scs) ->
  (forall scs n oid k, scopes_lookup scs oid = Some k -> P scs n (SObj oid) (ORef k) (n + 1) scs) ->
  (forall scs n oid nd os scs3, scopes_lookup scs oid = None -> sfind oid h = Some nd ->
     Q (enter (sn_kind nd) scs oid n) (n + 1) (sn_items nd) os (n + 1 + opens_list os) scs3 ->
     P scs n (SObj oid) (OCont (sn_kind nd) os) (n + 1 + opens_list os) (if is_scope (sn_kind nd) then tl scs3 else scs3)) ->
  (forall scs n, Q scs n [] [] n scs) ->
  (forall scs n x r o os scs1 scs2, P scs n x o (n + opens o) scs1 -> Q scs1 (n + opens o) r os (n + opens o + opens_list os) scs2 ->
     Q scs n (x :: r) (o :: os) (n + opens o + opens_list os) scs2) ->
  forall fuel,
    (forall v scs n t n' scs', bcanon fuel h scs n v = Some (t, n', scs') -> P scs n v t n' scs') /\
    (forall l scs n os n' scs', bcanon_list fuel h scs n l = Some (os, n', scs') -> Q scs n l os n' scs').
Proof.
  intros Leaf Ref Obj Nil Cons.
  assert (L : forall fuel,
    (forall v scs n t n' scs', bcanon fuel h scs n v = Some (t, n', scs') -> n' = n + opens t /\ P scs n v t n' scs') ->
    forall l scs n os n' scs', bcanon_list fuel h scs n l = Some (os, n', scs') -> n' = n + opens_list os /\ Q scs n l os n' scs').
  { intros fuel IH. induction l as [|x r IHl]; intros scs n os n' scs' B.
    - injection B as <- <- <-. split; [symmetry; apply Z.add_0_r|apply Nil].
    - rewrite bcanon_list_cons in B. destruct (bcanon fuel h scs n x) as [[[o m] scs1]|] eqn:B1; [|discriminate].
      destruct (bcanon_list fuel h scs1 m r) as [[[os' m'] scs2]|] eqn:B2; [|discriminate]. injection B as <- <- <-.
      destruct (IH _ _ _ _ _ _ B1) as [-> Px]. destruct (IHl _ _ _ _ _ B2) as [-> Qr].
      split; [symmetry; apply Z.add_assoc|exact (Cons _ _ _ _ _ _ _ _ Px Qr)]. }
  enough (V : forall fuel v scs n t n' scs', bcanon fuel h scs n v = Some (t, n', scs') -> n' = n + opens t /\ P scs n v t n' scs')
    by (intros fuel; split; [intros v scs n t n' scs' B; exact (proj2 (V fuel _ _ _ _ _ _ B))
                            |intros l scs n os n' scs' B; exact (proj2 (L fuel (V fuel) _ _ _ _ _ _ B))]).
  induction fuel as [|fu IH]; intros v scs n t n' scs' B; [discriminate|].
  destruct (leaf v) as [t0|] eqn:Lv.
  - rewrite (bcanon_leaf _ _ _ _ _ _ Lv) in B. injection B as <- <- <-. split; [reflexivity|exact (Leaf _ _ _ _ Lv)].
  - destruct v; try discriminate. rewrite bcanon_obj in B. destruct (scopes_lookup scs id) as [k|] eqn:Lk.
    + injection B as <- <- <-. split; [reflexivity|exact (Ref _ _ _ _ Lk)].
    + destruct (sfind id h) as [nd|] eqn:F; [|discriminate].
      destruct (bcanon_list fu h _ (n + 1) (sn_items nd)) as [[[os m] scs3]|] eqn:BL; [|discriminate]. injection B as <- <- <-.
      destruct (L fu IH _ _ _ _ _ _ BL) as [-> Qi].
      split; [symmetry; apply Z.add_assoc|exact (Obj _ _ _ _ _ _ Lk F Qi)].
Qed.

Definition grows (scs scs' : list stable) : Prop :=
  match scs with [] => scs' = [] | T :: r => exists T', scs' = T' :: r end /\
  forall o k, scopes_lookup scs o = Some k -> scopes_lookup scs' o = Some k.

Lemma grows_refl scs : grows scs scs.
Proof. split; [destruct scs as [|T r]; [reflexivity|exists T; reflexivity]|auto]. Qed.
Lemma grows_trans a b c : grows a b -> grows b c -> grows a c.
Proof.
  intros [S1 L1] [S2 L2]. split; [|auto].
  destruct a as [|T r]; [subst b; exact S2|]. destruct S1 as (T1 & ->). exact S2.
Qed.

Lemma lookup_register_same T r oid n : scopes_lookup (scopes_register (T :: r) oid n) oid = Some n.
Proof. cbn. unfold gen_scoped_lookup, gen_scoped_register. cbn. rewrite Z.eqb_refl. reflexivity. Qed.

Lemma grows_register scs oid n : scopes_lookup scs oid = None -> grows scs (scopes_register scs oid n).
Proof.
  intros L. split; [destruct scs as [|T r]; [reflexivity|eexists; reflexivity]|].
  intros o k H. destruct scs as [|T r]; [discriminate|]. cbn in *.
  unfold gen_scoped_lookup, gen_scoped_register in *. cbn. destruct (oid =? o) eqn:E; [|exact H].
  apply Z.eqb_eq in E. subst o. rewrite H in L. discriminate.
Qed.

(* a scoped slicer's own table is pushed empty and popped with it: the tables below are what they were *)
Lemma grows_push_pop scs1 scs3 : grows ([] :: scs1) scs3 -> tl scs3 = scs1.
Proof. intros [(T' & ->) _]. reflexivity. Qed.

Definition PG (h : sheap) (fu : nat) : Prop :=
  forall v scs n t n' scs', bcanon fu h scs n v = Some (t, n', scs') -> grows scs scs'.

Lemma descent_grows h fuel :
  PG h fuel /\ forall l scs n os n' scs', bcanon_list fuel h scs n l = Some (os, n', scs') -> grows scs scs'.
Proof.
  apply (bcanon_ind h (fun scs _ _ _ _ scs' => grows scs scs') (fun scs _ _ _ _ scs' => grows scs scs')).
  - intros. apply grows_refl.
  - intros. apply grows_refl.
  - intros scs n oid nd os scs3 Lk _ G3.
    assert (G1 : grows scs (if tracked (sn_kind nd) then scopes_register scs oid n else scs))
      by (destruct (tracked (sn_kind nd)); [apply grows_register; exact Lk|apply grows_refl]).
    unfold enter in G3. destruct (is_scope (sn_kind nd)).
    + rewrite (grows_push_pop _ _ G3). exact G1.
    + exact (grows_trans _ _ _ G1 G3).
  - intros. apply grows_refl.
  - intros scs n x r o os scs1 scs2. apply grows_trans.
Qed.

Lemma grows_list h fu : PG h fu -> forall l scs n os n' scs', bcanon_list fu h scs n l = Some (os, n', scs') -> grows scs scs'.
Proof. intros _. apply descent_grows. Qed.

Theorem tables_grow h : forall fuel, PG h fuel.
Proof. intros fuel. apply descent_grows. Qed.

Lemma bcanon_list_length h fu : forall l s0 z os m s3, bcanon_list fu h s0 z l = Some (os, m, s3) -> List.length os = List.length l.
Proof.
  induction l as [|x r IH]; intros s0 z os m s3 BL.
  - injection BL as <- _ _. reflexivity.
  - rewrite bcanon_list_cons in BL. destruct (bcanon fu h s0 z x) as [[[o m2] s2]|]; [|discriminate].
    destruct (bcanon_list fu h s2 m2 r) as [[[os' m3] s3']|] eqn:B2; [|discriminate]. injection BL as <- _ _.
    cbn [List.length]. f_equal. exact (IH _ _ _ _ _ B2).
Qed.

(* FIRST encounter: the emitted container has the heap object's kind and one child term per item of the heap object, these
   being the canonical terms of the items in order (kinds and items preserved) *)
Theorem first_encounter_is_the_object h fu scs n oid nd t n' scs' :
  scopes_lookup scs oid = None -> sfind oid h = Some nd ->
  bcanon (S fu) h scs n (SObj oid) = Some (t, n', scs') ->
  exists os scs3,
    t = OCont (sn_kind nd) os /\
    bcanon_list fu h (let scs1 := if tracked (sn_kind nd) then scopes_register scs oid n else scs in
                      if is_scope (sn_kind nd) then [] :: scs1 else scs1) (n + 1) (sn_items nd) = Some (os, n', scs3) /\
    List.length os = List.length (sn_items nd).
Proof.
  intros L F H. destruct (bcanon_obj_inv fu h scs n oid nd t n' scs' L F H) as (os & scs3 & BL & -> & _).
  exists os, scs3. split; [reflexivity|]. split; [exact BL|exact (bcanon_list_length h fu _ _ _ _ _ _ BL)].
Qed.

(* ... and it is recorded under its own OPEN number (tracked kind, a scope on the stack) *)
Theorem sliced_object_is_registered h fuel scs n oid nd t n' scs' :
  scs <> [] -> sfind oid h = Some nd -> tracked (sn_kind nd) = true ->
  bcanon fuel h scs n (SObj oid) = Some (t, n', scs') ->
  exists k, scopes_lookup scs' oid = Some k /\ (scopes_lookup scs oid = None -> k = n).
Proof.
  intros NE F T H. destruct fuel as [|fu]; [discriminate|].
  destruct (scopes_lookup scs oid) as [k|] eqn:L.
  - rewrite bcanon_obj, L in H. injection H as _ _ <-. exists k. split; [exact L|discriminate].
  - destruct (bcanon_obj_inv fu h scs n oid nd t n' scs' L F H) as (os & scs3 & BL & _ & ->).
    destruct (enter_tracked _ scs oid n T) as [E ->]. rewrite E in BL.
    exists n. split; [|reflexivity]. apply (proj2 (descent_grows h fu) _ _ _ _ _ _ BL).
    destruct scs as [|T0 r]; [contradiction|]. apply lookup_register_same.
Qed.

(* EVERY LATER encounter in the scope -- after anything else has been sliced -- is a reference to that very number *)
Theorem later_encounter_is_a_reference h scs scs' oid k fu m :
  scopes_lookup scs oid = Some k -> grows scs scs' ->
  bcanon (S fu) h scs' m (SObj oid) = Some (ORef k, m + 1, scs').
Proof. intros L [_ G]. rewrite bcanon_obj, (G _ _ L). reflexivity. Qed.

(* together: a tracked heap object sliced once in a scope is never sliced again in it, whatever is sliced in between
   (f2 / v: any value, any fuel), and the reference carries the number its OPEN took *)
Theorem same_object_never_sliced_twice h f1 scs n oid nd t n1 scs1 :
  scs <> [] -> sfind oid h = Some nd -> tracked (sn_kind nd) = true ->
  bcanon f1 h scs n (SObj oid) = Some (t, n1, scs1) ->
  forall f2 v m t2 m2 scs2, bcanon f2 h scs1 m v = Some (t2, m2, scs2) ->
  forall f3 m3, exists k, bcanon (S f3) h scs2 m3 (SObj oid) = Some (ORef k, m3 + 1, scs2) /\ (scopes_lookup scs oid = None -> k = n).
Proof.
  intros NE F T H f2 v m t2 m2 scs2 H2 f3 m3.
  destruct (sliced_object_is_registered h f1 scs n oid nd t n1 scs1 NE F T H) as (k & L & K).
  exists k. split; [|exact K].
  apply later_encounter_is_a_reference with (scs := scs1); [exact L|exact (tables_grow h f2 _ _ _ _ _ _ H2)].
Qed.

(* false of a registerRefID that forgets: s = [1]; the queue [s, s] in a storage Banana is [[1], reference to 0] *)
Example ex_shared_twice :
  let h := [(7, {| sn_kind := CList; sn_items := [SInt 1] |})] in
  canon_of 5 h true 0 [SObj 7; SObj 7] = Some [OList [OInt 1]; ORef 0] /\
  send_heap 50 h true 0 [SObj 7; SObj 7] = Some (slice_list 0 [OList [OInt 1]; ORef 0]).
Proof. vm_compute. split; reflexivity. Qed.
