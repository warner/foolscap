(* Lemmas about lib/Utf8.v.  `u8 cp bs` says that bs is the UTF-8 form of the code point cp; `enc1` produces exactly
   these forms (u8_of_enc1, u8_enc1), and every decoder of the development (`dec` here, Furl.utf8_dec, Schema.utf8_valid /
   utf8_decode) is characterised by what it does on one such form followed by more input. *)
From Coq Require Import ZArith List Bool Lia.
Import ListNotations.
Require Import Verif.lib.Utf8.
Local Open Scope Z_scope.

Lemma forallb_cons {A} (f : A -> bool) x l : forallb f (x :: l) = true -> f x = true /\ forallb f l = true.
Proof. cbn [forallb]. intros H. apply andb_true_iff in H. exact H. Qed.

Lemma inb_true a b x : a <= x < b -> (a <=? x) && (x <? b) = true.
Proof. intros H. apply andb_true_iff. split; [apply Z.leb_le | apply Z.ltb_lt]; lia. Qed.
Lemma inb_false a b x : x < a \/ b <= x -> (a <=? x) && (x <? b) = false.
Proof. intros H. apply andb_false_iff. destruct H; [left; apply Z.leb_gt | right; apply Z.ltb_ge]; lia. Qed.

Lemma scalarb_range c : scalarb c = true -> 0 <= c < 1114112 /\ ~ (55296 <= c < 57344).
Proof.
  unfold scalarb. intros H. apply andb_true_iff in H as [H1 H3]. apply andb_true_iff in H1 as [H1 H2].
  apply Z.leb_le in H1. apply Z.ltb_lt in H2. split; [lia|].
  intros [A B]. apply negb_true_iff in H3. apply andb_false_iff in H3 as [H3|H3].
  - apply Z.leb_gt in H3. lia.
  - apply Z.ltb_ge in H3. lia.
Qed.

Lemma scalarb_ascii c : 0 <= c < 128 -> scalarb c = true.
Proof.
  intros H. unfold scalarb. rewrite (proj2 (Z.leb_le 0 c)), (proj2 (Z.ltb_lt c 1114112)), (proj2 (Z.leb_gt 55296 c)) by lia.
  reflexivity.
Qed.

(* a code point and its generic UTF-8 form: the shortest one, nothing above U+10FFFF; the three-byte forms of lone
   surrogates (what errors="surrogatepass" emits) are included, the strict decoder refuses exactly those *)
Inductive u8 : Z -> list Z -> Prop :=
| u8_1 b : 0 <= b < 128 -> u8 b [b]
| u8_2 b c1 : 194 <= b <= 223 -> 128 <= c1 <= 191 -> u8 ((b - 192) * 64 + (c1 - 128)) [b; c1]
| u8_3 b c1 c2 : 224 <= b <= 239 -> 128 <= c1 <= 191 -> 128 <= c2 <= 191 -> (b = 224 -> 160 <= c1) ->
    u8 ((b - 224) * 4096 + (c1 - 128) * 64 + (c2 - 128)) [b; c1; c2]
| u8_4 b c1 c2 c3 : 240 <= b <= 244 -> 128 <= c1 <= 191 -> 128 <= c2 <= 191 -> 128 <= c3 <= 191 ->
    (b = 240 -> 144 <= c1) -> (b = 244 -> c1 <= 143) ->
    u8 ((b - 240) * 262144 + (c1 - 128) * 4096 + (c2 - 128) * 64 + (c3 - 128)) [b; c1; c2; c3].

Lemma u8_range cp bs : u8 cp bs -> 0 <= cp <= 1114111 /\ (0 < List.length bs)%nat.
Proof. destruct 1; cbn [List.length]; lia. Qed.

Lemma u8_cast cp cp' bs : u8 cp' bs -> cp = cp' -> u8 cp bs.
Proof. intros U ->. exact U. Qed.

Lemma cp_digits cp :
  cp = 64 * (cp / 64) + cp mod 64 /\ 0 <= cp mod 64 < 64 /\
  cp / 64 = 64 * (cp / 4096) + (cp / 64) mod 64 /\ 0 <= (cp / 64) mod 64 < 64 /\
  cp / 4096 = 64 * (cp / 262144) + (cp / 4096) mod 64 /\ 0 <= (cp / 4096) mod 64 < 64.
Proof. Z.div_mod_to_equations. lia. Qed.

Lemma u8_of_enc1 cp : 0 <= cp <= 1114111 -> u8 cp (enc1 cp).
Proof.
  intros R. destruct (cp_digits cp) as (D1 & B1 & D2 & B2 & D3 & B3). unfold enc1.
  destruct (Z.ltb_spec cp 128); [apply u8_1; lia|].
  destruct (Z.ltb_spec cp 2048); [refine (u8_cast _ _ _ (u8_2 _ _ _ _) _); lia|].
  destruct (Z.ltb_spec cp 65536); [refine (u8_cast _ _ _ (u8_3 _ _ _ _ _ _ _) _); lia|].
  refine (u8_cast _ _ _ (u8_4 _ _ _ _ _ _ _ _ _ _) _); lia.
Qed.

Lemma u8_enc1 cp bs : u8 cp bs -> enc1 cp = bs.
Proof.
  intros U. destruct (cp_digits cp) as (D1 & B1 & D2 & B2 & D3 & B3). unfold enc1.
  remember cp as x eqn:E in U. destruct U.
  - rewrite (proj2 (Z.ltb_lt _ 128)) by lia. congruence.
  - rewrite (proj2 (Z.ltb_ge _ 128)), (proj2 (Z.ltb_lt _ 2048)) by lia. f_equal; [lia|f_equal; lia].
  - rewrite (proj2 (Z.ltb_ge _ 128)), (proj2 (Z.ltb_ge _ 2048)), (proj2 (Z.ltb_lt _ 65536)) by lia.
    f_equal; [lia|f_equal; [lia|f_equal; lia]].
  - rewrite (proj2 (Z.ltb_ge _ 128)), (proj2 (Z.ltb_ge _ 2048)), (proj2 (Z.ltb_ge _ 65536)) by lia.
    f_equal; [lia|f_equal; [lia|f_equal; [lia|f_equal; lia]]].
Qed.

Lemma u8_of_scalar c : scalarb c = true -> u8 c (enc1 c).
Proof. intros H. apply scalarb_range in H. apply u8_of_enc1. lia. Qed.

Lemma dec_nil p n : dec p n [] = [].
Proof. destruct n; reflexivity. Qed.

Lemma dec_ascii b l : 0 <= b < 128 -> dec [] 0 (b :: l) = b :: dec [] 0 l.
Proof. intros H. cbn [dec]. rewrite (proj2 (Z.ltb_lt b 128)) by lia. reflexivity. Qed.

Lemma dec_lead2 b l : 194 <= b < 224 -> dec [] 0 (b :: l) = dec [b] 1 l.
Proof.
  intros H. cbn [dec]. rewrite (proj2 (Z.ltb_ge b 128)), inb_true by lia. reflexivity.
Qed.

Lemma dec_lead3 b l : 224 <= b < 240 -> dec [] 0 (b :: l) = dec [b] 2 l.
Proof.
  intros H. cbn [dec]. rewrite (proj2 (Z.ltb_ge b 128)), inb_false, inb_true by lia. reflexivity.
Qed.

Lemma dec_lead4 b l : 240 <= b < 245 -> dec [] 0 (b :: l) = dec [b] 3 l.
Proof.
  intros H. cbn [dec]. rewrite (proj2 (Z.ltb_ge b 128)), !inb_false, inb_true by lia. reflexivity.
Qed.

Lemma dec_cont_last p b l : is_cont b = true -> dec p 1 (b :: l) = (p ++ [b]) ++ dec [] 0 l.
Proof. intros H. cbn [dec]. rewrite H. reflexivity. Qed.

Lemma dec_cont_more p n b l : is_cont b = true -> dec p (S (S n)) (b :: l) = dec (p ++ [b]) (S n) l.
Proof. intros H. cbn [dec]. rewrite H. reflexivity. Qed.

Lemma dec_conts p k x : k <> [] -> forallb is_cont k = true -> dec p (List.length k) (k ++ x) = p ++ k ++ dec [] 0 x.
Proof.
  revert p. induction k as [|b k IH]; intros p N C; [congruence|]. apply forallb_cons in C as [Cb C].
  destruct k as [|b' k].
  - cbn [List.length app]. rewrite dec_cont_last by exact Cb. symmetry. apply (app_assoc p [b]).
  - change (dec p (S (S (List.length k))) (b :: (b' :: k) ++ x) = p ++ [b] ++ (b' :: k) ++ dec [] 0 x).
    rewrite dec_cont_more, app_assoc by exact Cb. apply IH; [discriminate|exact C].
Qed.

Lemma dec_conts_cut p k j n : forallb is_cont k = true -> (j < n)%nat -> dec p n (firstn j k) = [].
Proof.
  revert p j n. induction k as [|b k IH]; intros p j n C L; [rewrite firstn_nil; apply dec_nil|]. apply forallb_cons in C as [Cb C].
  destruct j as [|j]; [apply dec_nil|]. cbn [firstn]. destruct n as [|[|n]]; [lia|lia|].
  rewrite dec_cont_more by exact Cb. apply IH; [exact C|lia].
Qed.

Lemma u8_shape c bs : u8 c bs ->
  (0 <= c < 128 /\ bs = [c]) \/
  exists a k, bs = a :: k /\ k <> [] /\ forallb is_cont k = true /\ forall l, dec [] 0 (a :: l) = dec [a] (List.length k) l.
Proof.
  destruct 1 as [b Hb|b c1 Hb H1|b c1 c2 Hb H1 H2 _|b c1 c2 c3 Hb H1 H2 H3 _ _]; [left; split; [exact Hb|reflexivity]|right..];
    eexists _, _; (split; [reflexivity|]); (split; [discriminate|]);
    (split; [unfold is_cont; cbn [forallb]; rewrite !inb_true by lia; reflexivity|]); intros l.
  - apply dec_lead2. lia.
  - apply dec_lead3. lia.
  - apply dec_lead4. lia.
Qed.

Lemma dec_char c x : scalarb c = true -> dec [] 0 (enc1 c ++ x) = enc1 c ++ dec [] 0 x.
Proof.
  intros H. destruct (u8_shape c _ (u8_of_scalar c H)) as [[R ->]|(a & k & -> & N & K & L)]; cbn [app].
  - apply dec_ascii, R.
  - rewrite L. exact (dec_conts [a] k x N K).
Qed.

Lemma dec_cut c j : scalarb c = true -> (j < List.length (enc1 c))%nat -> dec [] 0 (firstn j (enc1 c)) = [].
Proof.
  intros H J. destruct j as [|j]; [reflexivity|].
  destruct (u8_shape c _ (u8_of_scalar c H)) as [[_ E]|(a & k & E & _ & K & L)]; rewrite E in *; cbn [List.length firstn] in *; [lia|].
  rewrite L. apply dec_conts_cut; [exact K|lia].
Qed.

(* decode("utf-8","ignore") of the first n bytes of a well-formed encoding = the whole characters that fit in n bytes *)
Theorem decode_prefix cps : forallb scalarb cps = true ->
  forall n, utf8_decode_ignore (firstn n (utf8 cps)) = utf8 (take_fit n cps).
Proof.
  unfold utf8_decode_ignore, utf8. induction cps as [|c r IH]; intros V n.
  - cbn. rewrite firstn_nil. reflexivity.
  - apply forallb_cons in V as [Vc Vr]. cbn [flat_map take_fit].
    rewrite firstn_app.
    destruct (Nat.leb_spec (List.length (enc1 c)) n) as [L|L].
    + rewrite firstn_all2 by lia. rewrite dec_char by exact Vc. cbn [flat_map]. rewrite IH by exact Vr. reflexivity.
    + replace (n - List.length (enc1 c))%nat with 0%nat by lia. cbn [firstn]. rewrite app_nil_r.
      cbn [flat_map]. apply dec_cut; [exact Vc|lia].
Qed.

Lemma dec_length p n l : (List.length (dec p n l) <= List.length p + List.length l)%nat.
Proof.
  revert p n. induction l as [|b l IH]; intros p n; [rewrite dec_nil; apply Nat.le_0_l|].
  assert (R : forall p' n', (List.length p' <= S (List.length p))%nat ->
                            (List.length (dec p' n' l) <= List.length p + S (List.length l))%nat)
    by (intros p' n' H; specialize (IH p' n'); lia).
  cbn [dec List.length]. destruct n as [|[|n]].
  - destruct (b <? 128); [cbn [List.length]; specialize (IH [] 0%nat); cbn [List.length] in IH; lia|].
    repeat destruct (_ && _); apply R; cbn [List.length]; lia.
  - destruct (is_cont b); [|apply R; cbn [List.length]; lia].
    rewrite !app_length. specialize (IH [] 0%nat). cbn [List.length] in *. lia.
  - destruct (is_cont b); apply R; rewrite ?app_length; cbn [List.length]; lia.
Qed.

Lemma take_fit_prefix n cps : exists rest, cps = take_fit n cps ++ rest.
Proof.
  revert n. induction cps as [|c r IH]; intros n; [exists []; reflexivity|].
  cbn [take_fit]. destruct (List.length (enc1 c) <=? n)%nat.
  - destruct (IH (n - List.length (enc1 c))%nat) as [rest E]. exists rest. cbn [app]. f_equal. exact E.
  - exists (c :: r). reflexivity.
Qed.

Lemma utf8_app a b : utf8 (a ++ b) = utf8 a ++ utf8 b.
Proof. unfold utf8. apply flat_map_app. Qed.

Lemma take_fit_cons n c r : (List.length (enc1 c) <= n)%nat -> take_fit n (c :: r) = c :: take_fit (n - List.length (enc1 c)) r.
Proof. intros H. cbn [take_fit]. rewrite (proj2 (Nat.leb_le _ _) H). reflexivity. Qed.

Lemma take_fit_app a b n : (List.length (utf8 a) <= n)%nat -> take_fit n (a ++ b) = a ++ take_fit (n - List.length (utf8 a)) b.
Proof.
  revert n. induction a as [|c a IH]; intros n H; [cbn [app utf8 flat_map List.length]; rewrite Nat.sub_0_r; reflexivity|].
  change (utf8 (c :: a)) with (enc1 c ++ utf8 a) in *. rewrite app_length in *.
  cbn [app]. rewrite take_fit_cons, IH, Nat.sub_add_distr by lia. reflexivity.
Qed.

Lemma take_fit_repeat c j : forall k n, (j * List.length (enc1 c) <= n < S j * List.length (enc1 c))%nat -> (j < k)%nat ->
  take_fit n (repeat c k) = repeat c j.
Proof.
  induction j as [|j IH]; intros [|k] n N K; try lia; cbn [repeat].
  - cbn [take_fit]. rewrite (proj2 (Nat.leb_gt _ _)) by lia. reflexivity.
  - rewrite take_fit_cons, IH by lia. reflexivity.
Qed.

Lemma utf8_repeat_length c k : List.length (utf8 (repeat c k)) = (k * List.length (enc1 c))%nat.
Proof.
  induction k as [|k IH]; [reflexivity|]. change (utf8 (repeat c (S k))) with (enc1 c ++ utf8 (repeat c k)).
  rewrite app_length, IH. reflexivity.
Qed.

Lemma enc1_nonempty c : (0 < List.length (enc1 c))%nat.
Proof. unfold enc1. destruct (c <? 128), (c <? 2048), (c <? 65536); apply Nat.lt_0_succ. Qed.
