(* "A schema violation discards exactly the offending top-level object": for EVERY unslicer semantics (lib/Unsl.v), from a
   receiver at top level, the tokens of ONE top-level sequence -- an OPEN, tokens that keep the nesting depth positive, and the
   token that brings it back to zero -- produce EXACTLY ONE root event: either the object is delivered (one UDeliver, no
   UViolation) or it is reported (one UViolation, no UDeliver) -- unless the connection is abandoned.
   Root events are identified by hypotheses R1-R4 (the root unslicer is the one that delivers and the one whose reportViolation
   emits UViolation; no other unslicer emits either).  The proof is a potential argument: with
     psi c = 1 iff only the root is on the stack, no index phase is pending and discardCount > 0  ("already reported"),
   every token of the sequence satisfies  #root-events + psi before = psi after + [the depth is back at zero].
   It needs the two repairs of banana.py (CLOSE / ABORT in the index phase): the translated flags hd_close_fatal and
   hd_abort_in_index are used as they are generated. *)
From Coq Require Import ZArith List Bool Lia.
Import ListNotations.
Require Import Verif.lib.PyLite Verif.gen.BananaGen Verif.gen.RecvGen Verif.lib.Token Verif.lib.Recv Verif.lib.RecvProofs Verif.lib.Unsl Verif.lib.UnslProofs.
Local Open Scope Z_scope.

Definition rootev (e : uevent) : bool := match e with UDeliver _ | UViolation => true | _ => false end.
Definition nroot (es : list uevent) : Z := Z.of_nat (List.length (filter rootev es)).
Definition ndeliver (es : list uevent) : Z := Z.of_nat (List.length (filter (fun e => match e with UDeliver _ => true | _ => false end) es)).
Definition nviolation (es : list uevent) : Z := Z.of_nat (List.length (filter (fun e => match e with UViolation => true | _ => false end) es)).

Lemma nroot_app a b : nroot (a ++ b) = nroot a + nroot b.
Proof. unfold nroot. rewrite filter_app, app_length. lia. Qed.

Lemma nroot_split es : nroot es = ndeliver es + nviolation es.
Proof.
  unfold nroot, ndeliver, nviolation. induction es as [|e es IH]; [reflexivity|]. cbn [filter].
  destruct e; cbn [rootev List.length]; lia.
Qed.

(* exactly one root event = one delivery and no violation, or one violation and no delivery *)
Lemma one_root_event es : nroot es = 1 -> (ndeliver es = 1 /\ nviolation es = 0) \/ (ndeliver es = 0 /\ nviolation es = 1).
Proof. rewrite nroot_split. unfold ndeliver, nviolation. lia. Qed.

Section Once.
Variable fr : Type.
Variable u_check : fr -> Z -> Z -> oc unit.
Variable u_opener_check : list fr -> Z -> Z -> list (list Z) -> oc unit.
Variable u_do_open : list fr -> list (list Z) -> oc (option fr).
Variable u_start : fr -> Z -> oc fr.
Variable u_child : fr -> uval -> list uevent * oc fr.
Variable u_close : fr -> oc uval.
Variable u_finish : fr -> oc unit.
Variable u_report : fr -> option (list uevent).
Variable is_root : fr -> bool.

Hypothesis R1 : forall f, is_root f = true -> u_report f = Some [UViolation].
Hypothesis R2 : forall f es, is_root f = false -> u_report f = Some es -> nroot es = 0.
Hypothesis R3 : forall f v, is_root f = true -> exists f', u_child f v = ([UDeliver v], OOk f') /\ is_root f' = true.
Hypothesis R4 : forall f v es r, is_root f = false -> u_child f v = (es, r) -> nroot es = 0 /\ (forall f', r = OOk f' -> is_root f' = false).
Hypothesis R5 : forall st ot ch, u_do_open st ot = OOk (Some ch) -> is_root ch = false.
Hypothesis R6 : forall ch n ch', is_root ch = false -> u_start ch n = OOk ch' -> is_root ch' = false.

Notation uctx := (uctx fr).
Notation ufr := (ufr fr).
Notation uhv_loop := (uhv_loop fr u_finish u_report).
Notation uhandle_violation := (uhandle_violation fr u_finish u_report).
Notation uhandle_token := (uhandle_token fr u_child u_finish u_report).
Notation uhandle_close := (uhandle_close fr u_child u_close u_finish u_report).
Notation uhandle_open := (uhandle_open fr u_do_open u_start u_finish u_report).
Notation udeliver := (udeliver fr u_do_open u_start u_child u_finish u_report).
Notation utok_apply := (utok_apply fr u_check u_opener_check u_do_open u_start u_child u_close u_finish u_report).
Notation uhv_index := (uhv_index fr u_finish u_report).
Notation uopened := (uopened fr).
Notation utasted := (utasted fr u_check u_opener_check u_finish u_report).
Notation uclause := (uclause fr u_do_open u_start u_child u_close u_finish u_report).
Notation uapply_all := (uapply_all fr u_check u_opener_check u_do_open u_start u_child u_close u_finish u_report).
Notation depth := (uopen_depth fr).

(* the root is at the bottom, and it is the only root *)
Definition rooted (st : list ufr) : Prop :=
  exists pre r, st = pre ++ [r] /\ is_root (uf_st fr r) = true /\ uf_open fr r = None /\ Forall (fun f => is_root (uf_st fr f) = false) pre.

Definition len1 (st : list ufr) : Z := if (List.length st =? 1)%nat then 1 else 0.

Lemma rooted_nonempty st : rooted st -> (1 <= List.length st)%nat.
Proof. intros (pre & r & -> & _). rewrite app_length. cbn. lia. Qed.

Lemma rooted_cons top rest : rooted (top :: rest) ->
  (rest = [] /\ is_root (uf_st fr top) = true /\ uf_open fr top = None) \/ (is_root (uf_st fr top) = false /\ rooted rest).
Proof.
  intros (pre & r & E & Hr & Ho & F). destruct pre as [|p pre]; cbn in E; inversion E; subst.
  - left. auto.
  - right. inversion F; subst. split; [assumption|]. exists pre, r. auto.
Qed.

Lemma rooted_push f st : rooted st -> is_root (uf_st fr f) = false -> rooted (f :: st).
Proof. intros (pre & r & -> & H1 & H2 & F) Hf. exists (f :: pre), r. split; [reflexivity|]. split; [exact H1|]. split; [exact H2|]. constructor; assumption. Qed.

Lemma rooted_single r : is_root (uf_st fr r) = true -> uf_open fr r = None -> rooted [r].
Proof. intros H1 H2. exists [], r. split; [reflexivity|]. split; [exact H1|]. split; [exact H2|constructor]. Qed.

Fixpoint ubot (st : list ufr) : option ufr :=
  match st with [] => None | f :: rest => match rest with [] => Some f | _ :: _ => ubot rest end end.

Lemma ubot_cons f rest : rest <> [] -> ubot (f :: rest) = ubot rest.
Proof. destruct rest; [intros H; exfalso; apply H; reflexivity|reflexivity]. Qed.

Lemma rooted_ne st : rooted st -> st <> [].
Proof. intros R E. pose proof (rooted_nonempty _ R) as L. rewrite E in L. cbn in L. lia. Qed.

Lemma ndeliver_app a b : ndeliver (a ++ b) = ndeliver a + ndeliver b.
Proof. unfold ndeliver. rewrite filter_app, app_length. lia. Qed.

Lemma ndeliver_nonneg a : 0 <= ndeliver a.
Proof. unfold ndeliver. lia. Qed.

(* handleViolation: the failure is a root event exactly when it travels down to the root; the bottom frame stays *)
Lemma hv_loop_count : forall st d ic st' d' es, rooted st -> uhv_loop st d ic = HvOk fr st' d' es ->
  rooted st' /\ nroot es = len1 st' /\ d <= d' /\ ubot st' = ubot st.
Proof.
  induction st as [|top rest IH]; intros d ic st' d' es R E; [pose proof (rooted_nonempty _ R) as HL; cbn in HL; lia|].
  cbn [Unsl.uhv_loop] in E. destruct (rooted_cons _ _ R) as [(-> & Hr & Ho)|(Hn & Rr)].
  - rewrite (R1 _ Hr) in E. inversion E; subst. split; [exact R|]. split; [reflexivity|]. split; [lia|reflexivity].
  - destruct (u_report (uf_st fr top)) as [es0|] eqn:ER.
    + inversion E; subst. split; [exact R|]. split; [|split; [lia|reflexivity]]. rewrite (R2 _ _ Hn ER). unfold len1.
      pose proof (rooted_nonempty _ Rr). cbn [List.length]. destruct (Nat.eqb_spec (S (List.length rest)) 1); [lia|reflexivity].
    + assert (E' : uhv_loop rest (if ic then d else d + 1) false = HvOk fr st' d' es).
      { destruct (u_finish (uf_st fr top)); try discriminate; (destruct rest; [pose proof (rooted_nonempty _ Rr) as HL; cbn in HL; lia|exact E]). }
      destruct (IH _ _ _ _ _ Rr E') as (R' & N & D & B). split; [exact R'|]. split; [exact N|]. split; [destruct ic; lia|].
      rewrite B. symmetry. apply ubot_cons, rooted_ne, Rr.
Qed.

Definition hr_count (r : uhr fr) (P : uctx -> list uevent -> Prop) : Prop := match r with UOk _ c es => P c es | UFatal _ _ => True end.

(* what handleViolation, handleToken and handleClose have in common: a root event exactly if only the root is left *)
Definition counted (c c' : uctx) (es : list uevent) : Prop :=
  rooted (u_stack fr c') /\ nroot es = len1 (u_stack fr c') /\ u_inOpen fr c' = u_inOpen fr c /\ u_discard fr c <= u_discard fr c'.

Lemma hv_count c io ic : rooted (u_stack fr c) ->
  hr_count (uhandle_violation c io ic) (fun c' es => counted c c' es /\ ubot (u_stack fr c') = ubot (u_stack fr c)).
Proof.
  intros R. unfold Unsl.uhandle_violation. destruct (uhv_loop _ _ _) as [st' d' es|] eqn:E; [|exact I].
  destruct (hv_loop_count _ _ _ _ _ _ R E) as (R' & N & D & B). unfold counted. cbn [hr_count uw_stack u_stack u_inOpen u_discard].
  repeat split; auto. destruct io; lia.
Qed.

Lemma hr_count_upre es r P : hr_count r (fun c' es' => P c' (es ++ es')) -> hr_count (upre fr es r) P.
Proof. destruct r; cbn; auto. Qed.

Lemma hr_count_imp r (P Q : uctx -> list uevent -> Prop) : (forall c es, P c es -> Q c es) -> hr_count r P -> hr_count r Q.
Proof. destruct r; cbn; auto. Qed.

(* the bottom frame changes only when the root receives a child: by a delivery *)
Definition bottom_kept (c c' : uctx) (es : list uevent) : Prop := ndeliver es = 0 -> ubot (u_stack fr c') = ubot (u_stack fr c).

Lemma token_count c v : rooted (u_stack fr c) ->
  hr_count (uhandle_token c v) (fun c' es => counted c c' es /\ bottom_kept c c' es).
Proof.
  intros R. unfold counted, bottom_kept, Unsl.uhandle_token. destruct (u_stack fr c) as [|top rest] eqn:Es; [exact I|].
  destruct (rooted_cons _ _ R) as [(-> & Hr & Ho)|(Hn & Rr)].
  - destruct (R3 (uf_st fr top) v Hr) as (f' & -> & Hr'). cbn [hr_count uw_stack u_stack u_inOpen u_discard].
    split; [|intros N; cbv in N; discriminate]. split; [apply rooted_single; [exact Hr'|exact Ho]|]. repeat split; try reflexivity; lia.
  - destruct (u_child (uf_st fr top) v) as [es0 r] eqn:EC. destruct (R4 _ _ _ _ Hn EC) as (N0 & Hf).
    destruct r as [f'| | |k]; try exact I.
    + cbn [hr_count uw_stack u_stack u_inOpen u_discard]. split; [|intros _; rewrite !(ubot_cons _ rest (rooted_ne _ Rr)); reflexivity].
      split; [apply rooted_push; [exact Rr|cbn; apply Hf; reflexivity]|].
      split; [|split; [reflexivity|lia]]. rewrite N0. unfold len1. pose proof (rooted_nonempty _ Rr). cbn [List.length].
      destruct (Nat.eqb_spec (S (List.length rest)) 1); [lia|reflexivity].
    + apply hr_count_upre. assert (Rc : rooted (u_stack fr c)) by (rewrite Es; exact R).
      eapply hr_count_imp; [|apply (hv_count c false false Rc)]. intros c' es ((A & B & C & D) & K). rewrite nroot_app, N0, Es in *. auto.
Qed.

Lemma close_count c n : rooted (u_stack fr c) ->
  hr_count (uhandle_close c n) (fun c' es => counted c c' es /\ bottom_kept c c' es).
Proof.
  intros R. unfold Unsl.uhandle_close. destruct (u_stack fr c) as [|top rest] eqn:Es; [exact I|].
  destruct (opt_is (uf_open fr top) n) eqn:EO; [|exact I]. cbn [negb].
  assert (Rc : rooted (u_stack fr c)) by (rewrite Es; exact R).
  destruct (rooted_cons _ _ R) as [(_ & _ & Ho)|(Hn & Rr)]; [exfalso; apply (opt_is_some _ _ EO); exact Ho|].
  assert (HV : hr_count (uhandle_violation c false true) (fun c' es => counted c c' es /\ bottom_kept c c' es)).
  { eapply hr_count_imp; [|apply (hv_count c false true Rc)]. intros c' es (A & K). split; [exact A|intros _; exact K]. }
  destruct (u_close (uf_st fr top)); try exact I; try exact HV.
  destruct (u_finish (uf_st fr top)); try exact I; try exact HV.
  eapply hr_count_imp; [|apply (token_count (uw_stack fr c (u_discard fr c) rest) _ Rr)]. intros c' es (A & K). split; [exact A|].
  unfold bottom_kept in *. rewrite Es, (ubot_cons top rest (rooted_ne _ Rr)). exact K.
Qed.

(* handleOpen (an index token): a root event only if the OPEN is rejected all the way down to the root *)
Lemma open_count c v : rooted (u_stack fr c) -> u_inOpen fr c = true ->
  hr_count (uhandle_open c v) (fun c' es => rooted (u_stack fr c') /\ u_discard fr c <= u_discard fr c' /\
                                            ((u_inOpen fr c' = true /\ nroot es = 0 /\ u_discard fr c' = u_discard fr c) \/
                                             (u_inOpen fr c' = false /\ nroot es = len1 (u_stack fr c'))) /\
                                            ubot (u_stack fr c') = ubot (u_stack fr c)).
Proof.
  intros R IO. unfold Unsl.uhandle_open. cbv zeta. destruct v; try exact I. destruct (negb _); [exact I|].
  destruct (u_stack fr c) as [|top rest] eqn:Es; [exact I|].
  destruct (u_do_open (map (uf_st fr) (top :: rest)) (u_opentype fr c ++ [b])) as [[child|]| | |] eqn:ED; try exact I.
  - pose proof (R5 _ _ _ ED) as Hc.
    destruct (u_start child (u_inbObj fr c)) as [child'| | |] eqn:ES; try exact I.
    + cbn [hr_count uw_stack uw_inOpen uw_opentype u_stack u_inOpen u_discard]. split; [apply rooted_push; [exact R|cbn; apply (R6 _ _ _ Hc ES)]|].
      split; [lia|]. split; [|apply ubot_cons; discriminate]. right. split; [reflexivity|]. unfold len1. pose proof (rooted_nonempty _ R). cbn [List.length] in *.
      destruct (Nat.eqb_spec (S (S (List.length rest))) 1); [lia|reflexivity].
    + eapply hr_count_imp; [|apply hv_count; cbn [uw_stack u_stack]; apply rooted_push; [exact R|exact Hc]].
      intros c' es ((A & B & C & D) & K). cbn [uw_stack uw_inOpen uw_opentype u_inOpen u_discard u_stack] in *. split; [exact A|]. split; [exact D|].
      split; [right; auto|]. rewrite K. apply ubot_cons. discriminate.
  - cbn [hr_count uw_opentype u_stack u_inOpen u_discard]. rewrite Es. split; [exact R|]. split; [lia|]. split; [left; auto|reflexivity].
  - eapply hr_count_imp; [|apply hv_count; cbn [uw_inOpen uw_opentype u_stack]; rewrite Es; exact R].
    intros c' es ((A & B & C & D) & K). cbn [uw_inOpen uw_opentype u_inOpen u_discard u_stack] in *. split; [exact A|]. split; [lia|].
    split; [right; auto|]. rewrite K, Es. reflexivity.
Qed.

Hypothesis H_child : forall f v es f', u_child f v = (es, OOk f') -> absorbs fr u_report f -> absorbs fr u_report f'.
Hypothesis H_close : forall f, (u_close f = OViol \/ (exists v, u_close f = OOk v /\ u_finish f = OViol)) -> u_report f = None.

Definition RI (c : uctx) : Prop :=
  0 <= u_discard fr c /\ rooted (u_stack fr c) /\ (u_inOpen fr c = true -> u_discard fr c = 0).

Definition psi (c : uctx) : Z :=
  if (List.length (u_stack fr c) =? 1)%nat && negb (u_inOpen fr c) && (0 <? u_discard fr c) then 1 else 0.

Definition G (c : uctx) : Z := if u_inOpen fr c then 0 else len1 (u_stack fr c).

Lemma rooted_ubottom st : rooted st -> ubottom fr u_report st.
Proof. intros (pre & r & -> & Hr & Ho & _). exists pre, r. split; [reflexivity|]. split; [exact Ho|]. unfold absorbs. rewrite (R1 _ Hr). discriminate. Qed.

Lemma RI_wfc c : RI c -> uwfc fr u_report c.
Proof. intros (A & B & _). split; [exact A|apply rooted_ubottom; exact B]. Qed.

Lemma G_spec c : RI c -> G c = psi c + (if depth c =? 0 then 1 else 0).
Proof.
  intros (Hd & R & Hio). pose proof (rooted_nonempty _ R) as L. unfold G, psi, len1, uopen_depth.
  destruct (u_inOpen fr c) eqn:IO.
  - rewrite andb_false_r. cbn [negb andb]. destruct (Z.eqb_spec (u_discard fr c + (Z.of_nat (List.length (u_stack fr c)) - 1) + 1) 0); lia.
  - cbn [negb]. rewrite andb_true_r. destruct (Nat.eqb_spec (List.length (u_stack fr c)) 1) as [E|E]; cbn [andb].
    + rewrite E. destruct (Z.ltb_spec 0 (u_discard fr c)); destruct (Z.eqb_spec (u_discard fr c + (Z.of_nat 1 - 1) + 0) 0); lia.
    + destruct (Z.eqb_spec (u_discard fr c + (Z.of_nat (List.length (u_stack fr c)) - 1) + 0) 0); lia.
Qed.

Lemma psi_discarding c : RI c -> 0 < u_discard fr c -> u_inOpen fr c = false /\ psi c = len1 (u_stack fr c).
Proof.
  intros (Hd & R & Hio) D. assert (IO : u_inOpen fr c = false) by (destruct (u_inOpen fr c); [specialize (Hio eq_refl); lia|reflexivity]).
  split; [exact IO|]. unfold psi, len1. rewrite IO. cbn [negb]. destruct (Z.ltb_spec 0 (u_discard fr c)); [|lia].
  rewrite !andb_true_r. reflexivity.
Qed.

Lemma psi_zero c : u_discard fr c = 0 -> psi c = 0.
Proof. intros D. unfold psi. rewrite D. cbn [Z.ltb Z.compare]. rewrite andb_false_r. reflexivity. Qed.

Lemma close_flag io d : hd_close_fatal io d = false -> 0 <= d -> (io = true -> 0 < d).
Proof. unfold hd_close_fatal. intros H Hd ->. destruct (Z.eqb_spec d 0); cbn in H; [discriminate|lia]. Qed.

(* deliver (accepted token, nothing being discarded) *)
Lemma deliver_count c v : RI c -> u_discard fr c = 0 ->
  hr_count (udeliver c v) (fun c' es => RI c' /\ nroot es = G c').
Proof.
  intros (Hd & R & Hio) D0. unfold Unsl.udeliver. destruct (u_inOpen fr c) eqn:IO.
  - eapply hr_count_imp; [|apply (open_count c v R IO)]. intros c' es (A & B & [(I1 & N & D)|(I1 & N)] & _); unfold RI, G; rewrite I1.
    + split; [split; [lia|split; [exact A|intros _; lia]]|exact N].
    + split; [split; [lia|split; [exact A|discriminate]]|exact N].
  - eapply hr_count_imp; [|apply (token_count c v R)]. intros c' es ((A & N & I1 & D) & _). rewrite IO in I1. unfold RI, G. rewrite I1.
    split; [split; [lia|split; [exact A|discriminate]]|exact N].
Qed.

(* a violation handled where the token is rejected: afterwards no index phase is pending *)
Lemma hv_index_count c : RI c -> hr_count (uhv_index c) (fun c' es => RI c' /\ nroot es = G c' /\ u_inOpen fr c' = false).
Proof.
  intros (Hd & R & Hio). unfold UnslProofs.uhv_index. pose proof (hv_count c (u_inOpen fr c) false R) as H.
  destruct (uhandle_violation c (u_inOpen fr c) false) as [c1 es1|]; [|exact I].
  cbn [hr_count] in *. destruct H as ((A & N & _ & D) & _). unfold RI, G, uw_inOpen. cbn [u_inOpen u_stack u_discard].
  split; [split; [lia|split; [exact A|discriminate]]|]. split; [exact N|reflexivity].
Qed.

Lemma clause_count_rejected c ty hdr : 0 <= u_discard fr c -> rooted (u_stack fr c) -> (ty <> tok_OPEN -> u_inOpen fr c = false) ->
  (ty = tok_CLOSE -> 0 < u_discard fr c) ->
  hr_count (uclause c [] true ty hdr) (fun c' es => RI c' /\ nroot es = 0 /\ G c' = len1 (u_stack fr c)).
Proof.
  intros Hd R IO CL. unfold UnslProofs.uclause, uobject.
  destruct (Z.eqb_spec ty tok_OPEN) as [->|NO].
  { cbv zeta. cbn [u_inOpen]. destruct (u_inOpen fr c); cbn [hr_count]; unfold RI, G; cbn [uw_inOpen uw_stack u_inOpen u_stack u_discard];
      (split; [split; [lia|split; [exact R|discriminate]]|auto]). }
  specialize (IO NO).
  assert (same : forall es, nroot es = 0 -> hr_count (UOk fr c es) (fun c' es => RI c' /\ nroot es = 0 /\ G c' = len1 (u_stack fr c))).
  { intros es N. cbn [hr_count]. unfold RI, G. rewrite IO. split; [split; [exact Hd|split; [exact R|discriminate]]|auto]. }
  destruct (Z.eqb_spec ty tok_CLOSE) as [->|_].
  { specialize (CL eq_refl). rewrite IO. unfold hd_close_fatal. cbn [andb]. destruct (Z.ltb_spec 0 (u_discard fr c)); [|lia].
    cbn [hr_count]. unfold RI, G. cbn [uw_stack u_inOpen u_stack u_discard]. rewrite IO. split; [split; [lia|split; [exact R|discriminate]]|auto]. }
  destruct (ty =? tok_ABORT); [apply same; reflexivity|]. destruct (ty =? tok_INT); [apply same; reflexivity|].
  destruct (ty =? tok_NEG); [apply same; reflexivity|].
  destruct (ty =? tok_VOCAB); [destruct (uvocab_get _ _); [apply same; reflexivity|exact I]|].
  destruct (ty =? tok_PING); [apply same; reflexivity|]. destruct (ty =? tok_PONG); [apply same; reflexivity|exact I].
Qed.

Lemma clause_count_accepted c ty hdr : RI c -> u_discard fr c = 0 -> hd_abort_in_index = true -> (ty <> tok_OPEN -> G c = 0) ->
  hr_count (uclause c [] false ty hdr) (fun c' es => RI c' /\ nroot es = G c').
Proof.
  intros HRI D0 FA IN. assert (HRI' := HRI). destruct HRI' as (Hd & R & Hio). unfold UnslProofs.uclause, uobject. rewrite FA.
  destruct (Z.eqb_spec ty tok_OPEN) as [->|NO].
  { cbv zeta. cbn [hr_count]. unfold RI, G. cbn [uw_opentype uw_inOpen u_inOpen u_stack u_discard].
    split; [split; [lia|split; [exact R|intros _; exact D0]]|reflexivity]. }
  specialize (IN NO). rewrite !upre_nil.
  assert (same : forall es, nroot es = 0 -> hr_count (UOk fr c es) (fun c' es => RI c' /\ nroot es = G c')) by (intros es N; split; [exact HRI|lia]).
  destruct (ty =? tok_CLOSE).
  { destruct (hd_close_fatal (u_inOpen fr c) (u_discard fr c)) eqn:CF; [exact I|]. destruct (Z.ltb_spec 0 (u_discard fr c)); [lia|].
    assert (IO : u_inOpen fr c = false) by (destruct (u_inOpen fr c) eqn:IO; [pose proof (close_flag _ _ CF Hd eq_refl); lia|reflexivity]).
    eapply hr_count_imp; [|apply (close_count c hdr R)]. intros c' es ((A & N & I1 & D) & _). rewrite IO in I1.
    unfold RI, G. rewrite I1. split; [split; [lia|split; [exact A|discriminate]]|exact N]. }
  destruct (ty =? tok_ABORT); [eapply hr_count_imp; [|apply (hv_index_count c HRI)]; intros c' es (A & N & _); auto|].
  destruct (ty =? tok_INT); [apply (deliver_count c _ HRI D0)|]. destruct (ty =? tok_NEG); [apply (deliver_count c _ HRI D0)|].
  destruct (ty =? tok_VOCAB); [destruct (uvocab_get _ _); [rewrite upre_nil; apply (deliver_count c _ HRI D0)|exact I]|].
  destruct (ty =? tok_PING); [apply same; reflexivity|]. destruct (ty =? tok_PONG); [apply same; reflexivity|exact I].
Qed.

Theorem tok_count c ty hdr body : RI c -> hd_abort_in_index = true -> (0 < depth c \/ ty = tok_OPEN) ->
  hr_count (utok_apply c ty hdr body) (fun c' es => RI c' /\ nroot es + psi c = G c').
Proof.
  intros HRI FA PRE. assert (HRI' := HRI). destruct HRI' as (Hd & R & Hio).
  destruct (has_body ty) eqn:HB.
  - (* STRING / LONGINT / LONGNEG / FLOAT *)
    rewrite (utok_apply_body _ _ _ _ _ _ _ _ _ _ _ _ _ HB). destruct (utasted c _ _ _ ty hdr) as [|c2 es rej] eqn:ET; [exact I|].
    destruct (tasted_cases _ _ _ _ _ _ _ _ _ _ _ _ _ _ ET) as [(-> & -> & ->)|(D & _ & -> & HV)]; unfold uobject.
    + destruct (Z.ltb_spec 0 (u_discard fr c)) as [D|D].
      * cbn [hr_count]. destruct (psi_discarding c HRI D) as (IO & P). split; [exact HRI|]. unfold G. rewrite IO, P. reflexivity.
      * assert (D0 : u_discard fr c = 0) by lia. rewrite (psi_zero c D0), upre_nil.
        eapply hr_count_imp; [|apply (deliver_count c _ HRI D0)]. intros c' es (A & N). split; [exact A|lia].
    + apply Z.ltb_ge in D. assert (D0 : u_discard fr c = 0) by lia. rewrite (psi_zero c D0).
      pose proof (hv_index_count c HRI) as H. rewrite HV in H. destruct H as (A & N & _). split; [exact A|lia].
  - (* tokens without a body *)
    unfold Unsl.utok_apply. rewrite HB, ustep_nobody_hr_phases. destruct ((ty =? tok_OPEN) && u_inOpen fr c) eqn:EOF_; [exact I|].
    assert (S1 : u_stack fr (uopened c ty) = u_stack fr c /\ u_discard fr (uopened c ty) = u_discard fr c)
      by (unfold UnslProofs.uopened; destruct (ty =? tok_OPEN); auto).
    destruct S1 as (St1 & Di1).
    assert (C1 : ty <> tok_OPEN -> uopened c ty = c) by (unfold UnslProofs.uopened; destruct (Z.eqb_spec ty tok_OPEN); [contradiction|reflexivity]).
    assert (RI1 : u_discard fr c = 0 -> RI (uopened c ty)).
    { intros D0. unfold RI. rewrite St1, Di1. split; [exact Hd|]. split; [exact R|]. intros _. exact D0. }
    destruct (utasted _ _ _ _ ty hdr) as [|c2 es rej] eqn:ET; [exact I|]. rewrite uclause_pre. apply hr_count_upre.
    destruct (tasted_cases _ _ _ _ _ _ _ _ _ _ _ _ _ _ ET) as [(-> & -> & ->)|(D & EX & -> & HV)].
    + cbn [app]. destruct (Z.ltb_spec 0 (u_discard fr c)) as [D|D].
      * (* discarding *)
        destruct (psi_discarding c HRI D) as (IO & P).
        eapply hr_count_imp; [|apply (clause_count_rejected (uopened c ty) ty hdr)].
        -- intros c' es (A & N & Gc). rewrite St1 in Gc. split; [exact A|lia].
        -- rewrite Di1. exact Hd.
        -- rewrite St1. exact R.
        -- intros NO. rewrite (C1 NO). exact IO.
        -- intros _. rewrite Di1. exact D.
      * (* accepted *)
        assert (D0 : u_discard fr c = 0) by lia. rewrite (psi_zero c D0).
        eapply hr_count_imp; [|apply (clause_count_accepted (uopened c ty) ty hdr (RI1 D0))].
        -- intros c' es (A & N). split; [exact A|lia].
        -- rewrite Di1. exact D0.
        -- exact FA.
        -- intros NO. rewrite (C1 NO). destruct PRE as [PRE|PRE]; [|contradiction].
           pose proof (G_spec c HRI) as GS. rewrite (psi_zero c D0) in GS. destruct (Z.eqb_spec (depth c) 0); lia.
    + (* the taster raised a Violation *)
      apply Z.ltb_ge in D. assert (D0 : u_discard fr c = 0) by lia. rewrite (psi_zero c D0).
      pose proof (hv_index_count _ (RI1 D0)) as H. rewrite HV in H. destruct H as ((Hd2 & Rt2 & _) & N & IO2).
      eapply hr_count_imp; [|apply (clause_count_rejected c2 ty hdr Hd2 Rt2)].
      * intros c' es' (A & N' & Gc). split; [exact A|]. rewrite nroot_app. unfold G in N. rewrite IO2 in N. lia.
      * intros _. exact IO2.
      * intros ->. vm_compute in EX. discriminate.
Qed.


(* ---- "decoding of the following objects is unaffected", the root's own state: the root frame changes only when the root
   receives a child, i.e. only by a delivery.  Hence after a top-level object that was VIOLATED (reported, not delivered) the
   unslicer stack -- the root frame alone -- is exactly what it was before the object. ---- *)
Definition kr (b : option ufr) (r : uhr fr) : Prop := hr_count r (fun c' es => ndeliver es = 0 -> ubot (u_stack fr c') = b).

Lemma kr_upre b es r : kr b r -> kr b (upre fr es r).
Proof.
  destruct r as [c' es'|]; cbn; [|auto]. intros H N. rewrite ndeliver_app in N.
  pose proof (ndeliver_nonneg es). pose proof (ndeliver_nonneg es'). apply H. lia.
Qed.

Theorem tok_bot c ty hdr body : rooted (u_stack fr c) -> kr (ubot (u_stack fr c)) (utok_apply c ty hdr body).
Proof.
  intros R.
  apply (utok_apply_closed fr u_check u_opener_check u_do_open u_start u_child u_close u_finish u_report
           (fun c2 => ubot (u_stack fr c2) = ubot (u_stack fr c) /\ rooted (u_stack fr c2)) (fun _ => True) (kr (ubot (u_stack fr c))));
    try (intros; exact I).
  - intros c0 c' S. rewrite S. auto.
  - intros c0 es (B0 & _) _ _. exact B0.
  - intros es r _. apply kr_upre.
  - intros c0 (B0 & R0). rewrite <- B0. eapply hr_count_imp; [|apply (hv_count c0 false false R0)]. intros c' es (_ & K) _. exact K.
  - intros c0 (B0 & R0). unfold uhv_index. pose proof (hv_count c0 (u_inOpen fr c0) false R0) as H.
    destruct (uhandle_violation c0 _ _); [|exact I]. destruct H as ((A & _) & K). rewrite <- B0. split; [split; [exact K|exact A]|exact I].
  - intros c0 n (B0 & R0). rewrite <- B0. eapply hr_count_imp; [|apply (close_count c0 n R0)]. intros c' es (_ & K). exact K.
  - intros c0 v (B0 & R0). rewrite <- B0. unfold Unsl.udeliver. destruct (u_inOpen fr c0) eqn:IO.
    + eapply hr_count_imp; [|apply (open_count c0 v R0 IO)]. intros c' es (_ & _ & _ & K) _. exact K.
    + eapply hr_count_imp; [|apply (token_count c0 v R0)]. intros c' es (_ & K). exact K.
  - split; [reflexivity|exact R].
Qed.

Lemma psi_depth0 c : RI c -> depth c = 0 -> psi c = 0 /\ uat_top fr c.
Proof.
  intros (Hd & R & Hio) D. pose proof (rooted_nonempty _ R) as L. unfold uopen_depth in D.
  destruct (u_inOpen fr c) eqn:IO; [lia|]. assert (D0 : u_discard fr c = 0) by lia.
  split; [apply psi_zero; exact D0|]. split; [exact D0|]. split; [exact IO|lia].
Qed.

(* the tokens that follow the OPEN of a sequence opened at depth k: the depth stays positive until the last one brings it to 0 *)
Fixpoint inside (k : Z) (ts : list (Z * Z * list Z)) : Prop :=
  match ts with
  | [] => False
  | (ty, _, _) :: r => match r with
                       | [] => k + utok_delta ty = 0
                       | _ :: _ => 0 < k + utok_delta ty /\ inside (k + utok_delta ty) r
                       end
  end.

Lemma tok_depth c ty hdr body c' es : RI c -> utok_apply c ty hdr body = UOk fr c' es -> depth c' = depth c + utok_delta ty.
Proof.
  intros HRI E.
  destruct (utok_apply_moved fr u_check u_opener_check u_do_open u_start u_child u_close u_finish u_report H_child H_close
              c ty hdr body c' es (RI_wfc c HRI) E) as (_ & _ & D & _). exact D.
Qed.

(* one top-level sequence after its OPEN: exactly the missing root event, and the bottom frame changes only by a delivery *)
Lemma seq_count : forall ts c k, RI c -> hd_abort_in_index = true -> depth c = k -> 0 < k -> inside k ts ->
  hr_count (uapply_all c ts) (fun c' es => RI c' /\ depth c' = 0 /\ nroot es + psi c = 1 /\
                                          (ndeliver es = 0 -> ubot (u_stack fr c') = ubot (u_stack fr c))).
Proof.
  induction ts as [|[[ty hdr] body] ts IH]; intros c k HRI FA Dk Kp IN; [destruct IN|].
  cbn [Unsl.uapply_all]. assert (PRE : 0 < depth c) by lia. pose proof (tok_count c ty hdr body HRI FA (or_introl PRE)) as TC.
  pose proof (tok_bot c ty hdr body (proj1 (proj2 HRI))) as TB.
  destruct (utok_apply c ty hdr body) as [c1 es1|] eqn:E1; [|exact I]. cbn [hr_count kr] in TC, TB. destruct TC as (RI1 & N1).
  pose proof (tok_depth _ _ _ _ _ _ HRI E1) as D1. apply hr_count_upre.
  destruct ts as [|t' r].
  - cbn [inside] in IN. cbn [Unsl.uapply_all hr_count]. rewrite app_nil_r.
    assert (D10 : depth c1 = 0) by lia. destruct (psi_depth0 c1 RI1 D10) as (P1 & _).
    rewrite (G_spec c1 RI1), P1, D10 in N1. cbn in N1. split; [exact RI1|]. split; [exact D10|]. split; [lia|exact TB].
  - cbn [inside] in IN. destruct IN as (Kp' & IN').
    assert (Dk1 : depth c1 = k + utok_delta ty) by lia. specialize (IH c1 (k + utok_delta ty) RI1 FA Dk1 Kp' IN').
    eapply hr_count_imp; [|exact IH]. intros c' es (A & B & C & K). split; [exact A|]. split; [exact B|]. split.
    + rewrite nroot_app. rewrite (G_spec c1 RI1) in N1. destruct (Z.eqb_spec (depth c1) 0); lia.
    + rewrite ndeliver_app. pose proof (ndeliver_nonneg es1). pose proof (ndeliver_nonneg es). intros N. rewrite K, TB by lia. reflexivity.
Qed.

Lemma one_object c h b body : hd_abort_in_index = true -> uat_top fr c -> RI c -> inside 1 body ->
  hr_count (uapply_all c ((tok_OPEN, h, b) :: body))
           (fun c' es => nroot es = 1 /\ uat_top fr c' /\ RI c' /\ (ndeliver es = 0 -> ubot (u_stack fr c') = ubot (u_stack fr c))).
Proof.
  intros FA T HRI IN. cbn [Unsl.uapply_all].
  pose proof (tok_count c tok_OPEN h b HRI FA (or_intror eq_refl)) as TC. pose proof (tok_bot c tok_OPEN h b (proj1 (proj2 HRI))) as TB.
  destruct (utok_apply c tok_OPEN h b) as [c1 es1|] eqn:E1; [|exact I]. cbn [hr_count kr] in TC, TB. destruct TC as (RI1 & N1).
  pose proof (tok_depth _ _ _ _ _ _ HRI E1) as D1. change (utok_delta tok_OPEN) with 1 in D1.
  assert (D0 : depth c = 0) by (destruct T as (A & B & C); unfold uopen_depth; rewrite A, B, C; reflexivity).
  destruct (psi_depth0 c HRI D0) as (P0 & _).
  assert (D11 : depth c1 = 1) by lia. assert (P01 : 0 < 1) by lia.
  apply hr_count_upre. eapply hr_count_imp; [|apply (seq_count body c1 1 RI1 FA D11 P01 IN)].
  intros c' es (A & B & C & K). destruct (psi_depth0 c' A B) as (_ & T'). split; [|split; [exact T'|split; [exact A|]]].
  - rewrite nroot_app. rewrite (G_spec c1 RI1) in N1. destruct (Z.eqb_spec (depth c1) 0); lia.
  - rewrite ndeliver_app. pose proof (ndeliver_nonneg es1). pose proof (ndeliver_nonneg es). intros N. rewrite K, TB by lia. reflexivity.
Qed.

(* THE THEOREM.  From a receiver at top level, the tokens of one top-level sequence (OPEN ... balancing CLOSE, depth positive in
   between) either abandon the connection or produce exactly one root event -- the object is delivered, or it is reported as
   violated, never both, never twice -- and leave the receiver at top level. *)
Theorem unsl_exactly_one c h b body : hd_abort_in_index = true -> uat_top fr c -> RI c -> inside 1 body ->
  hr_count (uapply_all c ((tok_OPEN, h, b) :: body)) (fun c' es => nroot es = 1 /\ uat_top fr c' /\ RI c').
Proof.
  intros FA T HRI IN. eapply hr_count_imp; [|apply (one_object c h b body FA T HRI IN)]. intros c' es (A & B & C & _). auto.
Qed.

(* THE THEOREM: one top-level sequence that ends in a reported violation leaves the unslicer stack (the root frame) exactly as it was *)
Theorem unsl_violated_object_keeps_root c h b body : hd_abort_in_index = true -> uat_top fr c -> RI c -> inside 1 body ->
  hr_count (uapply_all c ((tok_OPEN, h, b) :: body)) (fun c' es => nviolation es = 1 -> u_stack fr c' = u_stack fr c).
Proof.
  intros FA T HRI IN. eapply hr_count_imp; [|apply (one_object c h b body FA T HRI IN)]. intros c' es (NR & T' & _ & BE) NV.
  rewrite nroot_split in NR. specialize (BE ltac:(lia)).
  destruct T as (_ & _ & L), T' as (_ & _ & L').
  destruct (u_stack fr c) as [|r0 [|? ?]]; try discriminate. destruct (u_stack fr c') as [|r1 [|? ?]]; try discriminate.
  cbn in BE. inversion BE. reflexivity.
Qed.

End Once.
