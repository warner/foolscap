(* C14: proofs about the two layered models of lib/ConvergeLayers.v, each by one invariant over fold_left.
   Offers: each Negotiation's own dict holds the record of its own target, and every hello sent so far carried it; with one
   shared dict a counter-example.  Prestart: lookup numbers and Deferreds are paired one to one, and a pair's lookup is
   answered iff its Deferred has fired -- with the relay bound per iteration; read late, a counter-example. *)
From Coq Require Import ZArith List Bool Arith Lia.
Import ListNotations.
Require Import Verif.lib.PyLite Verif.gen.ConvergeGen Verif.lib.ConvergeLayers.

Lemma fold_left_inv {S E} (P : S -> Prop) (f : S -> E -> S) :
  (forall s e, P s -> P (f s e)) -> forall l s, P s -> P (fold_left f l s).
Proof. intros Hf. induction l as [|e l IH]; intros s Hs; cbn [fold_left]; [exact Hs|apply IH, Hf, Hs]. Qed.

Definition oinv (rec : nat -> Z * Z) (s : ost) : Prop :=
  o_priv s = map rec (o_tgts s) /\
  (forall n c, In (n, c) (o_out s) -> exists tgt, nth_error (o_tgts s) n = Some tgt /\ c = rec tgt).

Lemma ostep_inv rec s e : oinv rec s -> oinv rec (ostep true rec s e).
Proof.
  intros [Hp Ho]. destruct e as [tgt|n]; cbn [ostep].
  - split; cbn [o_priv o_tgts o_out]; [rewrite map_app, Hp; reflexivity|].
    intros n c H. destruct (Ho n c H) as (t & Ht & Hc). exists t. split; [|exact Hc].
    rewrite nth_error_app1; [exact Ht|]. apply nth_error_Some. congruence.
  - destruct (nth_error (o_priv s) n) as [r|] eqn:En; [|split; assumption].
    split; cbn [o_priv o_tgts o_out]; [exact Hp|]. intros n' c H. apply in_app_or in H as [H|[H|[]]]; [apply Ho, H|].
    inversion H; subst n' c. rewrite Hp in En. rewrite nth_error_map in En.
    destruct (nth_error (o_tgts s) n) as [t|]; [|discriminate]. cbn in En. inversion En. exists t. auto.
Qed.

(* with a dict per Negotiation, every hello carries the record of ITS OWN target, however the set-up of other outbound
   negotiations (more hints, another peer) is interleaved with it *)
Theorem hello_carries_own_record_for fresh rec evs n c :
  fresh = true -> In (n, c) (o_out (orun fresh rec evs)) ->
  exists tgt, nth_error (o_tgts (orun fresh rec evs)) n = Some tgt /\ c = rec tgt.
Proof.
  intros -> H. destruct (fold_left_inv (oinv rec) _ (ostep_inv rec) evs oinit) as [_ Ho]; [split; [reflexivity|intros ? ? []]|].
  apply Ho, H.
Qed.

(* ... which is what the code does (translated) *)
Theorem hello_carries_own_record rec evs n c :
  In (n, c) (o_out (orun offer_dict_fresh rec evs)) ->
  exists tgt, nth_error (o_tgts (orun offer_dict_fresh rec evs)) n = Some tgt /\ c = rec tgt.
Proof. apply hello_carries_own_record_for. reflexivity. Qed.

(* with one shared dict it is false: initClient(A->B), initClient(A->C), sendHello(A->B) *)
Theorem shared_offer_refuted :
  exists rec evs n c, In (n, c) (o_out (orun false rec evs)) /\
    nth_error (o_tgts (orun false rec evs)) n = Some 0 /\ c <> rec 0.
Proof.
  exists (fun t => if Nat.eqb t 0 then (1, 3)%Z else (0, 0)%Z), [ONew 0; ONew 1; OSend 0], 0, (0, 0)%Z.
  cbn. split; [left; reflexivity|]. split; [reflexivity|discriminate].
Qed.

Lemma nin_In x l : nin x l = true <-> In x l.
Proof.
  unfold nin. rewrite existsb_exists. split.
  - intros (y & Hy & E). apply Nat.eqb_eq in E. subst. exact Hy.
  - intros H. exists x. split; [exact H|apply Nat.eqb_refl].
Qed.

Lemma NoDup_map_inj {A B} (f : A -> B) l a b : NoDup (map f l) -> In a l -> In b l -> f a = f b -> a = b.
Proof.
  induction l as [|c l IH]; intros Hn Ha Hb E; [destruct Ha|]. cbn in Hn. inversion Hn as [|? ? Hx Hn']; subst.
  destruct Ha as [->|Ha], Hb as [->|Hb]; [reflexivity| | |apply IH; assumption]; exfalso; apply Hx.
  - rewrite E. apply in_map, Hb.
  - rewrite <- E. apply in_map, Ha.
Qed.
Lemma map_combine (a b : list nat) : List.length a = List.length b -> map fst (combine a b) = a /\ map snd (combine a b) = b.
Proof.
  revert b. induction a as [|x a IH]; intros [|y b] H; try discriminate; [split; reflexivity|].
  destruct (IH b) as [E1 E2]; [cbn in H; lia|]. cbn. rewrite E1, E2. split; reflexivity.
Qed.
Lemma NoDup_app_iff {A} (l1 l2 : list A) : NoDup (l1 ++ l2) <-> NoDup l1 /\ NoDup l2 /\ forall x, In x l1 -> ~ In x l2.
Proof.
  induction l1 as [|a l1 IH]; cbn [app].
  - split; [intros H; split; [constructor|split; [exact H|intros x []]]|intros (_ & H & _); exact H].
  - rewrite !NoDup_cons_iff, IH, in_app_iff. split.
    + intros (Ha & H1 & H2 & Hd). repeat split; auto. intros x [<-|Hx]; auto.
    + intros ((Ha & H1) & H2 & Hd). split; [intros [H|H]; [auto|exact (Hd a (or_introl eq_refl) H)]|].
      split; [exact H1|]. split; [exact H2|]. intros x Hx. apply Hd. right. exact Hx.
Qed.
Lemma NoDup_snoc {A} (l : list A) x : NoDup l -> ~ In x l -> NoDup (l ++ [x]).
Proof.
  intros H Hx. apply NoDup_app_iff. split; [exact H|]. split; [constructor; [intros []|constructor]|].
  intros y Hy [E|[]]. subst. contradiction.
Qed.

Definition pinv (s : pst) : Prop :=
  NoDup (map fst (p_inner s)) /\
  NoDup (map snd (p_inner s) ++ p_queue s) /\
  (forall o, o < p_no s <-> In o (map snd (p_inner s) ++ p_queue s)) /\
  (forall w, In w (map fst (p_inner s)) -> w < p_nw s) /\
  (forall w o, In (w, o) (p_inner s) -> (In w (p_answered s) <-> In o (p_fired s))) /\
  NoDup (p_fired s) /\
  (p_running s = true -> p_queue s = []) /\
  (forall w, In w (p_answered s) -> In w (map fst (p_inner s))) /\
  (forall o, In o (p_fired s) -> In o (map snd (p_inner s))).

Lemma pstep_inv s e : pinv s -> pinv (pstep true s e).
Proof.
  intros HI. pose proof HI as (I1 & I2 & I3 & I4 & I5 & I6 & I7 & I8 & I9). destruct e as [| |w]; cbn [pstep].
  - destruct (p_running s) eqn:Er.
    + specialize (I7 eq_refl). rewrite I7 in *. rewrite app_nil_r in *.
      unfold pinv. cbn [p_inner p_queue p_no p_nw p_answered p_fired p_running]. rewrite !map_app, app_nil_r. cbn [map fst snd].
      split; [apply NoDup_snoc; [exact I1|intros H; apply I4 in H; lia]|].
      split; [apply NoDup_snoc; [exact I2|intros H; apply I3 in H; lia]|].
      split; [intros o; rewrite in_app_iff; cbn; rewrite <- I3; lia|].
      split; [intros w Hw; apply in_app_or in Hw as [Hw|[<-|[]]]; [apply I4 in Hw; lia|lia]|].
      split.
      { intros w o Hw. apply in_app_or in Hw as [Hw|[Hw|[]]]; [apply I5, Hw|]. inversion Hw; subst. split; intros H; exfalso.
        - apply I8, I4 in H. lia.
        - apply I9, I3 in H. lia. }
      split; [exact I6|]. split; [reflexivity|]. split; [intros w Hw; apply in_or_app; left; apply I8, Hw|].
      intros o Ho. apply in_or_app. left. apply I9, Ho.
    + unfold pinv. cbn [p_inner p_queue p_no p_nw p_answered p_fired p_running].
      split; [exact I1|]. split; [rewrite app_assoc; apply NoDup_snoc; [exact I2|intros H; apply I3 in H; lia]|].
      split; [intros o; rewrite app_assoc, in_app_iff; cbn; rewrite <- I3; lia|].
      split; [exact I4|]. split; [exact I5|]. split; [exact I6|]. split; [discriminate|]. split; assumption.
  - destruct (p_running s) eqn:Er; [exact HI|].
    set (q := p_queue s) in *.
    assert (Etg : map (fun o : nat => o) q = q) by apply map_id.
    unfold pinv. cbn [p_inner p_queue p_no p_nw p_answered p_fired p_running]. rewrite Etg, !map_app.
    destruct (map_combine _ q (seq_length _ (p_nw s))) as [-> ->].
    rewrite app_nil_r.
    split.
    { apply NoDup_app_iff. split; [exact I1|]. split; [apply seq_NoDup|]. intros x Hx Hs. apply I4 in Hx. apply in_seq in Hs. lia. }
    split; [exact I2|]. split; [exact I3|].
    split; [intros w Hw; apply in_app_or in Hw as [Hw|Hw]; [apply I4 in Hw; lia|apply in_seq in Hw; lia]|].
    split.
    { intros w o Hw. apply in_app_or in Hw as [Hw|Hw]; [apply I5, Hw|].
      pose proof (in_combine_l _ _ _ _ Hw) as Hl. pose proof (in_combine_r _ _ _ _ Hw) as Hr. apply in_seq in Hl.
      split; intros H; exfalso.
      - apply I8, I4 in H. lia.
      - apply I9 in H. apply NoDup_app_iff in I2 as (_ & _ & Hd). exact (Hd o H Hr). }
    split; [exact I6|]. split; [reflexivity|]. split; [intros w Hw; apply in_or_app; left; apply I8, Hw|].
    intros o Ho. apply in_or_app. left. apply I9, Ho.
  - destruct (nin w (p_answered s)) eqn:Ea; [exact HI|].
    destruct (find (fun p : nat * nat => Nat.eqb (fst p) w) (p_inner s)) as [[w0 o]|] eqn:Ef; [|exact HI].
    apply find_some in Ef as [Hin Ew]. cbn in Ew. apply Nat.eqb_eq in Ew. subst w0.
    assert (Hna : ~ In w (p_answered s)) by (intros H; apply nin_In in H; congruence).
    assert (Hnf : ~ In o (p_fired s)) by (intros H; apply Hna, (I5 w o Hin), H).
    assert (Ef' : nin o (p_fired s) = false) by (destruct (nin o (p_fired s)) eqn:E; [apply nin_In in E; contradiction|reflexivity]).
    rewrite Ef'. unfold pinv. cbn [p_inner p_queue p_no p_nw p_answered p_fired p_running].
    split; [exact I1|]. split; [exact I2|]. split; [exact I3|]. split; [exact I4|].
    split.
    { intros w' o' H'. rewrite !in_app_iff. cbn. destruct (Nat.eq_dec w' w) as [->|Hne].
      - assert (o' = o) as -> by exact (f_equal snd (NoDup_map_inj fst _ _ _ I1 H' Hin eq_refl)). tauto.
      - destruct (Nat.eq_dec o' o) as [->|Hno].
        + exfalso. apply Hne. exact (f_equal fst (NoDup_map_inj snd _ _ _ (proj1 (proj1 (NoDup_app_iff _ _) I2)) H' Hin eq_refl)).
        + rewrite (I5 w' o' H'). split; intros [H|[H|[]]]; auto; congruence. }
    split; [apply NoDup_snoc; assumption|]. split; [exact I7|].
    split; [intros w' Hw; apply in_app_or in Hw as [Hw|[<-|[]]]; [apply I8, Hw|apply in_map_iff; exists (w, o); auto]|].
    intros o' Ho. apply in_app_or in Ho as [Ho|[<-|[]]]; [apply I9, Ho|apply in_map_iff; exists (w, o); auto].
Qed.

Lemma prun_inv evs : pinv (prun true evs).
Proof.
  apply (fold_left_inv pinv _ pstep_inv). unfold pinv, pinit. cbn. repeat split; try constructor; try (intros; lia); try (intros []); try (intros ? []); auto.
Qed.

(* with the relay bound per iteration: every Deferred handed out by getReference -- queued before the start or not --
   is still queued (Tub not started) or has exactly ONE lookup of its own, and is fired exactly when that lookup is
   answered; no Deferred fires twice *)
Theorem each_deferred_has_its_own_lookup_for binds evs o :
  binds = true -> let s := prun binds evs in
  o < p_no s ->
  NoDup (p_fired s) /\
  ((In o (p_queue s) /\ p_running s = false) \/
   exists w, In (w, o) (p_inner s) /\ (forall w', In (w', o) (p_inner s) -> w' = w) /\ (In w (p_answered s) <-> In o (p_fired s))).
Proof.
  intros -> s Ho. destruct (prun_inv evs) as (I1 & I2 & I3 & I4 & I5 & I6 & I7 & I8 & I9). fold s in I1, I2, I3, I4, I5, I6, I7, I8, I9.
  split; [exact I6|]. apply I3 in Ho. apply in_app_or in Ho as [Ho|Ho].
  - right. apply in_map_iff in Ho as ([w o'] & E & Hin). cbn in E. subst o'. exists w. split; [exact Hin|]. split; [|apply I5, Hin].
    intros w' H'. exact (f_equal fst (NoDup_map_inj snd _ _ _ (proj1 (proj1 (NoDup_app_iff _ _) I2)) H' Hin eq_refl)).
  - left. split; [exact Ho|]. destruct (p_running s) eqn:Er; [|reflexivity]. rewrite (I7 eq_refl) in Ho. destruct Ho.
Qed.

Theorem each_deferred_has_its_own_lookup evs o :
  let s := prun relay_binds_own_deferred evs in
  o < p_no s ->
  NoDup (p_fired s) /\
  ((In o (p_queue s) /\ p_running s = false) \/
   exists w, In (w, o) (p_inner s) /\ (forall w', In (w', o) (p_inner s) -> w' = w) /\ (In w (p_answered s) <-> In o (p_fired s))).
Proof. apply each_deferred_has_its_own_lookup_for. reflexivity. Qed.

(* read late (the failure shape of a lambda without the default argument): two queued lookups, both answered, the
   first caller's Deferred never fires *)
Theorem late_binding_refuted :
  let s := prun false [PGet; PGet; PStart; PAnswer 0; PAnswer 1] in
  p_answered s = [0; 1] /\ p_fired s = [1] /\ ~ In 0 (p_fired s).
Proof. cbn. split; [reflexivity|]. split; [reflexivity|]. intros [H|[]]. discriminate. Qed.

Example prestart_example :
  let s := prun true [PGet; PGet; PStart; PGet; PAnswer 1; PAnswer 0] in
  p_inner s = [(0, 0); (1, 1); (2, 2)] /\ p_fired s = [1; 0] /\ p_queue s = [].
Proof. cbn. auto. Qed.
