(* The standard unslicers (lib/StdUnsl.v) satisfy the hypotheses of the generic theorems of lib/UnslProofs.v, and the
   schema's bound sbound -- computed from the taster tables of the constraint tree -- bounds the bytes held. *)
From Coq Require Import ZArith List Bool Lia.
Import ListNotations.
Require Import Verif.lib.PyLite Verif.gen.BananaGen Verif.gen.RecvGen Verif.lib.Token Verif.lib.Recv Verif.lib.RecvProofs
               Verif.lib.Unsl Verif.lib.UnslProofs Verif.lib.UnslOnce Verif.lib.UnslAbandon Verif.lib.StdUnsl.
Local Open Scope Z_scope.

Definition std_is_root (f : sfr) : bool := match s_ch f with HRoot _ => true | _ => false end.

Lemma key_error_fails v f' : key_error v <> OOk f'.
Proof.
  unfold key_error. destruct v as [| | |t d items]; try discriminate. destruct t as [|[|[|p|]|]|]; try discriminate.
  destruct (_ =? _)%nat; discriminate.
Qed.

Lemma std_child_spec f v es r : std_child f v = (es, r) ->
  (es = [] \/ es = [UUnmodelled] \/ (es = [UDeliver v] /\ std_is_root f = true)) /\ (forall f', r = OOk f' -> s_ch f' = s_ch f).
Proof.
  unfold std_child, std_is_root. destruct (s_ch f) eqn:K; intros H;
    repeat match type of H with
           | (if ?b then _ else _) = _ => destruct b
           | (match ?x with _ => _ end) = _ => destruct x
           end; inversion H; subst; (split; [auto|]); intros f' E; try discriminate E;
    try (inversion E; subst; exact K); destruct (key_error_fails _ _ E).
Qed.

Lemma std_child_kind f v es f' : std_child f v = (es, OOk f') -> s_ch f' = s_ch f.
Proof. intros H. apply (proj2 (std_child_spec _ _ _ _ H)). reflexivity. Qed.

Lemma std_absorbs_iff f : absorbs sfr std_report f <-> exists c, s_ch f = HRoot c.
Proof.
  unfold absorbs, std_report. destruct (s_ch f) eqn:K; split; intros H;
    try (destruct H as [c0 H]; discriminate); try (exfalso; apply H; reflexivity); try discriminate; eauto.
Qed.

Lemma std_child_keeps_absorbing : forall f v es f', std_child f v = (es, OOk f') -> absorbs sfr std_report f -> absorbs sfr std_report f'.
Proof. intros f v es f' H A. apply std_absorbs_iff in A as [c A]. apply std_absorbs_iff. exists c. rewrite (std_child_kind _ _ _ _ H). exact A. Qed.

Lemma std_closing_violation_propagates : forall f,
  (std_close f = OViol \/ (exists v, std_close f = OOk v /\ std_finish f = OViol)) -> std_report f = None.
Proof.
  intros f [H|(v & _ & H)]; [|discriminate]. exfalso. unfold std_close in H.
  destruct (s_ch f); try discriminate; repeat match type of H with
    | (if ?b then _ else _) = _ => destruct b | (match ?x with _ => _ end) = _ => destruct x end; discriminate.
Qed.

Lemma std_child_events_clean : forall f v, no_escape (fst (std_child f v)).
Proof.
  intros f v. destruct (std_child f v) as [es r] eqn:H.
  destruct (proj1 (std_child_spec _ _ _ _ H)) as [->|[->|(-> & _)]]; reflexivity.
Qed.

Lemma std_report_events_clean : forall f es, std_report f = Some es -> no_escape es.
Proof. intros f es. unfold std_report. destruct (s_ch f); intros H; inversion H; reflexivity. Qed.

Lemma std_finish_total : forall f, std_finish f = OOk tt \/ std_finish f = OViol.
Proof. intros; left; reflexivity. Qed.

Lemma sroot_absorbs c : absorbs sfr std_report (sroot c).
Proof. apply std_absorbs_iff. exists c. reflexivity. Qed.

Lemma ole_omax a b B : ole (omax a b) B -> ole a B /\ ole b B.
Proof. destruct a, b; cbn; try tauto. lia. Qed.

Lemma ole_omax_list l : forall x B, In x l -> ole (omax_list l) B -> ole x B.
Proof.
  induction l as [|y l IH]; intros x B HI O; [destruct HI|]. cbn [omax_list fold_right] in O. apply ole_omax in O as [O1 O2].
  destruct HI as [<-|HI]; [exact O1|]. apply (IH x B HI O2).
Qed.

Lemma usized_cases ty : usized ty = true -> ty = tok_STRING \/ ty = tok_LONGINT \/ ty = tok_LONGNEG.
Proof.
  unfold usized. intros H. apply orb_true_iff in H as [H|H]; [apply orb_true_iff in H as [H|H]|]; apply Z.eqb_eq in H; auto.
Qed.

Lemma base_taste_bound t ty size B : usized ty = true -> ole (taster_bound t) B -> base_taste t ty size = OOk tt -> size <= B.
Proof.
  intros S O H. unfold taster_bound in O. apply ole_omax in O as [O1 O]. apply ole_omax in O as [O2 O3].
  assert (L : ole (lim_of (t_taster t) ty) B) by (destruct (usized_cases ty S) as [->|[->| ->]]; assumption).
  unfold base_taste in H. unfold lim_of in L. destruct (tassoc ty (t_taster t)) as [[l|]|].
  - destruct (Z.gtb_spec size l); [discriminate|]. cbn in L. lia.
  - contradiction.
  - destruct (negb (known_tok ty)); [discriminate|]. destruct (t_strict t); discriminate.
Qed.

Lemma cbound_taster t B : ole (cbound t) B -> ole (taster_bound t) B /\ tclosed t = true.
Proof. unfold cbound. destruct (tclosed t); [auto|contradiction]. Qed.

(* a constraint with its own taster table (every one but a PolyConstraint) tastes by it, and its bound covers the table's *)
Lemma staste_tinfo c t ty size : tinfo_of c = Some t -> staste c ty size = base_taste t ty size.
Proof. destruct c; intros E; inversion E; reflexivity. Qed.

Lemma sbound_in_cbound inner c t B : tinfo_of c = Some t -> ole (sbound_in inner c) B -> ole (cbound t) B.
Proof.
  destruct c; cbn [tinfo_of sbound_in]; intros E O; inversion E; subst; try contradiction; try exact O;
    apply ole_omax in O as [O _]; exact O.
Qed.

Lemma staste_bound_in : forall c inner ty size B, usized ty = true -> ole (sbound_in inner c) B -> staste c ty size = OOk tt -> size <= B.
Proof.
  fix IH 1. intros c inner ty size B S O H. destruct (tinfo_of c) as [t|] eqn:T.
  - rewrite (staste_tinfo _ _ _ _ T) in H. destruct (cbound_taster _ _ (sbound_in_cbound _ _ _ _ T O)) as [O1 _].
    apply (base_taste_bound _ _ _ _ S O1 H).
  - destruct c as [| | | | | | | |alts]; try discriminate T. cbn [staste sbound_in] in *. destruct inner; [contradiction|].
    destruct (negb (known_tok ty)); [discriminate|].
    destruct (existsb (fun a => oc_ok (staste a ty size)) alts) eqn:E; [|discriminate]. clear H T.
    induction alts as [|a alts IHa]; [discriminate|]. cbn [existsb] in E. cbn [map omax_list fold_right] in O.
    apply ole_omax in O as [Oa Or]. apply orb_true_iff in E as [E|E].
    + destruct (staste a ty size) as [[]| | |] eqn:Ea; try discriminate. apply (IH a true ty size B S Oa Ea).
    + apply (IHa Or E).
Qed.

Lemma staste_bound : forall c ty size B, usized ty = true -> ole (sbound c) B -> staste c ty size = OOk tt -> size <= B.
Proof. intros c. apply (staste_bound_in c false). Qed.

Lemma otaste_bound c ty size B : usized ty = true -> ole (obound c) B -> otaste c ty size = OOk tt -> size <= B.
Proof. destruct c; cbn; [apply staste_bound|contradiction]. Qed.

Lemma oitaste_bound c ty size B : usized ty = true -> ole (oibound c) B -> otaste c ty size = OOk tt -> size <= B.
Proof. destruct c; cbn; [apply (staste_bound_in s true)|contradiction]. Qed.

(* the constraint a container applies to its next token is bounded by the container's own bound *)
Definition is_cont (h : sch) : bool :=
  match h with HList _ _ | HTuple _ | HDict _ _ | HSet _ _ | HFset _ _ => true | _ => false end.

Lemma slot_bound f c B : is_cont (s_ch f) = true -> slot f = Some c -> ole (fbound (s_ch f)) B -> ole (oibound c) B.
Proof.
  unfold slot. destruct (s_ch f) as [rc|ic mx|ocs|okv mk|ic mx|ic mx|mx|v| |]; cbn [fbound is_cont]; intros C H O; try discriminate.
  - destruct (full _ _); [discriminate|]. inversion H; subst. exact O.
  - destruct ocs as [cs|]; [|contradiction].
    destruct (nth_error cs (List.length (s_items f))) as [c0|] eqn:N; [|discriminate]. inversion H; subst. cbn [oibound].
    apply (ole_omax_list (map ibound cs)); [apply in_map; apply (nth_error_In _ _ N)|exact O].
  - destruct (full _ _); [discriminate|]. destruct okv as [[k v]|]; [|contradiction]. inversion H; subst. cbn [oibound].
    apply ole_omax in O as [Ok Ov]. destruct (Z.even _); assumption.
  - destruct (full _ _); [discriminate|]. inversion H; subst. exact O.
  - destruct (full _ _); [discriminate|]. inversion H; subst. exact O.
Qed.

Definition SP (B : Z) (f : sfr) : Prop := ole (fbound (s_ch f)) B.

Lemma std_P_check B f ty size : SP B f -> usized ty = true -> std_check f ty size = OOk tt -> size <= B.
Proof.
  unfold SP, std_check. intros O S H.
  destruct (s_ch f) as [rc|ic mx|cs|kv mk|ic mx|ic mx|mx|v| |] eqn:K;
    try (destruct (slot f) as [c|] eqn:SL; [|discriminate]; rewrite <- K in O; apply (oitaste_bound c ty size B S (slot_bound f c B ltac:(rewrite K; reflexivity) SL O) H)).
  - apply (otaste_bound rc ty size B S O H).
  - destruct (usized_cases ty S) as [->|[->| ->]]; try (cbn in H; discriminate).
    change (negb ((tok_STRING =? tok_STRING) || (tok_STRING =? tok_VOCAB))) with false in H. cbv iota in H.
    destruct mx as [[m|]|]; cbn [fbound] in O; try contradiction. unfold ole in O.
    change (tok_STRING =? tok_STRING) with true in H. cbn [andb] in H. destruct (Z.gtb_spec size (6 * m)); [discriminate|]. lia.
  - destruct (usized_cases ty S) as [->|[->| ->]]; cbn in H; discriminate.
  - discriminate.
  - destruct (usized_cases ty S) as [->|[->| ->]]; cbn in H; discriminate.
Qed.

Lemma std_P_child B : forall f v es f', SP B f -> std_child f v = (es, OOk f') -> SP B f'.
Proof. intros f v es f' O H. unfold SP. rewrite (std_child_kind _ _ _ _ H). exact O. Qed.

Lemma std_P_start B : forall ch n ch', SP B ch -> std_start ch n = OOk ch' -> SP B ch'.
Proof. intros ch n ch' O H. inversion H; subst. exact O. Qed.

Lemma mkchild_bound B k c ch inner : 0 <= B -> ole (match c with None => None | Some c0 => sbound_in inner c0 end) B ->
  mkchild k c = OOk (Some ch) -> SP B ch.
Proof.
  intros HB O H. unfold mkchild in H. cbv zeta in H. unfold SP.
  destruct (k =? oc_none); [inversion H; subst; exact HB|].
  destruct (k =? oc_reference); [inversion H; subst; exact HB|].
  destruct c as [c|]; [|contradiction].
  destruct (k =? oc_decimal); [destruct c; discriminate|].
  destruct ((k =? oc_setvocab) || (k =? oc_addvocab)); [destruct c; discriminate|].
  destruct c as [t|t|t mx|t v|t ic mx|t cs|t kk v mk|t ic mx|alts]; cbn [sbound_in] in O; try contradiction;
    repeat match type of H with (if ?b then _ else _) = _ => destruct b end; try discriminate;
    inversion H; subst; cbn [mkf s_ch fbound oibound ibound]; try (apply ole_omax in O as [_ O]; exact O).
  exact HB.
Qed.

(* doOpen's guard: unless the result is a Violation, the opentype is known and the constraint admits it *)
Lemma open_guard c code (X : Z -> oc (option sfr)) r : r <> OViol ->
  (if negb (match c with Some c0 => scheck_opentype c0 code | None => true end) then OViol
   else match code with None => OViol | Some k => X k end) = r ->
  exists k, code = Some k /\ match c with Some c0 => scheck_opentype c0 (Some k) | None => true end = true /\ X k = r.
Proof.
  intros NV. destruct (match c with Some c0 => scheck_opentype c0 code | None => true end) eqn:SC; cbn [negb]; [|congruence].
  destruct code as [k|]; [|congruence]. eauto.
Qed.

Lemma std_do_open_child st ot ch : std_do_open st ot = OOk (Some ch) ->
  exists top rest k c, st = top :: rest /\ mkchild k c = OOk (Some ch) /\
    (s_ch top = HRoot c \/ (is_cont (s_ch top) = true /\ slot top = Some c)).
Proof.
  unfold std_do_open. destruct st as [|top rest]; [discriminate|]. destruct ot as [|name [|? ?]]; try discriminate. intros H.
  exists top, rest.
  destruct (s_ch top) as [rc|ic mx|cs|kv mk|ic mx|ic mx|mx|v| |] eqn:K; try discriminate.
  { apply open_guard in H as (k & _ & _ & H); [|discriminate]. destruct (k =? oc_copyable); [discriminate|]. exists k, rc. auto. }
  all: destruct (slot top) as [c|] eqn:SL; [|discriminate]; apply open_guard in H as (k & _ & _ & H); [|discriminate];
    destruct (k =? oc_copyable); [discriminate|]; destruct ((k =? oc_setvocab) || (k =? oc_addvocab)); [discriminate|]; exists k, c; auto.
Qed.

Lemma std_P_open B : 0 <= B -> forall st ot ch, Forall (SP B) st -> std_do_open st ot = OOk (Some ch) -> SP B ch.
Proof.
  intros HB st ot ch F H. destruct (std_do_open_child _ _ _ H) as (top & rest & k & c & -> & M & [K|(C & SL)]);
    inversion F as [|? ? PT _]; subst; unfold SP in PT.
  - rewrite K in PT. apply (mkchild_bound B k c ch false HB PT M).
  - apply (mkchild_bound B k c ch true HB (slot_bound top c B C SL PT) M).
Qed.

(* ---- under a finite bound, OPEN never reaches an unslicer outside the model ---- *)
Lemma tclosed_rejects t k : tclosed t = true -> (k = oc_copyable \/ k = oc_decimal \/ k = oc_setvocab \/ k = oc_addvocab) ->
  match t_opens t with None => true | Some l => (k =? oc_reference) || zmem k l end = false.
Proof.
  unfold tclosed. destruct (t_opens t) as [l|]; [|discriminate]. intros H K. apply negb_true_iff in H.
  apply orb_false_iff in H as [H H4]. apply orb_false_iff in H as [H H3]. apply orb_false_iff in H as [H1 H2].
  destruct K as [->|[->|[->| ->]]]; cbn [Z.eqb oc_copyable oc_decimal oc_setvocab oc_addvocab oc_reference Pos.eqb orb]; assumption.
Qed.

Lemma bounded_rejects_unmodelled c inner B k : ole (sbound_in inner c) B -> (inner = true \/ tinfo_of c <> None) ->
  (k = oc_copyable \/ k = oc_decimal \/ k = oc_setvocab \/ k = oc_addvocab) -> scheck_opentype c (Some k) = false.
Proof.
  intros O IN K. unfold scheck_opentype. destruct (tinfo_of c) as [t|] eqn:T.
  - destruct (cbound_taster _ _ (sbound_in_cbound _ _ _ _ T O)) as [_ C]. apply (tclosed_rejects _ _ C K).
  - destruct IN as [->|IN]; [|contradiction]. destruct c; try discriminate T. contradiction.
Qed.

Lemma mkchild_abstains k c : mkchild k c = OExc 98 ->
  (k = oc_decimal /\ match c with None => True | Some (SAny _) => True | _ => False end) \/
  ((k = oc_setvocab \/ k = oc_addvocab) /\ match c with None => True | Some (SAny _) => True | Some (SPrim _) => True | _ => False end).
Proof.
  unfold mkchild. cbv zeta. intros H.
  destruct (k =? oc_none); [discriminate|]. destruct (k =? oc_reference); [discriminate|].
  destruct (Z.eqb_spec k oc_decimal) as [->|].
  { left. split; [reflexivity|]. destruct c as [[]|]; try discriminate; exact I. }
  destruct ((k =? oc_setvocab) || (k =? oc_addvocab)) eqn:EV.
  { right. split; [apply orb_true_iff in EV as [EV|EV]; apply Z.eqb_eq in EV; auto|]. destruct c as [[]|]; try discriminate; exact I. }
  exfalso. destruct c as [[]|]; cbn in H;
    repeat match type of H with (if ?b then _ else _) = _ => destruct b end; discriminate.
Qed.

(* under a constraint with a finite bound that admits the opentype, setConstraint never meets an unmodelled unslicer *)
Lemma bounded_mkchild_never_abstains c0 inner B k : ole (sbound_in inner c0) B -> scheck_opentype c0 (Some k) = true ->
  mkchild k (Some c0) <> OExc 98.
Proof.
  intros O SC H. apply mkchild_abstains in H as [(-> & Hc)|(KV & Hc)].
  - destruct c0; try contradiction; exact O.
  - destruct c0 as [t|t| | | | | | |]; try contradiction.
    rewrite (bounded_rejects_unmodelled (SPrim t) inner B k O) in SC; [discriminate|right; discriminate|destruct KV; auto].
Qed.

(* THE GUARD OF THE BOUND IS STATIC: when every unslicer on the stack carries a finite bound (the invariant SP of the buffer-bound
   theorem), an OPEN sequence never makes the model abstain -- it is either refused by the opentype check, or refused by the
   registry, or kills the connection in setConstraint, or creates a modelled unslicer.  In particular OPEN copyable / decimal /
   set-vocab / add-vocab are refused wherever the bound is finite. *)
Theorem std_bounded_open_never_abstains B : forall st name, st <> [] -> Forall (SP B) st -> std_do_open st [name] <> OExc 98.
Proof.
  intros st name NE F H. unfold std_do_open in H. destruct st as [|top rest]; [apply NE; reflexivity|].
  inversion F as [|? ? PT _]; subst. unfold SP in PT.
  destruct (s_ch top) as [rc|ic mx|cs|kv mk|ic mx|ic mx|mx|v| |] eqn:K; try discriminate.
  { (* the root *)
    apply open_guard in H as (k & _ & SC & H); [|discriminate]. destruct (k =? oc_copyable); [discriminate|].
    destruct rc as [c0|]; [|contradiction]. apply (bounded_mkchild_never_abstains c0 false B k PT SC H). }
  (* a container: the constraint of its slot *)
  all: assert (C : is_cont (s_ch top) = true) by (rewrite K; reflexivity); rewrite <- K in PT;
    destruct (slot top) as [c|] eqn:SL; [|discriminate]; pose proof (slot_bound top c B C SL PT) as OC;
    apply open_guard in H as (k & _ & SC & H); [|discriminate]; destruct c as [c0|]; [|contradiction];
    destruct (Z.eqb_spec k oc_copyable) as [->|];
    [rewrite (bounded_rejects_unmodelled c0 true B oc_copyable OC (or_introl eq_refl) (or_introl eq_refl)) in SC; discriminate|];
    destruct ((k =? oc_setvocab) || (k =? oc_addvocab)); [discriminate|]; apply (bounded_mkchild_never_abstains c0 true B k OC SC H).
Qed.

Lemma std_P_opener mi lg : forall st ty size ot, usized ty = true -> std_opener mi lg st ty size ot = OOk tt -> size <= Z.max mi lg.
Proof.
  intros st ty size ot S H. unfold std_opener in H.
  destruct (ty =? tok_STRING).
  - match type of H with (if size >? ?l then _ else _) = _ => destruct (Z.gtb_spec size l); [discriminate|] end.
    destruct ot as [|c [|? ?]]; try lia. destruct (list_eqb c str_copyable); lia.
  - destruct (usized_cases ty S) as [->|[->| ->]]; cbn in H; discriminate.
Qed.

(* the invariant of unsl_buffer_bounded_inv, for the standard unslicers under a constraint tree with a finite bound *)
Lemma std_run_good mi lg c Bs cs : sbound c = Some Bs ->
  good sfr (SP (Z.max 0 Bs)) (Z.max (Z.max 0 Bs) (Z.max mi lg)) (fst (sfeed_all mi lg (init (sctx0 (Some c))) cs)).
Proof.
  intros HS. set (B0 := Z.max 0 Bs). set (B := Z.max B0 (Z.max mi lg)).
  assert (HB0 : 0 <= B0) by (unfold B0; lia).
  assert (W : forall f ty size, SP B0 f -> usized ty = true -> std_check f ty size = OOk tt -> size <= B).
  { intros f ty size Pf S H. pose proof (std_P_check B0 f ty size Pf S H). unfold B. lia. }
  assert (WO : forall st ty size ot, usized ty = true -> std_opener mi lg st ty size ot = OOk tt -> size <= B).
  { intros st ty size ot S H. pose proof (std_P_opener mi lg st ty size ot S H). unfold B. lia. }
  apply (unsl_buffer_bounded_inv sfr std_check (std_opener mi lg) std_do_open std_start std_child std_close std_finish std_report
           (SP B0) B (std_P_open B0 HB0) (std_P_start B0) (std_P_child B0) W WO cs (init (sctx0 (Some c)))).
  split.
  - unfold J, SJ, init, mk, sctx0, uctx0. cbn [r_ctx u_stack]. constructor; [|constructor]. cbn [uf_st]. unfold SP, sroot, mkf. cbn [s_ch fbound obound].
    rewrite HS. cbn. unfold B0. lia.
  - unfold init, mk, lenZ, LIM. cbn [r_buf List.length Z.of_nat]. unfold SIZE_LIMIT. lia.
Qed.

(* C11 for the STANDARD unslicers under a REAL constraint tree: the schema's bound Bs (computed by sbound from the taster
   tables) bounds what is ever held, for all byte sequences and all chunkings *)
Theorem std_buffer_bounded mi lg c Bs cs : sbound c = Some Bs ->
  lenZ (r_buf (fst (sfeed_all mi lg (init (sctx0 (Some c))) cs))) < 65 + Z.max (Z.max (Z.max Bs (Z.max mi lg)) 8) SIZE_LIMIT.
Proof. intros HS. destruct (std_run_good mi lg c Bs cs HS) as (_ & G). unfold LIM in G. lia. Qed.

(* every unslicer that is ever on the stack carries the bound (the invariant behind std_buffer_bounded) ... *)
Theorem std_reachable_stack_bounded mi lg c Bs cs : sbound c = Some Bs ->
  Forall (fun f => SP (Z.max 0 Bs) (uf_st sfr f)) (u_stack sfr (r_ctx (fst (sfeed_all mi lg (init (sctx0 (Some c))) cs)))).
Proof. intros HS. exact (proj1 (std_run_good mi lg c Bs cs HS)). Qed.

(* ... so under a finite bound no OPEN sequence, in any reachable state, makes the model abstain *)
Theorem std_bounded_schema_open_never_abstains mi lg c Bs cs name : sbound c = Some Bs ->
  let st := map (uf_st sfr) (u_stack sfr (r_ctx (fst (sfeed_all mi lg (init (sctx0 (Some c))) cs)))) in
  st <> [] -> std_do_open st [name] <> OExc 98.
Proof.
  intros HS st NE. apply (std_bounded_open_never_abstains (Z.max 0 Bs)); [exact NE|].
  unfold st. apply Forall_map. apply (std_reachable_stack_bounded mi lg c Bs cs HS).
Qed.

(* ---- REFUTED: the bound read off the taster tables alone.  c = ListOf(ChoiceOf(ByteStringConstraint(3), UnicodeConstraint(3)))
   with the taster tables / opentypes of the live objects: the taster-only bound is 18 bytes, yet after OPEN list the list's slot is
   the PolyConstraint, whose opentype check admits OPEN copyable: the tokens that follow go to a RemoteCopyUnslicer (outside the
   model: it abstains), whose checkToken bounds no attribute name.  Replayed on the real code: harness/c11.py
   choice_admits_copyable, corpus/C11/choice_admits_copyable.json -- 4 000 005 bytes held.  sbound answers None for it. ---- *)
Definition rf_bytes3 : sctr := SPrim {| t_taster := [(130, Some 3); (135, None)]; t_strict := false; t_opens := Some [] |}.
Definition rf_text3 : sctr := SText {| t_taster := [(136, None)]; t_strict := true; t_opens := Some [oc_unicode] |} (Some 3).
Definition rf_choice : sctr := SChoice [rf_bytes3; rf_text3].
Definition rf_list : sctr := SList {| t_taster := [(136, None)]; t_strict := false; t_opens := Some [oc_list] |} rf_choice None.

Theorem std_taster_only_bound_refuted :
  exists c st, sbound_tasters c = Some 18 /\
    (* the stack after OPEN(0) "list" under root constraint c ... *)
    sapply_all 13 30 (sctx0 (Some c)) [(tok_OPEN, 0, []); (tok_STRING, 4, [108; 105; 115; 116])] =
      UOk sfr {| u_discard := 0; u_inOpen := false; u_opentype := [[108; 105; 115; 116]]; u_stack := st;
                 u_objctr := 1; u_inbObj := 0; u_inbOpen := 0; u_vocab := [] |} [] /\
    (* ... tastes the next OPEN, admits the opentype copyable, and leaves the model *)
    std_check (uf_st sfr (hd {| uf_open := None; uf_st := sroot None |} st)) tok_OPEN 1 = OOk tt /\
    std_do_open (map (uf_st sfr) st) [str_copyable] = OExc 98 /\
    sbound c = None.
Proof.
  exists rf_list. eexists. split; [reflexivity|]. split; [vm_compute; reflexivity|]. split; [reflexivity|]. split; reflexivity.
Qed.

Definition swfc := uwfc sfr std_report.

Theorem std_resync mi lg c ts c' es : uat_top sfr c -> swfc c -> udelta_sum ts = 0 -> sapply_all mi lg c ts = UOk sfr c' es ->
  uat_top sfr c' /\ swfc c' /\ u_vocab sfr c' = u_vocab sfr c /\ u_objctr sfr c' = u_objctr sfr c + ucount_opens ts.
Proof.
  apply (unsl_resync sfr std_check (std_opener mi lg) std_do_open std_start std_child std_close std_finish std_report
           std_child_keeps_absorbing std_closing_violation_propagates).
Qed.

Theorem std_moved mi lg ts c c' es : swfc c -> sapply_all mi lg c ts = UOk sfr c' es ->
  moved sfr std_report c c' (udelta_sum ts) (ucount_opens ts).
Proof.
  apply (uapply_all_moved sfr std_check (std_opener mi lg) std_do_open std_start std_child std_close std_finish std_report
           std_child_keeps_absorbing std_closing_violation_propagates).
Qed.

Theorem std_no_escape mi lg cs s : no_escape (snd (sfeed_all mi lg s cs)).
Proof.
  apply (unsl_no_escape sfr std_check (std_opener mi lg) std_do_open std_start std_child std_close std_finish std_report
           std_child_events_clean std_report_events_clean).
Qed.

Lemma sctx0_wf c : swfc (sctx0 c).
Proof. apply uctx0_wf. apply sroot_absorbs. Qed.

(* ---- exactly one root event per top-level sequence, for the standard unslicers ---- *)
Lemma std_R1 : forall f, std_is_root f = true -> std_report f = Some [UViolation].
Proof. intros f. unfold std_is_root, std_report. destruct (s_ch f); intros H; try discriminate; reflexivity. Qed.

Lemma std_R2 : forall f es, std_is_root f = false -> std_report f = Some es -> nroot es = 0.
Proof. intros f es. unfold std_is_root, std_report. destruct (s_ch f); intros H1 H2; discriminate. Qed.

Lemma std_R3 : forall f v, std_is_root f = true -> exists f', std_child f v = ([UDeliver v], OOk f') /\ std_is_root f' = true.
Proof. intros f v H. exists f. unfold std_is_root in *. unfold std_child. destruct (s_ch f); try discriminate. auto. Qed.

Lemma std_R4 : forall f v es r, std_is_root f = false -> std_child f v = (es, r) -> nroot es = 0 /\ (forall f', r = OOk f' -> std_is_root f' = false).
Proof.
  intros f v es r H E. destruct (std_child_spec _ _ _ _ E) as (Ev & K). split.
  - destruct Ev as [->|[->|(_ & R)]]; [reflexivity|reflexivity|congruence].
  - intros f' ->. unfold std_is_root in *. rewrite (K f' eq_refl). exact H.
Qed.

Lemma mkchild_not_root k c ch : mkchild k c = OOk (Some ch) -> std_is_root ch = false.
Proof.
  unfold mkchild. cbv zeta. intros H.
  repeat match type of H with
         | (if ?b then _ else _) = _ => destruct b
         | (match ?x with _ => _ end) = _ => destruct x
         end; try discriminate; inversion H; subst; reflexivity.
Qed.

Lemma std_R5 : forall st ot ch, std_do_open st ot = OOk (Some ch) -> std_is_root ch = false.
Proof. intros st ot ch H. destruct (std_do_open_child _ _ _ H) as (_ & _ & k & c & _ & M & _). apply (mkchild_not_root _ _ _ M). Qed.

Lemma std_R6 : forall ch n ch', std_is_root ch = false -> std_start ch n = OOk ch' -> std_is_root ch' = false.
Proof. intros ch n ch' H E. inversion E; subst. exact H. Qed.

Definition std_RI := RI sfr std_is_root.

Lemma sctx0_RI c : std_RI (sctx0 c).
Proof.
  split; [cbn; lia|]. split; [|cbn; discriminate]. exists [], {| uf_open := None; uf_st := sroot c |}. cbn. repeat split; auto.
Qed.

(* "A schema violation discards exactly the offending top-level object", standard unslicers under any constraint tree: the tokens
   of one top-level sequence either abandon the connection or yield exactly one root event (delivered XOR reported) *)
Theorem std_exactly_one mi lg c h b body : hd_abort_in_index = true -> uat_top sfr c -> std_RI c -> inside 1 body ->
  hr_count sfr (sapply_all mi lg c ((tok_OPEN, h, b) :: body)) (fun c' es => nroot es = 1 /\ uat_top sfr c' /\ std_RI c').
Proof.
  apply (unsl_exactly_one sfr std_check (std_opener mi lg) std_do_open std_start std_child std_close std_finish std_report std_is_root
           std_R1 std_R2 std_R3 std_R4 std_R5 std_R6 std_child_keeps_absorbing std_closing_violation_propagates).
Qed.

(* a violated top-level object leaves the root unslicer exactly as it was *)
Theorem std_violated_object_keeps_root mi lg c h b body : hd_abort_in_index = true -> uat_top sfr c -> std_RI c -> inside 1 body ->
  hr_count sfr (sapply_all mi lg c ((tok_OPEN, h, b) :: body)) (fun c' es => nviolation es = 1 -> u_stack sfr c' = u_stack sfr c).
Proof.
  apply (unsl_violated_object_keeps_root sfr std_check (std_opener mi lg) std_do_open std_start std_child std_close std_finish std_report std_is_root
           std_R1 std_R2 std_R3 std_R4 std_R5 std_R6 std_child_keeps_absorbing std_closing_violation_propagates).
Qed.

(* the same, read three ways: the model ABSTAINS (it reached an unslicer or a value it does not model: nothing is claimed about the
   real receiver), the connection is ABANDONED, or exactly one root event *)
Theorem std_exactly_one3 mi lg c h b body : hd_abort_in_index = true -> uat_top sfr c -> std_RI c -> inside 1 body ->
  match uview sfr (sapply_all mi lg c ((tok_OPEN, h, b) :: body)) with
  | U3Abstains _ => True
  | U3Abandoned _ es => In UErrorSent es /\ In ULose es
  | U3Ok _ c' es => nroot es = 1 /\ uat_top sfr c' /\ std_RI c' /\ (nviolation es = 1 -> u_stack sfr c' = u_stack sfr c)
  end.
Proof.
  intros FA T R IN. pose proof (std_exactly_one mi lg c h b body FA T R IN) as H.
  pose proof (std_violated_object_keeps_root mi lg c h b body FA T R IN) as K.
  pose proof (unsl_abandoned_is_real sfr std_check (std_opener mi lg) std_do_open std_start std_child std_close std_finish std_report
                c ((tok_OPEN, h, b) :: body)) as A. fold (sapply_all mi lg) in A.
  destruct (sapply_all mi lg c ((tok_OPEN, h, b) :: body)) as [c' es|es]; cbn [uview hr_count] in *; [tauto|].
  destruct (abstained es); [exact I|exact A].
Qed.

Theorem std_resync3 mi lg c ts : uat_top sfr c -> swfc c -> udelta_sum ts = 0 ->
  match uview sfr (sapply_all mi lg c ts) with
  | U3Abstains _ => True
  | U3Abandoned _ es => In UErrorSent es /\ In ULose es
  | U3Ok _ c' es => uat_top sfr c' /\ swfc c' /\ u_vocab sfr c' = u_vocab sfr c /\ u_objctr sfr c' = u_objctr sfr c + ucount_opens ts
  end.
Proof.
  intros T W D.
  pose proof (unsl_abandoned_is_real sfr std_check (std_opener mi lg) std_do_open std_start std_child std_close std_finish std_report c ts) as A.
  fold (sapply_all mi lg) in A.
  destruct (sapply_all mi lg c ts) as [c' es|es] eqn:E; cbn [uview] in *; [|destruct (abstained es); [exact I|exact A]].
  apply (std_resync mi lg c ts c' es T W D E).
Qed.

(* a top-level set-vocab / add-vocab sequence (legitimate in the real protocol: no root event, then VOCAB tokens decode with the new
   table) is NOT claimed to abandon the connection: the model abstains on it *)
Example std_vocab_sequence_abstains :
  uview sfr (sapply_all 13 30 (sctx0 None) [(tok_OPEN, 0, []); (tok_STRING, 9, [115; 101; 116; 45; 118; 111; 99; 97; 98]); (tok_CLOSE, 0, [])])
  = U3Abstains sfr.
Proof. vm_compute. reflexivity. Qed.
