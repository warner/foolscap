(* C11: the size guard of Negotiation.dataReceived, straight from the translated definition (gen/NegotiateGen.v) *)
From Coq Require Import ZArith List Bool Lia.
Import ListNotations.
Require Import Verif.lib.PyLite Verif.gen.NegotiateGen.
Local Open Scope Z_scope.

(* Negotiation.dataReceived's size guard, as translated into gen/NegotiateGen.header_verdict (0 = refuse "Header too long", 1 = wait
   for more, 2 = split off a block) *)
Theorem neg_cap_beyond : forall eoh buflen, 4096 < eoh -> header_verdict eoh buflen = 0.
Proof.
  (* by the outcome of the three comparisons, whatever their nesting in the source *)
  intros eoh buflen H. unfold header_verdict.
  destruct (Z.eqb_spec eoh (-1)); destruct (Z.ltb_spec 4096 eoh); destruct (Z.leb_spec 4100 buflen); (reflexivity || lia).
Qed.

Lemma header_verdict_no_terminator buflen : header_verdict (-1) buflen = if 4100 <=? buflen then 0 else 1.
Proof. reflexivity. Qed.

Theorem neg_cap_no_terminator : forall buflen, header_verdict (-1) buflen = 0 <-> 4100 <= buflen.
Proof.
  intros buflen. rewrite header_verdict_no_terminator. destruct (Z.leb_spec 4100 buflen); split; (reflexivity || discriminate || lia).
Qed.

Theorem neg_waits_below_cap : forall buflen, header_verdict (-1) buflen = 1 <-> buflen < 4100.
Proof.
  intros buflen. rewrite header_verdict_no_terminator. destruct (Z.leb_spec 4100 buflen); split; (reflexivity || discriminate || lia).
Qed.

Theorem neg_block_within_cap : forall eoh buflen, 0 <= eoh <= 4096 -> header_verdict eoh buflen = 2.
Proof.
  intros eoh buflen H. unfold header_verdict.
  destruct (Z.eqb_spec eoh (-1)); destruct (Z.ltb_spec 4096 eoh); destruct (Z.leb_spec 4100 buflen); (reflexivity || lia).
Qed.
