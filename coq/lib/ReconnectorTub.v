(* C16 -- the Tub side: a Tub and ALL the Reconnectors it created (definitions only).

   Tub.connectTo, the Reconnector parts of Tub.startService / Tub.stopService and Tub._removeReconnector are NOT
   written here: they are m_tub_* of gen/ReconnectorGen.v, translated from pb.py on every run.  This file adds the
   dispatcher: which Tub method an event calls, the eventual queue delivering the queued startConnecting calls, and
   the events of the individual Reconnectors (lib/Reconnector.v) running inside the Tub, where every
   self._tub._removeReconnector(self) they make really edits the Tub's list (and raises if the entry is gone).

   Events
     TConnectTo      tub.connectTo(furl, cb): creates Reconnector number (length t_rcs)
     TStartService   tub.startService()
     TStopService    tub.stopService()
     TTurn           the eventual queue delivers the oldest queued rc.startConnecting(tub)
     TRc i e         event e (anything but Start) of Reconnector i: a Deferred / watcher / timer of it fires, or
                     the user calls its reset() / stopConnecting()

   `tenabled` = what the API permits: connectTo and startService raise once stopService ran (rebound to
   _tubHasBeenShutDown / _tubsAreNotRestartable); startService at most once; stopService asserts self.running and
   is called at most once; startConnecting is NEVER an event of its own -- whether it is called at most once per
   Reconnector is now a theorem about the translated Tub methods (ReconnectorTubProofs.tub_refines), no longer an
   assumption. *)
From Coq Require Import QArith List Bool Arith.
Import ListNotations.
Require Import Verif.lib.ReconnectorBase Verif.gen.ReconnectorGen Verif.lib.Reconnector.

Inductive tevent := TConnectTo | TStartService | TStopService | TTurn | TRc (i : nat) (e : event).

(* Reconnector i of the Tub; one that has not been created yet is in the state __init__ will leave it in *)
Definition rc_at (t : tub_st) (i : nat) : st := nth i (t_rcs t) init_state.

Definition is_start (e : event) : bool := match e with Start => true | _ => false end.

Definition tenabled (t : tub_st) (e : tevent) : bool :=
  match e with
  | TConnectTo => negb (t_shut t)
  | TStartService => negb (t_running t) && negb (t_shut t)
  | TStopService => t_running t && negb (t_shut t)
  | TTurn => match t_queue t with [] => false | _ :: _ => true end
  | TRc i e => negb (is_start e) && (i <? List.length (t_rcs t))%nat && enabled (rc_at t i) e
  end.

(* the caller of a Tub method / the eventual queue / the reactor: sees (and thereby ends) a propagating exception.
   [t_exc] of the state after an event = "this event raised" *)
Definition clear_exc (t : tub_st) : tub_st :=
  mkTub (t_running t) (t_shut t) (t_list t) (t_queue t) (t_rcs t) (t_cur t) false.
Definition pop_queue (t : tub_st) : tub_st :=
  mkTub (t_running t) (t_shut t) (t_list t) (tl (t_queue t)) (t_rcs t) (hd 0%nat (t_queue t)) (t_exc t).

Definition tstep (t : tub_st) (e : tevent) : tub_st * list tout :=
  let t := clear_exc t in
  match e with
  | TConnectTo => m_tub_connectTo t
  | TStartService => m_tub_startService t
  | TStopService => m_tub_stopService t
  | TTurn => t_call_rc m_tub__removeReconnector m_startConnecting (pop_queue t)
  | TRc i e => t_call_rc m_tub__removeReconnector (fun s => step s e) (t_set_cur i t)
  end.

Fixpoint trun (t : tub_st) (h : list tevent) : tub_st * list tout :=
  match h with
  | [] => (t, [])
  | e :: r => let (t1, o1) := tstep t e in let (t2, o2) := trun t1 r in (t2, o1 ++ o2)
  end.

Fixpoint tpermitted (t : tub_st) (h : list tevent) : Prop :=
  match h with
  | [] => True
  | e :: r => tenabled t e = true /\ tpermitted (fst (tstep t e)) r
  end.

Fixpoint tpermittedb (t : tub_st) (h : list tevent) : bool :=
  match h with
  | [] => true
  | e :: r => tenabled t e && tpermittedb (fst (tstep t e)) r
  end.

(* ---- what a Tub-level event means for the individual Reconnectors: the events of lib/Reconnector.v it makes
   them take, in order.  Hand-written; that the translated Tub methods do exactly this is tub_refines. *)
Definition tevents (t : tub_st) (e : tevent) : list (nat * event) :=
  match e with
  | TConnectTo => if t_running t then [(List.length (t_rcs t), Start)] else []
  | TStartService => []
  | TStopService => match t_list t with Some l => map (fun i => (i, Stop)) l | None => [] end
  | TTurn => match t_queue t with i :: _ => [(i, Start)] | [] => [] end
  | TRc i e => [(i, e)]
  end.

(* what the Reconnectors do to their environment during one Tub-level event (each takes at most one event) *)
Definition touts (t : tub_st) (e : tevent) : list tout :=
  flat_map (fun p => map (pair (fst p)) (snd (step (rc_at t (fst p)) (snd p)))) (tevents t e).
Definition tagged (j : nat) (o : list tout) : list out := map snd (filter (fun p => Nat.eqb (fst p) j) o).

Fixpoint thistory (t : tub_st) (h : list tevent) : list (nat * event) :=
  match h with
  | [] => []
  | e :: r => tevents t e ++ thistory (fst (tstep t e)) r
  end.

(* the events of Reconnector i *)
Definition proj (i : nat) (l : list (nat * event)) : list event :=
  map snd (filter (fun p => Nat.eqb (fst p) i) l).

(* an event that asks a Reconnector to stop which the Tub has already forgotten (second stopConnecting, or
   stopConnecting after Tub.stopService), and a stopService while startConnecting calls are still queued: these are
   the histories on which Tub._removeReconnector raises (ReconnectorTubProofs.ex_tub_polite_no_exception / ex_*_raises) *)
Fixpoint has_stop (u : list uop) : bool :=
  match u with [] => false | UStop :: _ => true | UReset :: r => has_stop r end.
Fixpoint count_stop (u : list uop) : nat :=
  match u with [] => 0 | UStop :: r => S (count_stop r) | UReset :: r => count_stop r end.
Definition forgotten (s : st) : bool := stopped s && tub s.
Definition polite (t : tub_st) (e : tevent) : bool :=
  match e with
  | TRc i Stop => negb (forgotten (rc_at t i))
  | TRc i (AttemptOk u) => if active (rc_at t i) then (count_stop u <=? 1)%nat else true
  | TStopService => match t_queue t with [] => true | _ => false end
  | _ => true
  end.
Fixpoint tpolite (t : tub_st) (h : list tevent) : Prop :=
  match h with
  | [] => True
  | e :: r => polite t e = true /\ tpolite (fst (tstep t e)) r
  end.
Fixpoint raised (t : tub_st) (h : list tevent) : list bool :=
  match h with
  | [] => []
  | e :: r => t_exc (fst (tstep t e)) :: raised (fst (tstep t e)) r
  end.

(* ------------------------------------------------------------------ for the correspondence check *)
Local Open Scope Z_scope.
(* per event: (did it raise + 2*(running and not shut down) + 4*(shut down), self.reconnectors as ids or [-1] if deleted, queue, per Reconnector the flags of
   Reconnector.obs (active, stopped, tub, info, inflight, watching, leaked)) *)
Definition rc_flags (s : st) : Z := match obs s [] with (f, _, _, _) => f end.
Definition tobs (t : tub_st) : Z * list Z * list Z * list Z :=
  (b2z (t_exc t) + 2 * b2z (t_running t && negb (t_shut t)) + 4 * b2z (t_shut t),
   match t_list t with Some l => map Z.of_nat l | None => [-1] end,
   map Z.of_nat (t_queue t),
   map rc_flags (t_rcs t)).
Fixpoint ttrace (t : tub_st) (h : list tevent) : list (Z * list Z * list Z * list Z) :=
  match h with
  | [] => []
  | e :: r => if tenabled t e then let t' := fst (tstep t e) in tobs t' :: ttrace t' r else []
  end.
Definition tobs_eqb (a b : Z * list Z * list Z * list Z) : bool :=
  match a, b with (a1, a2, a3, a4), (b1, b2, b3, b4) =>
    (a1 =? b1) && (if list_eq_dec Z.eq_dec a2 b2 then true else false)
    && (if list_eq_dec Z.eq_dec a3 b3 then true else false) && (if list_eq_dec Z.eq_dec a4 b4 then true else false) end.
Fixpoint tfirst_mismatch (i : Z) (ms ps : list (Z * list Z * list Z * list Z)) {struct ms}
  : Z * option (Z * list Z * list Z * list Z) :=
  match ms, ps with
  | [], [] => (-1, None)
  | m :: mr, p :: pr => if tobs_eqb m p then tfirst_mismatch (i + 1) mr pr else (i, Some m)
  | m :: _, [] => (i, Some m)
  | [], _ :: _ => (i, None)
  end.
