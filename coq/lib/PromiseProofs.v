(* C17: theorems about the Promise model (lib/Promise.v) instantiated with the shape facts
   read from promise.py (src_pcfg), and about the OneShotObserverList model.
   Under the invariant [Inv] every operation of the model is a sequence of the few moves of [step]
   ([prun_steps]); a property of all programs is proved by showing that each move keeps it ([reach_ind]).
   The accounting theorems are in lib/PromiseGlobal.v and lib/PromiseChain.v. *)
From Coq Require Import ZArith List Bool Lia Arith.
Import ListNotations.
Require Import Verif.gen.EventualGen Verif.lib.Promise.
Local Open Scope Z_scope.

Definition good_pcfg : pcfg := {|
  pc_break_assigns := true; pc_break_guard := true; pc_resolve_guarded := true; pc_sets_near := true;
  pc_queue_on := pending_state; pc_wait_on := pending_state; pc_pending_pos := Tail;
  pc_drain_order := Forward; pc_watch_order := Forward; pc_codes_distinct := true |}.

(* THE TIE: constants and shape facts of promise.py are the ones the proofs rely on.  Reverting the
   D10 repair (`self._state == BROKEN` in _break) turns pc_break_assigns into false and this fails. *)
Lemma src_is_good : src_pcfg = good_pcfg.
Proof. reflexivity. Qed.

Definition resolved (pr : promise) (o : outcome) : Prop :=
  ptarget pr = Some o /\ plive pr = false /\ ppending pr = [] /\ pwatch pr = [] /\
  pstate pr = match o with Val _ => SNear | Fail _ => SBroken end.
Definition unresolved (pr : promise) : Prop :=
  pending_state (pstate pr) = true /\ plive pr = true /\ ptarget pr = None.
Definition WFp (pr : promise) : Prop := unresolved pr \/ exists o, resolved pr o.
Definition WF (s : ps) : Prop := forall p pr, tbl s p = Some pr -> (p < next s)%nat /\ WFp pr.
Definition ext (s s' : ps) : Prop :=
  forall p pr o, tbl s p = Some pr -> resolved pr o -> tbl s' p = Some pr.
Definition task_ok (s : ps) (t : task) : Prop :=
  match t with
  | TDeliver p _ => exists pr o, tbl s p = Some pr /\ resolved pr o
  | TCallback p _ o => exists pr, tbl s p = Some pr /\ resolved pr o
  end.
Definition ev_ok (s : ps) (e : pev) : Prop :=
  forall p o, outcome_of p e = Some o -> exists pr, tbl s p = Some pr /\ resolved pr o.
Definition Shape (s : ps) : Prop := WF s /\ Forall (task_ok s) (queue s).
(* a link is a pending call of the promise's _resolve2: one while CHAINED, else none *)
Definition Linked (s : ps) : Prop := forall p, nlinks p s = want_links s p.
Definition Inv (s : ps) : Prop := Shape s /\ Linked s.
Definition Good (s s' : ps) (evs : list pev) : Prop :=
  Shape s' /\ ext s s' /\ Forall (ev_ok s') evs.

Definition done (o : outcome) : promise :=
  {| pstate := match o with Val _ => SNear | Fail _ => SBroken end; ptarget := Some o;
     plive := false; ppending := []; pwatch := [] |}.
Definition chained (pr : promise) : promise :=
  {| pstate := SChained; ptarget := ptarget pr; plive := plive pr; ppending := ppending pr; pwatch := pwatch pr |}.
Definition holding (pr : promise) (m : msg) : promise :=
  {| pstate := pstate pr; ptarget := ptarget pr; plive := true; ppending := ppending pr ++ [m]; pwatch := pwatch pr |}.
Definition watched (pr : promise) (w : watcher) : promise :=
  {| pstate := pstate pr; ptarget := ptarget pr; plive := true; ppending := ppending pr; pwatch := pwatch pr ++ [w] |}.
Definition popped (s : ps) (q : list task) : ps :=
  {| tbl := tbl s; next := next s; queue := q; defs := defs s |}.

Lemma unres_not_res pr o : unresolved pr -> resolved pr o -> False.
Proof. intros (_ & A & _) (_ & B & _). congruence. Qed.
Lemma resolved_fun pr o1 o2 : resolved pr o1 -> resolved pr o2 -> o1 = o2.
Proof. intros (A & _) (B & _). congruence. Qed.
Lemma resolved_done o : resolved (done o) o.
Proof. repeat split. Qed.
Lemma unresolved_chained pr : unresolved pr -> unresolved (chained pr).
Proof. intros (_ & A & B). repeat split; assumption. Qed.
Lemma unresolved_holding pr m : unresolved pr -> unresolved (holding pr m).
Proof. intros (A & _ & B). repeat split; assumption. Qed.
Lemma unresolved_watched pr w : unresolved pr -> unresolved (watched pr w).
Proof. intros (A & _ & B). repeat split; assumption. Qed.

(* a promise that is not in a pending state is resolved, with its target *)
Lemma wf_resolved pr : WFp pr -> pending_state (pstate pr) = false -> exists o, resolved pr o.
Proof. intros [(A & _)|H] Hp; [congruence|exact H]. Qed.
Lemma wf_unresolved pr : WFp pr -> pending_state (pstate pr) = true -> unresolved pr.
Proof.
  intros [H|(o & _ & _ & _ & _ & A)] Hp; [exact H|]. rewrite A in Hp. destruct o; discriminate.
Qed.
Lemma wf_fresh s : WF s -> tbl s (next s) = None.
Proof. intros W. destruct (tbl s (next s)) as [pr|] eqn:E; [|reflexivity]. destruct (W _ _ E) as [Hl _]. lia. Qed.

Lemma task_ok_ext s s' t : ext s s' -> task_ok s t -> task_ok s' t.
Proof.
  intros E. destruct t as [p m|p wt o]; cbn [task_ok].
  - intros (pr & o & A & B). exists pr, o. split; [eapply E; eauto|exact B].
  - intros (pr & A & B). exists pr. split; [eapply E; eauto|exact B].
Qed.

Lemma ev_ok_ext s s' e : ext s s' -> ev_ok s e -> ev_ok s' e.
Proof. intros E H p o Ho. destruct (H p o Ho) as (pr & A & B). exists pr. split; [eapply E; eauto|exact B]. Qed.

Lemma ext_refl s : ext s s.
Proof. intros p pr o A _. exact A. Qed.
Lemma ext_trans s1 s2 s3 : ext s1 s2 -> ext s2 s3 -> ext s1 s3.
Proof. intros A B p pr o H R. eapply B; [eapply A; eauto|exact R]. Qed.

Lemma good_refl s : Shape s -> Good s s [].
Proof. intros I. split; [exact I|]. split; [apply ext_refl|constructor]. Qed.

Lemma good_trans s s1 s2 e1 e2 : Good s s1 e1 -> Good s1 s2 e2 -> Good s s2 (e1 ++ e2).
Proof.
  intros (I1 & X1 & V1) (I2 & X2 & V2). split; [exact I2|]. split; [eapply ext_trans; eauto|].
  apply Forall_app. split; [|exact V2]. eapply Forall_impl; [|exact V1]. intros e. apply ev_ok_ext. exact X2.
Qed.

Lemma ev_ok_resolved s p pr o e :
  tbl s p = Some pr -> resolved pr o -> (forall q, outcome_of q e = if Nat.eqb p q then Some o else None) -> ev_ok s e.
Proof.
  intros Hp R He q o' Ho. rewrite He in Ho. destruct (Nat.eqb_spec p q) as [<-|]; [|discriminate].
  injection Ho as <-. eauto.
Qed.

Lemma good_quiet s s' e : Good s s' [] -> (forall x, In x e -> forall p, outcome_of p x = None) -> Good s s' e.
Proof.
  intros (A & B & _) H. split; [exact A|]. split; [exact B|]. apply Forall_forall. intros x Hx p o Ho.
  rewrite (H x Hx) in Ho. discriminate.
Qed.

Lemma upd_same t p pr : upd t p pr p = Some pr.
Proof. unfold upd. rewrite Nat.eqb_refl. reflexivity. Qed.
Lemma upd_other t p pr i : i <> p -> upd t p pr i = t i.
Proof. intros H. unfold upd. destruct (Nat.eqb_spec i p); [contradiction|reflexivity]. Qed.

Lemma setp_good s p pr0 pr' :
  Shape s -> tbl s p = Some pr0 -> unresolved pr0 -> WFp pr' -> Good s (setp s p pr') [].
Proof.
  intros [W Q] H0 Hu Wp.
  assert (X : ext s (setp s p pr')).
  { intros i pr o A R. cbn [setp tbl]. destruct (Nat.eq_dec i p) as [->|Hn].
    - rewrite H0 in A. injection A as <-. exfalso. eapply unres_not_res; eauto.
    - rewrite upd_other by exact Hn. exact A. }
  split; [|split; [exact X|constructor]].
  split.
  - intros i pr A. cbn [setp tbl next] in *. destruct (Nat.eq_dec i p) as [->|Hn].
    + rewrite upd_same in A. injection A as <-. split; [apply (W p pr0 H0)|exact Wp].
    + rewrite upd_other in A by exact Hn. apply W. exact A.
  - cbn [setp queue]. eapply Forall_impl; [|exact Q]. intros t. apply task_ok_ext. exact X.
Qed.

Lemma enq_good s ts : Shape s -> Forall (task_ok s) ts -> Good s (enq s ts) [].
Proof.
  intros [W Q] H. split; [|split; [intros p pr o A _; exact A|constructor]].
  split; [exact W|]. cbn [enq queue]. apply Forall_app. split; assumption.
Qed.

Lemma popped_good s t q : Shape s -> queue s = t :: q -> Good s (popped s q) [].
Proof.
  intros [W Q] E. rewrite E in Q. split; [|split; [intros p pr o A _; exact A|constructor]].
  split; [exact W|]. inversion Q; assumption.
Qed.

Lemma alloc_good s : Shape s -> Good s (fst (alloc s)) [].
Proof.
  intros [W Q].
  assert (X : ext s (fst (alloc s))).
  { intros i pr o A R. cbn [alloc fst tbl]. destruct (Nat.eq_dec i (next s)) as [->|Hn].
    - rewrite (wf_fresh _ W) in A. discriminate.
    - rewrite upd_other by exact Hn. exact A. }
  split; [|split; [exact X|constructor]]. split.
  - intros i pr A. cbn [alloc fst tbl next] in *. destruct (Nat.eq_dec i (next s)) as [->|Hn].
    + rewrite upd_same in A. injection A as <-. split; [lia|]. left. repeat split.
    + rewrite upd_other in A by exact Hn. destruct (W _ _ A). split; [lia|assumption].
  - cbn [alloc fst queue]. eapply Forall_impl; [|exact Q]. intros t. apply task_ok_ext. exact X.
Qed.

Lemma resolving_good s p pr o :
  Shape s -> tbl s p = Some pr -> unresolved pr ->
  Good s (enq (setp s p (done o)) (drain_tasks good_pcfg p pr o)) [].
Proof.
  intros I Hp Hu.
  assert (G1 : Good s (setp s p (done o)) []).
  { eapply setp_good; eauto. right. exists o. apply resolved_done. }
  apply (good_trans _ _ _ [] [] G1). apply enq_good; [apply G1|].
  apply Forall_app. split; apply Forall_forall; intros t Ht;
    apply in_map_iff in Ht as (x & <- & _); cbn [task_ok setp tbl]; rewrite upd_same;
    eauto using resolved_done.
Qed.

Local Open Scope nat_scope.

Lemma cnt_app p a b : cnt p (a ++ b) = cnt p a + cnt p b.
Proof. induction a as [|w a IH]; [reflexivity|]. destruct w; cbn [app cnt]; rewrite IH; lia. Qed.
Lemma cnt_q_app p a b : cnt_q p (a ++ b) = cnt_q p a + cnt_q p b.
Proof.
  induction a as [|t a IH]; [reflexivity|]. destruct t as [p0 m|p0 [w|p'] o]; cbn [app cnt_q]; rewrite IH; lia.
Qed.
Lemma cnt_q_drain x p pr o : cnt_q x (drain_tasks good_pcfg p pr o) = cnt x (pwatch pr).
Proof.
  unfold drain_tasks. cbn [good_pcfg pc_drain_order pc_watch_order ord]. rewrite cnt_q_app.
  induction (ppending pr) as [|m l IH]; [|exact IH]. cbn [map cnt_q plus].
  induction (pwatch pr) as [|w l IH]; [reflexivity|]. destruct w; cbn [map cnt_q cnt]; rewrite IH; reflexivity.
Qed.

Lemma cnt_tbl_upd_out p t q pr' n : n <= q -> cnt_tbl p (upd t q pr') n = cnt_tbl p t n.
Proof.
  induction n as [|n IH]; [reflexivity|]. intros H. cbn [cnt_tbl]. rewrite IH by lia.
  rewrite upd_other by lia. reflexivity.
Qed.
Lemma cnt_tbl_upd p t q pr' n :
  q < n -> cnt_tbl p (upd t q pr') n + cnt p (watch_of (t q)) = cnt_tbl p t n + cnt p (pwatch pr').
Proof.
  induction n as [|n IH]; [lia|]. intros H. cbn [cnt_tbl]. destruct (Nat.eq_dec q n) as [->|Hn].
  - rewrite cnt_tbl_upd_out by lia. rewrite upd_same. cbn [watch_of]. lia.
  - rewrite upd_other by lia. assert (Hq : q < n) by lia. specialize (IH Hq). lia.
Qed.

Lemma nlinks_setp p s q pr0 pr' :
  tbl s q = Some pr0 -> q < next s ->
  nlinks p (setp s q pr') + cnt p (pwatch pr0) = nlinks p s + cnt p (pwatch pr').
Proof.
  intros H Hl. unfold nlinks. cbn [setp tbl next queue].
  pose proof (cnt_tbl_upd p (tbl s) q pr' (next s) Hl) as E. rewrite H in E. cbn [watch_of] in E. lia.
Qed.
Lemma nlinks_enq p s ts : nlinks p (enq s ts) = nlinks p s + cnt_q p ts.
Proof. unfold nlinks. cbn [enq tbl next queue]. rewrite cnt_q_app. lia. Qed.
Lemma nlinks_popped p s t q : queue s = t :: q -> nlinks p s = cnt_q p [t] + nlinks p (popped s q).
Proof. intros E. unfold nlinks. rewrite E. cbn [popped tbl next queue]. change (t :: q) with ([t] ++ q). rewrite cnt_q_app. lia. Qed.
Lemma nlinks_alloc p s : nlinks p (fst (alloc s)) = nlinks p s.
Proof.
  unfold nlinks. cbn [alloc fst tbl next queue cnt_tbl]. rewrite cnt_tbl_upd_out by lia. rewrite upd_same.
  cbn [watch_of fresh pwatch cnt]. lia.
Qed.
Lemma nlinks_resolving x s p pr o :
  tbl s p = Some pr -> p < next s -> nlinks x (enq (setp s p (done o)) (drain_tasks good_pcfg p pr o)) = nlinks x s.
Proof.
  intros Hp Hl. rewrite nlinks_enq, cnt_q_drain. pose proof (nlinks_setp x s p pr (done o) Hp Hl) as E.
  cbn [done pwatch cnt] in E. lia.
Qed.

Lemma want_links_setp s q pr' p :
  want_links (setp s q pr') p = if Nat.eqb p q then (if is_chained (pstate pr') then 1 else 0) else want_links s p.
Proof. unfold want_links, setp, upd. cbn [tbl]. destruct (Nat.eqb p q); reflexivity. Qed.
Lemma done_not_chained o : is_chained (pstate (done o)) = false.
Proof. destruct o; reflexivity. Qed.
Lemma want_links_at s p pr : tbl s p = Some pr -> want_links s p = if is_chained (pstate pr) then 1 else 0.
Proof. intros H. unfold want_links. rewrite H. reflexivity. Qed.

Lemma want_links_setp_keep s q pr0 pr' p :
  tbl s q = Some pr0 -> pstate pr' = pstate pr0 -> want_links (setp s q pr') p = want_links s p.
Proof.
  intros H E. rewrite want_links_setp. destruct (Nat.eqb_spec p q) as [->|]; [|reflexivity].
  rewrite E. symmetry. apply want_links_at. exact H.
Qed.

Lemma linked_setp_keep s q pr0 pr' :
  tbl s q = Some pr0 -> q < next s -> pstate pr' = pstate pr0 -> (forall p, cnt p (pwatch pr') = cnt p (pwatch pr0)) ->
  Linked s -> Linked (setp s q pr').
Proof.
  intros H Hl Hs Hc L p. pose proof (nlinks_setp p s q pr0 pr' H Hl) as E. rewrite Hc in E.
  rewrite (want_links_setp_keep _ _ _ _ _ H Hs), <- L. lia.
Qed.
Local Close Scope nat_scope.

Inductive step (s : ps) : list pev -> ps -> Prop :=
| st_alloc : step s [] (fst (alloc s))
| st_def m d : step s [] (set_def s m d)
| st_refuse p top : step s [ERefused p top] s
| st_hold p pr m (Hp : tbl s p = Some pr) (Hu : unresolved pr) :
    step s [ESent p (mid m)] (setp s p (holding pr m))
| st_post p pr o m (Hp : tbl s p = Some pr) (R : resolved pr o) :
    step s [ESent p (mid m)] (enq s [TDeliver p m])
| st_watch p pr w (Hp : tbl s p = Some pr) (Hu : unresolved pr) :
    step s [EWhen p w] (setp s p (watched pr (W w)))
| st_told p pr o w (Hp : tbl s p = Some pr) (R : resolved pr o) :
    step s [EWhen p w; EObserved p w o] s
| st_resolve p pr o (Hp : tbl s p = Some pr) (Hu : unresolved pr) (Hs : pstate pr = SEventual) :
    step s [] (enq (setp s p (done o)) (drain_tasks good_pcfg p pr o))
| st_chain p pr q qr (Hp : tbl s p = Some pr) (Hu : unresolved pr) (Hs : pstate pr = SEventual)
    (Hq : tbl (setp s p (chained pr)) q = Some qr) (Hqu : unresolved qr) :
    step s [EChained p q] (setp (setp s p (chained pr)) q (watched qr (Chain p)))
| st_chain_now p pr q qr o (Hp : tbl s p = Some pr) (Hu : unresolved pr) (Hs : pstate pr = SEventual)
    (Hq : tbl s q = Some qr) (R : resolved qr o) :
    step s [EChained p q] (enq (setp (setp s p (chained pr)) p (done o)) (drain_tasks good_pcfg p (chained pr) o))
| st_deliver p m q pr o e (Eq : queue s = TDeliver p m :: q) (Hp : tbl s p = Some pr) (R : resolved pr o)
    (He : e = EDelivered p (mid m) o \/ e = EDeliveredNM p (mid m) o) :
    step s [e] (popped s q)
| st_callback p w o q pr (Eq : queue s = TCallback p (W w) o :: q) (Hp : tbl s p = Some pr) (R : resolved pr o) :
    step s [EObserved p w o] (popped s q)
| st_link r p o q pr (Eq : queue s = TCallback r (Chain p) o :: q) (Hp : tbl s p = Some pr) (Hu : unresolved pr)
    (Hs : pstate pr = SChained) :
    step s [] (enq (setp (popped s q) p (done o)) (drain_tasks good_pcfg p pr o)).

Inductive steps (s : ps) : list pev -> ps -> Prop :=
| steps_nil : steps s [] s
| steps_cons e s1 e' s2 : step s e s1 -> steps s1 e' s2 -> steps s (e ++ e') s2.

Lemma steps_one s e s' : step s e s' -> steps s e s'.
Proof. intros H. rewrite <- (app_nil_r e). eapply steps_cons; [exact H|apply steps_nil]. Qed.

Lemma steps_app s e1 s1 e2 s2 : steps s e1 s1 -> steps s1 e2 s2 -> steps s (e1 ++ e2) s2.
Proof.
  intros A B. induction A as [|s e s1 e' s1' H A IH]; [exact B|].
  rewrite <- app_assoc. eapply steps_cons; [exact H|apply IH; exact B].
Qed.

Lemma step_good s e s' : Shape s -> step s e s' -> Good s s' e.
Proof.
  intros I H. pose proof I as [W Q].
  destruct H.
  - apply alloc_good; exact I.
  - split; [exact I|]. split; [intros p pr o A _; exact A|constructor].
  - apply good_quiet; [apply good_refl; exact I|]. intros x [<-|[]] q; reflexivity.
  - apply good_quiet; [|intros x [<-|[]] q; reflexivity].
    eapply setp_good; eauto. left. apply unresolved_holding. exact Hu.
  - apply good_quiet; [|intros x [<-|[]] q; reflexivity].
    apply enq_good; [exact I|]. constructor; [|constructor]. cbn [task_ok]. eauto.
  - apply good_quiet; [|intros x [<-|[]] q; reflexivity].
    eapply setp_good; eauto. left. apply unresolved_watched. exact Hu.
  - split; [exact I|]. split; [apply ext_refl|]. constructor; [intros q o' Ho; discriminate|].
    constructor; [|constructor]. apply (ev_ok_resolved s p pr o _ Hp R). reflexivity.
  - apply resolving_good; assumption.
  - apply good_quiet; [|intros x [<-|[]] r; reflexivity].
    assert (G1 : Good s (setp s p (chained pr)) []).
    { eapply setp_good; eauto. left. apply unresolved_chained. exact Hu. }
    apply (good_trans _ _ _ [] [] G1). eapply setp_good; [apply G1|exact Hq|exact Hqu|].
    left. apply unresolved_watched. exact Hqu.
  - apply good_quiet; [|intros x [<-|[]] r; reflexivity].
    assert (G1 : Good s (setp s p (chained pr)) []).
    { eapply setp_good; eauto. left. apply unresolved_chained. exact Hu. }
    apply (good_trans _ _ _ [] [] G1). apply resolving_good; [apply G1|apply upd_same|apply unresolved_chained; exact Hu].
  - destruct (popped_good _ _ _ I Eq) as (A & B & _). split; [exact A|]. split; [exact B|].
    constructor; [|constructor]. apply (ev_ok_resolved s p pr o _ Hp R). destruct He as [-> | ->]; reflexivity.
  - destruct (popped_good _ _ _ I Eq) as (A & B & _). split; [exact A|]. split; [exact B|].
    constructor; [|constructor]. apply (ev_ok_resolved s p pr o _ Hp R). reflexivity.
  - pose proof (popped_good _ _ _ I Eq) as G1.
    apply (good_trans _ _ _ [] [] G1). apply resolving_good; [apply G1|exact Hp|exact Hu].
Qed.

Lemma step_linked s e s' : Shape s -> Linked s -> step s e s' -> Linked s'.
Proof.
  intros [W _] L H x.
  assert (Lt : forall p pr, tbl s p = Some pr -> (p < next s)%nat) by (intros p pr Hp; apply (W p pr Hp)).
  destruct H; try exact (L x).
  - rewrite nlinks_alloc, L. unfold want_links, alloc, upd. cbn [fst tbl].
    destruct (Nat.eqb_spec x (next s)) as [->|]; [|reflexivity]. rewrite (wf_fresh _ W). reflexivity.
  - eapply linked_setp_keep; eauto.
  - rewrite nlinks_enq, L. cbn [cnt_q]. apply Nat.add_0_r.
  - eapply linked_setp_keep; eauto. intros y. cbn [watched pwatch]. rewrite cnt_app. cbn [cnt]. lia.
  - rewrite nlinks_resolving by eauto. change (nlinks x s = want_links (setp s p (done o)) x).
    rewrite want_links_setp, done_not_chained, L. destruct (Nat.eqb_spec x p) as [->|]; [|reflexivity].
    rewrite (want_links_at _ _ _ Hp), Hs. reflexivity.
  - (* p becomes CHAINED and gets its one link *)
    pose proof (nlinks_setp x s p pr (chained pr) Hp (Lt _ _ Hp)) as E1. cbn [chained pwatch] in E1.
    assert (Hql : (q < next s)%nat).
    { cbn [setp tbl] in Hq. unfold upd in Hq. destruct (Nat.eqb_spec q p) as [->|]; eauto. }
    pose proof (nlinks_setp x _ q qr (watched qr (Chain p)) Hq Hql) as E2.
    cbn [watched pwatch] in E2. rewrite cnt_app in E2. cbn [cnt] in E2.
    rewrite (want_links_setp_keep _ _ _ (watched qr (Chain p)) _ Hq eq_refl), want_links_setp, (Nat.eqb_sym x p). cbn [chained pstate is_chained].
    pose proof (L x) as Lx. pose proof (want_links_at _ _ _ Hp) as Ep. rewrite Hs in Ep. cbn [is_chained] in Ep.
    destruct (Nat.eqb_spec p x) as [<-|]; lia.
  - pose proof (nlinks_setp x s p pr (chained pr) Hp (Lt _ _ Hp)) as E1.
    rewrite nlinks_resolving; [|apply upd_same|exact (Lt _ _ Hp)].
    change (nlinks x (setp s p (chained pr)) = want_links (setp (setp s p (chained pr)) p (done o)) x).
    rewrite !want_links_setp, done_not_chained. pose proof (L x) as Lx. pose proof (want_links_at _ _ _ Hp) as Ep.
    rewrite Hs in Ep. cbn [is_chained] in Ep. destruct (Nat.eqb_spec x p) as [->|]; cbn [chained pwatch] in E1; lia.
  - pose proof (L x) as Lx. rewrite (nlinks_popped x s _ _ Eq) in Lx. exact Lx.
  - pose proof (L x) as Lx. rewrite (nlinks_popped x s _ _ Eq) in Lx. exact Lx.
  - (* the link that fires was the one link of p *)
    rewrite nlinks_resolving; [|exact Hp|exact (Lt _ _ Hp)].
    change (nlinks x (popped s q) = want_links (setp s p (done o)) x).
    pose proof (L x) as Lx. rewrite (nlinks_popped x s _ _ Eq) in Lx. cbn [cnt_q] in Lx.
    pose proof (want_links_at _ _ _ Hp) as Ep. rewrite Hs in Ep. cbn [is_chained] in Ep.
    rewrite want_links_setp, done_not_chained, (Nat.eqb_sym x p). destruct (Nat.eqb_spec p x) as [<-|]; lia.
Qed.

Lemma step_inv s e s' : Inv s -> step s e s' -> Inv s'.
Proof. intros [I L] H. split; [apply (step_good _ _ _ I H)|exact (step_linked _ _ _ I L H)]. Qed.

Lemma steps_good s e s' : Inv s -> steps s e s' -> Inv s' /\ Good s s' e.
Proof.
  intros I H. induction H as [|s e s1 e' s2 H _ IH].
  - split; [exact I|apply good_refl; apply I].
  - destruct (IH (step_inv _ _ _ I H)) as [I2 G2]. split; [exact I2|].
    eapply good_trans; [apply step_good; [apply I|exact H]|exact G2].
Qed.

Lemma steps_ind_inv (P : ps -> list pev -> Prop) :
  (forall s log e s', Inv s -> P s log -> step s e s' -> P s' (log ++ e)) ->
  forall s e s', steps s e s' -> Inv s -> forall log, P s log -> P s' (log ++ e).
Proof.
  intros HP s e s' H. induction H as [|s e s1 e' s2 H _ IH]; intros I log Hl.
  - rewrite app_nil_r. exact Hl.
  - rewrite app_assoc. apply IH; [exact (step_inv _ _ _ I H)|]. eapply HP; eauto.
Qed.

Lemma resolve2_unresolved top s p pr o :
  tbl s p = Some pr -> unresolved pr ->
  resolve2 good_pcfg top s p o = (enq (setp s p (done o)) (drain_tasks good_pcfg p pr o), []).
Proof.
  intros Hp (Hs & Hl & _). unfold resolve2. rewrite Hp, Hl.
  destruct (pstate pr); try discriminate Hs; destruct o; reflexivity.
Qed.

Lemma chain_to_unresolved top s p q qr :
  tbl s q = Some qr -> unresolved qr -> chain_to good_pcfg top s p q = (setp s q (watched qr (Chain p)), []).
Proof. intros Hq (Hs & Hl & _). unfold chain_to. rewrite Hq. cbn [good_pcfg pc_wait_on]. rewrite Hs, Hl. reflexivity. Qed.

Lemma chain_to_resolved top s p q qr o :
  tbl s q = Some qr -> resolved qr o -> chain_to good_pcfg top s p q = resolve2 good_pcfg top s p o.
Proof.
  intros Hq (Ht & _ & _ & _ & Hs). unfold chain_to. rewrite Hq, Ht. cbn [good_pcfg pc_wait_on]. rewrite Hs.
  destruct o; reflexivity.
Qed.

Lemma resolve_call_eventual top s p pr x s' e :
  Inv s -> tbl s p = Some pr -> pstate pr = SEventual -> resolve_call good_pcfg top s p x = (s', e) ->
  (exists q, x = RProm q /\ tbl s q = None /\ s' = s /\ e = []) \/
  (step s e s' /\ exists pr', tbl s' p = Some pr' /\ pstate pr' <> SEventual).
Proof.
  intros [[W _] _] Hp Hs. unfold resolve_call. rewrite Hp, Hs. cbn [good_pcfg pc_resolve_guarded andb is_eventual negb].
  assert (Hu : unresolved pr) by (apply wf_unresolved; [apply (W _ _ Hp)|rewrite Hs; reflexivity]).
  destruct x as [v|f|q]; try (rewrite (resolve2_unresolved _ _ _ _ _ Hp Hu); intros [= <- <-]; right;
    split; [apply st_resolve; assumption|]; eexists; split; [apply upd_same|discriminate]).
  destruct (tbl s q) as [qr|] eqn:Hq; [|intros [= <- <-]; left; exists q; auto].
  change {| pstate := SChained; ptarget := ptarget pr; plive := plive pr; ppending := ppending pr; pwatch := pwatch pr |}
    with (chained pr).
  pose proof (unresolved_chained _ Hu) as Hu1. pose proof (upd_same (tbl s) p (chained pr)) as Hp1.
  destruct (Nat.eq_dec q p) as [->|Hn].
  - rewrite (chain_to_unresolved _ (setp s p (chained pr)) _ _ _ Hp1 Hu1). intros [= <- <-]. right.
    split; [eapply st_chain; eassumption|]. eexists. split; [apply upd_same|discriminate].
  - assert (Hq1 : tbl (setp s p (chained pr)) q = Some qr) by (cbn [setp tbl]; rewrite upd_other; assumption).
    destruct (pending_state (pstate qr)) eqn:Hqs.
    + pose proof (wf_unresolved _ (proj2 (W _ _ Hq)) Hqs) as Hqu. rewrite (chain_to_unresolved _ _ _ _ _ Hq1 Hqu).
      intros [= <- <-]. right. split; [eapply st_chain; eassumption|]. exists (chained pr).
      split; [cbn [setp tbl]; rewrite upd_other by auto; exact Hp1|discriminate].
    + destruct (wf_resolved _ (proj2 (W _ _ Hq)) Hqs) as (o & R).
      rewrite (chain_to_resolved _ _ _ _ _ o Hq1 R), (resolve2_unresolved _ (setp s p (chained pr)) _ _ o Hp1 Hu1).
      intros [= <- <-]. right. split; [eapply st_chain_now; eassumption|]. exists (done o).
      split; [apply upd_same|destruct o; discriminate].
Qed.

Lemma resolve_call_refused top s p pr x :
  tbl s p = Some pr -> pstate pr <> SEventual -> resolve_call good_pcfg top s p x = (s, [ERefused p top]).
Proof.
  intros Hp Hs. unfold resolve_call. rewrite Hp.
  cbn [good_pcfg pc_resolve_guarded andb]. destruct (pstate pr); try contradiction; reflexivity.
Qed.

Lemma resolve_call_steps top s p x s' e :
  Inv s -> resolve_call good_pcfg top s p x = (s', e) -> steps s e s'.
Proof.
  intros I H. destruct (tbl s p) as [pr|] eqn:Hp.
  2:{ revert H. unfold resolve_call. rewrite Hp. intros [= <- <-]. apply steps_nil. }
  assert (D : pstate pr = SEventual \/ pstate pr <> SEventual) by (destruct (pstate pr); auto; right; discriminate).
  destruct D as [Hs|Hs].
  - destruct (resolve_call_eventual _ _ _ _ _ _ _ I Hp Hs H) as [(q & _ & _ & -> & ->)|[S _]];
      [apply steps_nil|apply steps_one, S].
  - rewrite (resolve_call_refused _ _ _ _ _ Hp Hs) in H. injection H as <- <-. apply steps_one, st_refuse.
Qed.

Lemma resolver_opt_steps s r x s' e : Inv s -> resolver_opt good_pcfg s r x = (s', e) -> steps s e s'.
Proof.
  intros I. unfold resolver_opt, resolver. destruct x as [x|]; [destruct r as [r|]|];
    try (intros [= <- <-]; apply steps_nil). apply resolve_call_steps. exact I.
Qed.

Lemma alloc_tbl s p : (p < next s)%nat -> tbl (fst (alloc s)) p = tbl s p.
Proof. intros H. cbn [alloc fst tbl]. apply upd_other. lia. Qed.

Lemma send_op_eq s p pr m b (wr : bool) :
  tbl s p = Some pr ->
  let s1 := if wr then fst (alloc s) else s in
  let mm := {| mid := m; mbeh := b; mres := if wr then Some (next s) else None |} in
  send_op good_pcfg s p m b wr =
  if pending_state (pstate pr)
  then if plive pr then (setp s1 p (holding pr mm), [ESent p m]) else (s1, [ECrash p true])
  else (enq s1 [TDeliver p mm], [ESent p m]).
Proof. intros Hp. unfold send_op. rewrite Hp. destruct wr; reflexivity. Qed.

Lemma send_op_steps s p m b wr s' e : Inv s -> send_op good_pcfg s p m b wr = (s', e) -> steps s e s'.
Proof.
  intros [[W _] _] H. destruct (tbl s p) as [pr|] eqn:Hp.
  2:{ revert H. unfold send_op. rewrite Hp. intros [= <- <-]. apply steps_nil. }
  destruct (W _ _ Hp) as [Hl Wp]. rewrite (send_op_eq _ _ _ _ _ _ Hp) in H.
  set (s1 := if wr then fst (alloc s) else s) in H. set (mm := {| mid := m; mbeh := b; mres := _ |}) in H.
  assert (S1 : steps s [] s1) by (destruct wr; [apply steps_one, st_alloc|apply steps_nil]).
  assert (Hp1 : tbl s1 p = Some pr) by (destruct wr; [rewrite <- Hp; apply alloc_tbl; exact Hl|exact Hp]).
  destruct (pending_state (pstate pr)) eqn:Hs.
  - pose proof (wf_unresolved _ Wp Hs) as Hu. pose proof Hu as (_ & Hlv & _). rewrite Hlv in H. injection H as <- <-.
    apply (steps_app _ [] s1 _ _ S1), steps_one. apply (st_hold s1 p pr mm Hp1 Hu).
  - destruct (wf_resolved _ Wp Hs) as (o & R). injection H as <- <-.
    apply (steps_app _ [] s1 _ _ S1), steps_one. apply (st_post s1 p pr o mm Hp1 R).
Qed.

Lemma when_op_steps s p w s' e : Inv s -> when_op good_pcfg s p w = (s', e) -> steps s e s'.
Proof.
  intros [[W _] _]. unfold when_op. destruct (tbl s p) as [pr|] eqn:Hp; [|intros [= <- <-]; apply steps_nil].
  destruct (W _ _ Hp) as [_ Wp]. cbn [good_pcfg pc_wait_on]. destruct (pending_state (pstate pr)) eqn:Hs.
  - pose proof (wf_unresolved _ Wp Hs) as Hu. pose proof Hu as (_ & -> & _). intros [= <- <-].
    eapply steps_one, st_watch; eassumption.
  - destruct (wf_resolved _ Wp Hs) as (o & R). pose proof R as (-> & _). intros [= <- <-].
    eapply steps_one, st_told; eassumption.
Qed.

Lemma meth_send_steps s m s' e : Inv s -> meth_send good_pcfg s m = (s', e) -> steps s e s'.
Proof.
  intros I. unfold meth_send. destruct (mbeh m); try (intros [= <- <-]; apply steps_nil).
  apply send_op_steps. exact I.
Qed.

Lemma meth_result_steps nx s m s' x : meth_result nx s m = (s', x) -> steps s [] s'.
Proof.
  unfold meth_result. destruct (mbeh m); try (intros H; injection H as <- _; apply steps_nil).
  destruct (dget (defs s) (mid m)) as [[r|x0|]|]; intros H; injection H as <- _;
    first [apply steps_nil | apply steps_one, st_def].
Qed.

(* a link that fires finds its promise CHAINED, since that promise has a link ([Linked]) *)
Lemma run_one_steps s s' e : Inv s -> run_one good_pcfg s = (s', e) -> steps s e s'.
Proof.
  intros I. pose proof I as [[W Q] L]. unfold run_one. destruct (queue s) as [|t q] eqn:Eq; [intros [= <- <-]; apply steps_nil|].
  change {| tbl := tbl s; next := next s; queue := q; defs := defs s |} with (popped s q).
  apply Forall_inv in Q. destruct t as [p m|p [w|p'] o]; cbn [run_task].
  - destruct Q as (pr & o & Hp & R). change (tbl (popped s q) p) with (tbl s p). rewrite Hp. pose proof R as (-> & _).
    assert (S0 : forall e0, e0 = EDelivered p (mid m) o \/ e0 = EDeliveredNM p (mid m) o -> steps s [e0] (popped s q))
      by (intros e0 He; eapply steps_one, st_deliver; eassumption).
    assert (I0 : forall e0, steps s [e0] (popped s q) -> Inv (popped s q)) by (intros e0 H0; apply (steps_good _ _ _ I H0)).
    destruct o as [v|f].
    + assert (Sd : steps s [dev p m (Val v)] (popped s q))
        by (apply S0; unfold dev; destruct (invocable (mbeh m)); auto).
      destruct (meth_send good_pcfg (popped s q) m) as [s1 e1] eqn:E1.
      destruct (meth_result _ s1 m) as [s2 x] eqn:E2.
      destruct (resolver_opt good_pcfg s2 (mres m) x) as [s3 e3] eqn:E3. intros [= <- <-].
      apply meth_send_steps in E1; [|exact (I0 _ Sd)]. apply meth_result_steps in E2.
      pose proof (steps_app _ _ _ _ _ (steps_app _ _ _ _ _ Sd E1) E2) as S2. rewrite app_nil_r in S2.
      apply resolver_opt_steps in E3; [|apply (steps_good _ _ _ I S2)].
      exact (steps_app _ _ _ _ _ S2 E3).
    + assert (Sd : steps s [EDelivered p (mid m) (Fail f)] (popped s q)) by (apply S0; auto).
      destruct (resolver good_pcfg (popped s q) (mres m) (RFail f)) as [s1 e1] eqn:E1. intros [= <- <-].
      apply (resolver_opt_steps _ _ (Some (RFail f))) in E1; [|exact (I0 _ Sd)].
      exact (steps_app _ _ _ _ _ Sd E1).
  - destruct Q as (pr & Hp & R). intros [= <- <-]. eapply steps_one, st_callback; eassumption.
  - assert (Hc : exists pr, tbl s p' = Some pr /\ pstate pr = SChained).
    { pose proof (L p') as Lp. rewrite (nlinks_popped _ _ _ _ Eq) in Lp. cbn [cnt_q] in Lp. rewrite Nat.eqb_refl in Lp.
      unfold want_links in Lp. destruct (tbl s p') as [pr|]; [|discriminate]. exists pr. split; [reflexivity|].
      destruct (pstate pr); try discriminate; reflexivity. }
    destruct Hc as (pr & Hp & Hs).
    assert (Hu : unresolved pr) by (apply wf_unresolved; [apply (W _ _ Hp)|rewrite Hs; reflexivity]).
    rewrite (resolve2_unresolved _ (popped s q) _ _ _ Hp Hu). intros [= <- <-]. eapply steps_one, st_link; eassumption.
Qed.

Lemma run_n_steps n : forall s s' e, Inv s -> run_n good_pcfg n s = (s', e) -> steps s e s'.
Proof.
  induction n as [|n IH]; intros s s' e I; cbn [run_n]; [intros [= <- <-]; apply steps_nil|].
  destruct (run_one good_pcfg s) as [s1 t1] eqn:E1. destruct (run_n good_pcfg n s1) as [s2 t2] eqn:E2.
  intros [= <- <-]. apply run_one_steps in E1; [|exact I].
  apply IH in E2; [|apply (steps_good _ _ _ I E1)]. exact (steps_app _ _ _ _ _ E1 E2).
Qed.

Lemma fire_def_steps s m x s' e : Inv s -> fire_def good_pcfg s m x = (s', e) -> steps s e s'.
Proof.
  intros I. unfold fire_def.
  match goal with |- (if ?c then _ else _) = _ -> _ => destruct c end; [intros [= <- <-]; apply steps_nil|].
  destruct (dget (defs s) m) as [[r|x0|]|]; try (intros [= <- <-]; apply steps_nil).
  - intros H. pose proof (steps_one _ _ _ (st_def s m DDone)) as S1.
    apply (resolver_opt_steps _ _ (Some x)) in H; [|apply (steps_good _ _ _ I S1)].
    exact (steps_app _ _ _ _ _ S1 H).
  - intros [= <- <-]. apply steps_one, st_def.
Qed.

Lemma pstep_steps s o s' e : Inv s -> pstep good_pcfg s o = (s', e) -> steps s e s'.
Proof.
  intros I. destruct o as [|p m b|p m b|p w|p x|m x|]; cbn [pstep].
  - intros [= <- <-]. apply steps_one, st_alloc.
  - apply send_op_steps; exact I.
  - apply send_op_steps; exact I.
  - apply when_op_steps; exact I.
  - destruct x as [v|f|q]; try (apply resolve_call_steps; exact I).
    destruct (Nat.ltb q (next s)); [apply resolve_call_steps; exact I|]. intros [= <- <-]. apply steps_nil.
  - apply fire_def_steps; exact I.
  - apply run_n_steps; exact I.
Qed.

Theorem prun_steps ops : forall s s' e, Inv s -> prun good_pcfg s ops = (s', e) -> steps s e s'.
Proof.
  induction ops as [|o ops IH]; intros s s' e I; cbn [prun]; [intros [= <- <-]; apply steps_nil|].
  destruct (pstep good_pcfg s o) as [s1 t1] eqn:E1. destruct (prun good_pcfg s1 ops) as [s2 t2] eqn:E2.
  intros [= <- <-]. apply pstep_steps in E1; [|exact I].
  apply IH in E2; [|apply (steps_good _ _ _ I E1)]. exact (steps_app _ _ _ _ _ E1 E2).
Qed.

Lemma inv_ps0 : Inv ps0.
Proof. split; [split; [intros p pr H; discriminate|constructor]|intros p; reflexivity]. Qed.

Lemma prun_good ops s t : prun src_pcfg ps0 ops = (s, t) -> Inv s /\ Good ps0 s t.
Proof. rewrite src_is_good. intros H. apply steps_good; [exact inv_ps0|]. apply (prun_steps _ _ _ _ inv_ps0 H). Qed.

Theorem reach_ind (P : ps -> list pev -> Prop) :
  P ps0 [] -> (forall s log e s', Inv s -> P s log -> step s e s' -> P s' (log ++ e)) ->
  forall ops s t, prun src_pcfg ps0 ops = (s, t) -> P s t.
Proof.
  rewrite src_is_good. intros H0 HP ops s t H.
  exact (steps_ind_inv P HP _ _ _ (prun_steps _ _ _ _ inv_ps0 H) inv_ps0 [] H0).
Qed.

(* "it cannot be resolved twice": in every state, resolving (with a value, a promise or a
   Failure) a promise that is not EVENTUAL is refused with UsageError and changes nothing ... *)
Theorem pr_second_resolve_refused : forall s p pr x,
  tbl s p = Some pr -> pstate pr <> SEventual ->
  resolve_call src_pcfg true s p x = (s, [ERefused p true]).
Proof. rewrite src_is_good. intros s p pr x. apply resolve_call_refused. Qed.

(* ... and an accepted resolution always leaves the EVENTUAL state (this is where `_break` must
   ASSIGN: with the comparison of D10 the promise stayed EVENTUAL) *)
Theorem pr_resolve_leaves_eventual : forall ops s t p pr x s' e,
  prun src_pcfg ps0 ops = (s, t) -> tbl s p = Some pr -> pstate pr = SEventual ->
  (match x with RProm q => tbl s q <> None | _ => True end) ->
  resolve_call src_pcfg true s p x = (s', e) ->
  exists pr', tbl s' p = Some pr' /\ pstate pr' <> SEventual.
Proof.
  intros ops s t p pr x s' e Hrun Hp Hs Hx. destruct (prun_good _ _ _ Hrun) as [I _]. rewrite src_is_good. intros H.
  destruct (resolve_call_eventual _ _ _ _ _ _ _ I Hp Hs H) as [(q & -> & Hn & _)|[_ H']]; [contradiction|exact H'].
Qed.

(* "once resolved or broken ...": a promise that has reached NEAR v / BROKEN f keeps exactly that
   state and target through every further program *)
Theorem pr_stable : forall ops1 ops2 s1 t1 s2 t2 p pr,
  prun src_pcfg ps0 ops1 = (s1, t1) -> tbl s1 p = Some pr ->
  (pstate pr = SNear \/ pstate pr = SBroken) ->
  prun src_pcfg s1 ops2 = (s2, t2) ->
  tbl s2 p = Some pr /\
  exists o, ptarget pr = Some o /\ (pstate pr = SNear <-> exists v, o = Val v).
Proof.
  intros ops1 ops2 s1 t1 s2 t2 p pr H1 Hp Hs H2. destruct (prun_good _ _ _ H1) as [I1 _].
  assert (Hps : pending_state (pstate pr) = false) by (destruct Hs as [-> | ->]; reflexivity).
  destruct (wf_resolved _ (proj2 (proj1 (proj1 I1) _ _ Hp)) Hps) as (o & R).
  rewrite src_is_good in H2. destruct (steps_good _ _ _ I1 (prun_steps _ _ _ _ I1 H2)) as (_ & _ & X & _).
  split; [eapply X; eauto|]. exists o. destruct R as (T & _ & _ & _ & S). split; [exact T|].
  rewrite S. destruct o; split; intros H; eauto; try discriminate. destruct H as (v & H). discriminate.
Qed.

(* "... every past and future observer (when/_then/_except/sends) sees that same outcome": all
   reports about a promise in a run -- observers told, messages handed to the resolution -- carry
   one and the same outcome, which is the promise's final target *)
Theorem pr_observers_agree : forall ops s t p e1 o1,
  prun src_pcfg ps0 ops = (s, t) -> In e1 t -> outcome_of p e1 = Some o1 ->
  (exists pr, tbl s p = Some pr /\ ptarget pr = Some o1 /\
              pstate pr = match o1 with Val _ => SNear | Fail _ => SBroken end) /\
  forall e2 o2, In e2 t -> outcome_of p e2 = Some o2 -> o2 = o1.
Proof.
  intros ops s t p e1 o1 H He1 Ho1. destruct (prun_good _ _ _ H) as (_ & _ & _ & V).
  rewrite Forall_forall in V. destruct (V _ He1 p o1 Ho1) as (pr & Hp & R).
  split.
  - exists pr. destruct R as (T & _ & _ & _ & S). auto.
  - intros e2 o2 He2 Ho2. destruct (V _ He2 p o2 Ho2) as (pr2 & Hp2 & R2).
    rewrite Hp in Hp2. injection Hp2 as <-. eapply resolved_fun; eauto.
Qed.

(* "delivers every message sent to it, in send order and exactly once, to its resolution": the two local
   facts about one operation; the statement for all programs is PromiseGlobal.pr_delivery_global. *)

(* (a) a send is appended behind everything sent before: to _pendingMethods while the promise is
   pending, to the eventual-send queue once it is resolved *)
Lemma pr_order_send : forall s p pr m b wr s' e,
  tbl s p = Some pr -> (p < next s)%nat -> send_op src_pcfg s p m b wr = (s', e) ->
  (pending_state (pstate pr) = true -> plive pr = true ->
     pending_of s' p = pending_of s p ++ [m] /\ queue s' = queue s) /\
  (pending_state (pstate pr) = false ->
     pending_of s' p = pending_of s p /\ exists mm, mid mm = m /\ queue s' = queue s ++ [TDeliver p mm]).
Proof.
  rewrite src_is_good. intros s p pr m b wr s' e Hp Hl. rewrite (send_op_eq _ _ _ _ _ _ Hp).
  set (s1 := if wr then fst (alloc s) else s).
  assert (Hp1 : tbl s1 p = Some pr) by (destruct wr; [rewrite <- Hp; apply alloc_tbl; exact Hl|exact Hp]).
  assert (Hq1 : queue s1 = queue s) by (destruct wr; reflexivity).
  destruct (pending_state (pstate pr)); [destruct (plive pr)|]; intros [= <- <-];
    (split; [intros Hx Hy|intros Hx]); try discriminate; unfold pending_of; cbn [setp enq tbl queue]; rewrite Hq1.
  - rewrite upd_same, Hp. cbn [holding ppending]. rewrite map_app. split; reflexivity.
  - rewrite Hp1, Hp. split; [reflexivity|]. eexists. split; [|reflexivity]. reflexivity.
Qed.

(* (b) resolution releases the queued messages in the order they were sent, then the observers in
   the order they subscribed, behind everything already in the queue; nothing stays behind *)
Lemma pr_order_release : forall top s p pr o s' e,
  tbl s p = Some pr -> plive pr = true -> pstate pr <> SBroken ->
  resolve2 src_pcfg top s p o = (s', e) ->
  e = [] /\ pending_of s' p = [] /\
  queue s' = queue s ++ map (TDeliver p) (ppending pr) ++ map (fun wt => TCallback p wt o) (pwatch pr).
Proof.
  rewrite src_is_good. intros top s p pr o s' e Hp Hl Hs. unfold resolve2. rewrite Hp, Hl.
  cbn [good_pcfg pc_break_guard pc_sets_near pc_break_assigns negb andb].
  assert (Hb : (match o with Fail _ => is_broken (pstate pr) | Val _ => false end) = false).
  { destruct o; [reflexivity|]. destruct (pstate pr); try reflexivity. contradiction. }
  rewrite Hb. intros H; injection H as <- <-. split; [reflexivity|].
  unfold pending_of, drain_tasks. cbn [enq setp tbl queue good_pcfg pc_drain_order pc_watch_order ord].
  rewrite upd_same. split; reflexivity.
Qed.

(* what [dev] reports is a hand-over of that message to that promise, whichever of the two events it is *)
Lemma delivered_to_dev q p m o : delivered_to q [dev p m o] = if Nat.eqb p q then [mid m] else [].
Proof. unfold dev. destruct (invocable (mbeh m)); reflexivity. Qed.
Lemma dev_quiet p m o q :
  sent_to q [dev p m o] = [] /\ whens q [dev p m o] = [] /\ observed q [dev p m o] = [].
Proof. unfold dev. destruct (invocable (mbeh m)); repeat split. Qed.

(* D10, for the record: with `self._state == BROKEN` (comparison) in _break the promise stays EVENTUAL after being
   broken, a later when() fails with AttributeError and a second resolution is not refused *)
Lemma pr_d10_refuted :
  let t := snd (prun d10_pcfg ps0 [PNew; PResolve 0 (RFail 1); PWhen 0 7; PResolve 0 (RVal 3)]) in
  In (ECrash 0 true) t /\ ~ In (ERefused 0 true) t.
Proof. vm_compute. split; [auto|]. intros [H|[H|H]]; try discriminate; exact H. Qed.

Example pr_d10_now :
  snd (prun src_pcfg ps0 [PNew; PResolve 0 (RFail 1); PWhen 0 7; PResolve 0 (RVal 3)])
  = [EWhen 0 7; EObserved 0 7 (Fail 1); ERefused 0 true].
Proof. vm_compute. reflexivity. Qed.

(* non-vacuity: a chain of promises resolved to promises, sends before and after, observers before and after *)
Example pr_example :
  let ops := [PNew; PNew; PSend 0 1 (BRet 11); PWhen 0 100; PResolve 0 (RProm 1); PSend 0 2 (BRaise 5);
              PResolve 1 (RVal 9); PTurn; PTurn; PWhen 0 101; PWhen 3 102; PTurn; PResolve 0 (RVal 4)] in
  snd (prun src_pcfg ps0 ops) =
    [ESent 0 1; EWhen 0 100; EChained 0 1; ESent 0 2; EDelivered 0 1 (Val 9); EDelivered 0 2 (Val 9); EObserved 0 100 (Val 9);
     EWhen 0 101; EObserved 0 101 (Val 9); EWhen 3 102; EObserved 3 102 (Fail 5); ERefused 0 true].
Proof. vm_compute. reflexivity. Qed.

(* non-vacuity of the re-entrant send: the message a method sends while it runs is delivered behind everything
   that was already queued for that promise *)
Example pr_reentrant_send_example :
  snd (prun src_pcfg ps0 [PNew; PResolve 0 (RVal 9); PSendOnly 0 1 (BSendRet 0 3 7); PSendOnly 0 2 (BRet 0); PTurn; PTurn])
  = [ESent 0 1; ESent 0 2; EDelivered 0 1 (Val 9); ESent 0 3; EDelivered 0 2 (Val 9); EDelivered 0 3 (Val 9)].
Proof. vm_compute. reflexivity. Qed.

(* the delivery of a message whose method the target does not have (BNoMeth) to a value, for EVERY configuration and
   state: nothing runs on the target (no re-entrant send, no Deferred is remembered), the one thing that happens is
   the call of the result promise's resolver with the AttributeError Failure; the report is the hand-over event that
   has no counterpart in the implementation trace *)
Lemma pr_nometh_delivery : forall c s p m pr v,
  tbl s p = Some pr -> ptarget pr = Some (Val v) -> mbeh m = BNoMeth ->
  run_task c s (TDeliver p m) =
    (let '(s1, e) := resolver c s (mres m) (RFail attr_error) in (s1, EDeliveredNM p (mid m) (Val v) :: e)).
Proof.
  intros c s p m pr v Hp Ht Hb. cbn [run_task]. rewrite Hp, Ht. unfold meth_send, meth_result, dev, resolver_opt.
  rewrite Hb. cbn [invocable]. destruct (resolver c s (mres m) (RFail attr_error)) as [s1 e]. reflexivity.
Qed.

(* sendOnly(p).nosuch(..): the Failure is swallowed -- the state is untouched, nothing is reported but the hand-over *)
Theorem pr_nometh_sendonly_swallowed : forall s p m pr v,
  tbl s p = Some pr -> ptarget pr = Some (Val v) -> mbeh m = BNoMeth -> mres m = None ->
  run_task src_pcfg s (TDeliver p m) = (s, [EDeliveredNM p (mid m) (Val v)]).
Proof.
  intros s p m pr v Hp Ht Hb Hr. rewrite (pr_nometh_delivery _ _ _ _ _ _ Hp Ht Hb), Hr. reflexivity.
Qed.

(* send(p).nosuch(..): the result promise -- still EVENTUAL, as send() made it -- is BROKEN with the AttributeError;
   the messages and observers that were waiting on it are released towards that Failure, in order, behind everything
   already scheduled (so: the tasks queued behind this delivery are untouched); no message is sent, no method runs *)
Theorem pr_nometh_breaks_result : forall s p m pr v r rr s' e,
  tbl s p = Some pr -> ptarget pr = Some (Val v) -> mbeh m = BNoMeth ->
  mres m = Some r -> tbl s r = Some rr -> pstate rr = SEventual -> plive rr = true ->
  run_task src_pcfg s (TDeliver p m) = (s', e) ->
  e = [EDeliveredNM p (mid m) (Val v)] /\
  tbl s' r = Some {| pstate := SBroken; ptarget := Some (Fail attr_error); plive := false; ppending := []; pwatch := [] |} /\
  (forall i, i <> r -> tbl s' i = tbl s i) /\ next s' = next s /\ defs s' = defs s /\
  queue s' = queue s ++ map (TDeliver r) (ppending rr) ++ map (fun wt => TCallback r wt (Fail attr_error)) (pwatch rr).
Proof.
  rewrite src_is_good. intros s p m pr v r rr s' e Hp Ht Hb Hr Hrr Hs Hl.
  rewrite (pr_nometh_delivery _ _ _ _ _ _ Hp Ht Hb), Hr. unfold resolver, resolve_call, resolve2. rewrite Hrr, Hs, Hl.
  cbn [good_pcfg pc_resolve_guarded pc_break_guard pc_break_assigns pc_drain_order pc_watch_order
       is_eventual is_broken andb negb].
  intros H; injection H as <- <-. split; [reflexivity|]. cbn [enq setp tbl next defs queue].
  split; [apply upd_same|]. split; [intros i Hi; apply upd_other; exact Hi|].
  split; [reflexivity|]. split; [reflexivity|]. unfold drain_tasks. cbn [ord]. reflexivity.
Qed.

(* non-vacuity, and the whole story on one program: a send to a missing method between two ordinary sends, queued
   before the resolution.  All three messages are handed to the resolution in send order, once each; the neighbours'
   methods are invoked (their result promises 1 and 3 become NEAR), nothing is invoked for message 2, its result
   promise 2 is BROKEN with the AttributeError, and the observer waiting on it is told that Failure *)
Example pr_nometh_example :
  let ops := [PNew; PSend 0 1 (BRet 11); PSend 0 2 BNoMeth; PSend 0 3 (BRet 13); PWhen 2 100;
              PResolve 0 (RVal 9); PTurn; PTurn] in
  let '(s, t) := prun src_pcfg ps0 ops in
  (t, sent_to 0 t, delivered_to 0 t, map (fun i => enc_promise (tbl s i)) [1; 2; 3]%nat, flat_map enc_pev t)
  = ([ESent 0 1; ESent 0 2; ESent 0 3; EWhen 2 100;
      EDelivered 0 1 (Val 9); EDeliveredNM 0 2 (Val 9); EDelivered 0 3 (Val 9); EObserved 2 100 (Fail (-1))],
     [1; 2; 3], [1; 2; 3], [[2; 1; 11]; [3; 2; -1]; [2; 1; 13]],
     [1; 0; 1;  1; 0; 2;  1; 0; 3;  2; 0; 1; 9;  2; 0; 3; 9;  3; 2; 100; 1; -1]).
Proof. vm_compute. reflexivity. Qed.

(* the same message sent with sendOnly after the resolution, and one sent to a BROKEN promise (where it behaves like
   every other message: the resolver gets the promise's own Failure, not an AttributeError) *)
Example pr_nometh_example2 :
  let ops := [PNew; PNew; PResolve 0 (RVal 9); PResolve 1 (RFail 4); PSendOnly 0 1 BNoMeth; PSendOnly 0 2 (BRet 0);
              PSend 1 3 BNoMeth; PWhen 2 100; PTurn; PTurn] in
  let '(s, t) := prun src_pcfg ps0 ops in
  (t, List.length (queue s), enc_promise (tbl s 2))
  = ([ESent 0 1; ESent 0 2; ESent 1 3; EWhen 2 100;
      EDeliveredNM 0 1 (Val 9); EDelivered 0 2 (Val 9); EDelivered 1 3 (Fail 4); EObserved 2 100 (Fail 4)],
     0%nat, [3; 2; 4]).
Proof. vm_compute. reflexivity. Qed.

(* the hypotheses of pr_nometh_breaks_result are met in a reachable state (with a backlog and an observer on the result
   promise), and its conclusion is what the model computes there *)
Example pr_nometh_breaks_result_example :
  let ops := [PNew; PResolve 0 (RVal 9); PSend 0 1 BNoMeth; PSendOnly 1 2 (BRet 0); PWhen 1 100] in
  let s := fst (prun src_pcfg ps0 ops) in
  let m := {| mid := 1; mbeh := BNoMeth; mres := Some 1%nat |} in
  queue s = [TDeliver 0 m] /\
  (match tbl s 0 with Some pr => ptarget pr | None => None end) = Some (Val 9) /\
  (match tbl s 1 with Some rr => (pstate rr, plive rr, map mid (ppending rr), pwatch rr) | None => (SNear, false, [], []) end)
    = (SEventual, true, [2], [W 100]) /\
  queued_for 1 (queue (fst (run_one src_pcfg s))) = [2] /\ cb_for 1 (queue (fst (run_one src_pcfg s))) = [100].
Proof. vm_compute. repeat split. Qed.

Lemma oso_asserts : ob_fire_asserts_unfired = true.
Proof. reflexivity. Qed.

Lemma oso_after_fire ops : forall s r, o_fired s = Some r ->
  forall w r', In (OEventually w r') (snd (oso_run s ops)) -> r' = r.
Proof.
  induction ops as [|o ops IH]; intros s r Hf w r'; cbn [oso_run].
  - cbn. intros [].
  - destruct (oso_step s o) as [s1 t1] eqn:E1. destruct (oso_run s1 ops) as [s2 t2] eqn:E2. cbn [snd].
    intros Hin. apply in_app_or in Hin. unfold oso_step in E1. rewrite Hf, oso_asserts in E1.
    destruct o; injection E1 as <- <-.
    + destruct Hin as [[H|[]]|H]; [injection H as _ <-; reflexivity|].
      eapply (IH s r Hf w r'). rewrite E2. exact H.
    + destruct Hin as [[H|[]]|H]; [discriminate|]. eapply (IH s r Hf w r'). rewrite E2. exact H.
Qed.

Lemma oso_before_fire ops : forall s, o_fired s = None ->
  exists r, forall w r', In (OEventually w r') (snd (oso_run s ops)) -> r' = r.
Proof.
  induction ops as [|o ops IH]; intros s Hf; cbn [oso_run].
  - exists 0. cbn. intros w r' [].
  - destruct (oso_step s o) as [s1 t1] eqn:E1. destruct (oso_run s1 ops) as [s2 t2] eqn:E2. cbn [snd].
    unfold oso_step in E1. rewrite Hf in E1. destruct o; injection E1 as <- <-.
    + destruct (IH {| o_fired := None; o_watchers := o_watchers s ++ [w] |} eq_refl) as (r & Hr).
      exists r. intros w0 r' Hin. cbn [app] in Hin. apply (Hr w0). rewrite E2. exact Hin.
    + exists r. intros w0 r' Hin. apply in_app_or in Hin as [H|H].
      * apply in_map_iff in H as (x & Hx & _). injection Hx as _ <-. reflexivity.
      * eapply (oso_after_fire ops {| o_fired := Some r; o_watchers := [] |} r eq_refl w0 r'). rewrite E2. exact H.
Qed.

(* every subscriber of a one-shot observer list -- before or after it fired -- is sent (eventually, never
   synchronously: the model only emits eventual-sends) one and the same result *)
Theorem oso_single_result : forall ops w1 r1 w2 r2,
  In (OEventually w1 r1) (snd (oso_run oso0 ops)) -> In (OEventually w2 r2) (snd (oso_run oso0 ops)) -> r1 = r2.
Proof.
  intros ops w1 r1 w2 r2 H1 H2. destruct (oso_before_fire ops oso0 eq_refl) as (r & Hr).
  rewrite (Hr _ _ H1), (Hr _ _ H2). reflexivity.
Qed.
