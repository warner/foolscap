(* C05: the byte-level theorems for the REAL checks (lib/IdentityBytesReal.v), and non-vacuity Examples. *)
From Coq Require Import ZArith List String Bool.
Import ListNotations.
Require Import Verif.lib.PyLite Verif.gen.NegotiateGen Verif.lib.Negotiate Verif.lib.NegBytes
               Verif.gen.IdentityGen Verif.lib.NegSplit Verif.lib.Identity Verif.lib.IdentityProofs Verif.lib.IdentityBytes
               Verif.lib.IdentityBytesProofs Verif.lib.NegCodec Verif.gen.NegCodecGen Verif.lib.NegWire Verif.lib.IdentityBytesReal.
Local Open Scope Z_scope.

Section RealProofs.
Variable cert : Type.
Variable tubid_of : cert -> list Z.
Variable hf : Z -> list Z.
Variable me : endpoint.
Variable redirect : list Z -> bool.

Notation recv := (real_recv_all hf me cert tubid_of redirect).

Theorem real_attach_proven r my tgt p chunks k :
  In k (b_attached (recv r my tgt p chunks)) -> exists crt, leaf p = Some crt /\ tubid_of crt = k /\ (r = Client -> k = tgt).
Proof. unfold real_recv_all. apply bytes_attach_proven. Qed.

Theorem real_no_attach_before_identity r my tgt p chunks :
  b_attached (recv r my tgt p chunks) <> [] ->
  exists hdr d ver t m, parseLines hdr = Ok d /\ dget d error_key = None /\ eval_hello_wire me d = Ok ver /\ forced_chk d = Ok tt /\
                        handle_hello cert tubid_of r my tgt p (dget d hello_key_tubid_written) = Accept t m.
Proof.
  intros H. unfold real_recv_all in H. apply bytes_no_attach_before_identity in H.
  destruct H as (hdr & d & t & m & Hp & He & Hpre & Hh).
  unfold real_has_error in He. destruct (dget d error_key) eqn:Ee; [discriminate He|].
  unfold real_pre_chk, bind in Hpre. destruct (eval_hello_wire me d) as [ver|w] eqn:Ev; [|discriminate Hpre].
  exists hdr, d, ver, t, m. unfold real_claimed, claimed_id in Hh. auto.
Qed.

Theorem real_at_most_one_attach r my tgt p chunks :
  (List.length (b_attached (recv r my tgt p chunks)) <= 1)%nat /\
  (b_phase (recv r my tgt p chunks) <> RP PhBanana -> b_attached (recv r my tgt p chunks) = []).
Proof. unfold real_recv_all. apply bytes_at_most_one_attach. Qed.

(* a listener registers a key only on a connection whose GET named this very Tub (plaintext_server_requested: the translated
   statements of handlePLAINTEXTServer up to the lookup; server_lookup: the session model's listener lookup) *)
Theorem real_listener_attach_needs_get my tgt p chunks :
  b_attached (recv Server my tgt p chunks) <> [] ->
  exists hdr, plaintext_server_requested real_decode hdr = Ok my /\ server_lookup my my = Ok tt /\ my <> [].
Proof. unfold real_recv_all. apply bytes_listener_attach_needs_get. Qed.

End RealProofs.

(* The Examples: certificates are numbers, 2 hashes to "bb" and 3 to "cc"; the byte strings are
     exb_get        GET /id/zz HTTP/1.1 \r\n Upgrade: TLS/1.0 \r\n\r\n        exb_get_other  GET /id/yy HTTP/1.1 \r\n\r\n
     exb_101        HTTP/1.1 101 Switching Protocols \r\n Upgrade: TLS/1.0 \r\n\r\n
     exb_hello_bb   banana-negotiation-range: 3 3 \r\n my-tub-id: bb \r\n\r\n     (exb_hello_cc: my-tub-id: cc)
     exb_hello_bb_unicode / _overlong   the same with a line `x-note: ` + well-formed 2- and 4-byte UTF-8 / the overlong C0 AF
     exb_decision   banana-decision-version: 3 \r\n\r\n *)
Definition exb_tubid (c : Z) : list Z := if c =? 2 then [98; 98] else if c =? 3 then [99; 99] else [].
Definition exb_recv (my : list Z) := real_recv_all (fun _ => []) (class_endpoint my 0 1) Z exb_tubid (fun _ => false).
Definition exb_get : list Z := [71; 69; 84; 32; 47; 105; 100; 47; 122; 122; 32; 72; 84; 84; 80; 47; 49; 46; 49; 13; 10; 85; 112; 103; 114; 97; 100; 101; 58; 32; 84; 76; 83; 47; 49; 46; 48; 13; 10; 13; 10].
Definition exb_get_other : list Z := [71; 69; 84; 32; 47; 105; 100; 47; 121; 121; 32; 72; 84; 84; 80; 47; 49; 46; 49; 13; 10; 13; 10].
Definition exb_hello_bb : list Z := [98; 97; 110; 97; 110; 97; 45; 110; 101; 103; 111; 116; 105; 97; 116; 105; 111; 110; 45; 114; 97; 110; 103; 101; 58; 32; 51; 32; 51; 13; 10; 109; 121; 45; 116; 117; 98; 45; 105; 100; 58; 32; 98; 98; 13; 10; 13; 10].
Definition exb_hello_cc : list Z := [98; 97; 110; 97; 110; 97; 45; 110; 101; 103; 111; 116; 105; 97; 116; 105; 111; 110; 45; 114; 97; 110; 103; 101; 58; 32; 51; 32; 51; 13; 10; 109; 121; 45; 116; 117; 98; 45; 105; 100; 58; 32; 99; 99; 13; 10; 13; 10].
Definition exb_hello_bb_unicode : list Z := [98; 97; 110; 97; 110; 97; 45; 110; 101; 103; 111; 116; 105; 97; 116; 105; 111; 110; 45; 114; 97; 110; 103; 101; 58; 32; 51; 32; 51; 13; 10; 120; 45; 110; 111; 116; 101; 58; 32; 104; 195; 169; 108; 108; 111; 32; 240; 159; 152; 128; 13; 10; 109; 121; 45; 116; 117; 98; 45; 105; 100; 58; 32; 98; 98; 13; 10; 13; 10].
Definition exb_hello_bb_overlong : list Z := [98; 97; 110; 97; 110; 97; 45; 110; 101; 103; 111; 116; 105; 97; 116; 105; 111; 110; 45; 114; 97; 110; 103; 101; 58; 32; 51; 32; 51; 13; 10; 120; 45; 110; 111; 116; 101; 58; 32; 192; 175; 13; 10; 109; 121; 45; 116; 117; 98; 45; 105; 100; 58; 32; 98; 98; 13; 10; 13; 10].
Definition exb_101 : list Z := [72; 84; 84; 80; 47; 49; 46; 49; 32; 49; 48; 49; 32; 83; 119; 105; 116; 99; 104; 105; 110; 103; 32; 80; 114; 111; 116; 111; 99; 111; 108; 115; 13; 10; 85; 112; 103; 114; 97; 100; 101; 58; 32; 84; 76; 83; 47; 49; 46; 48; 13; 10; 13; 10].
Definition exb_decision : list Z := [98; 97; 110; 97; 110; 97; 45; 100; 101; 99; 105; 115; 105; 111; 110; 45; 118; 101; 114; 115; 105; 111; 110; 58; 32; 51; 13; 10; 13; 10].

(* a listener "zz" (decides: "zz" > "bb"): GET, then the hello of the peer that authenticated as bb, cut in the middle of a block *)
Example exb_listener_attaches :
  b_attached (exb_recv [122; 122] Server [122; 122] [] {| leaf := Some 2; extras := [] |}
                       [firstn 10 exb_get; skipn 10 exb_get ++ firstn 7 exb_hello_bb; skipn 7 exb_hello_bb]) = [[98; 98]].
Proof. vm_compute. reflexivity. Qed.

(* header values may be any well-formed UTF-8; an overlong encoding makes parseLines raise *)
Example exb_listener_unicode :
  b_attached (exb_recv [122; 122] Server [122; 122] [] {| leaf := Some 2; extras := [] |} [exb_get; exb_hello_bb_unicode]) = [[98; 98]] /\
  b_fail (exb_recv [122; 122] Server [122; 122] [] {| leaf := Some 2; extras := [] |} [exb_get; exb_hello_bb_overlong]) = Some "UnicodeDecodeError"%string.
Proof. vm_compute. split; reflexivity. Qed.

(* the same bytes from a peer that authenticated as cc: refused, and a decision block sent afterwards changes nothing *)
Example exb_listener_refuses_impostor :
  let st := exb_recv [122; 122] Server [122; 122] [] {| leaf := Some 3; extras := [] |} [exb_get ++ exb_hello_bb; exb_decision] in
  b_attached st = [] /\ b_their st = None /\ b_phase st = RP PhEncrypted /\ b_fail st = Some "NegotiationError"%string.
Proof. vm_compute. repeat split; reflexivity. Qed.

(* a refusal does not end the object's life: a GET for another Tub is refused in the plaintext phase (phase unchanged), the peer
   carries on with a correct GET and a proven hello; after a rejected hello (claims cc, proved bb) a proven one is still accepted *)
Example exb_listener_second_get :
  let st := exb_recv [122; 122] Server [122; 122] [] {| leaf := Some 2; extras := [] |} [exb_get_other; exb_get; exb_hello_cc; exb_hello_bb] in
  b_attached st = [[98; 98]] /\ b_fail st = Some "BananaError"%string /\
  b_phase (exb_recv [122; 122] Server [122; 122] [] {| leaf := Some 2; extras := [] |} [exb_get_other]) = RPlaintext.
Proof. vm_compute. repeat split; reflexivity. Qed.

(* a dialling Tub "aa" (does not decide: "aa" < "bb") attaches only when the decision arrives, under the dialled id *)
Example exb_client_waits_for_decision :
  b_attached (exb_recv [97; 97] Client [97; 97] [98; 98] {| leaf := Some 2; extras := [] |} [exb_101; exb_hello_bb]) = [] /\
  b_attached (exb_recv [97; 97] Client [97; 97] [98; 98] {| leaf := Some 2; extras := [] |} [exb_101; exb_hello_bb; exb_decision]) = [[98; 98]].
Proof. vm_compute. split; reflexivity. Qed.

(* ... and never when the peer proved an identity other than the dialled one *)
Example exb_client_wrong_tub :
  b_attached (exb_recv [97; 97] Client [97; 97] [98; 98] {| leaf := Some 3; extras := [] |} [exb_101; exb_hello_cc; exb_decision]) = [].
Proof. vm_compute. reflexivity. Qed.

(* the plaintext guard is not opaque: the GET for "zz" yields the id "zz", on which the session model's lookup succeeds at the
   listener "zz"; the GET for "yy" is refused there, by the guard and by server_lookup alike; after the first the object has left
   the PLAINTEXT phase, after the second it has not *)
Example exb_guard_is_lookup :
  plaintext_server_requested real_decode (firstn 37 exb_get) = Ok [122; 122] /\
  plaintext_server_guard real_decode [122; 122] (fun _ => false) (firstn 37 exb_get) = Ok tt /\ server_lookup [122; 122] [122; 122] = Ok tt /\
  plaintext_server_requested real_decode (firstn 19 exb_get_other) = Ok [121; 121] /\
  plaintext_server_guard real_decode [122; 122] (fun _ => false) (firstn 19 exb_get_other) = Exc "NegotiationError" /\
  server_lookup [121; 121] [122; 122] = Exc "NegotiationError" /\
  b_phase (exb_recv [122; 122] Server [122; 122] [] {| leaf := Some 2; extras := [] |} [exb_get]) = RP PhEncrypted.
Proof. vm_compute. repeat split; reflexivity. Qed.
