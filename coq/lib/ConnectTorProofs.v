(* ConnectTorProofs.v -- a FURL with Tor hints on a Tub whose Tor handler's Tor never comes up / is down: composition of
   TorStateProofs.v (what the handler answers) with ConnectAllProofs.v / ConnectLateProofs.v (what the connector does with it). *)
From Coq Require Import ZArith List String Bool.
Import ListNotations.
Require Import Verif.lib.PyLite Verif.lib.Regex Verif.lib.FurlPrim Verif.gen.FurlGen Verif.lib.Furl.
Require Import Verif.lib.TorState Verif.lib.TorStateProofs.
Require Import Verif.lib.ConnectAll Verif.lib.ConnectAllProofs Verif.lib.ConnectLateProofs Verif.lib.ConnectTor.
Local Open Scope Z_scope.

(* the connector's view of a Tor hint is a function of (classification of the string, state of the Tor) *)
Lemma tor_beh_table : forall nonpublic st epb h,
  tor_beh nonpublic st epb h =
  match tor_hint_to_endpoint nonpublic h with
  | Ok _ => match st with TorReady => epb h | TorStarting => HWaiting | TorFails e => HRaises e end
  | Exc _ => HRaises "InvalidHintError"
  end.
Proof.
  intros np st epb h. unfold tor_beh. rewrite tor_outcome_table.
  destruct (tor_hint_to_endpoint np h) as [ep|e]; [destruct st; reflexivity | reflexivity].
Qed.

(* a Tor that NEVER comes up.  For any hint list (the other hints behave in any way), any Tor hint h in it, any late
   schedule in which h's Deferred does not fire: once the connect timer has fired the failure has been reported exactly once
   and nothing is pending; a hint the handler rejects was "bad hint" from the start and stays so; a hint it accepts was held
   (pending, not valid, nothing reported at connect()) and ends cancelled, the reported failure being NegotiationError *)
Theorem tor_never_up_reported : forall nonpublic epb cx beh hints h evs,
  In h hints -> beh h = tor_beh nonpublic TorStarting epb h -> (forall o, ~ In (LResolve h o) evs) ->
  let r0 := connect_all beh hints in
  let r := run_late cx (evs ++ [LTimeout]) r0 in
  active r = false /\ failed_calls r = 1%nat /\ pending r = [] /\
  match tor_hint_to_endpoint nonpublic h with
  | Exc _ => status_of h (statuses r0) = Some SBadHint /\ status_of h (statuses r) = Some SBadHint
  | Ok _ => In h (pending r0) /\ ~ In h (valid r0) /\ active r0 = true /\ failed_calls r0 = 0%nat /\
            status_of h (statuses r0) = Some SResolving /\
            status_of h (statuses r) = Some (classify (cx h)) /\ reason r = Some "NegotiationError"%string
  end.
Proof.
  intros np epb cx beh hints h evs H B NR. cbv zeta. rewrite tor_beh_table in B.
  destruct (timeout_reports cx beh hints evs) as (A & F & P). cbv zeta in *.
  split; [exact A|]. split; [exact F|]. split; [exact P|].
  destruct (tor_hint_to_endpoint np h) as [ep|e].
  - destruct (waiting_hint_held beh hints h H B) as (P0 & V0 & S0 & A0 & F0). cbv zeta in *.
    assert (NR' : forall o, ~ In (LResolve h o) (evs ++ [LTimeout])).
    { intros o I. apply in_app_or in I as [I|[I|[]]]; [exact (NR o I) | discriminate]. }
    destruct (waiting_forever cx beh hints h (evs ++ [LTimeout]) H B NR') as [(A' & _)|(_ & _ & _ & _ & SR)]; cbv zeta in *;
      [congruence|].
    exact (conj P0 (conj V0 (conj A0 (conj F0 (conj S0 SR))))).
  - split.
    + rewrite status_is_own by exact H. rewrite B. reflexivity.
    + rewrite settled_status_is_final by (try exact H; rewrite B; reflexivity). rewrite B. reflexivity.
Qed.

(* a Tor that is DOWN (the launch / the control connection fails with e): every Tor hint is settled when the reactor is
   idle -- InvalidHintError for a hint the handler rejects, else the Tor's own exception, with the status
   _connectionFailed derives from it -- and stays so *)
Theorem tor_down_reported : forall nonpublic epb cx beh hints h e evs,
  In h hints -> beh h = tor_beh nonpublic (TorFails e) epb h ->
  let r := run_late cx evs (connect_all beh hints) in
  ~ In h (pending (connect_all beh hints)) /\
  status_of h (statuses r) =
    Some (match tor_hint_to_endpoint nonpublic h with Ok _ => classify e | Exc _ => SBadHint end).
Proof.
  intros np epb cx beh hints h e evs H B. cbv zeta. rewrite tor_beh_table in B.
  assert (NPd : is_pending (beh h) = false) by (rewrite B; destruct (tor_hint_to_endpoint np h); reflexivity).
  split.
  - intros P. apply pending_iff in P as [_ P]. congruence.
  - rewrite settled_status_is_final by assumption. rewrite B. destruct (tor_hint_to_endpoint np h); reflexivity.
Qed.

(* the same in the order of the real reactor turns.  A Tor handler answers an ACCEPTED hint through its observer list, i.e. in
   a later turn even when its Tor has already failed: when connect() returns the hint is waiting, the Tor's exception arrives as
   a late event (after the synchronous outcomes of all other hints -- which is why failureReason may be another hint's
   InvalidHintError).  Whatever happens in between (anything but the timer) and afterwards, the hint ends with the status of the
   Tor's own exception *)
Theorem tor_down_reported_late : forall nonpublic epb cx beh hints h e ep evs1 evs2,
  In h hints -> tor_hint_to_endpoint nonpublic h = Ok ep -> beh h = HWaiting ->
  (forall o', ~ In (LResolve h o') evs1) -> ~ In LTimeout evs1 ->
  status_of h (statuses (run_late cx (evs1 ++ LResolve h (tor_beh nonpublic (TorFails e) epb h) :: evs2) (connect_all beh hints)))
    = Some (classify e).
Proof.
  intros np epb cx beh hints h e ep evs1 evs2 H T B NR NT.
  rewrite tor_beh_table, T.
  apply (late_resolution cx beh hints h evs1 (HRaises e) evs2 H B NR NT). reflexivity.
Qed.

(* a FURL all of whose hints go to the Tor handler and are rejected by it is answered before connect() returns, whatever
   the Tor is doing: nothing to wait for *)
Theorem tor_all_rejected_answered_at_once : forall nonpublic st epb beh hints,
  (forall h, In h hints -> beh h = tor_beh nonpublic st epb h /\ tor_hint_to_endpoint nonpublic h = Exc "InvalidHintError"%string) ->
  let r := connect_all beh hints in
  failed_calls r = 1%nat /\ active r = false /\ pending r = [].
Proof.
  intros np st epb beh hints Hall. cbv zeta.
  assert (U : usable beh hints = false).
  { unfold usable. destruct (existsb (fun h => is_pending (beh h)) hints) eqn:E; [|reflexivity].
    apply existsb_exists in E as (h & Hin & Hb). destruct (Hall h Hin) as [B I]. rewrite tor_beh_table, I in B.
    rewrite B in Hb. discriminate. }
  destruct (connect_all_outcome beh hints) as [(U' & _)|(_ & P & A & F)]; [congruence|]. cbv zeta in *.
  auto.
Qed.

(* the hypotheses of tor_never_up_reported / tor_down_reported / tor_all_rejected_answered_at_once hold of concrete
   hints (TorStateProofs.good_tor_hint = "tor:a.b:80" is accepted, bad_tor_hint = "tor:not@a@hint:123" rejected) *)
Example tor_never_up_ex :
  let beh := tor_beh (fun _ => false) TorStarting (fun _ => HPending) in
  obs (connect_all beh [bad_tor_hint; good_tor_hint]) =
    ([bad_tor_hint; good_tor_hint], [], 1, [(bad_tor_hint, 1); (good_tor_hint, 5)], Some "InvalidHintError"%string, true, 0) /\
  obs (run_late cx_default [LTimeout] (connect_all beh [bad_tor_hint; good_tor_hint])) =
    ([bad_tor_hint; good_tor_hint], [], 0, [(bad_tor_hint, 1); (good_tor_hint, 4)], Some "NegotiationError"%string, false, 1) /\
  obs (connect_all beh [bad_tor_hint]) = ([bad_tor_hint], [], 0, [(bad_tor_hint, 1)], Some "NoLocationHintsError"%string, false, 1) /\
  obs (connect_all (tor_beh (fun _ => false) (TorFails "TorDown") (fun _ => HPending)) [bad_tor_hint; good_tor_hint]) =
    ([bad_tor_hint; good_tor_hint], [], 0, [(bad_tor_hint, 1); (good_tor_hint, 2)], Some "NoLocationHintsError"%string, false, 1).
Proof. vm_compute. exact (conj eq_refl (conj eq_refl (conj eq_refl eq_refl))). Qed.

(* regression (seeded change C20-r6s1, "get the Tor going first"): with that order the REJECTED hint waits too -- a FURL with
   nothing but unusable Tor hints is not answered before the connect timeout *)
Example tor_wait_first_stalls_connector :
  let beh := fun h => of_tor HPending (tor_handler_gen TOR_STEPS_WAIT_FIRST (fun _ => false) TorStarting h) in
  failed_calls (connect_all beh [bad_tor_hint]) = 0%nat /\ pending (connect_all beh [bad_tor_hint]) = [bad_tor_hint] /\
  failed_calls (connect_all (tor_beh (fun _ => false) TorStarting (fun _ => HPending)) [bad_tor_hint]) = 1%nat.
Proof. vm_compute. repeat split; reflexivity. Qed.
