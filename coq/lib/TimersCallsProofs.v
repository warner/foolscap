(* C15 x C03: "a connection on which no byte arrives for longer than T is torn down within 2T ... AND ITS PENDING CALLS
   FAIL WITH DeadReferenceError", end to end, by composing lib/TimersRoundProofs.v (idle_torn_down)
   with lib/RequestsProofs.v (lost_connection_gives_DeadReferenceError, loss_then_drain) through the translated
   teardown chain connectionTimedOut -> shutdown -> finish / loseConnection. *)
From Coq Require Import ZArith List Bool Lia.
Import ListNotations.
Require Import Verif.lib.PyLite Verif.gen.BananaGen Verif.gen.TimersGen Verif.lib.Timers Verif.lib.TimersProofs
               Verif.lib.TimersRoundProofs.
Require Import Verif.gen.RequestsGen Verif.lib.Requests Verif.lib.RequestsProofs Verif.lib.TimersCalls.
Local Open Scope Z_scope.

(* the only lemmas that look inside the translated teardown chain (connectionTimedOut_exc, Broker_shutdown,
   Broker_connectionLost of gen/TimersGen.v) *)

(* connectionTimedOut hands shutdown a Failure that abandonAllRequests maps to DeadReferenceError *)
Lemma timeout_is_lost : is_lost timeout_reason = true.
Proof. reflexivity. Qed.

(* shutdown(why) = finish(why) once and transport.loseConnection() once *)
Lemma shutdown_spec r t x : exec_shutdown Broker_shutdown r t x = (Requests.step (fst x) (Finish r), t :: snd x).
Proof. destruct x. reflexivity. Qed.

(* Broker.connectionLost(why) = Banana.connectionLost (cancels the timers) and finish(why) *)
Lemma lost_spec c r t s :
  exec_lost c Broker_connectionLost r t s =
  {| tm := Timers.step c (tm s) (Close t); rq := Requests.step (rq s) (Finish r); lose := lose s |}.
Proof. reflexivity. Qed.

Lemma brun_cons c s e r : broker_run_from c s (e :: r) = broker_run_from c (broker_step c s e) r.
Proof. reflexivity. Qed.

Lemma brun_app c s a b : broker_run_from c s (a ++ b) = broker_run_from c (broker_run_from c s a) b.
Proof. unfold broker_run_from. apply fold_left_app. Qed.

Lemma tm_step c s e :
  tm (broker_step c s e) = match e with BReq _ => tm s | _ => Timers.run c (tm s) (tproj [e]) end.
Proof. destruct e; reflexivity. Qed.

(* the timer layer of a Broker history is the Timers model on the projected history *)
Theorem tm_run c evs : forall s, tm (broker_run_from c s evs) = Timers.run c (tm s) (tproj evs).
Proof.
  induction evs as [|e r IH]; intros s; [reflexivity|]. rewrite brun_cons, IH, tm_step.
  destruct e; reflexivity.
Qed.

(* finish() running a second time (teardown, then connectionLost; or the application's shutdown) changes nothing *)
Theorem finish_twice_changes_nothing q r r' : Requests.step (Requests.step q (Finish r)) (Finish r') = Requests.step q (Finish r).
Proof.
  pose proof (finish_disconnects q r) as D. cbn [Requests.step] in *.
  rewrite (finish_step_closed (finish_step q (reason_outcome r))). unfold finish_closed at 1. rewrite D. reflexivity.
Qed.

Lemma run_from_cons q x l : run_from q (x :: l) = run_from (Requests.step q x) l.
Proof. reflexivity. Qed.

Lemma finish_repeat q r k : run_from q (repeat (Finish r) (S k)) = Requests.step q (Finish r).
Proof.
  cbn [repeat]. rewrite run_from_cons. induction k as [|k IH]; cbn [repeat]; [reflexivity|].
  rewrite run_from_cons, finish_twice_changes_nothing. exact IH.
Qed.

Lemma iter_timed_out k t q l :
  Nat.iter k (timed_out t) (q, l) = (run_from q (repeat (Finish timeout_reason) k), repeat t k ++ l).
Proof.
  induction k as [|k IH]; [reflexivity|].
  change (Nat.iter (S k) (timed_out t) (q, l)) with (timed_out t (Nat.iter k (timed_out t) (q, l))).
  rewrite IH. unfold timed_out. rewrite shutdown_spec. cbn [fst snd repeat app].
  rewrite (repeat_cons k (Finish timeout_reason)). unfold run_from. rewrite fold_left_app. reflexivity.
Qed.

Lemma torn_new_repeat c s t :
  torn_new Z.sub c s (Tick t) = repeat t (List.length (torn_new Z.sub c s (Tick t))).
Proof. cbn [torn_new]. destruct (acts_spec Z.sub (Timers.dc s) (cT c) (last_rx s) t) as [->|[-> _]]; reflexivity. Qed.

(* one reactor turn: every teardown of the turn ran the chain once -- finish(why) and loseConnection() *)
Lemma tick_step c s t :
  let s' := broker_step c s (BTick t) in
  let new := torn_new Z.sub c (tm s) (Tick t) in
  tm s' = Timers.step c (tm s) (Tick t) /\ torn (tm s') = new ++ torn (tm s) /\ lose s' = new ++ lose s /\
  rq s' = run_from (rq s) (repeat (Finish timeout_reason) (List.length new)).
Proof.
  cbv zeta. cbn [broker_step tm rq lose]. rewrite step_exact, torn_step.
  rewrite app_length, Nat.add_sub, iter_timed_out. cbn [fst snd].
  rewrite <- torn_new_repeat. repeat split; reflexivity.
Qed.

(* "a teardown drops the transport at once": in every history, loseConnection has been called exactly at the
   times connectionTimedOut was called *)
Lemma lose_torn_step c s e :
  let new := match e with BTick t => torn_new Z.sub c (tm s) (Tick t) | _ => [] end in
  torn (tm (broker_step c s e)) = new ++ torn (tm s) /\ lose (broker_step c s e) = new ++ lose s.
Proof.
  destruct e as [t|t|t|t rr|o]; cbv zeta.
  3: destruct (tick_step c s t) as (_ & -> & -> & _); auto.
  4: auto.
  all: cbn [broker_step]; rewrite ?lost_spec; cbn [with_tm tm lose]; rewrite step_exact, torn_step; auto.
Qed.

Lemma lose_torn_run c evs : forall s, exists new,
  torn (tm (broker_run_from c s evs)) = new ++ torn (tm s) /\ lose (broker_run_from c s evs) = new ++ lose s.
Proof.
  induction evs as [|e r IH]; intros s; [exists []; auto|]. rewrite brun_cons.
  destruct (IH (broker_step c s e)) as (new & A & B). destruct (lose_torn_step c s e) as [E1 E2].
  rewrite E1 in A. rewrite E2 in B. rewrite app_assoc in A, B. eauto.
Qed.

Theorem lose_is_torn c t0 evs : lose (broker_run c t0 evs) = torn (tm (broker_run c t0 evs)).
Proof.
  destruct (lose_torn_run c evs (broker_init c t0)) as (new & A & B). unfold broker_run. rewrite A, B.
  cbn [broker_init lose tm]. rewrite init_exact, init_eq. reflexivity.
Qed.

(* the request layer of a Broker history is a history of the Requests model (so every C03 theorem applies) *)
Lemma rq_step c s e : exists ops, rq (broker_step c s e) = run_from (rq s) ops.
Proof.
  destruct e as [t|t|t|t rr|o]; [exists []|exists []| |exists [Finish rr]|exists [o]]; try reflexivity.
  destruct (tick_step c s t) as (_ & _ & _ & ->). eexists. reflexivity.
Qed.

Theorem rq_is_run c evs : forall s, exists ops, rq (broker_run_from c s evs) = run_from (rq s) ops.
Proof.
  induction evs as [|e r IH]; intros s; [exists []; reflexivity|]. rewrite brun_cons.
  destruct (IH (broker_step c s e)) as (y & ->). destruct (rq_step c s e) as (x & ->).
  exists (x ++ y). unfold run_from. rewrite fold_left_app. reflexivity.
Qed.

(* once the Broker is disconnected it stays so; a teardown disconnects it *)
Lemma disc_mono q x : disconnected q = true -> disconnected (Requests.step q x) = true.
Proof.
  intros D. destruct x as [k|rid|rid|rid|h|h o|r|b|]; cbn [Requests.step].
  - destruct (frame_call q k) as (-> & _). exact D.
  - destruct (tbl_find rid (table q)); [|exact D]. rewrite complete_step_closed. destruct (frame_complete q n) as (-> & _). exact D.
  - destruct (tbl_find rid (table q)); [|exact D]. rewrite fail_step_closed. destruct (frame_fail q n ORemoteError) as (-> & _). exact D.
  - destruct (tbl_find rid (table q)); [|exact D]. rewrite fail_step_closed. destruct (frame_fail q n OViolation) as (-> & _). exact D.
  - rewrite complete_step_closed. destruct (frame_complete q h) as (-> & _). exact D.
  - rewrite fail_step_closed. destruct (frame_fail q h o) as (-> & _). exact D.
  - apply (finish_disconnects q r).
  - exact D.
  - destruct (turn_frame q) as (E & _). cbn [Requests.step] in E. rewrite E. exact D.
Qed.

Lemma disc_run_from l : forall q, disconnected q = true -> disconnected (run_from q l) = true.
Proof. induction l as [|x l IH]; intros q D; [exact D|]. rewrite run_from_cons. apply IH, disc_mono, D. Qed.

Definition torn_disc (s : bst) : Prop := torn (tm s) <> [] -> disconnected (rq s) = true.

Lemma torn_disc_step c s e : torn_disc s -> torn_disc (broker_step c s e).
Proof.
  unfold torn_disc. intros H. destruct (lose_torn_step c s e) as [-> _]. destruct e as [t|t|t|t rr|o]; cbn [app].
  - exact H.
  - exact H.
  - destruct (tick_step c s t) as (_ & _ & _ & ->). intros N.
    destruct (torn_new Z.sub c (tm s) (Tick t)) as [|x l] eqn:E.
    + apply H, N.
    + cbn [List.length]. rewrite finish_repeat. apply finish_disconnects.
  - intros _. cbn [broker_step]. rewrite lost_spec. apply finish_disconnects.
  - intros N. apply disc_mono, H, N.
Qed.

Theorem teardown_disconnects c t0 evs : torn_disc (broker_run c t0 evs).
Proof.
  unfold broker_run.
  assert (G : forall evs s, torn_disc s -> torn_disc (broker_run_from c s evs)).
  { clear. induction evs as [|e r IH]; intros s H; [exact H|]. rewrite brun_cons. apply IH, torn_disc_step, H. }
  apply G. unfold torn_disc. cbn [broker_init tm]. rewrite init_exact, init_eq. intros N. contradiction.
Qed.

(* an idle phase: reactor turns only *)
Lemma tproj_ticks post : Forall is_btick post -> only_ticks (tproj post).
Proof.
  induction 1 as [|e r [t ->] _ IH]; [constructor|]. cbn [tproj]. constructor; [exists t; reflexivity|exact IH].
Qed.

Lemma ticks_phase c post : Forall is_btick post -> forall s,
  exists times, torn (tm (broker_run_from c s post)) = times ++ torn (tm s) /\
                lose (broker_run_from c s post) = times ++ lose s /\
                rq (broker_run_from c s post) = run_from (rq s) (repeat (Finish timeout_reason) (List.length times)).
Proof.
  induction 1 as [|e r [t ->] _ IH]; intros s.
  - exists []. repeat split; reflexivity.
  - rewrite brun_cons. destruct (IH (broker_step c s (BTick t))) as (times & A & B & C).
    destruct (tick_step c s t) as (_ & T1 & T2 & T3). rewrite T1 in A. rewrite T2 in B. rewrite T3 in C.
    exists (times ++ torn_new Z.sub c (tm s) (Tick t)). rewrite <- !app_assoc. split; [exact A|]. split; [exact B|].
    rewrite C, app_length, Nat.add_comm, repeat_app. unfold run_from. rewrite fold_left_app. reflexivity.
Qed.

(* C15 sentence 1, complete: after ANY history of a live Broker (calls made, answers received, arrivals, reactor
   turns, eventual-queue turns), if the peer goes silent and the reactor is at most d late, then once the clock has
   passed  now + 2T + EPSILON + d :
     - connectionTimedOut has run, and transport.loseConnection() was called, no later than that instant;
     - the Broker is disconnected;
     - once the eventual-send queue has run, EVERY callRemote that was still pending when the peer went silent has
       fired exactly once, with DeadReferenceError, and the request table is empty. *)
Theorem idle_calls_fail_with_DeadReferenceError c tc T d pre post h cl :
  cT c = Some T -> 0 <= T -> 0 <= d ->
  let s := broker_run c tc pre in
  sorted_from tc (tproj pre) -> no_close (tproj pre) -> disconnected (rq s) = false ->
  Forall is_btick post -> sorted_from (now (tm s)) (tproj post) -> punctual c d (tm s) (tproj post) ->
  let s' := broker_run_from c s post in
  now (tm s) + 2 * T + eps_ms + d < now (tm s') ->
  get (rq s) h = Some cl -> c_twoway cl = true -> c_fires cl = [] ->
  (exists x, In x (lose s') /\ In x (torn (tm s')) /\ x <= now (tm s) + 2 * T + eps_ms + d) /\
  disconnected (rq s') = true /\
  table (drained s') = [] /\
  exists cl', get (drained s') h = Some cl' /\ c_fires cl' = [ODeadRef].
Proof.
  intros ET HT Hd s S N Dc O S2 P s' Late G Tw F.
  assert (Etm : tm s = Timers.run c (Timers.init c tc) (tproj pre)) by (unfold s, broker_run; rewrite tm_run; reflexivity).
  assert (Etm' : tm s' = Timers.run c (tm s) (tproj post)) by (unfold s'; apply tm_run).
  (* the timers tear the connection down in time *)
  destruct (idle_torn_down c tc T d (tproj pre) (tproj post) ET HT Hd S N) as (x & Hx & Hb).
  { apply tproj_ticks, O. } { rewrite <- Etm. exact S2. } { rewrite <- Etm. exact P. }
  { rewrite <- Etm, <- Etm'. exact Late. }
  rewrite <- Etm, <- Etm' in Hx. rewrite <- Etm in Hb.
  (* no teardown before the silence: the Broker was connected *)
  assert (T0 : torn (tm s) = []).
  { destruct (torn (tm s)) eqn:E; [reflexivity|]. pose proof (teardown_disconnects c tc pre) as TD. fold s in TD.
    unfold torn_disc in TD. rewrite E in TD. rewrite TD in Dc; [discriminate|discriminate]. }
  destruct (ticks_phase c post O s) as (times & A & B & C). fold s' in A, B, C. rewrite T0, app_nil_r in A.
  assert (Hx' : In x times) by (rewrite <- A; exact Hx).
  destruct times as [|y l]; [destruct Hx'|]. cbn [List.length] in C. rewrite finish_repeat in C.
  (* the request layer is a Requests history: C03 applies *)
  destruct (rq_is_run c pre (broker_init c tc)) as (ops & Hops). change (rq s = Requests.run ops) in Hops.
  assert (E1 : rq s' = Requests.run (ops ++ [Finish timeout_reason])).
  { rewrite C, Hops. unfold Requests.run. rewrite fold_left_app. reflexivity. }
  split; [exists x; split; [rewrite B; apply in_or_app; left; exact Hx'|split; [exact Hx|exact Hb]]|].
  split; [rewrite C; apply finish_disconnects|].
  unfold drained. rewrite E1.
  destruct (loss_then_drain ops timeout_reason) as (_ & _ & Tb & _).
  split; [exact Tb|].
  rewrite Hops in Dc, G.
  exact (lost_connection_gives_DeadReferenceError ops timeout_reason h cl timeout_is_lost Dc G Tw F).
Qed.

(* every closing path: after connectionLost in ANY Broker state nothing is pending and nothing is ever re-armed *)
Theorem lost_cancels_timers c s t r post :
  let s' := broker_run_from c s (BLost t r :: post) in
  ka (tm s') = None /\ dc (tm s') = None /\ pings (tm s') = pings (tm s) /\ torn (tm s') = torn (tm s) /\ lose s' = lose s.
Proof.
  cbv zeta. rewrite tm_run. cbn [tproj].
  destruct (cancel_from_any_state c (tm s) t (tproj post)) as (A & B & C & D & _).
  split; [exact A|]. split; [exact B|]. split; [exact C|]. split; [exact D|].
  (* no teardown after the close, hence no loseConnection *)
  destruct (lose_torn_run c (BLost t r :: post) s) as (new & E1 & ->).
  rewrite tm_run in E1. cbn [tproj] in E1. rewrite D in E1. apply (app_inv_tail _ [] new) in E1. subst new. reflexivity.
Qed.

Definition bc : cfg := {| cK := Some 2000; cT := Some 3000 |}.

(* two calls, one answered; the peer falls silent at 3000; teardown at 6200; the pending call fails with
   DeadReferenceError, the answered one keeps its result; loseConnection at 6200; a later connectionLost changes nothing *)
Example ex_idle_calls :
  let pre := [BReq (Call KTwoWay); BReq (Call KTwoWay); BTick 2100; BRx 3000; BReq (Answer 1)] in
  let post := [BTick 3100; BTick 4200; BTick 6200; BTick 6300; BTick 8400; BTick 9200] in
  let s := broker_run bc 0 pre in let s' := broker_run_from bc s post in
  sorted_from 0 (tproj pre) /\ no_close (tproj pre) /\ disconnected (rq s) = false /\ Forall is_btick post /\
  punctual bc 0 (tm s) (tproj post) /\ now (tm s) + 2 * 3000 + eps_ms + 0 < now (tm s') /\
  bobs s' = ([[1]; []], [2], [6200], [6200], true) /\
  map (fun c => map ocode (c_fires c)) (calls (drained s')) = [[1]; [4]] /\
  bobs (broker_run_from bc s' [BLost 9300 (RListed ConnectionDoneC); BReq Turn; BTick 20000]) = ([[1]; [4]], [], [6200], [6200], true).
Proof.
  cbv zeta. split; [cbn; lia|]. split; [repeat constructor; intros [t E]; discriminate|].
  split; [reflexivity|]. split; [repeat constructor; eexists; reflexivity|].
  split; [vm_compute; repeat split; intros e E; inversion E; discriminate|].
  vm_compute. repeat split; reflexivity.
Qed.
