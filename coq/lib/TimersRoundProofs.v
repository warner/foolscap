(* C15: the timing sentences are ROBUST TO ROUNDING of the time arithmetic.  For every add / sub that are within
   delta of the exact sum / difference (the code uses IEEE doubles: time.time() - last, timeout + EPSILON, now + delay):
     - an idle connection is torn down by  last-activity + 2T + EPSILON + 3*delta + reactor lateness,
     - a connection on which a byte arrives at least every T - delta is never torn down by the timer,
     - teardown / PING only when the latest arrival is more than T - delta / K - delta old,
     - an idle connection emits a PING by  + 2K + EPSILON + 3*delta + lateness.
   delta = 0, add = Z.add, sub = Z.sub is the exact model of lib/Timers.v (exact_instance): the timing sentences about
   it are that case. *)
From Coq Require Import ZArith List Bool Lia.
Import ListNotations.
Require Import Verif.gen.TimersGen Verif.lib.Timers Verif.lib.TimersProofs Verif.lib.TimersRound.
Local Open Scope Z_scope.

(* the exact model is the instance with exact arithmetic *)
Theorem exact_instance c evs : forall s, runR Z.add Z.sub eps_ms c s evs = run c s evs.
Proof. reflexivity. Qed.

Theorem exact_instance_init c t0 : initR Z.add Z.sub eps_ms c t0 = init c t0.
Proof. reflexivity. Qed.

Section Within.
Variables (add sub : Z -> Z -> Z) (eps delta : Z).

Notation initR := (initR add sub eps).
Notation stepR := (stepR add sub eps).
Notation runR := (runR add sub eps).
Notation punctualR := (punctualR add sub eps).
Notation arm := (arm add eps).
Notation acts := (acts sub).
Notation rearm := (rearm add eps).

Hypotheses (Hdelta : 0 <= delta) (Heps : 0 <= eps) (add_ok : within delta add Z.add) (sub_ok : within delta sub Z.sub).

Lemma arm_ok t k : Z.abs (arm t k - (t + k + eps)) <= 2 * delta.
Proof. unfold arm. pose proof (add_ok t (add k eps)). pose proof (add_ok k eps). lia. Qed.

Definition due_by (tm : option Z) (B : Z) : Prop := exists e, tm = Some e /\ e <= B.

Definition inv (c : cfg) (s : st) : Prop :=
  last_rx s <= now s /\
  (forall x, In x (torn s) -> x <= now s) /\
  (closed s = false -> forall k, cK c = Some k -> due_by (ka s) (now s + k + eps + 2 * delta)) /\
  (closed s = false -> forall d, cT c = Some d -> torn s = [] -> due_by (dc s) (now s + d + eps + 2 * delta)).

Lemma due_mono tm B B' : due_by tm B -> B <= B' -> due_by tm B'.
Proof. intros (e & E & He) H. exists e. split; [exact E|lia]. Qed.

Lemma rearm_due tm k t B : due_by tm B -> B <= t + k + eps + 2 * delta ->
  due_by (rearm tm (Some k) t) (t + k + eps + 2 * delta).
Proof.
  intros (e & -> & He) HB. unfold rearm. destruct (e <=? t); eexists; (split; [reflexivity|]); [|lia].
  pose proof (arm_ok t k). lia.
Qed.

Lemma inv_init c t0 : inv c (initR c t0).
Proof.
  rewrite init_eq. unfold inv. cbn [now last_rx ka dc torn closed].
  split; [lia|]. split; [intros x []|].
  split; [intros _ k ->|intros _ d -> _]; (eexists; split; [reflexivity|]);
    [pose proof (arm_ok t0 k)|pose proof (arm_ok t0 d)]; lia.
Qed.

Lemma inv_step c s e : inv c s -> now s <= ev_time e -> inv c (stepR c s e).
Proof.
  intros (Hl & Ht & Hk & Hd) Hm. unfold inv. rewrite now_step, last_rx_step, closed_step, ka_step, dc_step, torn_step.
  split; [|split; [|split]].
  - unfold stamped. destruct e; cbn [ev_time] in Hm |- *; destruct (abandoned s), (use_ka s); lia.
  - intros x Hx. apply in_app_or in Hx as [Hx|Hx]; [|specialize (Ht x Hx); lia].
    destruct e as [t|t|t|t]; try contradiction.
    destruct (acts_spec sub (dc s) (cT c) (last_rx s) t) as [A|[A _]]; cbn [torn_new] in Hx; rewrite A in Hx;
      [destruct Hx | destruct Hx as [<-|[]]]. apply Z.le_refl.
  - intros C k E. destruct e as [t|t|t|t]; try discriminate; cbn [ev_time] in Hm |- *; rewrite ?E.
    1,2: apply (due_mono _ _ _ (Hk C k E)); lia.
    apply (rearm_due _ _ _ _ (Hk C k E)); lia.
  - intros C d E N. apply app_eq_nil in N as [N1 N2].
    destruct e as [t|t|t|t]; try discriminate; cbn [ev_time] in Hm |- *; rewrite ?N1, ?E.
    1,2: apply (due_mono _ _ _ (Hd C d E N2)); lia.
    apply (rearm_due _ _ _ _ (Hd C d E N2)); lia.
Qed.

Lemma inv_run c evs : forall s, inv c s -> sorted_from (now s) evs -> inv c (runR c s evs).
Proof.
  induction evs as [|e r IH]; intros s I S; [exact I|].
  destruct S as [S1 S2]. rewrite runR_cons. apply IH; [apply inv_step; assumption|]. rewrite now_step. exact S2.
Qed.

Lemma inv_reach c tc evs : sorted_from tc evs -> no_close evs ->
  let s := runR c (initR c tc) evs in inv c s /\ closed s = false.
Proof.
  intros S N. split.
  - apply inv_run; [apply inv_init|]. rewrite init_eq. exact S.
  - apply closed_run; [rewrite init_eq; reflexivity|exact N].
Qed.

(* Both timers obey the same law (tmr, log, T = ka, pings, K or dc, torn, T); that the disconnect timer is not
   re-armed after a teardown does not matter to what follows. *)
Section OneTimer.
Variables (c : cfg) (T d : Z) (tmr : st -> option Z) (log : st -> list Z).
Hypothesis log_step : forall s e,
  log (stepR c s e) = match e with Tick t => acts (tmr s) (Some T) (last_rx s) t | _ => [] end ++ log s.
Hypothesis tmr_tick : forall s t,
  acts (tmr s) (Some T) (last_rx s) t = [] -> tmr (stepR c s (Tick t)) = rearm (tmr s) (Some T) t.
Hypothesis tmr_late : forall s t, overdue_ok d s t -> forall e, tmr s = Some e -> t <= e + d.

Lemma log_run evs : forall s, exists new, log (runR c s evs) = new ++ log s.
Proof.
  induction evs as [|e r IH]; intros s; [exists []; reflexivity|].
  destruct (IH (stepR c s e)) as [new E]. rewrite log_step, app_assoc in E. eexists. exact E.
Qed.

(* Nothing arrives after t0 and the timer is due by B.  It runs by B + d.  If it then finds the arrival no older than T,
   that is at some t <= t0 + T + delta, and it re-arms for at most t + T + eps + 2 delta <= B. *)
Lemma idle_phase t0 B post : t0 + 2 * T + eps + 3 * delta <= B ->
  forall s, only_ticks post -> punctualR c d s post -> sorted_from (now s) post -> t0 <= now s -> last_rx s <= t0 ->
  due_by (tmr s) B -> B + d < now (runR c s post) ->
  exists new p, log (runR c s post) = new ++ log s /\ In p new /\ t0 <= p <= B + d.
Proof.
  intros HB. induction post as [|e r IH]; intros s O P S N L (x & Ex & Hx) Late.
  - pose proof (tmr_late s (now s) P x Ex). cbn in Late. lia.
  - inversion O as [|? ? [t ->] O2]; subst. destruct P as [P1 P2], S as [S1 S2]. cbn [ev_time] in *.
    rewrite runR_cons in *. pose proof (tmr_late s t P1 x Ex) as Hl.
    destruct (acts_spec sub (tmr s) (Some T) (last_rx s) t) as [A|(A & _)].
    + destruct (IH (stepR c s (Tick t))) as (new & p & E & Hp); try assumption.
      * rewrite now_step. cbn [ev_time]. lia.
      * rewrite last_rx_step. exact L.
      * rewrite (tmr_tick s t A), Ex. unfold acts in A. rewrite Ex in A. unfold rearm. revert A.
        destruct (Z.leb_spec x t); [|exists x; auto]. destruct (Z.ltb_spec T (sub t (last_rx s))); [discriminate|].
        intros _. eexists. split; [reflexivity|].
        pose proof (arm_ok t T). pose proof (sub_ok t (last_rx s)). lia.
      * exists new, p. rewrite E, log_step, A. auto.
    + destruct (log_run r (stepR c s (Tick t))) as [new E]. rewrite log_step, A in E.
      exists (new ++ [t]), t. rewrite <- app_assoc. split; [exact E|]. split; [apply in_elt|lia].
Qed.

Lemma log_origin evs : forall s, use_ka s = true -> forall x, In x (log (runR c s evs)) ->
  In x (log s) \/
  exists pre post, evs = pre ++ Tick x :: post /\ T - delta < x - last_arrival (last_rx s) (abandoned s) pre.
Proof.
  induction evs as [|e r IH]; intros s U x Hx; [left; exact Hx|].
  rewrite runR_cons in Hx. apply IH in Hx; [|rewrite use_ka_step; exact U].
  destruct Hx as [Hx|(pre & post & -> & Hgt)].
  - rewrite log_step in Hx. apply in_app_or in Hx as [Hx|Hx]; [|left; exact Hx]. right.
    destruct e as [t|t|t|t]; try contradiction.
    destruct (acts_spec sub (tmr s) (Some T) (last_rx s) t) as [A|(A & e & k & _ & [= <-] & _ & Hk)];
      rewrite A in Hx; [destruct Hx | destruct Hx as [<-|[]]].
    exists [], r. split; [reflexivity|]. cbn [last_arrival]. pose proof (sub_ok t (last_rx s)). lia.
  - right. exists (e :: pre), post. split; [reflexivity|]. rewrite (last_arrival_step add sub eps c s e pre U). exact Hgt.
Qed.

End OneTimer.

Lemma pings_law c K : cK c = Some K -> forall s e,
  pings (stepR c s e) = match e with Tick t => acts (ka s) (Some K) (last_rx s) t | _ => [] end ++ pings s.
Proof. intros E s e. rewrite pings_step. unfold pings_new. rewrite E. reflexivity. Qed.

Lemma ka_law c K : cK c = Some K -> forall s t,
  acts (ka s) (Some K) (last_rx s) t = [] -> ka (stepR c s (Tick t)) = rearm (ka s) (Some K) t.
Proof. intros E s t _. rewrite ka_step, E. reflexivity. Qed.

Lemma torn_law c T : cT c = Some T -> forall s e,
  torn (stepR c s e) = match e with Tick t => acts (dc s) (Some T) (last_rx s) t | _ => [] end ++ torn s.
Proof. intros E s e. rewrite torn_step. unfold torn_new. rewrite E. reflexivity. Qed.

Lemma dc_law c T : cT c = Some T -> forall s t,
  acts (dc s) (Some T) (last_rx s) t = [] -> dc (stepR c s (Tick t)) = rearm (dc s) (Some T) t.
Proof. intros E s t A. rewrite dc_step. cbn [torn_new]. rewrite E, A. reflexivity. Qed.

(* C15, sentence 1 (timing part).  `pre` is any history since connectionMade at tc (no connectionLost
   yet); from then on nothing arrives (`post` consists of reactor turns only) and the reactor is never
   more than d late.  Once the clock has passed  now(pre) + 2T + eps + 3 delta + d  the connection has been torn
   down, and that happened no later than this instant. *)
Theorem idle_torn_down_rounded c tc T d pre post :
  cT c = Some T -> 0 <= T -> 0 <= d ->
  sorted_from tc pre -> no_close pre ->
  let s := runR c (initR c tc) pre in
  only_ticks post -> sorted_from (now s) post -> punctualR c d s post ->
  let s' := runR c s post in
  now s + 2 * T + eps + 3 * delta + d < now s' ->
  exists x, In x (torn s') /\ x <= now s + 2 * T + eps + 3 * delta + d.
Proof using Hdelta Heps add_ok sub_ok. (* all four, needed or not: the *_rounded theorems have the same premises *)
  intros ET HT Hd S N s O S2 P s' Late.
  destruct (inv_reach c tc pre S N) as [(Il & It & _ & Id) C]. fold s in Il, It, Id, C.
  destruct (torn s) as [|x l] eqn:Et.
  - destruct (idle_phase c T d dc torn (torn_law c T ET) (dc_law c T ET) (fun s t H => proj2 H)
                (now s) (now s + 2 * T + eps + 3 * delta) post (Z.le_refl _) s O P S2 (Z.le_refl _) Il)
      as (new & p & E & Hp & Hb); [apply (due_mono _ _ _ (Id C T ET eq_refl)); lia | exact Late |].
    exists p. split; [|lia]. fold s' in E. rewrite E. apply in_or_app. left. exact Hp.
  - destruct (log_run c T dc torn (torn_law c T ET) post s) as [new E]. fold s' in E.
    exists x. rewrite E, Et. split; [apply in_or_app; right; left; reflexivity|].
    specialize (It x (or_introl eq_refl)). lia.
Qed.

(* C15, sentence 3: with keepalive K an idle connection emits a PING during the idle phase, no later
   than now(pre) + 2K + eps + 3 delta + d *)
Theorem ping_within_rounded c tc K d pre post :
  cK c = Some K -> 0 <= K -> 0 <= d ->
  sorted_from tc pre -> no_close pre ->
  let s := runR c (initR c tc) pre in
  only_ticks post -> sorted_from (now s) post -> punctualR c d s post ->
  let s' := runR c s post in
  now s + 2 * K + eps + 3 * delta + d < now s' ->
  exists new p, pings s' = new ++ pings s /\ In p new /\ now s <= p <= now s + 2 * K + eps + 3 * delta + d.
Proof using Hdelta Heps add_ok sub_ok.
  intros EK HK Hd S N s O S2 P s' Late.
  destruct (inv_reach c tc pre S N) as [(Il & _ & Ik & _) C]. fold s in Il, Ik, C.
  apply (idle_phase c K d ka pings (pings_law c K EK) (ka_law c K EK) (fun s t H => proj1 H)
           (now s) (now s + 2 * K + eps + 3 * delta) post (Z.le_refl _) s O P S2 (Z.le_refl _) Il);
    [apply (due_mono _ _ _ (Ik C K EK)); lia | exact Late].
Qed.

(* "only when": a teardown by the timer at x happened in a reactor turn at x at which the latest
   arrival was more than T - delta old *)
Theorem torn_only_when_idle_rounded c tc T evs x : cT c = Some T ->
  In x (torn (runR c (initR c tc) evs)) ->
  exists pre post, evs = pre ++ Tick x :: post /\ T - delta < x - last_arrival tc false pre.
Proof using Hdelta Heps add_ok sub_ok.
  intros ET Hx. apply (log_origin c T dc torn (torn_law c T ET)) in Hx; rewrite init_eq in *.
  - destruct Hx as [[]|Hx]. exact Hx.
  - cbn [use_ka]. rewrite ET. destruct (cK c); reflexivity.
Qed.

Theorem ping_only_when_idle_rounded c tc K evs x : cK c = Some K ->
  In x (pings (runR c (initR c tc) evs)) ->
  exists pre post, evs = pre ++ Tick x :: post /\ K - delta < x - last_arrival tc false pre.
Proof using Hdelta Heps add_ok sub_ok.
  intros EK Hx. apply (log_origin c K ka pings (pings_law c K EK)) in Hx; rewrite init_eq in *.
  - destruct Hx as [[]|Hx]. exact Hx.
  - cbn [use_ka]. rewrite EK. reflexivity.
Qed.

(* C15, sentence 2: if at every reactor turn the latest arrival is at most T - delta old, the timer never
   tears the connection down -- for every history, including late reactor turns and closes *)
Theorem active_kept_rounded c tc T evs : cT c = Some T ->
  (forall pre t post, evs = pre ++ Tick t :: post -> t - last_arrival tc false pre <= T - delta) ->
  torn (runR c (initR c tc) evs) = [].
Proof using Hdelta Heps add_ok sub_ok.
  intros ET H. destruct (torn (runR c (initR c tc) evs)) as [|x l] eqn:E; [reflexivity|].
  destruct (torn_only_when_idle_rounded c tc T evs x ET) as (pre & post & Ee & Hgt); [rewrite E; left; reflexivity|].
  specialize (H pre x post Ee). lia.
Qed.

End Within.

Lemma exact_case (P : (Z -> Z -> Z) -> (Z -> Z -> Z) -> Z -> Z -> Prop) :
  (forall add sub eps delta,
     0 <= delta -> 0 <= eps -> within delta add Z.add -> within delta sub Z.sub -> P add sub eps delta) ->
  P Z.add Z.sub eps_ms 0.
Proof. intros H. apply H; try discriminate; intros a b; rewrite Z.sub_diag; discriminate. Qed.

Theorem idle_torn_down c tc T d pre post :
  cT c = Some T -> 0 <= T -> 0 <= d ->
  sorted_from tc pre -> no_close pre ->
  let s := run c (init c tc) pre in
  only_ticks post -> sorted_from (now s) post -> punctual c d s post ->
  let s' := run c s post in
  now s + 2 * T + eps_ms + d < now s' ->
  exists x, In x (torn s') /\ x <= now s + 2 * T + eps_ms + d.
Proof.
  intros ET HT Hd S N s O S2 P s' Late.
  pose proof (exact_case _ idle_torn_down_rounded c tc T d pre post ET HT Hd S N O S2 P) as H.
  rewrite Z.mul_0_r, Z.add_0_r in H. exact (H Late).
Qed.

Theorem ping_within c tc K d pre post :
  cK c = Some K -> 0 <= K -> 0 <= d ->
  sorted_from tc pre -> no_close pre ->
  let s := run c (init c tc) pre in
  only_ticks post -> sorted_from (now s) post -> punctual c d s post ->
  let s' := run c s post in
  now s + 2 * K + eps_ms + d < now s' ->
  exists new p, pings s' = new ++ pings s /\ In p new /\ now s <= p <= now s + 2 * K + eps_ms + d.
Proof.
  intros EK HK Hd S N s O S2 P s' Late.
  pose proof (exact_case _ ping_within_rounded c tc K d pre post EK HK Hd S N O S2 P) as H.
  rewrite Z.mul_0_r, Z.add_0_r in H. exact (H Late).
Qed.

Theorem torn_only_when_idle c tc T evs x : cT c = Some T ->
  In x (torn (run c (init c tc) evs)) ->
  exists pre post, evs = pre ++ Tick x :: post /\ T < x - last_arrival tc false pre.
Proof.
  intros ET Hx. rewrite <- (Z.sub_0_r T).
  exact (exact_case _ torn_only_when_idle_rounded c tc T evs x ET Hx).
Qed.

Theorem ping_only_when_idle c tc K evs x : cK c = Some K ->
  In x (pings (run c (init c tc) evs)) ->
  exists pre post, evs = pre ++ Tick x :: post /\ K < x - last_arrival tc false pre.
Proof.
  intros EK Hx. rewrite <- (Z.sub_0_r K).
  exact (exact_case _ ping_only_when_idle_rounded c tc K evs x EK Hx).
Qed.

Theorem active_kept c tc T evs : cT c = Some T ->
  (forall pre t post, evs = pre ++ Tick t :: post -> t - last_arrival tc false pre <= T) ->
  torn (run c (init c tc) evs) = [].
Proof.
  intros ET H. rewrite <- (Z.sub_0_r T) in H.
  exact (exact_case _ active_kept_rounded c tc T evs ET H).
Qed.

(* non-vacuity: arithmetic that rounds to a grid of 7 ms (error <= 3 ms) satisfies the hypotheses, gives a
   DIFFERENT run from the exact one, and obeys the robust bound *)

Lemma snap_ok h x : 0 <= h -> Z.abs (snap h x - x) <= h.
Proof.
  intros H. unfold snap. pose proof (Z.div_mod (x + h) (2 * h + 1) ltac:(lia)) as D.
  pose proof (Z.mod_pos_bound (x + h) (2 * h + 1) ltac:(lia)) as M. lia.
Qed.

Lemma add_snap_ok h : 0 <= h -> within h (add_snap h) Z.add.
Proof. intros H a b. apply snap_ok. assumption. Qed.
Lemma sub_snap_ok h : 0 <= h -> within h (sub_snap h) Z.sub.
Proof. intros H a b. apply snap_ok. assumption. Qed.

Example ex_rounded :
  let c := {| cK := None; cT := Some 2998 |} in
  let evs := [Rx 102; Tick 3101; Tick 6202; Tick 6300] in
  let R := runR (add_snap 3) (sub_snap 3) 100 c (initR (add_snap 3) (sub_snap 3) 100 c 0) evs in
  torn (run c (init c 0) evs) = [3101] /\     (* exact: age 2999 > 2998 at the first firing *)
  torn R = [6202] /\                            (* rounded: the age 2999 is computed as 2996, the teardown waits for the next firing *)
  6202 <= 102 + 2 * 2998 + 100 + 3 * 3 + 0.    (* ... which the robust bound allows *)
Proof. vm_compute. split; [reflexivity|]. split; [reflexivity|]. discriminate. Qed.
