(* C17: REFINEMENT.  The Promise model of lib/Promise.v keeps its own FIFO of scheduled calls (`queue`, appended to
   by `enq`, emptied by `pturn`).  Here the same promise operations are run on top of the TRANSLATED code of
   foolscap/eventual.py (gen/EventualGen.v, the very definitions the queue model of lib/Eventual.v runs): every call
   the promise code schedules goes through the translated eventually(), and a reactor turn is the translated _turn
   whose environment invokes the scheduled promise callbacks (Promise._deliver, Deferred.callback).  The theorem
   pq_refines says that, for every program and every configuration of the promise code, this machine and the model
   of lib/Promise.v produce the same events and the same state: the Promise model's FIFO IS the eventual-send queue.
   The generic facts about the translated code used on the way (they hold for every kind of callable and every
   environment) are what carries "never synchronously / in submission order / what a callback schedules waits for
   the next turn" over to promise callbacks. *)
From Coq Require Import ZArith List Bool.
Import ListNotations.
Require Import Verif.lib.EventualBase Verif.gen.EventualGen Verif.lib.Promise.
Local Open Scope Z_scope.

Section Generic.
Context {C F U : Type}.
Notation W := (world C F U).
Notation A := (EventualBase.act C F U).

(* eventually(x), as translated: the entry goes to the tail of self._events and the reactor is armed; nothing else
   happens, the environment is not used -- the entry is NOT invoked *)
Definition appended (w : W) (x : C) : W :=
  mkW (w_events w ++ [x]) (w_flushers w) true (w_sched w || negb (w_timer w)) (w_in_turn w) (w_loc w) (w_obs w) (w_user w).

Lemma eventually_gen (E : env C F U) x w : m_eventually E x w = (appended w x, [], FNorm).
Proof.
  cbv beta iota zeta delta [m_eventually m_append seqa cond ret p_events_append p_arm_timer t_timer appended upd_events
    w_events w_flushers w_timer w_sched w_in_turn w_loc w_obs w_user].
  destruct w as [ev fl ti sc it lo ob us]. destruct ti; destruct sc; reflexivity.
Qed.

(* `try: a  except: log.err()`, the body of the batch loop: whatever a raises is swallowed *)
Definition swallow (a : A) : A :=
  fun w => let '(w1, t1, f1) := a w in (w1, t1, match f1 with FRet r => FRet r | _ => FNorm end).

Lemma for_list_ext (b1 b2 : C -> list C -> A) :
  (forall x r w, b1 x r w = b2 x r w) -> forall l w, for_list b1 l w = for_list b2 l w.
Proof.
  intros H. induction l as [|x l IH]; intros w; cbn [for_list]; [reflexivity|].
  rewrite H. destruct (b2 x l w) as [[w1 t1] [|r|i k]]; try reflexivity. rewrite IH. reflexivity.
Qed.

(* _turn, as translated: the timer handle is dropped, the batch is taken out of self._events (which is left empty),
   every entry of the batch is invoked in order (whatever it raises is swallowed), then the flush observers are served
   while nothing is queued *)
Definition turn_start (w : W) : W :=
  mkW [] (w_flushers w) false (w_sched w) true (w_events w) (w_obs w) (w_user w).
Definition turn_mid (w : W) : W :=
  mkW (w_events w) (w_flushers w) (w_timer w) (w_sched w) false (w_loc w) (w_obs w) (w_user w).

(* `while self._flushObservers and not self._events: self._flushObservers.pop(0).callback(None)` *)
Definition obs_loop (E : env C F U) : A :=
  p_while (e_fuel E) (fun w => andb (t_observers w) (negb (t_events w))) (seqa (p_pop0_callback (e_fire E)) ret).

Lemma turn_gen (E : env C F U) w :
  m__turn E w =
  let '(w2, t2, f2) := for_list (fun x rest => swallow (e_call E x rest)) (w_events w) (turn_start w) in
  match f2 with
  | FNorm => let '(w3, t3, f3) := seqa (obs_loop E) ret (turn_mid w2) in (w3, t2 ++ t3, f3)
  | _ => (w2, t2, f2)
  end.
Proof.
  unfold m__turn, obs_loop.
  cbv beta iota zeta delta [seqa p_timer_none p_swap_events p_set_in_turn p_for_loc ret
    w_events w_flushers w_timer w_sched w_in_turn w_loc w_obs w_user turn_start turn_mid].
  rewrite (for_list_ext _ (fun x rest => swallow (e_call E x rest))).
  2:{ intros x r w1. unfold swallow, try_catch, p_log_err.
      destruct (e_call E x r w1) as [[w2 t2] [|r2|i k]]; cbv beta iota zeta delta [ret catches]; cbn [app];
        rewrite ?app_nil_r; reflexivity. }
  destruct w as [ev fl ti sc it lo ob us].
  match goal with |- context [for_list ?b ?l ?w1] => destruct (for_list b l w1) as [[w2 t2] [|r2|i k]] end;
    cbn [app]; try reflexivity.
  match goal with |- context [p_while ?f ?c ?b ?w1] => destruct (p_while f c b w1) as [[w3 t3] [|r3|i3 k3]] end;
    cbn [app]; rewrite ?app_nil_r; reflexivity.
Qed.

Lemma seqa_ret (a : A) w : seqa a ret w = a w.
Proof. unfold seqa, ret. destruct (a w) as [[w1 t1] [|r|i k]]; rewrite ?app_nil_r; reflexivity. Qed.

Lemma obs_loop_nil (E : env C F U) w : w_flushers w = [] -> obs_loop E w = (w, [], FNorm).
Proof.
  intros H. unfold obs_loop, p_while. destruct (e_fuel E w) as [|n]; cbn [while_fuel]; [reflexivity|].
  unfold t_observers. rewrite H. reflexivity.
Qed.

End Generic.

Definition setq (s : ps) (q : list task) : ps := {| tbl := tbl s; next := next s; queue := q; defs := defs s |}.

(* f does not look at the queue *)
Definition framed {X} (f : ps -> ps * X) : Prop :=
  forall s q, f (setq s q) = let '(s', x) := f (setq s []) in (setq s' (q ++ queue s'), x).

(* the same at a state whose own queue is not empty: this is what lets framed steps follow one another *)
Lemma framed_app {X} (f : ps -> ps * X) : framed f ->
  forall s q, f (setq s (q ++ queue s)) = let '(s', x) := f s in (setq s' (q ++ queue s'), x).
Proof.
  intros Hf s q. rewrite Hf. replace (f s) with (f (setq s (queue s))) by (destruct s; reflexivity).
  rewrite (Hf s (queue s)). destruct (f (setq s [])) as [s' x]. cbn [setq queue]. rewrite app_assoc. reflexivity.
Qed.

(* closes such an equation once the operation has been computed: both sides are the same record up to `++ []` and associativity *)
Ltac fr_done := cbn [setq enq setp set_def alloc fst snd tbl next queue defs app]; rewrite ?app_nil_r, <- ?app_assoc; reflexivity.

Lemma resolve2_frame c top p o : framed (fun s => resolve2 c top s p o).
Proof.
  intros s q. unfold resolve2. cbn [setq tbl]. destruct (tbl s p) as [pr|]; [|fr_done].
  destruct (match o with Fail _ => _ | Val _ => _ end); [fr_done|].
  destruct (plive pr); cbn [negb]; [fr_done|]. destruct (pending_state (pstate pr)); fr_done.
Qed.

Lemma setp_setq s q p pr : setp (setq s q) p pr = setq (setp s p pr) q.
Proof. reflexivity. Qed.
Lemma setdef_setq s q m d : set_def (setq s q) m d = setq (set_def s m d) q.
Proof. reflexivity. Qed.
Lemma setq_setq s q q' : setq (setq s q) q' = setq s q'.
Proof. reflexivity. Qed.

Lemma chain_to_frame c top p r : framed (fun s => chain_to c top s p r).
Proof.
  intros s q. unfold chain_to. cbn [setq tbl]. destruct (tbl s r) as [qr|]; [|fr_done].
  destruct (pc_wait_on c (pstate qr)).
  - destruct (plive qr); fr_done.
  - destruct (ptarget qr); [apply resolve2_frame|fr_done].
Qed.

Lemma resolve_call_frame c top p x : framed (fun s => resolve_call c top s p x).
Proof.
  intros s q. unfold resolve_call. cbn [setq tbl]. destruct (tbl s p) as [pr|]; [|fr_done].
  destruct (pc_resolve_guarded c && negb (is_eventual (pstate pr))); [fr_done|].
  destruct x as [v|f|r]; try apply resolve2_frame.
  destruct (tbl s r) as [qr|]; [|fr_done].
  rewrite !setp_setq, chain_to_frame. cbn [setq tbl].
  match goal with |- context [chain_to c top ?s0 p r] => destruct (chain_to c top s0 p r) as [s1 e1] end. reflexivity.
Qed.

Lemma resolver_frame c r x : framed (fun s => resolver c s r x).
Proof. intros s q. unfold resolver. destruct r; [apply resolve_call_frame|fr_done]. Qed.

Lemma resolver_opt_frame c r x : framed (fun s => resolver_opt c s r x).
Proof. intros s q. unfold resolver_opt. destruct x; [apply resolver_frame|fr_done]. Qed.

Lemma send_op_frame c p m b wr : framed (fun s => send_op c s p m b wr).
Proof.
  intros s q. unfold send_op. cbn [setq tbl]. destruct (tbl s p) as [pr|]; [|fr_done].
  destruct wr; cbn [alloc setq tbl next queue defs];
    (destruct (pc_queue_on c (pstate pr)); [destruct (plive pr)|]); fr_done.
Qed.

Lemma when_op_frame c p w : framed (fun s => when_op c s p w).
Proof.
  intros s q. unfold when_op. cbn [setq tbl]. destruct (tbl s p) as [pr|]; [|fr_done].
  destruct (pc_wait_on c (pstate pr)); [destruct (plive pr)|destruct (ptarget pr)]; fr_done.
Qed.

Lemma frame_bind (f g : ps -> ps * list pev) s q :
  (forall s q, f (setq s q) = let '(s', e) := f (setq s []) in (setq s' (q ++ queue s'), e)) ->
  (forall s q, g (setq s q) = let '(s', e) := g (setq s []) in (setq s' (q ++ queue s'), e)) ->
  (let '(s1, e1) := f (setq s q) in let '(s2, e2) := g s1 in (s2, e1 ++ e2)) =
  (let '(s', e) := (let '(s1, e1) := f (setq s []) in let '(s2, e2) := g s1 in (s2, e1 ++ e2)) in (setq s' (q ++ queue s'), e)).
Proof.
  intros Hf Hg. rewrite Hf. destruct (f (setq s [])) as [s1 e1]. rewrite (framed_app g Hg).
  destruct (g s1) as [s2 e2]. reflexivity.
Qed.

Lemma meth_send_frame c m : framed (fun s => meth_send c s m).
Proof. intros s q. unfold meth_send. destruct (mbeh m); try fr_done. apply send_op_frame. Qed.

Lemma meth_result_frame nx m : framed (fun s => meth_result nx s m).
Proof.
  intros s q. unfold meth_result. destruct (mbeh m); try fr_done.
  cbn [setq defs]. destruct (dget (defs s) (mid m)) as [[r|x0|]|]; fr_done.
Qed.

Lemma run_task_frame c t : framed (fun s => run_task c s t).
Proof.
  intros s q. destruct t as [p m|p [w|p'] o]; cbn [run_task].
  - cbn [setq tbl next]. destruct (tbl s p) as [pr|]; [|fr_done].
    destruct (ptarget pr) as [[v|f]|]; [| |fr_done].
    + rewrite meth_send_frame. destruct (meth_send c (setq s []) m) as [s0 e0].
      rewrite (framed_app _ (meth_result_frame (next s) m)). destruct (meth_result (next s) s0 m) as [s1 x].
      rewrite (framed_app _ (resolver_opt_frame c (mres m) x)). destruct (resolver_opt c s1 (mres m) x) as [s2 e2].
      reflexivity.
    + rewrite resolver_frame. destruct (resolver c (setq s []) (mres m) (RFail f)) as [s1 e1]. reflexivity.
  - fr_done.
  - apply resolve2_frame.
Qed.

Lemma fire_def_frame c m x : framed (fun s => fire_def c s m x).
Proof.
  intros s q. unfold fire_def. cbn [setq next defs].
  destruct (match x with RProm r => negb (Nat.ltb r (next s)) | _ => false end); [fr_done|].
  destruct (dget (defs s) m) as [[r|x0|]|]; try fr_done.
  rewrite setdef_setq. apply resolver_frame.
Qed.

(* the world: entries = promise tasks, no flush Deferreds are used by promise.py (F = unit), the rest of the world =
   the promise table (a ps whose own queue field stays empty) and the log of promise events *)
Definition pw := world task unit (ps * list pev).
Definition penv := env task unit (ps * list pev).

Definition core (w : pw) : ps := setq (fst (w_user w)) [].
Definition plog (w : pw) : list pev := snd (w_user w).
(* what the model of lib/Promise.v would hold: the same table, and as queue the entries waiting in self._events *)
Definition abs (w : pw) : ps := setq (fst (w_user w)) (w_events w).

Definition env0 : penv := mkEnv (fun _ _ => ret) (fun _ => ret) (fun _ => ret) (fun _ => O).

(* every call the promise code schedules goes through the translated eventually() *)
Definition sched_all (ts : list task) (w : pw) : pw :=
  fold_left (fun w x => fst (fst (m_eventually env0 x w))) ts w.

(* a promise operation f runs on the table; the calls it schedules are handed to eventually() in order *)
Definition lift (f : ps -> ps * list pev) (w : pw) : pw :=
  let '(s', e) := f (core w) in
  upd_user (sched_all (queue s') w) (setq s' [], plog w ++ e).

(* invoking a scheduled entry: Promise._deliver / Deferred.callback run, as run_task says *)
Definition call_p (c : pcfg) (t : task) (rest : list task) : EventualBase.act task unit (ps * list pev) :=
  fun w => (lift (fun s => run_task c s t) w, [], FNorm).

Definition env_p (c : pcfg) : penv := mkEnv (call_p c) (fun _ => ret) (fun _ => ret) (fun _ => O).

Definition turn_p (c : pcfg) (w : pw) : pw :=
  if negb (w_sched w) then w else
  fst (fst (m__turn (env_p c) (mkW (w_events w) (w_flushers w) (w_timer w) false (w_in_turn w) (w_loc w) (w_obs w) (w_user w)))).

Definition step_p (c : pcfg) (w : pw) (o : pop) : pw :=
  match o with
  | PTurn => turn_p c w
  | _ => lift (fun s => pstep c s o) w
  end.

Definition run_p (c : pcfg) (w : pw) (ops : list pop) : pw := fold_left (step_p c) ops w.

Definition pw0 : pw := mkW [] [] false false false [] [] (ps0, []).

Lemma pop_is_turn (o : pop) : o = PTurn \/ o <> PTurn.
Proof. destruct o; first [left; reflexivity | right; discriminate]. Qed.

(* K: the timer handle mirrors the reactor, and a reactor call is pending exactly when something is queued.
   Between operations moreover no flush observer is registered, no batch is running and the queue field of the
   table is empty (what is scheduled is in self._events) *)
Definition K (w : pw) : Prop := w_timer w = w_sched w /\ w_sched w = negb (is_nil (w_events w)).
Definition pq_inv (w : pw) : Prop :=
  w_flushers w = [] /\ w_in_turn w = false /\ K w /\ queue (fst (w_user w)) = [].

Lemma sched_all_spec ts : forall w,
  w_events (sched_all ts w) = w_events w ++ ts /\ w_user (sched_all ts w) = w_user w /\
  w_flushers (sched_all ts w) = w_flushers w /\ w_in_turn (sched_all ts w) = w_in_turn w /\
  w_loc (sched_all ts w) = w_loc w /\ w_obs (sched_all ts w) = w_obs w /\ (K w -> K (sched_all ts w)).
Proof.
  induction ts as [|x ts IH]; intros w; cbn [sched_all fold_left].
  - rewrite app_nil_r. repeat (split; [reflexivity|]). auto.
  - rewrite eventually_gen. cbn [fst]. fold (sched_all ts (appended w x)).
    destruct (IH (appended w x)) as (A & B & C0 & D & L & O & T).
    split; [rewrite A; cbn [appended w_events]; rewrite <- app_assoc; reflexivity|].
    split; [exact B|]. split; [exact C0|]. split; [exact D|]. split; [exact L|]. split; [exact O|].
    intros [K1 K2]. apply T. unfold K. cbn [appended w_timer w_sched w_events]. rewrite K1.
    clear K2. split; [destruct (w_sched w); reflexivity|].
    destruct (w_sched w); destruct (w_events w); reflexivity.
Qed.

Lemma lift_facts (f : ps -> ps * list pev) w :
  w_flushers (lift f w) = w_flushers w /\ w_in_turn (lift f w) = w_in_turn w /\ w_loc (lift f w) = w_loc w /\
  (K w -> K (lift f w)) /\ queue (fst (w_user (lift f w))) = [].
Proof.
  unfold lift. destruct (f (core w)) as [s1 e1].
  destruct (sched_all_spec (queue s1) w) as (A & B & C0 & D & L & O & T).
  unfold upd_user, K. cbn [w_flushers w_in_turn w_loc w_timer w_sched w_events w_user fst setq queue].
  split; [exact C0|]. split; [exact D|]. split; [exact L|]. split; [exact T|reflexivity].
Qed.

(* a lifted framed operation is the operation of lib/Promise.v on the abstraction; `front` = entries of a running
   batch that have not been started (they are in front of self._events in the queue of lib/Promise.v) *)
Lemma lift_abs (f : ps -> ps * list pev) front w : framed f ->
  let '(s', e) := f (setq (fst (w_user w)) (front ++ w_events w)) in
  setq (fst (w_user (lift f w))) (front ++ w_events (lift f w)) = s' /\ plog (lift f w) = plog w ++ e.
Proof.
  intros Hf. rewrite Hf. unfold lift, core. destruct (f (setq (fst (w_user w)) [])) as [s1 e1].
  destruct (sched_all_spec (queue s1) w) as (A & B & _).
  unfold plog, upd_user. cbn [w_user w_events fst snd]. rewrite A, <- app_assoc. split; reflexivity.
Qed.

Lemma pstep_frame c o : o <> PTurn -> framed (fun s => pstep c s o).
Proof.
  intros Ho s q. destruct o as [|p m b|p m b|p w|p x|m x|]; cbn [pstep]; try contradiction.
  - fr_done.
  - apply send_op_frame.
  - apply send_op_frame.
  - apply when_op_frame.
  - destruct x as [v|f|r]; try apply resolve_call_frame.
    cbn [setq next]. destruct (Nat.ltb r (next s)); [apply resolve_call_frame|fr_done].
  - apply fire_def_frame.
Qed.

(* the batch loop of the translated _turn with promise callbacks is run_n of lib/Promise.v *)
Definition fold_calls (c : pcfg) (batch : list task) (w : pw) : pw :=
  fold_left (fun w t => lift (fun s => run_task c s t) w) batch w.

Lemma for_list_calls c batch : forall w,
  for_list (fun x rest => swallow (e_call (env_p c) x rest)) batch w = (fold_calls c batch w, [], FNorm).
Proof.
  induction batch as [|t rest IH]; intros w; cbn [for_list fold_calls fold_left]; [reflexivity|].
  unfold swallow at 1. cbn [env_p e_call call_p]. rewrite IH. reflexivity.
Qed.

Lemma fold_calls_facts c batch : forall w,
  w_flushers (fold_calls c batch w) = w_flushers w /\ w_in_turn (fold_calls c batch w) = w_in_turn w /\
  (K w -> K (fold_calls c batch w)) /\
  (queue (fst (w_user w)) = [] -> queue (fst (w_user (fold_calls c batch w))) = []).
Proof.
  induction batch as [|t rest IH]; intros w; cbn [fold_calls fold_left]; [auto|].
  destruct (lift_facts (fun s => run_task c s t) w) as (A & B & _ & D & E0).
  destruct (IH (lift (fun s => run_task c s t) w)) as (A' & B' & D' & E').
  fold (fold_calls c rest (lift (fun s => run_task c s t) w)). rewrite A', B', A, B.
  split; [reflexivity|]. split; [reflexivity|]. split; [intros Hk; apply D', D, Hk|intros _; apply E', E0].
Qed.

Lemma batch_abs c batch : forall w,
  let '(s', e) := run_n c (List.length batch) (setq (fst (w_user w)) (batch ++ w_events w)) in
  setq (fst (w_user (fold_calls c batch w))) (w_events (fold_calls c batch w)) = s' /\
  plog (fold_calls c batch w) = plog w ++ e.
Proof.
  induction batch as [|t rest IH]; intros w; cbn [List.length run_n fold_calls fold_left app].
  - rewrite app_nil_r. split; reflexivity.
  - unfold run_one. cbn [setq queue tbl next defs].
    pose proof (lift_abs _ rest w (run_task_frame c t)) as A.
    cbn beta in A. change {| tbl := tbl (fst (w_user w)); next := next (fst (w_user w)); queue := rest ++ w_events w;
                              defs := defs (fst (w_user w)) |} with (setq (fst (w_user w)) (rest ++ w_events w)).
    destruct (run_task c (setq (fst (w_user w)) (rest ++ w_events w)) t) as [s1 e1]. destruct A as [A1 A2].
    specialize (IH (lift (fun s => run_task c s t) w)). rewrite A1 in IH.
    destruct (run_n c (List.length rest) s1) as [s2 e2]. destruct IH as [I1 I2].
    fold (fold_calls c rest (lift (fun s => run_task c s t) w)).
    split; [exact I1|]. rewrite I2, A2, app_assoc. reflexivity.
Qed.

Lemma turn_abs c w : pq_inv w ->
  let '(s', e) := pturn c (abs w) in abs (turn_p c w) = s' /\ plog (turn_p c w) = plog w ++ e /\ pq_inv (turn_p c w).
Proof.
  intros (I1 & I2 & [K1 K2] & I4). unfold turn_p, pturn, abs at 1. cbn [setq queue].
  destruct (w_sched w) eqn:Sc; cbn [negb].
  2:{ assert (He : w_events w = []) by (destruct (w_events w); [reflexivity|discriminate]).
      rewrite He. cbn [List.length run_n]. split; [reflexivity|]. split; [rewrite app_nil_r; reflexivity|].
      unfold pq_inv, K. rewrite Sc, He. auto. }
  rewrite turn_gen, for_list_calls. cbn [w_events].
  match goal with |- context [fold_calls c ?b ?ws] =>
    pose proof (batch_abs c b ws) as A; destruct (fold_calls_facts c b ws) as (F1 & F2 & F3 & F4);
    set (wb := fold_calls c b ws) in * end.
  unfold plog in *. cbn [turn_start w_events w_user w_flushers] in A, F1, F4. rewrite app_nil_r in A.
  destruct (F3 (conj eq_refl eq_refl)) as [Kb1 Kb2].
  rewrite seqa_ret, obs_loop_nil by (cbn [turn_mid w_flushers]; rewrite F1; exact I1).
  unfold abs. cbn [app fst turn_mid w_user w_events].
  destruct (run_n c (List.length (w_events w)) (setq (fst (w_user w)) (w_events w))) as [s1 e1].
  destruct A as [A1 A2]. split; [exact A1|]. split; [exact A2|].
  unfold pq_inv, K. cbn [turn_mid w_flushers w_in_turn w_timer w_sched w_events w_user]. rewrite F1. auto.
Qed.

Lemma step_abs c w o : pq_inv w ->
  let '(s', e) := pstep c (abs w) o in abs (step_p c w o) = s' /\ plog (step_p c w o) = plog w ++ e /\ pq_inv (step_p c w o).
Proof.
  intros I. destruct (pop_is_turn o) as [->|Ho]; [apply turn_abs; exact I|].
  replace (step_p c w o) with (lift (fun s => pstep c s o) w) by (destruct o; try reflexivity; contradiction).
  pose proof (lift_abs _ [] w (pstep_frame c o Ho)) as A. cbn [app] in A. fold (abs w) in A.
  destruct (pstep c (abs w) o) as [s1 e1]. destruct A as [A1 A2]. split; [exact A1|]. split; [exact A2|].
  destruct I as (I1 & I2 & I3 & I4). destruct (lift_facts (fun s => pstep c s o) w) as (F1 & F2 & _ & F4 & F5).
  unfold pq_inv. rewrite F1, F2. auto.
Qed.

(* THE REFINEMENT: for every configuration of the promise code, every state between operations and every program,
   running the promise operations on the translated eventual-send queue gives the events and the state of the model of
   lib/Promise.v *)
Theorem pq_refines c ops : forall w, pq_inv w ->
  let '(s', e) := prun c (abs w) ops in
  abs (run_p c w ops) = s' /\ plog (run_p c w ops) = plog w ++ e /\ pq_inv (run_p c w ops).
Proof.
  induction ops as [|o ops IH]; intros w I; cbn [prun run_p fold_left].
  - rewrite app_nil_r. auto.
  - pose proof (step_abs c w o I) as St.
    destruct (pstep c (abs w) o) as [s1 e1]. destruct St as (S1 & S2 & S3).
    specialize (IH (step_p c w o) S3). rewrite S1 in IH.
    fold (run_p c (step_p c w o) ops). destruct (prun c s1 ops) as [s2 e2]. destruct IH as (J1 & J2 & J3).
    split; [exact J1|]. split; [rewrite J2, S2, app_assoc; reflexivity|exact J3].
Qed.

Lemma pq_inv0 : pq_inv pw0.
Proof. repeat split. Qed.

Corollary pq_refines0 c ops :
  prun c ps0 ops = (abs (run_p c pw0 ops), plog (run_p c pw0 ops)).
Proof.
  pose proof (pq_refines c ops pw0 pq_inv0) as A. change (abs pw0) with ps0 in A.
  destruct (prun c ps0 ops) as [s e]. destruct A as (A1 & A2 & _). rewrite A1, A2. reflexivity.
Qed.

(* non-vacuity: the two machines on a program with a chain, sends before and after, a method that sends again *)
Example pq_example :
  let ops := [PNew; PNew; PSend 0 1 (BRet 11); PWhen 0 100; PResolve 0 (RProm 1); PSend 0 2 (BSendRet 0 3 7);
              PResolve 1 (RVal 9); PTurn; PTurn; PWhen 0 101; PTurn; PTurn] in
  plog (run_p src_pcfg pw0 ops) = snd (prun src_pcfg ps0 ops) /\
  List.length (filter (fun e => match e with EDelivered _ _ _ => true | _ => false end) (plog (run_p src_pcfg pw0 ops))) = 3%nat.
Proof. vm_compute. split; reflexivity. Qed.
