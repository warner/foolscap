(* C18: "subscribers see an order-preserving subsequence" END TO END: logger (lib/LogBuf.v step / run) composed with the
   Subscription machine (sub_step) and subscribe(catch_up): what a subscriber is handed -- the catch-up batch, then what
   start_sending delivers, then what still waits in the queue -- is in event-number order, the catch-up part entirely
   before the live part, for every history, every schedule of turns / acknowledgements / failures, any limits.
   The two sides meet in sends_of sops = map e_num (run_sends ..): the logger gives run_sends in number order above the
   counter and every buffered number at or below it; the Subscription gives delivered ++ queue as a subsequence of the
   sends. *)
From Coq Require Import ZArith List Bool Lia Sorting.Sorted Sorting.Permutation.
Import ListNotations.
Require Import Verif.lib.PyLite Verif.gen.LogBufGen Verif.lib.LogBuf Verif.lib.LogBufProofs.
Local Open Scope Z_scope.

(* the in-flight window: the number of remote calls that are neither acknowledged nor failed never exceeds the counter,
   and the counter never exceeds MAX_IN_FLIGHT *)
Theorem subscriber_window maxq maxfl ops : 0 <= maxq -> 0 <= maxfl ->
  let s := sub_run maxq maxfl ops in 0 <= q_outstanding s <= q_inflight s /\ q_inflight s <= maxfl.
Proof.
  intros Hq Hf. cbv zeta. destruct (sub_run_inv maxq maxfl ops Hq Hf) as (_ & H2 & H3 & H4 & _). lia.
Qed.

Theorem subscriber_window_real ops :
  let s := sub_run MAX_QUEUE_SIZE MAX_IN_FLIGHT ops in 0 <= q_outstanding s <= q_inflight s /\ q_inflight s <= MAX_IN_FLIGHT.
Proof. destruct real_limits_nonneg. apply subscriber_window; assumption. Qed.

Lemma subseq_trans {A} (a b : list A) : subseq a b -> forall c, subseq b c -> subseq a c.
Proof.
  intros H1 c H2. revert a H1. induction H2 as [m | x l m H IH | x l m H IH]; intros a H1.
  - inversion H1; subst. constructor.
  - inversion H1; subst; [constructor | apply ss_cons, IH; assumption | apply ss_skip, IH; assumption].
  - apply ss_skip, IH, H1.
Qed.

Lemma subseq_Forall {A} (P : A -> Prop) (l m : list A) : subseq l m -> Forall P m -> Forall P l.
Proof.
  induction 1 as [m | x l m H IH | x l m H IH]; intros F; [constructor| |].
  - inversion F; subst. constructor; [assumption | apply IH; assumption].
  - inversion F; subst. apply IH; assumption.
Qed.

Lemma subseq_sorted {A} (R : A -> A -> Prop) (l m : list A) : subseq l m -> StronglySorted R m -> StronglySorted R l.
Proof.
  induction 1 as [m | x l m H IH | x l m H IH]; intros S; [constructor| |].
  - inversion S; subst. constructor; [apply IH; assumption | eapply subseq_Forall; eassumption].
  - inversion S; subst. apply IH; assumption.
Qed.

Lemma subseq_app_skip {A} (l m p : list A) : subseq l m -> subseq l (p ++ m).
Proof. intros H. induction p; cbn [app]; [exact H | apply ss_skip; assumption]. Qed.

Lemma subseq_app_both {A} (p l m : list A) : subseq l m -> subseq (p ++ l) (p ++ m).
Proof. intros H. induction p; cbn [app]; [exact H | apply ss_cons; assumption]. Qed.

Lemma sorted_app {A} (R : A -> A -> Prop) (a b : list A) :
  StronglySorted R a -> StronglySorted R b -> (forall x y, In x a -> In y b -> R x y) -> StronglySorted R (a ++ b).
Proof.
  induction a as [|x a IH]; intros Sa Sb H; cbn [app]; [exact Sb|]. inversion Sa; subst. constructor.
  - apply IH; [assumption | assumption | intros; apply H; [right|]; assumption].
  - apply Forall_app. split; [assumption|]. apply Forall_forall. intros y Hy. apply H; [left; reflexivity | exact Hy].
Qed.

Lemma sorted_all {A} (R : A -> A -> Prop) (l : list A) : (forall x y, In x l -> In y l -> R x y) -> StronglySorted R l.
Proof.
  induction l as [|a l IH]; intros H; constructor; [apply IH; intros; apply H; right; assumption|].
  apply Forall_forall. intros y Hy. apply H; [left; reflexivity | right; exact Hy].
Qed.

Lemma sorted_map_num l : (forall x, In x l -> is_int x = true) -> StronglySorted int_num_le l -> StronglySorted Z.le (map e_num l).
Proof.
  intros Hi. induction 1 as [|x l S IH F]; cbn [map]; constructor; [apply IH; intros; apply Hi; right; assumption|].
  apply Forall_forall. intros n Hn. apply in_map_iff in Hn. destruct Hn as (y & <- & Hy).
  rewrite Forall_forall in F. apply (F y Hy); apply Hi; [left; reflexivity | right; exact Hy].
Qed.

Lemma msg_inner_seq' c s e : s_seq (fst (fst (msg_inner c s e))) = s_seq s.
Proof. apply msg_inner_seq. Qed.

(* every buffered event carries a number the logger has already handed out *)
Definition nums_le_seq (s : st) : Prop := forall x, In x (all_buffered (s_bufs s)) -> e_numk x = NumInt /\ e_num x <= s_seq s.

Lemma auto_only_ret s o n :
  auto_only o -> ret_of s o = Some n -> n = s_seq s + 1 /\ is_auto o = true /\ op_kind o = NumInt.
Proof. destruct o as [[?|] ? ? ? ? ?| | | |]; intros Ha [= <-]; [destruct Ha | auto ..]. Qed.

Lemma step_nums_le c s o : auto_only o -> nums_le_seq s -> nums_le_seq (fst (step c s o)).
Proof.
  intros Ha Hi. unfold nums_le_seq. rewrite step_seq.
  apply (step_ind (fun s' => forall x, In x (all_buffered (s_bufs s')) ->
                             e_numk x = NumInt /\ e_num x <= if is_auto o then s_seq s + 1 else s_seq s)).
  - intros x Hx. destruct (Hi x Hx). split; [assumption|]. destruct (is_auto o); lia.
  - intros s' e Hn Hk H x Hx. destruct (msg_inner_bufs_in c s' e x Hx) as [Hx'| -> ]; [apply H, Hx'|].
    destruct (auto_only_ret s o _ Ha Hn) as (-> & -> & K). rewrite Hk. split; [exact K | apply Z.le_refl].
  - intros s' n H. exact H.
  - intros s' r H. exact H.
Qed.

Lemma run_nums_le c ops s : Forall auto_only ops -> nums_le_seq s -> nums_le_seq (fst (run c s ops)).
Proof. apply run_ind. intros s' o. apply step_nums_le. Qed.

Lemma nums_le_nohost s : nums_le_seq s -> nohost (s_bufs s).
Proof. intros H. apply nohost_in. intros x Hx. destruct (H x Hx) as [K _]. unfold is_hostile. rewrite K. reflexivity. Qed.

Lemma msg_sends_num c s e x : In x (msg_sends c s e) -> x = e.
Proof.
  unfold msg_sends. destruct (cmpZ _ _ _); [intros []|]. destruct (immediate_sees _ _ _ _ _); [intros [ <- |[]]; reflexivity | intros []].
Qed.

Lemma step_sends_ret c s o x : In x (step_sends c s o) -> ret_of s o = Some (e_num x).
Proof.
  assert (M : forall s' e, In x (msg_sends c s' e) -> Some (e_num e) = Some (e_num x))
    by (intros s' e H; apply msg_sends_num in H as ->; reflexivity).
  destruct o as [[n|] fac lvl ok rp id | rp id | f l n | f l | ]; cbn [step_sends ret_of next_num count_next]; try (intros []).
  1, 2: destruct (msg_inner c _ _) as [[s1 raised] n1]; intros H; apply in_app_or in H as [H|H]; [exact (M _ _ H)|];
    destruct (raised && msg_catch_all && rp); [exact (M _ _ H) | destruct H].
  destruct (msg_catch_all && rp); [apply M | intros []].
Qed.

Lemma run_sends_sorted c ops : forall s, Forall auto_only ops ->
  StronglySorted Z.le (map e_num (run_sends c s ops)) /\ Forall (fun n => s_seq s < n) (map e_num (run_sends c s ops)).
Proof.
  induction ops as [|o t IH]; intros s Ha; [split; constructor|]. inversion Ha; subst. cbn [run_sends].
  destruct (IH (fst (step c s o)) H2) as [S F]. rewrite step_seq, Forall_forall in F. rewrite map_app.
  assert (B : forall n, In n (map e_num (step_sends c s o)) -> n = s_seq s + 1 /\ is_auto o = true).
  { intros n Hn. apply in_map_iff in Hn. destruct Hn as (x & <- & Hx).
    destruct (auto_only_ret s o _ H1 (step_sends_ret c s o x Hx)) as (E & Au & _). split; assumption. }
  split.
  - apply sorted_app; [|exact S|].
    + apply sorted_all. intros x y Hx Hy. destruct (B x Hx) as [-> _], (B y Hy) as [-> _]. lia.
    + intros x y Hx Hy. destruct (B x Hx) as [-> Au]. rewrite Au in F. specialize (F y Hy). lia.
  - apply Forall_app. split; apply Forall_forall; intros n Hn.
    + destruct (B n Hn) as [-> _]. lia.
    + specialize (F n Hn). cbn beta in F. destruct (is_auto o); lia.
Qed.

Lemma sub_emitted_subseq maxq maxfl sops : forall q, subseq (q_emitted (fold_left (sub_step maxq maxfl) sops q)) (q_emitted q ++ sends_of sops).
Proof.
  induction sops as [|o t IH]; intros q; cbn [fold_left sends_of flat_map].
  - rewrite app_nil_r. apply subseq_refl.
  - eapply subseq_trans; [apply IH|]. destruct o as [e| | |]; cbn [sub_step app].
    + destruct (q_subscribed q); cbn [q_emitted].
      * rewrite <- app_assoc. apply subseq_refl.
      * apply subseq_app_both. apply ss_skip. apply subseq_refl.
    + destruct (q_marked q); [|apply subseq_refl].
      destruct (drain _ _ _ _ _ _) as [[[a b] c0] d]. apply subseq_refl.
    + destruct (0 <? q_outstanding q); apply subseq_refl.
    + destruct (0 <? q_outstanding q); apply subseq_refl.
Qed.

Theorem subscriber_sees_ordered c pre ops sops catch_up maxq maxfl :
  0 <= maxq -> 0 <= maxfl -> Forall auto_only pre -> Forall auto_only ops ->
  let s0 := fst (run c init pre) in
  sends_of sops = map e_num (run_sends c s0 ops) ->
  let q0 := fst (fst (sub_subscribe catch_up (s_bufs s0))) in
  let direct := snd (fst (sub_subscribe catch_up (s_bufs s0))) in
  let q := fold_left (sub_step maxq maxfl) sops q0 in
  snd (sub_subscribe catch_up (s_bufs s0)) = false /\
  StronglySorted Z.le (map e_num direct ++ q_delivered q ++ q_queue q) /\
  Forall (fun n => n <= s_seq s0) (map e_num direct) /\
  Forall (fun n => s_seq s0 < n) (q_delivered q ++ q_queue q) /\
  subseq (q_delivered q ++ q_queue q) (sends_of sops) /\
  (catch_up = true -> Permutation direct (all_buffered (s_bufs s0))).
Proof.
  intros Hq Hf Hpre Hops s0 Hs q0 direct q.
  assert (I0 : nums_le_seq s0) by (apply run_nums_le; [exact Hpre | intros x []]).
  unfold q, q0, direct. rewrite (sub_subscribe_nohost catch_up _ (nums_le_nohost s0 I0)). cbn [fst snd].
  fold (sub_run maxq maxfl sops). set (r := sub_run maxq maxfl sops).
  set (d := if catch_up then sort_catchup (all_buffered (s_bufs s0)) else []).
  destruct (run_sends_sorted c ops s0 Hops) as [S F]. rewrite <- Hs in S, F.
  assert (SS : subseq (q_delivered r ++ q_queue r) (sends_of sops)).
  { eapply subseq_trans; [apply (sub_run_inv maxq maxfl sops Hq Hf) | apply (sub_emitted_subseq maxq maxfl sops sub_init)]. }
  assert (Din : forall x, In x d -> In x (all_buffered (s_bufs s0))).
  { intros x Hx. subst d. destruct catch_up; [|destruct Hx]. eapply Permutation_in; [apply sort_with_perm | exact Hx]. }
  assert (Dle : Forall (fun n => n <= s_seq s0) (map e_num d)).
  { apply Forall_forall. intros n Hn. apply in_map_iff in Hn. destruct Hn as (x & <- & Hx). apply I0, Din, Hx. }
  assert (Lgt : Forall (fun n => s_seq s0 < n) (q_delivered r ++ q_queue r)) by exact (subseq_Forall _ _ _ SS F).
  split; [reflexivity|]. split; [|split; [exact Dle|split; [exact Lgt|split; [exact SS|]]]].
  - apply sorted_app.
    + apply sorted_map_num.
      * intros x Hx. destruct (I0 x (Din x Hx)) as [K _]. unfold is_int. rewrite K. reflexivity.
      * subst d. destruct catch_up; [apply sort_with_sorted_ints | constructor].
    + exact (subseq_sorted _ _ _ SS S).
    + intros x y Hx Hy. rewrite Forall_forall in Dle, Lgt. specialize (Dle x Hx). specialize (Lgt y Hy). lia.
  - intros ->. apply sort_with_perm.
Qed.

(* non-vacuity: three buffered events, catch-up, then five live ones (one below the threshold set in between), a slow subscriber *)
Example ex_sees_ordered :
  let c := mkCfg false false NoFault in
  let pre := [Msg None 0 20 true true 0; Msg None 2 30 true true 1; MsgBad true 2] in
  let ops := [Msg None 0 20 true true 3; SetThr 0 25; Msg None 0 20 true true 4; Msg None 0 30 true true 5; Msg None 2 20 true true 6] in
  let sops := [Send 3; Turn; Send 5; Ack; Send 6; Turn] in
  Forall auto_only pre /\ Forall auto_only ops /\
  sends_of sops = map e_num (run_sends c (fst (run c init pre)) ops) /\
  let q := fold_left (sub_step 2 1) sops (fst (fst (sub_subscribe true (s_bufs (fst (run c init pre)))))) in
  map e_num (snd (fst (sub_subscribe true (s_bufs (fst (run c init pre)))))) = [0; 1; 2] /\ q_delivered q = [3; 5] /\ q_queue q = [6].
Proof.
  vm_compute. repeat split; repeat constructor.
Qed.
