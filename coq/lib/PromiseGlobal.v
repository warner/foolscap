(* C17: GLOBAL theorems about the Promise model (lib/Promise.v) for all programs:
   - every message sent to a promise is handed to its resolution exactly once and in send order
     (accounting invariant over the whole state: delivered ++ scheduled ++ queued = sent, as lists);
   - every observer registered with when/_then/_except is told exactly once (as multisets);
   - every chain link points to a CHAINED promise and every CHAINED promise has exactly one link, hence
     _resolve2 is never entered on a promise that is already NEAR/BROKEN, and no crash event occurs;
   - a link that fires gives its promise the outcome of the promise it was resolved with (the statement about
     whole chains is lib/PromiseChain.v).
   The two accounts and the absence of crashes are properties that every move of the model keeps
   (PromiseProofs.reach_ind); the link structure is part of the invariant PromiseProofs.Inv.
   At the end: observer.OneShotObserverList tells every subscriber exactly once, in subscription order. *)
From Coq Require Import ZArith List Bool Lia Arith Permutation.
Import ListNotations.
Require Import Verif.gen.EventualGen Verif.lib.Promise Verif.lib.PromiseProofs.
Local Open Scope Z_scope.

Lemma sent_to_app q a b : sent_to q (a ++ b) = sent_to q a ++ sent_to q b.
Proof.
  induction a as [|e a IH]; [reflexivity|]. destruct e; cbn [app sent_to]; rewrite ?IH; try reflexivity.
  destruct (Nat.eqb p q); cbn [app]; rewrite ?IH; reflexivity.
Qed.

Lemma delivered_to_app q a b : delivered_to q (a ++ b) = delivered_to q a ++ delivered_to q b.
Proof.
  induction a as [|e a IH]; [reflexivity|]. destruct e; cbn [app delivered_to]; rewrite ?IH; try reflexivity.
  all: destruct (Nat.eqb p q); cbn [app]; rewrite ?IH; reflexivity.
Qed.

Lemma queued_for_app q a b : queued_for q (a ++ b) = queued_for q a ++ queued_for q b.
Proof.
  induction a as [|t a IH]; [reflexivity|]. destruct t; cbn [app queued_for]; rewrite ?IH; try reflexivity.
  destruct (Nat.eqb p q); cbn [app]; rewrite ?IH; reflexivity.
Qed.

Lemma queued_for_drain q p pr o :
  queued_for q (drain_tasks good_pcfg p pr o) = if Nat.eqb p q then map mid (ppending pr) else [].
Proof.
  unfold drain_tasks. cbn [good_pcfg pc_drain_order pc_watch_order ord]. rewrite queued_for_app.
  replace (queued_for q (map (fun wt => TCallback p wt o) (pwatch pr))) with (@nil Z)
    by (induction (pwatch pr) as [|w l IH]; [reflexivity|exact IH]).
  rewrite app_nil_r. induction (ppending pr) as [|m l IH]; cbn [map queued_for]; [destruct (Nat.eqb p q); reflexivity|].
  rewrite IH. destruct (Nat.eqb p q); reflexivity.
Qed.

Lemma pending_of_setp s p pr' q :
  pending_of (setp s p pr') q = if Nat.eqb p q then map mid (ppending pr') else pending_of s q.
Proof. unfold pending_of, setp, upd. cbn [tbl]. rewrite (Nat.eqb_sym q p). destruct (Nat.eqb p q); reflexivity. Qed.

Lemma pending_of_setp_keep s p pr0 pr' q :
  tbl s p = Some pr0 -> ppending pr' = ppending pr0 -> pending_of (setp s p pr') q = pending_of s q.
Proof.
  intros H E. rewrite pending_of_setp. destruct (Nat.eqb_spec p q) as [<-|]; [|reflexivity].
  unfold pending_of. rewrite H, E. reflexivity.
Qed.

Lemma messages_resolving s p pr o q (s' := enq (setp s p (done o)) (drain_tasks good_pcfg p pr o)) :
  tbl s p = Some pr -> queued_for q (queue s') ++ pending_of s' q = queued_for q (queue s) ++ pending_of s q.
Proof.
  intros Hp. change (pending_of s' q) with (pending_of (setp s p (done o)) q).
  cbn [s' enq setp queue]. rewrite queued_for_app, queued_for_drain, pending_of_setp, <- app_assoc.
  destruct (Nat.eqb_spec p q) as [<-|]; [|reflexivity]. unfold pending_of. rewrite Hp. cbn [done ppending map]. rewrite app_nil_r. reflexivity.
Qed.

(* what a move adds to the account of every promise: the messages it hands over, plus what is scheduled and queued
   afterwards, are what was scheduled and queued before plus what it accepted -- as LISTS, i.e. in order *)
Lemma step_messages s e s' : Inv s -> step s e s' -> forall x,
  delivered_to x e ++ queued_for x (queue s') ++ pending_of s' x
  = queued_for x (queue s) ++ pending_of s x ++ sent_to x e.
Proof.
  intros [[W _] _] H x.
  destruct H; cbn [delivered_to sent_to app]; rewrite ?app_nil_r.
  - unfold pending_of, alloc, upd. cbn [fst tbl queue].
    destruct (Nat.eqb_spec x (next s)) as [->|]; [|reflexivity]. rewrite (wf_fresh _ W). reflexivity.
  - reflexivity.
  - reflexivity.
  - cbn [setp queue]. rewrite pending_of_setp. destruct (Nat.eqb_spec p x) as [<-|]; [|rewrite app_nil_r; reflexivity].
    cbn [holding ppending]. unfold pending_of. rewrite Hp, map_app. reflexivity.
  - change (pending_of (enq s [TDeliver p m]) x) with (pending_of s x). cbn [enq queue].
    rewrite queued_for_app. cbn [queued_for]. destruct (Nat.eqb_spec p x) as [<-|]; [|rewrite !app_nil_r; reflexivity].
    unfold pending_of. rewrite Hp. destruct R as (_ & _ & -> & _). rewrite <- app_assoc. reflexivity.
  - rewrite (pending_of_setp_keep _ _ _ _ _ Hp); reflexivity.
  - reflexivity.
  - apply messages_resolving. exact Hp.
  - rewrite (pending_of_setp_keep _ _ _ _ _ Hq), (pending_of_setp_keep _ _ _ _ _ Hp); reflexivity.
  - rewrite (messages_resolving _ _ (chained pr)) by apply upd_same.
    rewrite (pending_of_setp_keep _ _ _ _ _ Hp); reflexivity.
  - rewrite Eq. change (pending_of (popped s q) x) with (pending_of s x). cbn [popped queue queued_for].
    destruct He as [-> | ->]; cbn [delivered_to sent_to]; rewrite app_nil_r; destruct (Nat.eqb p x); reflexivity.
  - rewrite Eq. reflexivity.
  - rewrite Eq. apply (messages_resolving (popped s q)). exact Hp.
Qed.

(* "A Promise delivers every message sent to it, in send order and exactly once, to its resolution": for every
   program and every promise, the messages accepted for it are -- as a list, so with order and multiplicity -- those
   already handed to its resolution, followed by those scheduled in the eventual-send queue, followed by those still
   held in _pendingMethods *)
Theorem pr_delivery_global : forall ops s t p,
  prun src_pcfg ps0 ops = (s, t) ->
  sent_to p t = delivered_to p t ++ queued_for p (queue s) ++ pending_of s p.
Proof.
  intros ops s t p H. revert p. pattern s, t. eapply reach_ind; [| |exact H]; [reflexivity|].
  clear. intros s log e s' I IH St x. rewrite sent_to_app, delivered_to_app, (IH x), <- !app_assoc.
  rewrite (step_messages _ _ _ I St x). reflexivity.
Qed.

(* ... and once the queue has drained and the promise is resolved, delivered = sent *)
Corollary pr_delivery_complete : forall ops s t p pr,
  prun src_pcfg ps0 ops = (s, t) -> queue s = [] -> tbl s p = Some pr ->
  (pstate pr = SNear \/ pstate pr = SBroken) -> delivered_to p t = sent_to p t.
Proof.
  intros ops s t p pr H Hq Hp Hs. rewrite (pr_delivery_global _ _ _ p H), Hq. cbn [queued_for app].
  destruct (prun_good _ _ _ H) as [[[W _] _] _].
  destruct (wf_resolved pr (proj2 (W _ _ Hp))) as (o & _ & _ & E & _); [destruct Hs as [-> | ->]; reflexivity|].
  unfold pending_of. rewrite Hp, E. symmetry. apply app_nil_r.
Qed.

Lemma whens_app q a b : whens q (a ++ b) = whens q a ++ whens q b.
Proof.
  induction a as [|e a IH]; [reflexivity|]. destruct e; cbn [app whens]; rewrite ?IH; try reflexivity.
  destruct (Nat.eqb p q); cbn [app]; rewrite ?IH; reflexivity.
Qed.
Lemma observed_app q a b : observed q (a ++ b) = observed q a ++ observed q b.
Proof.
  induction a as [|e a IH]; [reflexivity|]. destruct e; cbn [app observed]; rewrite ?IH; try reflexivity.
  destruct (Nat.eqb p q); cbn [app]; rewrite ?IH; reflexivity.
Qed.
Lemma cb_for_app q a b : cb_for q (a ++ b) = cb_for q a ++ cb_for q b.
Proof.
  induction a as [|t a IH]; [reflexivity|]. destruct t as [p m|p [w|p'] o]; cbn [app cb_for]; rewrite ?IH; try reflexivity.
  destruct (Nat.eqb p q); cbn [app]; rewrite ?IH; reflexivity.
Qed.
Lemma wids_app a b : wids (a ++ b) = wids a ++ wids b.
Proof. induction a as [|w a IH]; [reflexivity|]. destruct w; cbn [app wids]; rewrite IH; reflexivity. Qed.

Lemma cb_for_drain q p pr o :
  cb_for q (drain_tasks good_pcfg p pr o) = if Nat.eqb p q then wids (pwatch pr) else [].
Proof.
  unfold drain_tasks. cbn [good_pcfg pc_drain_order pc_watch_order ord]. rewrite cb_for_app.
  replace (cb_for q (map (TDeliver p) (ppending pr))) with (@nil Z)
    by (induction (ppending pr) as [|m l IH]; [reflexivity|exact IH]).
  cbn [app]. induction (pwatch pr) as [|w l IH]; cbn [map cb_for wids]; [destruct (Nat.eqb p q); reflexivity|].
  destruct w as [w|p']; cbn [cb_for wids]; rewrite IH; destruct (Nat.eqb p q); reflexivity.
Qed.

Lemma watching_setp s p pr' q :
  watching (setp s p pr') q = if Nat.eqb p q then wids (pwatch pr') else watching s q.
Proof. unfold watching, setp, upd. cbn [tbl]. rewrite (Nat.eqb_sym q p). destruct (Nat.eqb p q); reflexivity. Qed.

Lemma watching_setp_keep s p pr0 pr' q :
  tbl s p = Some pr0 -> wids (pwatch pr') = wids (pwatch pr0) -> watching (setp s p pr') q = watching s q.
Proof.
  intros H E. rewrite watching_setp. destruct (Nat.eqb_spec p q) as [<-|]; [|reflexivity].
  unfold watching. rewrite H, E. reflexivity.
Qed.

Lemma observers_resolving s p pr o q (s' := enq (setp s p (done o)) (drain_tasks good_pcfg p pr o)) :
  tbl s p = Some pr -> cb_for q (queue s') ++ watching s' q = cb_for q (queue s) ++ watching s q.
Proof.
  intros Hp. change (watching s' q) with (watching (setp s p (done o)) q).
  cbn [s' enq setp queue]. rewrite cb_for_app, cb_for_drain, watching_setp, <- app_assoc.
  destruct (Nat.eqb_spec p q) as [<-|]; [|reflexivity]. unfold watching. rewrite Hp. cbn [done pwatch wids]. rewrite app_nil_r. reflexivity.
Qed.

(* when() on a resolved promise answers at once -- possibly before observers whose callbacks are still scheduled:
   the only move for which the account holds as a multiset and not as a list *)
Lemma step_observers s e s' : Inv s -> step s e s' -> forall x,
  Permutation (observed x e ++ cb_for x (queue s') ++ watching s' x)
              (cb_for x (queue s) ++ watching s x ++ whens x e).
Proof.
  intros [[W _] _] H x.
  destruct H; cbn [observed whens app]; rewrite ?app_nil_r.
  7:{ destruct (Nat.eqb p x); cbn [app]; [|rewrite app_nil_r; apply Permutation_refl].
      rewrite app_assoc. apply (Permutation_app_comm [w]). }
  (* the other moves keep it as a list *)
  all: match goal with |- Permutation ?a ?b => replace a with b; [apply Permutation_refl|symmetry] end.
  - unfold watching, alloc, upd. cbn [fst tbl queue].
    destruct (Nat.eqb_spec x (next s)) as [->|]; [|reflexivity]. rewrite (wf_fresh _ W). reflexivity.
  - reflexivity.
  - reflexivity.
  - rewrite (watching_setp_keep _ _ _ _ _ Hp); reflexivity.
  - change (watching (enq s [TDeliver p m]) x) with (watching s x). cbn [enq queue].
    rewrite cb_for_app. cbn [cb_for]. rewrite app_nil_r. reflexivity.
  - cbn [setp queue]. rewrite watching_setp. destruct (Nat.eqb_spec p x) as [<-|]; [|rewrite app_nil_r; reflexivity].
    cbn [watched pwatch]. unfold watching. rewrite Hp, wids_app. reflexivity.
  - apply observers_resolving. exact Hp.
  - rewrite (watching_setp_keep _ _ _ _ _ Hq), (watching_setp_keep _ _ _ _ _ Hp); try reflexivity.
    cbn [watched pwatch]. rewrite wids_app. apply app_nil_r.
  - rewrite (observers_resolving _ _ (chained pr)) by apply upd_same.
    rewrite (watching_setp_keep _ _ _ _ _ Hp); reflexivity.
  - rewrite Eq. destruct He as [-> | ->]; cbn [observed whens]; rewrite app_nil_r; reflexivity.
  - rewrite Eq. change (watching (popped s q) x) with (watching s x). cbn [popped queue cb_for].
    destruct (Nat.eqb p x); reflexivity.
  - rewrite Eq. apply (observers_resolving (popped s q)). exact Hp.
Qed.

(* "every past and future observer (when/_then/_except) sees that same outcome" -- the counting half: for every
   program and promise, the observers registered are, with multiplicity, those already told, those whose callback
   is scheduled and those still waiting in _watchers: nobody is told twice, nobody is dropped *)
Theorem pr_observers_exactly_once : forall ops s t p,
  prun src_pcfg ps0 ops = (s, t) ->
  Permutation (observed p t ++ cb_for p (queue s) ++ watching s p) (whens p t).
Proof.
  intros ops s t p H. revert p. pattern s, t. eapply reach_ind; [| |exact H]; [intros p; apply Permutation_refl|].
  clear. intros s log e s' I IH St x. rewrite observed_app, whens_app, <- app_assoc.
  eapply perm_trans; [apply Permutation_app_head, (step_observers _ _ _ I St x)|].
  rewrite !app_assoc. apply Permutation_app_tail. rewrite <- app_assoc. apply IH.
Qed.

Local Open Scope nat_scope.

Lemma cnt_in p l : In (Chain p) l -> 1 <= cnt p l.
Proof.
  induction l as [|w l IH]; [intros []|]. intros [->|H]; cbn [cnt].
  - rewrite Nat.eqb_refl. lia.
  - specialize (IH H). destruct w; lia.
Qed.
Lemma cnt_q_in p q o l : In (TCallback q (Chain p) o) l -> 1 <= cnt_q p l.
Proof.
  induction l as [|t l IH]; [intros []|]. intros [->|H]; cbn [cnt_q].
  - rewrite Nat.eqb_refl. lia.
  - specialize (IH H). destruct t as [p0 m|p0 [w|p'] o0]; lia.
Qed.
Lemma cnt_tbl_ge p t q n : q < n -> cnt p (watch_of (t q)) <= cnt_tbl p t n.
Proof.
  induction n as [|n IH]; [lia|]. intros H. cbn [cnt_tbl]. destruct (Nat.eq_dec q n) as [->|Hn]; [lia|].
  assert (Hq : q < n) by lia. specialize (IH Hq). lia.
Qed.

(* "chains of promises resolved to promises": in every reachable state each promise has exactly as many pending
   calls of its _resolve2 (links: in some promise's _watchers, or scheduled in the queue) as it must have --
   one while it is CHAINED, none in any other state *)
Theorem pr_links_exact : forall ops s t p,
  prun src_pcfg ps0 ops = (s, t) -> nlinks p s = want_links s p.
Proof. intros ops s t p H. destruct (prun_good _ _ _ H) as [[_ L] _]. exact (L p). Qed.

(* ... hence _resolve2 is never entered on a promise that is already NEAR or BROKEN (nor EVENTUAL): whenever a link
   is scheduled or registered, its promise is CHAINED, unresolved, and its lists still exist *)
Theorem pr_link_targets_chained : forall ops s t p,
  prun src_pcfg ps0 ops = (s, t) ->
  ((exists q o, In (TCallback q (Chain p) o) (queue s)) \/
   (exists q qr, tbl s q = Some qr /\ In (Chain p) (pwatch qr))) ->
  exists pr, tbl s p = Some pr /\ pstate pr = SChained /\ plive pr = true /\ ptarget pr = None.
Proof.
  intros ops s t p H Hin. destruct (prun_good _ _ _ H) as [[[W _] L] _]. specialize (L p).
  assert (Hge : 1 <= nlinks p s).
  { unfold nlinks. destruct Hin as [(q & o & Hq)|(q & qr & Hq & Hc)].
    - pose proof (cnt_q_in _ _ _ _ Hq). lia.
    - destruct (W _ _ Hq) as [Hl _]. pose proof (cnt_tbl_ge p (tbl s) q (next s) Hl) as G. rewrite Hq in G.
      cbn [watch_of] in G. pose proof (cnt_in _ _ Hc). lia. }
  rewrite L in Hge. unfold want_links in Hge. destruct (tbl s p) as [pr|] eqn:Hp; [|lia].
  destruct (pstate pr) eqn:Hs; cbn [is_chained] in Hge; try lia.
  destruct (wf_unresolved pr (proj2 (W _ _ Hp))) as (_ & A & B); [rewrite Hs; reflexivity|]. exists pr. auto.
Qed.

(* the crash branches of the model (AttributeError on the deleted lists, _resolve2 on a resolved promise, a
   delivery without target) are unreachable: no move of a state that satisfies the invariant is one of them *)
Theorem pr_no_crash : forall ops s t p top,
  prun src_pcfg ps0 ops = (s, t) -> ~ In (ECrash p top) t.
Proof.
  intros ops s t p top H. pattern s, t. eapply reach_ind; [| |exact H]; [intros []|].
  clear. intros s log e s' _ IH St Hin. apply in_app_or in Hin as [Hin|Hin]; [exact (IH Hin)|].
  destruct St; cbn [In] in Hin; try (intuition discriminate).
  destruct He as [-> | ->]; intuition discriminate.
Qed.

(* when the link of a CHAINED promise p fires, p takes exactly the outcome of the promise q it was resolved with
   (which is resolved with that outcome), and its queued messages are released towards that outcome *)
Theorem pr_chain_fires_same_outcome : forall ops s t q p o q' s' e,
  prun src_pcfg ps0 ops = (s, t) -> queue s = TCallback q (Chain p) o :: q' -> run_one src_pcfg s = (s', e) ->
  (exists qr, tbl s q = Some qr /\ ptarget qr = Some o /\ pstate qr = match o with Val _ => SNear | Fail _ => SBroken end) /\
  (exists pr, tbl s p = Some pr /\ pstate pr = SChained /\
     exists pr', tbl s' p = Some pr' /\ ptarget pr' = Some o /\
                 pstate pr' = match o with Val _ => SNear | Fail _ => SBroken end /\
                 queue s' = q' ++ map (TDeliver p) (ppending pr) ++ map (fun wt => TCallback p wt o) (pwatch pr)) /\
  e = [].
Proof.
  intros ops s t q p o q' s' e H Hq Hr.
  destruct (pr_link_targets_chained _ _ _ p H) as (pr & Hp & Hs & Hlv & Ht).
  { left. exists q, o. rewrite Hq. left. reflexivity. }
  destruct (prun_good _ _ _ H) as [[[W Q] _] _]. rewrite Hq in Q. apply Forall_inv in Q. destruct Q as (qr & Hqr & R).
  split; [exists qr; destruct R as (A & _ & _ & _ & B); auto|].
  assert (Hu : unresolved pr) by (repeat split; [rewrite Hs; reflexivity|assumption..]).
  rewrite src_is_good in Hr. unfold run_one in Hr. rewrite Hq in Hr. cbn [run_task] in Hr.
  rewrite (resolve2_unresolved _ (popped s q') _ _ _ Hp Hu) in Hr. injection Hr as <- <-. split; [|reflexivity].
  exists pr. split; [exact Hp|]. split; [exact Hs|]. exists (done o). split; [apply upd_same|].
  split; [reflexivity|]. split; reflexivity.
Qed.

(* non-vacuity: a chain of two hops with sends before, between and after the hops; every message reaches the final
   value in send order, the observers registered on the first promise are told that value, nothing crashes *)
Example pr_global_example :
  let ops := [PNew; PNew; PNew; PSendOnly 0 1 (BRet 0); PWhen 0 100; PResolve 0 (RProm 1); PSendOnly 0 2 (BRet 0);
              PResolve 1 (RProm 2); PSendOnly 0 3 (BRet 0); PResolve 2 (RVal 9); PSendOnly 0 4 (BRet 0);
              PTurn; PTurn; PTurn; PWhen 0 101; PTurn] in
  let '(s, t) := prun src_pcfg ps0 ops in
  (sent_to 0 t, delivered_to 0 t, queued_for 0 (queue s), pending_of s 0, whens 0 t, observed 0 t, nlinks 0 s)
  = ([1; 2; 3; 4]%Z, [1; 2; 3; 4]%Z, [], [], [100; 101]%Z, [100; 101]%Z, 0).
Proof. vm_compute. reflexivity. Qed.

(* ... and in the middle of it: the first promise is CHAINED and has exactly one link *)
Example pr_links_example :
  let ops := [PNew; PNew; PNew; PSendOnly 0 1 (BRet 0); PResolve 0 (RProm 1); PResolve 1 (RProm 2); PResolve 2 (RVal 9)] in
  let s := fst (prun src_pcfg ps0 ops) in
  (nlinks 0 s, nlinks 1 s, nlinks 2 s, want_links s 0, cnt_q 1 (queue s)) = (1, 1, 0, 1, 1).
Proof. vm_compute. reflexivity. Qed.

(* a method that returns a Deferred: the result promise waits until the program fires it -- before the delivery
   (promise 1) or after it (promise 2) -- and is broken when it fires with a Failure (promise 3) *)
Example pr_deferred_example :
  let ops := [PNew; PResolve 0 (RVal 9); PSend 0 1 BRetD; PSend 0 2 BRetD; PSend 0 3 BRetD; PFire 1 (RVal 5);
              PWhen 1 100; PWhen 2 101; PWhen 3 102; PTurn; PFire 2 (RVal 6); PFire 3 (RFail 7); PTurn] in
  observed 1 (snd (prun src_pcfg ps0 ops)) = [100]%Z /\
  map (fun e => match e with EObserved p w o => Some (p, w, o) | _ => None end)
      (filter (fun e => match e with EObserved _ _ _ => true | _ => false end) (snd (prun src_pcfg ps0 ops)))
  = [Some (1, 100%Z, Val 5); Some (2, 101%Z, Val 6); Some (3, 102%Z, Fail 7)].
Proof. vm_compute. split; reflexivity. Qed.

Fixpoint oso_told (out : list oso_out) : list Z :=
  match out with [] => [] | OEventually w _ :: t => w :: oso_told t | _ :: t => oso_told t end.
Fixpoint oso_asked (ops : list oso_op) : list Z :=
  match ops with [] => [] | OWhenFired w :: t => w :: oso_asked t | _ :: t => oso_asked t end.

Lemma oso_told_app a b : oso_told (a ++ b) = oso_told a ++ oso_told b.
Proof. induction a as [|o a IH]; [reflexivity|]. destruct o; cbn [app oso_told]; rewrite IH; reflexivity. Qed.
Lemma oso_told_map r l : oso_told (map (fun w => OEventually w r) l) = l.
Proof. induction l as [|w l IH]; [reflexivity|]. cbn [map oso_told]. rewrite IH. reflexivity. Qed.

Lemma oso_account ops : forall s,
  (o_fired s <> None -> o_watchers s = []) ->
  oso_told (snd (oso_run s ops)) ++ o_watchers (fst (oso_run s ops)) = o_watchers s ++ oso_asked ops.
Proof.
  induction ops as [|o ops IH]; intros s Hs; cbn [oso_run].
  - cbn. rewrite app_nil_r. reflexivity.
  - destruct (oso_step s o) as [s1 t1] eqn:E1. destruct (oso_run s1 ops) as [s2 t2] eqn:E2. cbn [fst snd].
    rewrite oso_told_app. unfold oso_step in E1. destruct o as [w|r]; destruct (o_fired s) as [r0|] eqn:Ef.
    + injection E1 as <- <-. assert (Hw : o_watchers s = []) by (apply Hs; discriminate).
      specialize (IH s (fun _ => Hw)). rewrite E2 in IH. cbn [fst snd] in IH.
      rewrite Hw in *. cbn [oso_told oso_asked app] in *. rewrite IH. reflexivity.
    + injection E1 as <- <-. specialize (IH {| o_fired := None; o_watchers := o_watchers s ++ [w] |}).
      rewrite E2 in IH. cbn [fst snd o_fired o_watchers] in IH. cbn [oso_told oso_asked app].
      rewrite IH by (intros C; contradiction). rewrite <- app_assoc. reflexivity.
    + rewrite oso_asserts in E1. injection E1 as <- <-. assert (Hw : o_watchers s = []) by (apply Hs; discriminate).
      specialize (IH s (fun _ => Hw)). rewrite E2 in IH. cbn [fst snd] in IH.
      cbn [oso_told oso_asked app]. exact IH.
    + injection E1 as <- <-. specialize (IH {| o_fired := Some r; o_watchers := [] |}).
      rewrite E2 in IH. cbn [fst snd o_fired o_watchers] in IH. cbn [oso_asked].
      rewrite oso_told_map, <- app_assoc, IH by reflexivity. reflexivity.
Qed.

(* every subscriber of a one-shot observer list is sent its (one) result exactly once and in subscription order,
   whatever the interleaving of whenFired() and fire(): told ++ still waiting = asked *)
Theorem oso_exactly_once : forall ops,
  oso_told (snd (oso_run oso0 ops)) ++ o_watchers (fst (oso_run oso0 ops)) = oso_asked ops.
Proof. intros ops. rewrite (oso_account ops oso0); [reflexivity|]. intros _. reflexivity. Qed.
