(* C17: THE TIE of the queue model.  The translated code of eventual.py in its environment (lib/Eventual.v: run_g)
   and the reference machine (lib/EventualSpec.v: run good_cfg) are the same function of the program: same trace,
   same state after every prefix (run_bridge); the theorems of lib/EventualSpecProofs.v are then restated about the
   translated code.  What the translated eventually() and _turn do is taken from lib/PromiseQueue.v (eventually_gen,
   turn_gen, by computation on the generated definitions); the batch loop is used only as "invoke the entry and swallow
   whatever it raises", the observer loop only through its condition and "its body pops the head of the live list and
   fires it".  A rewrite of eventual.py that changes what a method does makes one of those computations fail and this
   file stops compiling. *)
From Coq Require Import ZArith List Bool.
Import ListNotations.
Require Import Verif.lib.EventualBase Verif.gen.EventualGen Verif.lib.EventualSpec Verif.lib.EventualSpecProofs
  Verif.lib.Eventual Verif.lib.PromiseQueue.
Local Open Scope Z_scope.

Lemma to_q_appended w s : to_q (appended w s) = enq1 good_cfg (to_q w) s.
Proof.
  unfold to_q, appended, enq1. cbn [good_cfg c_pos c_arms events flushers timer sched in_turn w_events w_flushers w_timer
    w_sched w_in_turn]. destruct (w_timer w); reflexivity.
Qed.

Lemma flush_bridge (E : qenv) d w :
  m_flushEventualQueue E d w =
  if flush_idle good_cfg (to_q w) then (w, [], FRet RFired)
  else (upd_flushers w (w_flushers w ++ [d]), [], FRet RUnfired).
Proof.
  cbv beta iota zeta delta [m_flushEventualQueue m_flush seqa cond ret ret_with p_new_deferred p_observers_append
    t_events t_in_turn flush_idle to_q good_cfg c_guard events in_turn].
  destruct (is_nil (w_events w)); destruct (w_in_turn w); reflexivity.
Qed.

(* fireEventually(v) is eventually(d.callback, v) for a new Deferred d, which it returns unfired *)
Lemma fire_eventually_is_eventually (E : qenv) s w :
  exists w', m_fireEventually E s w = (w', [], FRet RUnfired) /\ m_eventually E s w = (w', [], FNorm).
Proof.
  exists (appended w s). split; [|apply eventually_gen].
  unfold m_fireEventually, seqa, p_new_deferred, ret, ret_with. rewrite eventually_gen. reflexivity.
Qed.

Lemma run_list_bridge l :
  Forall (fun a => forall ctx w, let '(w', t) := do_act_g ctx w a in do_act good_cfg ctx (to_q w) a = (to_q w', t)) l ->
  forall ctx w, let '(w', t) := run_list_g (do_act_g ctx) l w in run_list (do_act good_cfg ctx) l (to_q w) = (to_q w', t).
Proof.
  induction 1 as [|a l Ha _ IH]; intros ctx w; [reflexivity|].
  change (run_list_g (do_act_g ctx) (a :: l) w) with
    (let '(w1, t1) := do_act_g ctx w a in let '(w2, t2) := run_list_g (do_act_g ctx) l w1 in (w2, t1 ++ t2)).
  rewrite run_list_cons. specialize (Ha ctx w). destruct (do_act_g ctx w a) as [w1 t1]. rewrite Ha.
  specialize (IH ctx w1). destruct (run_list_g (do_act_g ctx) l w1) as [w2 t2]. rewrite IH. reflexivity.
Qed.

Lemma do_act_bridge a : forall ctx w,
  let '(w', t) := do_act_g ctx w a in do_act good_cfg ctx (to_q w) a = (to_q w', t).
Proof.
  induction a as [s _|fid cb IH] using act_nested_ind; intros ctx w.
  - destruct s as [i acts k]. cbn [do_act_g]. rewrite eventually_gen, to_q_appended. reflexivity.
  - cbn [do_act_g]. rewrite do_act_unfold, flush_bridge. destruct (flush_idle good_cfg (to_q w)); [|reflexivity].
    pose proof (run_list_bridge cb IH ctx w) as H. unfold run_acts.
    destruct (run_list_g (do_act_g ctx) cb w) as [w' t']. rewrite H. reflexivity.
Qed.

Lemma run_acts_bridge ctx l w :
  let '(w', t) := run_acts_g ctx w l in run_acts good_cfg ctx (to_q w) l = (to_q w', t).
Proof.
  unfold run_acts_g, run_acts. apply run_list_bridge. apply Forall_forall. intros a _. apply do_act_bridge.
Qed.

Lemma for_list_bridge batch : forall w,
  let '(w1, t1, f1) := for_list (fun x rest => swallow (call_g x rest)) batch w in
  run_batch good_cfg (to_q w) batch = (to_q w1, t1, true) /\ f1 = FNorm.
Proof.
  induction batch as [|s rest IH]; intros w; [split; reflexivity|].
  cbn [for_list]. rewrite run_batch_cons. unfold swallow at 1, call_g, raised.
  pose proof (run_acts_bridge (Some rest) (sacts s) w) as A.
  destruct (run_acts_g (Some rest) w (sacts s)) as [w1 t1]. rewrite A.
  specialize (IH w1). destruct (for_list _ rest w1) as [[w2 t2] f2]. destruct IH as [-> ->].
  destruct (sraises s); cbn [raise_flow raise_evs app]; rewrite <- ?app_assoc; split; reflexivity.
Qed.

(* the observer loop: condition "observers registered and nothing queued", body "pop the head and fire it" *)
Definition pops_and_fires (body : qact) : Prop := forall w, body w = p_pop0_callback fire_g w.
Definition obs_cond (c : qw -> bool) : Prop :=
  forall w, c w = negb (is_nil (w_flushers w)) && is_nil (w_events w).

Lemma while_bridge c body : obs_cond c -> pops_and_fires body -> forall n w,
  let '(w1, t1, f1) := while_fuel n c body w in
  fire_while good_cfg n (to_q w) = (to_q w1, t1) /\ f1 = FNorm.
Proof.
  intros Hc Hb. induction n as [|n IH]; intros w; cbn [while_fuel fire_while]; [split; reflexivity|].
  rewrite Hc, Hb. unfold p_pop0_callback. cbn [to_q flushers events].
  destruct (w_flushers w) as [|[f cb] rest]; cbn [is_nil negb andb]; [split; reflexivity|].
  destruct (is_nil (w_events w)); [|split; reflexivity].
  unfold fire_g, notify. cbn [fst snd].
  pose proof (run_acts_bridge None cb (upd_flushers w rest)) as A.
  destruct (run_acts_g None (upd_flushers w rest) cb) as [w1 t1].
  change (set_flushers _ rest) with (to_q (upd_flushers w rest)).
  rewrite A. specialize (IH w1). destruct (while_fuel n c body w1) as [[w2 t2] f2]. destruct IH as [-> ->].
  split; reflexivity.
Qed.

Lemma obs_loop_cond : obs_cond (fun w => t_observers w && negb (t_events w)).
Proof. intros w. unfold t_observers, t_events. rewrite negb_involutive. reflexivity. Qed.

Lemma turn_bridge w : let '(w', t) := turn_g w in turn good_cfg (to_q w) = (to_q w', t).
Proof.
  unfold turn_g, turn. cbn [to_q sched]. destruct (w_sched w); cbn [negb]; [|reflexivity].
  rewrite turn_gen. cbn [env_turn e_call w_events good_cfg c_clears c_marks c_order events].
  match goal with |- context [for_list ?b ?l ?w1] =>
    pose proof (for_list_bridge l w1) as A; destruct (for_list b l w1) as [[w2 t2] f2] end.
  destruct A as [A ->].
  unfold to_q, turn_start in A |- *. cbn [events flushers w_events w_flushers w_timer w_sched w_in_turn] in A |- *. rewrite A.
  unfold fire, seqa at 1, obs_loop, p_while. cbn [good_cfg c_fire e_fuel e_fire env_turn].
  match goal with |- context [while_fuel ?n ?c ?b ?w3] =>
    pose proof (while_bridge c b obs_loop_cond (seqa_ret _) n w3) as B; destruct (while_fuel n c b w3) as [[w4 t4] f4] end.
  destruct B as [B ->].
  unfold to_q, turn_mid in B |- *. cbn [events flushers timer sched w_events w_flushers w_timer w_sched w_in_turn] in B |- *.
  rewrite B.
  cbn [ret escape_evs]. rewrite !app_nil_r. reflexivity.
Qed.

Lemma step_bridge w o : let '(w', t) := step_g w o in step good_cfg (to_q w) o = (to_q w', t).
Proof. destruct o as [a|]; cbn [step_g step]; [apply do_act_bridge|apply turn_bridge]. Qed.

(* THE TIE: for every program, the translated code in its environment and the reference machine produce the same
   trace and reach the same state *)
Theorem run_bridge ops : forall w,
  let '(w', t) := run_g w ops in run good_cfg (to_q w) ops = (to_q w', t).
Proof.
  induction ops as [|o ops IH]; intros w; cbn [run_g run]; [reflexivity|].
  pose proof (step_bridge w o) as A. destruct (step_g w o) as [w1 t1]. rewrite A.
  specialize (IH w1). destruct (run_g w1 ops) as [w2 t2]. rewrite IH. reflexivity.
Qed.

Lemma run_g_spec ops w t : run_g w0 ops = (w, t) -> run good_cfg q0 ops = (to_q w, t).
Proof. intros H. pose proof (run_bridge ops w0) as A. rewrite H in A. exact A. Qed.

(* the translated eventually() only stores the entry and arms the reactor: it produces no event of its own and does
   not use its environment -- in particular it never invokes the entry -- whatever the environment is *)
Theorem ev_never_sync_code : forall (E : qenv) s w,
  (exists w', m_eventually E s w = (w', [], FNorm)) /\
  forall ctx, snd (do_act_g ctx w (AEnq s)) = [Sub (sid s)] /\
  forall l, rans (snd (run_acts_g ctx w l)) = [].
Proof.
  intros E s w. split; [exists (appended w s); apply eventually_gen|].
  intros ctx. split.
  - pose proof (do_act_bridge (AEnq s) ctx w) as A. destruct (do_act_g ctx w (AEnq s)) as [w' t].
    cbn [snd]. pose proof (EventualSpecProofs.ev_never_sync ctx (to_q w) s) as [B _]. rewrite A in B. exact B.
  - intros l. pose proof (run_acts_bridge ctx l w) as A. destruct (run_acts_g ctx w l) as [w' t]. cbn [snd].
    pose proof (EventualSpecProofs.ev_never_sync ctx (to_q w) s) as [_ B]. specialize (B l). rewrite A in B. exact B.
Qed.

(* ... which is a fact about THIS translation: an append() that also contains the call statement is translated to
   code that runs the entry inside eventually() *)
Definition m_append_sync {C F U : Type} (E : env C F U) (x : C) : EventualBase.act C F U :=
  seqa (p_events_append x) (seqa (e_call_now E x) (seqa (cond (fun w => negb (t_timer w)) (seqa p_arm_timer ret) ret) ret)).
Lemma ev_never_sync_needs_translation :
  exists (E : qenv) s w, In (Ran (sid s)) (snd (fst (m_append_sync E s w))).
Proof.
  exists (env_out (fun s w => (w, [Ran (sid s)], FNorm))), (Sc 1 [] RNo), w0. cbn. auto.
Qed.

Theorem ev_fifo_code : forall ops w t,
  run_g w0 ops = (w, t) -> subs t = rans t ++ map sid (w_events w).
Proof. intros ops w t H. apply run_g_spec in H. apply (EventualSpecProofs.ev_fifo _ _ _ H). Qed.

Corollary ev_exactly_once_code : forall ops w t,
  run_g w0 ops = (w, t) -> w_events w = [] -> rans t = subs t.
Proof. intros ops w t H He. apply run_g_spec in H. apply (EventualSpecProofs.ev_exactly_once _ _ _ H He). Qed.

Theorem ev_isolation_code : forall ops w t w' t',
  run_g w0 ops = (w, t) -> turn_g w = (w', t') ->
  rans t' = map sid (w_events w) /\ map sid (w_events w') = subs t'.
Proof.
  intros ops w t w' t' H Ht. apply run_g_spec in H. pose proof (turn_bridge w) as A. rewrite Ht in A.
  apply (EventualSpecProofs.ev_isolation _ _ _ _ _ H A).
Qed.

Theorem ev_scheduled_code : forall ops w t,
  run_g w0 ops = (w, t) ->
  (w_events w <> [] -> w_sched w = true) /\ (w_flushers w <> [] -> w_sched w = true) /\ w_in_turn w = false.
Proof. intros ops w t H. apply run_g_spec in H. apply (EventualSpecProofs.ev_scheduled _ _ _ H). Qed.

Theorem ev_flush_code : forall ops w t,
  run_g w0 ops = (w, t) -> Forall flush_ok t.
Proof. intros ops w t H. apply run_g_spec in H. apply (EventualSpecProofs.ev_flush _ _ _ H). Qed.

Theorem ev_flush_accounting_code : forall ops w t,
  run_g w0 ops = (w, t) ->
  fdeferred t = fpopped t ++ map fst (w_flushers w) /\ ffired t = fanswered t.
Proof. intros ops w t H. apply run_g_spec in H. apply (EventualSpecProofs.ev_flush_accounting _ _ _ H). Qed.

Theorem ev_flush_drained_code : forall ops w t,
  run_g w0 ops = (w, t) -> w_events w = [] ->
  w_flushers w = [] /\ fdeferred t = fpopped t.
Proof. intros ops w t H He. apply run_g_spec in H. apply (EventualSpecProofs.ev_flush_drained _ _ _ H He). Qed.

Theorem ev_flush_sync_iff_code : forall ops w t fid cb,
  run_g w0 ops = (w, t) ->
  (w_events w = [] -> exists t', snd (do_act_g None w (AFlush fid cb)) = FlushReq fid false :: FlushFired fid 0%nat false :: t') /\
  (w_events w <> [] -> exists w', do_act_g None w (AFlush fid cb) = (w', [FlushReq fid true]) /\
                                  w_flushers w' = w_flushers w ++ [(fid, cb)] /\ w_events w' = w_events w).
Proof.
  intros ops w t fid cb H. apply run_g_spec in H.
  destruct (EventualSpecProofs.ev_flush_sync_iff _ _ _ fid cb H) as [A B].
  pose proof (do_act_bridge (AFlush fid cb) None w) as D. destruct (do_act_g None w (AFlush fid cb)) as [w' t'] eqn:E.
  split.
  - intros He. destruct (A He) as (t'' & A'). rewrite D in A'. exists t''. exact A'.
  - intros He. specialize (B He). rewrite D in B. apply pair_equal_spec in B as [Bq ->].
    exists w'. split; [reflexivity|]. split; [exact (f_equal flushers Bq)|exact (f_equal events Bq)].
Qed.

(* the iteration bound the environment gives the translated observer loop never cuts it short: when the loop of the
   model stops, the loop condition of the code is false *)
Theorem observer_loop_complete : forall c body n w,
  obs_cond c -> pops_and_fires body -> (obs_weight (w_flushers w) <= n)%nat ->
  let w1 := fst (fst (while_fuel n c body w)) in c w1 = false.
Proof.
  intros c body n w Hc Hb Hn. pose proof (while_bridge c body Hc Hb n w) as A.
  destruct (while_fuel n c body w) as [[w1 t1] f1]. destruct A as [A _]. cbn [fst].
  pose proof (fire_while_complete good_cfg n (to_q w) Hn) as B. rewrite A in B. cbn [fst] in B.
  rewrite Hc. destruct B as [B|B].
  - change (flushers (to_q w1)) with (w_flushers w1) in B. rewrite B. reflexivity.
  - change (events (to_q w1)) with (w_events w1) in B. destruct (w_events w1); [contradiction|].
    cbn [is_nil]. apply andb_false_r.
Qed.

(* non-vacuity: the translated code on a program with re-entrant enqueueing, a raising callable, nested flush callbacks *)
Example ev_gen_example :
  let ops := [OAct (AEnq (Sc 1 [AEnq (Sc 3 [] RNo); AFlush 8 [AEnq (Sc 4 [] RBase); AFlush 11 []]] RExc)); OAct (AFlush 9 []);
              OAct (AEnq (Sc 2 [] RNo)); OTurn; OTurn; OTurn; OAct (AFlush 10 [AFlush 12 []])] in
  snd (run_g w0 ops) = snd (run good_cfg q0 ops) /\
  rans (snd (run_g w0 ops)) = [1; 2; 3; 4] /\ ffired (snd (run_g w0 ops)) = [9; 8; 11; 10; 12].
Proof. vm_compute. repeat split; reflexivity. Qed.

(* for lib/OrderEventual.v (C04): the reference machine with the shape of the current code (src_cfg);
   by run_bridge these are statements about the translated code *)
Lemma src_is_good : src_cfg = good_cfg.
Proof. reflexivity. Qed.
Theorem ev_fifo : forall ops st t,
  EventualSpec.run src_cfg q0 ops = (st, t) -> subs t = rans t ++ map sid (events st).
Proof. exact EventualSpecProofs.ev_fifo. Qed.
Theorem ev_isolation : forall ops st t st' t',
  EventualSpec.run src_cfg q0 ops = (st, t) -> EventualSpec.turn src_cfg st = (st', t') ->
  rans t' = map sid (events st) /\ map sid (events st') = subs t'.
Proof. exact EventualSpecProofs.ev_isolation. Qed.
