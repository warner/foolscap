(* Facts about the backtracking matcher of Regex.v: soundness of the static cost analysis `an` (if it succeeds, one match
   attempt costs at most K * (|s| + 1) steps for EVERY subject s, an unanchored search at most (|s| + 1) * (K * (|s| + 1) + 1));
   inversion / frame lemmas used to read captures; the exact step count of an unbounded repeat whose continuation fails
   everywhere (star_back), which is where the super-linear counts of FurlProofs.v come from. *)
From Coq Require Import ZArith NArith List Bool Lia.
Import ListNotations.
Require Import Verif.lib.Regex.

Definition cost (o : out) : N := snd o.
Definition len (s : list Z) : N := N.of_nat (List.length s).

Lemma len_nil : len [] = 0%N. Proof. reflexivity. Qed.
Lemma len_cons x s : len (x :: s) = (len s + 1)%N.
Proof. unfold len. cbn [List.length]. lia. Qed.

Lemma some_inj {A} (a b : A) : Some a = Some b -> a = b.
Proof. congruence. Qed.

Lemma cost_tick o : cost (tick o) = (cost o + 1)%N.
Proof. destruct o; reflexivity. Qed.
Lemma cost_fail1 : cost fail1 = 1%N. Proof. reflexivity. Qed.
Lemma cost_orelse o f : (cost (orelse o f) <= cost o + cost (f tt))%N.
Proof. destruct o as [[c|] n]; unfold orelse, cost; cbn [fst snd]; lia. Qed.

Definition Sound (k : K) (sm : summ) : Prop :=
  (forall s c, (cost (k s c) <= sa sm * len s + sb sm)%N) /\
  (forall C q, sq sm C = Some q -> forall x s c, in_cset C x = true -> (cost (k (x :: s) c) <= q)%N).

Lemma Sound_mk k a b q :
  (forall s c, (cost (k s c) <= a * len s + b)%N) ->
  (forall C v, q C = Some v -> forall x s c, in_cset C x = true -> (cost (k (x :: s) c) <= v)%N) ->
  Sound k (mk a b q).
Proof.
  intros H1 H2. split; cbn [mk sa sb sq].
  - exact H1.
  - intros C v Hq x s c Hx. destruct (q C) as [v'|] eqn:E.
    + inversion Hq; subst. eapply H2; eauto.
    + destruct (a =? 0)%N eqn:Ea; [|discriminate]. inversion Hq; subst.
      apply N.eqb_eq in Ea. subst a. specialize (H1 (x :: s) c). lia.
Qed.

Lemma in_ranges_ex rs x : in_ranges rs x = true <-> exists r, In r rs /\ in_range x r = true.
Proof. unfold in_ranges. apply existsb_exists. Qed.

Lemma ranges_sub_sound inner outer x : ranges_sub inner outer = true -> in_ranges inner x = true -> in_ranges outer x = true.
Proof.
  unfold ranges_sub. rewrite forallb_forall, !in_ranges_ex. intros Hs (r & Hr & Hx).
  apply Hs, existsb_exists in Hr as (r' & Hr' & Hsub). exists r'. split; [assumption|].
  unfold range_sub, in_range in *. lia.
Qed.

Lemma disj_sound C D x : disj C D = true -> in_cset C x = true -> in_cset D x = false.
Proof.
  unfold disj, in_cset. destruct (cs_neg C), (cs_neg D); intros Hd Hc; try discriminate.
  - (* C negated, D positive: D's ranges inside C's *)
    destruct (in_ranges (cs_ranges D) x) eqn:E; [|reflexivity].
    rewrite (ranges_sub_sound _ _ x Hd E) in Hc. discriminate.
  - (* C positive, D negated *)
    rewrite (ranges_sub_sound _ _ x Hd Hc). reflexivity.
  - (* both positive *)
    destruct (in_ranges (cs_ranges D) x) eqn:E; [|reflexivity].
    apply in_ranges_ex in Hc as (r1 & Hr1 & Hx1).
    apply in_ranges_ex in E as (r2 & Hr2 & Hx2).
    rewrite forallb_forall in Hd. specialize (Hd r1 Hr1).
    rewrite forallb_forall in Hd. specialize (Hd r2 Hr2).
    unfold range_disj in Hd. unfold in_range in *. lia.
Qed.

Lemma opt_add_some o d v : opt_add o d = Some v -> exists w, o = Some w /\ v = (w + d)%N.
Proof. destruct o; cbn; intros H; inversion H; eauto. Qed.
Lemma opt_add2_some o1 o2 d v : opt_add2 o1 o2 d = Some v ->
  exists x y, o1 = Some x /\ o2 = Some y /\ v = (x + y + d)%N.
Proof. destruct o1, o2; cbn; intros H; inversion H; eauto. Qed.

Lemma cost_stop_lin k sk lo s c : Sound k sk -> (cost (stop lo k s c) <= sa sk * len s + sb sk + 1)%N.
Proof.
  intros [H _]. destruct lo; cbn [stop].
  - rewrite cost_tick. specialize (H s c). lia.
  - rewrite cost_fail1. lia.
Qed.

(* cost of `stop` at a position whose first character the continuation handles quickly *)
Lemma cost_stop_quick k sk lo x s c C q :
  Sound k sk -> sq sk C = Some q -> in_cset C x = true -> (cost (stop lo k (x :: s) c) <= q + 1)%N.
Proof.
  intros [_ H] Hq Hx. destruct lo; cbn [stop].
  - rewrite cost_tick. specialize (H C q Hq x s c Hx). lia.
  - rewrite cost_fail1. lia.
Qed.

Lemma star_lin_unb k sk cs q0 :
  Sound k sk -> sq sk cs = Some q0 ->
  forall s lo c, (cost (star cs lo None s c k) <= N.max (sa sk) (q0 + 2) * len s + (sb sk + 2))%N.
Proof.
  intros Hk Hq. induction s as [|x s IH]; intros lo c; cbn [star].
  - pose proof (cost_stop_lin k sk lo [] c Hk) as H. rewrite len_nil in *. lia.
  - cbn [hi_open andb]. destruct (in_cset cs x) eqn:E.
    + eapply N.le_trans; [apply cost_orelse|]; cbn beta. rewrite cost_tick.
      specialize (IH (pred lo) c). cbn [option_map] in *.
      pose proof (cost_stop_quick k sk lo x s c cs q0 Hk Hq E) as H.
      rewrite len_cons. nia.
    + pose proof (cost_stop_lin k sk lo (x :: s) c Hk) as H. nia.
Qed.

Lemma star_lin_b k sk cs :
  Sound k sk ->
  forall s lo hi c, (cost (star cs lo (Some hi) s c k) <= N.of_nat (S hi) * (sa sk * len s + sb sk + 2))%N.
Proof.
  intros Hk. induction s as [|x s IH]; intros lo hi c; cbn [star].
  - pose proof (cost_stop_lin k sk lo [] c Hk) as Hs. nia.
  - pose proof (cost_stop_lin k sk lo (x :: s) c Hk) as Hs. destruct hi as [|hi']; cbn [hi_open andb]; [nia|].
    destruct (in_cset cs x); [|nia].
    eapply N.le_trans; [apply cost_orelse|]; cbn beta. rewrite cost_tick.
    specialize (IH (pred lo) hi' c). cbn [option_map pred]. rewrite len_cons in *. nia.
Qed.

(* when the first character is outside the repeat's set, the repeat stops at once *)
Lemma star_first_out cs lo hi x s c k : in_cset cs x = false -> star cs lo hi (x :: s) c k = stop lo k (x :: s) c.
Proof. intros E. cbn [star]. rewrite E, andb_false_r. reflexivity. Qed.

Definition stops (cs : cset) (v : list Z) : Prop := match v with [] => True | x :: _ => in_cset cs x = false end.

Lemma star_stops cs lo hi v c k : stops cs v -> star cs lo hi v c k = stop lo k v c.
Proof. destruct v; [reflexivity | apply star_first_out]. Qed.

Lemma star_q k sk cs lo hi C v :
  Sound k sk ->
  (if disj C cs then match lo with O => opt_add (sq sk C) 1 | S _ => Some 1%N end else None) = Some v ->
  forall x s c, in_cset C x = true -> (cost (star cs lo hi (x :: s) c k) <= v)%N.
Proof.
  intros Hk Hv x s c Hx. destruct (disj C cs) eqn:Ed; [|discriminate].
  rewrite (star_first_out cs lo hi x s c k (disj_sound C cs x Ed Hx)).
  destruct lo.
  - apply opt_add_some in Hv as (w & Hw & ->).
    eapply cost_stop_quick; eauto.
  - inversion Hv; subst. cbn [stop]. rewrite cost_fail1. lia.
Qed.

Definition an_ok (r : re) : Prop :=
  forall sk sm, an r sk = Some sm -> forall k, Sound k sk -> Sound (fun s c => m r s c k) sm.

Lemma rep_sound r (IHr : an_ok r) :
  forall hi lo sk sm, rep_an (an r) lo hi sk = Some sm ->
  forall k, Sound k sk -> Sound (fun s c => rep (m r) lo hi s c k) sm.
Proof.
  induction hi as [|hi IH]; intros lo sk sm Han k Hk; cbn [rep_an] in Han.
  - inversion Han; subst. cbn [rep]. exact Hk.
  - destruct (rep_an (an r) (pred lo) hi sk) as [srest|] eqn:E1; [|discriminate].
    destruct (an r srest) as [sbody|] eqn:E2; [|discriminate].
    pose proof (IH (pred lo) sk srest E1 k Hk) as Hrest.
    pose proof (IHr srest sbody E2 _ Hrest) as Hbody. cbn beta in Hbody.
    destruct Hbody as [Hb1 Hb2]. destruct Hk as [Hk1 Hk2].
    destruct lo as [|lo']; inversion Han; subst; clear Han; cbn [pred] in *; apply Sound_mk.
    + intros s c. cbn [rep]. eapply N.le_trans; [apply cost_orelse|]; cbn beta. rewrite cost_tick.
      specialize (Hb1 s c). specialize (Hk1 s c). lia.
    + intros C v Hv x s c Hx. apply opt_add2_some in Hv as (q1 & q2 & Hq1 & Hq2 & ->).
      cbn [rep]. eapply N.le_trans; [apply cost_orelse|]; cbn beta. rewrite cost_tick.
      specialize (Hb2 C q1 Hq1 x s c Hx). specialize (Hk2 C q2 Hq2 x s c Hx). lia.
    + intros s c. cbn [rep]. rewrite cost_tick. specialize (Hb1 s c). lia.
    + intros C v Hv x s c Hx. apply opt_add_some in Hv as (q1 & Hq1 & ->).
      cbn [rep]. rewrite cost_tick. specialize (Hb2 C q1 Hq1 x s c Hx). lia.
Qed.

(* Soundness of the analysis: a summary it computes really bounds the matcher's steps *)
Theorem an_sound : forall r, an_ok r.
Proof.
  induction r as [|cs|a IHa b IHb|a IHa b IHb|cs lo hi|r IHr lo hi|i r IHr|]; intros sk sm Han k Hk; cbn [an] in Han.
  - (* Eps *) inversion Han; subst. exact Hk.
  - (* Chr *) apply some_inj in Han; subst sm. destruct Hk as [Hk1 Hk2]. apply Sound_mk.
    + intros s c. cbn [m]. destruct s as [|x s].
      * rewrite cost_fail1. lia.
      * destruct (in_cset cs x).
        -- rewrite cost_tick. specialize (Hk1 s c). rewrite len_cons. lia.
        -- rewrite cost_fail1. lia.
    + intros C v Hv x s c Hx. destruct (disj C cs) eqn:Ed; [|discriminate]. inversion Hv; subst.
      cbn [m]. rewrite (disj_sound C cs x Ed Hx). rewrite cost_fail1. lia.
  - (* Cat *) destruct (an b sk) as [s2|] eqn:E; [|discriminate].
    cbn [m]. apply (IHa s2 sm Han). apply (IHb sk s2 E). exact Hk.
  - (* Alt *) destruct (an a sk) as [s1|] eqn:E1; [|discriminate].
    destruct (an b sk) as [s2|] eqn:E2; [|discriminate]. apply some_inj in Han; subst sm.
    destruct (IHa sk s1 E1 k Hk) as [Ha1 Ha2]. destruct (IHb sk s2 E2 k Hk) as [Hb1 Hb2].
    apply Sound_mk.
    + intros s c. cbn [m]. eapply N.le_trans; [apply cost_orelse|]; cbn beta. rewrite cost_tick.
      specialize (Ha1 s c). specialize (Hb1 s c). cbn beta in *. lia.
    + intros C v Hv x s c Hx. apply opt_add2_some in Hv as (q1 & q2 & Hq1 & Hq2 & ->).
      cbn [m]. eapply N.le_trans; [apply cost_orelse|]; cbn beta. rewrite cost_tick.
      specialize (Ha2 C q1 Hq1 x s c Hx). specialize (Hb2 C q2 Hq2 x s c Hx). cbn beta in *. lia.
  - (* Star *) destruct hi as [hi|].
    + apply some_inj in Han; subst sm. apply Sound_mk.
      * intros s c. cbn [m]. pose proof (star_lin_b k sk cs Hk s lo hi c) as H. unfold hfac. lia.
      * intros C v Hv x s c Hx. cbn [m]. eapply star_q; eauto.
    + destruct (sq sk cs) as [q0|] eqn:Eq; [|discriminate]. apply some_inj in Han; subst sm. apply Sound_mk.
      * intros s c. cbn [m]. apply star_lin_unb; assumption.
      * intros C v Hv x s c Hx. cbn [m]. eapply star_q; eauto.
  - (* Rep *) cbn [m]. eapply rep_sound; eauto.
  - (* Grp *) cbn [m].
    assert (Hk' : forall s0, Sound (fun s' c' => k s' ((i, (s0, s')) :: c')) sk).
    { intros s0. destruct Hk as [Hk1 Hk2]. split; intros; [apply Hk1 | eapply Hk2; eauto]. }
    split.
    + intros s c. destruct (IHr sk sm Han _ (Hk' s)) as [H _]. apply (H s c).
    + intros C q Hq x s c Hx. destruct (IHr sk sm Han _ (Hk' (x :: s))) as [_ H]. apply (H C q Hq x s c Hx).
  - (* Eol *) apply some_inj in Han; subst sm. destruct Hk as [Hk1 Hk2]. apply Sound_mk.
    + intros s c. cbn [m]. destruct (at_eol s).
      * rewrite cost_tick. specialize (Hk1 s c). lia.
      * rewrite cost_fail1. lia.
    + intros C v Hv x s c Hx. inversion Hv; subst. cbn [m].
      destruct (at_eol (x :: s)) eqn:E.
      * cbn [at_eol] in E. destruct s; [|discriminate].
        rewrite cost_tick. specialize (Hk1 [x] c). rewrite len_cons, len_nil in Hk1. lia.
      * rewrite cost_fail1. lia.
Qed.

Lemma accept_sound : Sound accept accept_summ.
Proof.
  unfold accept_summ. apply Sound_mk.
  - intros s c. unfold accept, cost; cbn [snd]. lia.
  - intros C v Hv x s c _. inversion Hv; subst. unfold accept, cost; cbn [snd]. lia.
Qed.

Theorem attempt_bound_sound r Kb :
  attempt_bound r = Some Kb -> forall s, (cost (m_top r s) <= Kb * (len s + 1))%N.
Proof.
  unfold attempt_bound. destruct (an (Grp 0 r) accept_summ) as [sm|] eqn:E; [|discriminate].
  intros H s. inversion H; subst; clear H.
  destruct (an_sound (Grp 0 r) accept_summ sm E accept accept_sound) as [H _].
  specialize (H s []). unfold m_top. cbn beta in H. nia.
Qed.

(* THE TIME CLAIM, generic form: whenever the analysis accepts a pattern that is applied at
   position 0 only, matching costs at most K * (|s| + 1) steps on every subject *)
Theorem linear_bound_sound p meth Kb :
  linear_bound p meth = Some Kb -> forall s, (re_steps p meth s <= Kb * (len s + 1))%N.
Proof.
  unfold linear_bound, re_steps, re_run. intros H s.
  destruct meth.
  - destruct (p_anch p); [|discriminate]. apply attempt_bound_sound; assumption.
  - apply attempt_bound_sound. destruct (p_anch p); assumption.
Qed.

(* an unanchored search repeats the attempt at every start position *)
Lemma search_step_le r x s :
  (cost (search_from r (x :: s)) <= cost (m_top r (x :: s)) + 1 + cost (search_from r s))%N.
Proof.
  cbn [search_from]. eapply N.le_trans; [apply cost_orelse|]. cbn beta. rewrite cost_tick. lia.
Qed.

Lemma search_nil_le r : (cost (search_from r []) <= cost (m_top r []) + 1)%N.
Proof.
  cbn [search_from]. eapply N.le_trans; [apply cost_orelse|]. cbn beta. rewrite cost_tick. unfold cost. cbn [snd]. lia.
Qed.

Theorem search_quadratic r Kb :
  attempt_bound r = Some Kb ->
  forall s, (cost (search_from r s) <= (len s + 1) * (Kb * (len s + 1) + 1))%N.
Proof.
  intros HK. induction s as [|x s IH].
  - pose proof (search_nil_le r). pose proof (attempt_bound_sound r Kb HK []). rewrite len_nil in *. lia.
  - pose proof (search_step_le r x s). pose proof (attempt_bound_sound r Kb HK (x :: s)). rewrite len_cons in *.
    set (L := len s) in *. nia.
Qed.

Theorem re_steps_bounded p meth Kb :
  attempt_bound (p_body p) = Some Kb ->
  forall s, (re_steps p meth s <= (len s + 1) * (Kb * (len s + 1) + 1))%N.
Proof.
  intros HK s. unfold re_steps, re_run.
  assert (Hm : (cost (m_top (p_body p) s) <= (len s + 1) * (Kb * (len s + 1) + 1))%N).
  { pose proof (attempt_bound_sound _ _ HK s). nia. }
  destruct meth; [destruct (p_anch p)|]; try exact Hm. apply search_quadratic; assumption.
Qed.

Lemma orelse_some o f res n : orelse o f = (Some res, n) ->
  (exists n', o = (Some res, n')) \/ (exists n', f tt = (Some res, n')).
Proof.
  destruct o as [[c|] n0]; unfold orelse; intros H.
  - inversion H; subst. left; eauto.
  - right. destruct (f tt) as [r2 n2]. cbn [fst snd] in H. inversion H; subst. eauto.
Qed.

Lemma tick_some o res n : tick o = (Some res, n) -> exists n', o = (Some res, n').
Proof. destruct o as [r0 n0]; unfold tick; cbn [fst snd]; intros H; inversion H; subst; eauto. Qed.

Lemma stop_some lo k s c res n : stop lo k s c = (Some res, n) -> lo = O /\ exists n', k s c = (Some res, n').
Proof. destruct lo; cbn [stop]; intros H; [apply tick_some in H; auto | discriminate]. Qed.

(* a successful greedy repeat consumed a run u of the set, within its bounds, and the
   continuation succeeded on the rest with the same captures *)
Lemma star_inv cs k res : forall s lo hi c n,
  star cs lo hi s c k = (Some res, n) ->
  exists u s', s = u ++ s' /\ forallb (in_cset cs) u = true /\ (lo <= List.length u)%nat /\
               (match hi with Some h => (List.length u <= h)%nat | None => True end) /\
               exists n', k s' c = (Some res, n').
Proof.
  induction s as [|x s IH]; intros lo hi c n H; cbn [star] in H.
  - apply stop_some in H as [-> Hk]. exists [], []. cbn. repeat split; auto. destruct hi; auto; lia.
  - destruct (hi_open hi && in_cset cs x) eqn:E.
    + apply andb_true_iff in E as [Eh Ex].
      apply orelse_some in H as [[n' H]|[n' H]].
      * apply tick_some in H as [n'' H]. apply IH in H as (u & s' & -> & Hu & Hlo & Hhi & Hk).
        exists (x :: u), s'. cbn [app forallb List.length]. rewrite Ex, Hu. repeat split; auto; [lia|].
        destruct hi as [[|h]|]; cbn [hi_open option_map pred] in *; try discriminate; auto; lia.
      * apply stop_some in H as [-> Hk]. exists [], (x :: s). cbn. repeat split; auto. destruct hi; auto; lia.
    + apply stop_some in H as [-> Hk]. exists [], (x :: s). cbn. repeat split; auto. destruct hi; auto; lia.
Qed.

Fixpoint grps (r : re) : list nat :=
  match r with
  | Cat a b | Alt a b => grps a ++ grps b
  | Rep r _ _ => grps r
  | Grp i r => i :: grps r
  | _ => []
  end.

Definition frame (r : re) (c c' : caps) : Prop := forall i, ~ In i (grps r) -> cap_get i c' = cap_get i c.

Definition reaches (k : K) (res : caps) (r : re) (c : caps) : Prop :=
  exists s' c' n', k s' c' = (Some res, n') /\ frame r c c'.

Lemma reaches_here k res r s c n : k s c = (Some res, n) -> reaches k res r c.
Proof. intros H. exists s, c, n. split; [exact H|]. intros i _. reflexivity. Qed.

Lemma reaches_trans k res a b r c c1 : (forall i, In i (grps a) \/ In i (grps b) -> In i (grps r)) ->
  frame a c c1 -> reaches k res b c1 -> reaches k res r c.
Proof.
  intros Hi F1 (s2 & c2 & n2 & H & F2). exists s2, c2, n2. split; [exact H|].
  intros i Hn. rewrite F2, F1; auto.
Qed.

Definition succ_ok (r : re) : Prop := forall s c k res n, m r s c k = (Some res, n) -> reaches k res r c.

Lemma rep_success r (IHr : succ_ok r) : forall hi lo s c k res n,
  rep (m r) lo hi s c k = (Some res, n) -> reaches k res r c.
Proof.
  induction hi as [|hi IH]; intros lo s c k res n H; cbn [rep] in H; [exact (reaches_here _ _ _ _ _ _ H)|].
  assert (Hbody : forall lo' n0, m r s c (fun s' c' => rep (m r) lo' hi s' c' k) = (Some res, n0) -> reaches k res r c).
  { intros lo' n0 H0. apply IHr in H0 as (s1 & c1 & n1 & H1 & F1).
    apply IH in H1. revert F1 H1. apply reaches_trans. tauto. }
  destruct lo as [|lo'].
  - apply orelse_some in H as [[n' H]|[n' H]]; [|exact (reaches_here _ _ _ _ _ _ H)].
    apply tick_some in H as [n'' H]. eapply Hbody; eauto.
  - apply tick_some in H as [n'' H]. eapply Hbody; eauto.
Qed.

(* if a match succeeds, the continuation was entered successfully somewhere, with captures that
   differ from the incoming ones only on the groups that occur in r *)
Theorem m_success : forall r, succ_ok r.
Proof.
  induction r as [|cs|a IHa b IHb|a IHa b IHb|cs lo hi|r IHr lo hi|i r IHr|]; intros s c k res n H; cbn [m] in H.
  - exact (reaches_here _ _ _ _ _ _ H).
  - destruct s as [|x s]; [discriminate|]. destruct (in_cset cs x); [|discriminate].
    apply tick_some in H as [n' H]. exact (reaches_here _ _ _ _ _ _ H).
  - apply IHa in H as (s1 & c1 & n1 & H1 & F1). apply IHb in H1. revert F1 H1. apply reaches_trans.
    intros i. cbn [grps]. rewrite in_app_iff. tauto.
  - apply orelse_some in H as [[n' H]|[n' H]]; [apply tick_some in H as [n'' H]; apply IHa in H | apply IHb in H];
      destruct H as (s1 & c1 & n1 & H1 & F1); exists s1, c1, n1; (split; [exact H1|]);
      intros i Hi; apply F1; cbn [grps] in Hi; rewrite in_app_iff in Hi; tauto.
  - apply star_inv in H as (u & s' & _ & _ & _ & _ & n' & Hk). exact (reaches_here _ _ _ _ _ _ Hk).
  - apply (rep_success r IHr) in H. exact H.
  - apply IHr in H as (s1 & c1 & n1 & H1 & F1). exists s1, ((i, (s, s1)) :: c1), n1. split; [assumption|].
    intros j Hj. cbn [grps In] in Hj. cbn [cap_get]. destruct (Nat.eqb j i) eqn:E.
    + apply Nat.eqb_eq in E. subst. tauto.
    + apply F1. tauto.
  - destruct (at_eol s); [|discriminate]. apply tick_some in H as [n' H]. exact (reaches_here _ _ _ _ _ _ H).
Qed.

Lemma content_app u s' : content (u ++ s', s') = u.
Proof.
  unfold content. cbn [fst snd]. rewrite app_length.
  replace (List.length u + List.length s' - List.length s')%nat with (List.length u) by lia.
  rewrite firstn_app, firstn_all, Nat.sub_diag. cbn [firstn]. apply app_nil_r.
Qed.

Lemma grp_star_inv i cs lo hi r s c k res n :
  m (Cat (Grp i (Star cs lo hi)) r) s c k = (Some res, n) ->
  exists u s', s = u ++ s' /\ forallb (in_cset cs) u = true /\ (lo <= List.length u)%nat /\
               (match hi with Some h => (List.length u <= h)%nat | None => True end) /\
               exists n', m r s' ((i, (u ++ s', s')) :: c) k = (Some res, n').
Proof.
  cbn [m]. intros H. apply star_inv in H as (u & s' & -> & Hu & Hlo & Hhi & n' & Hk).
  exists u, s'. repeat split; eauto.
Qed.

Lemma fst_orelse_tick o f res : fst o = Some res -> fst (orelse (tick o) f) = Some res.
Proof. destruct o as [[c|] n]; cbn; intros H; inversion H; reflexivity. Qed.

Lemma star_greedy cs k res : forall u v lo c,
  forallb (in_cset cs) u = true -> stops cs v -> (lo <= List.length u)%nat ->
  fst (k v c) = Some res ->
  fst (star cs lo None (u ++ v) c k) = Some res.
Proof.
  induction u as [|y u IH]; intros v lo c Hu Hv Hlo Hk.
  - cbn [app]. assert (lo = O) by (cbn in Hlo; lia). subst lo.
    rewrite star_stops by assumption. cbn [stop]. unfold tick. cbn [fst]. assumption.
  - cbn [forallb] in Hu. apply andb_true_iff in Hu as [Hy Hu].
    cbn [app star hi_open andb]. rewrite Hy. apply fst_orelse_tick. cbn [option_map].
    apply IH; auto. cbn [List.length] in Hlo. lia.
Qed.

(* the split of the subject is a premise, so that a run reaching its end (v = []) needs no rewriting of the goal *)
Lemma grp_star_greedy g cs r k res s u v lo c :
  s = u ++ v -> forallb (in_cset cs) u = true -> stops cs v -> (lo <= List.length u)%nat ->
  fst (m r v ((g, (s, v)) :: c) k) = Some res ->
  fst (m (Cat (Grp g (Star cs lo None)) r) s c k) = Some res.
Proof. intros ->. exact (star_greedy cs (fun s' c' => m r s' ((g, (u ++ v, s')) :: c') k) res u v lo c). Qed.

Lemma orelse_none n f : orelse (None, n) f = (fst (f tt), (n + snd (f tt))%N).
Proof. reflexivity. Qed.

Lemma star_in_fail cs lo x s c k n : in_cset cs x = true -> star cs (pred lo) None s c k = (None, n) ->
  star cs lo None (x :: s) c k = (fst (stop lo k (x :: s) c), (n + 1 + cost (stop lo k (x :: s) c))%N).
Proof. intros Hx H. cbn [star hi_open andb option_map]. rewrite Hx, H. reflexivity. Qed.

(* An unbounded greedy repeat whose continuation fails everywhere: it takes the whole run u and gives the
   characters back one at a time, asking the continuation at each of the |u| + 1 positions.  With g j the
   continuation's cost when j characters of the run remain, that is back g |u| steps. *)
Fixpoint back (g : nat -> N) (n : nat) : N :=
  match n with O => g O + 1 | S n' => back g n' + g n + 2 end%N.

Lemma back_const q n : back (fun _ => q) n = ((q + 2) * N.of_nat n + q + 1)%N.
Proof. induction n as [|n IH]; cbn [back]; [|rewrite IH]; lia. Qed.

Section Back.
Variables (cs : cset) (v : list Z) (k : K) (g : nat -> N).
Hypothesis (Hv : stops cs v).
Hypothesis (Hk : forall w c, forallb (in_cset cs) w = true -> k (w ++ v) c = (None, g (List.length w))).

Lemma star_back u c : forallb (in_cset cs) u = true -> star cs 0 None (u ++ v) c k = (None, back g (List.length u)).
Proof.
  revert c. induction u as [|x u IH]; intros c Hu; cbn [app List.length back].
  - rewrite (star_stops _ _ _ _ _ _ Hv). cbn [stop]. rewrite (Hk [] c eq_refl : k v c = _). reflexivity.
  - pose proof (Hk _ c Hu) as Hx. cbn [forallb] in Hu. apply andb_true_iff in Hu as [Hx' Hu].
    rewrite (star_in_fail cs 0 x _ c k _ Hx' (IH c Hu)). cbn [stop app List.length] in *. rewrite Hx.
    unfold tick, cost; cbn [fst snd]. f_equal. lia.
Qed.

(* with a minimum of one, the last position is not offered to the continuation *)
Lemma star_back1 x u s c : s = u ++ v -> in_cset cs x = true -> forallb (in_cset cs) u = true ->
  star cs 1 None (x :: s) c k = (None, (back g (List.length u) + 2)%N).
Proof.
  intros -> Hx Hu. rewrite (star_in_fail cs 1 x _ c k _ Hx (star_back u c Hu)).
  cbn [stop fst]. f_equal. unfold cost, fail1; cbn [snd]. lia.
Qed.
End Back.

(* a failed attempt at one position is paid in full, and the search goes on at the next one *)
Lemma search_skip r x s n : m_top r (x :: s) = (None, n) ->
  cost (search_from r (x :: s)) = (n + 1 + cost (search_from r s))%N.
Proof. intros H. cbn [search_from]. rewrite H. reflexivity. Qed.

Lemma in_cset_lit_eqb a x : in_cset (CS false [(a, a)]) x = (x =? a)%Z.
Proof.
  unfold in_cset, in_ranges, in_range. cbn [cs_neg cs_ranges existsb fst snd]. rewrite orb_false_r.
  destruct (Z.eqb_spec x a) as [->|Hne].
  - rewrite Z.leb_refl. reflexivity.
  - destruct (Z.leb_spec a x), (Z.leb_spec x a); cbn; try reflexivity; lia.
Qed.

Lemma in_cset_lit x : in_cset (CS false [(x, x)]) x = true.
Proof. rewrite in_cset_lit_eqb. apply Z.eqb_refl. Qed.

Lemma in_cset_not x y : in_cset (CS true [(x, x)]) y = negb (y =? x)%Z.
Proof. exact (f_equal negb (in_cset_lit_eqb x y)). Qed.

Lemma m_lit a r s c k : m (Cat (Chr (CS false [(a, a)])) r) (a :: s) c k = tick (m r s c k).
Proof. cbn [m]. rewrite in_cset_lit. reflexivity. Qed.

Lemma m_lit_fst a r s c k res : fst (m r s c k) = Some res -> fst (m (Cat (Chr (CS false [(a, a)])) r) (a :: s) c k) = Some res.
Proof. rewrite m_lit. destruct (m r s c k). exact id. Qed.

Lemma m_lit_inv a r s c k res n : m (Cat (Chr (CS false [(a, a)])) r) s c k = (Some res, n) ->
  exists s' n', s = a :: s' /\ m r s' c k = (Some res, n').
Proof.
  cbn [m]. destruct s as [|x s]; [discriminate|]. rewrite in_cset_lit_eqb.
  destruct (Z.eqb_spec x a) as [->|_]; [|discriminate]. intros H. apply tick_some in H as [n' H]. eauto.
Qed.
