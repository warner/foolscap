(* C05: proofs about lib/IdentityKeys.v.  With the translated _distinguishers = (tubID,), TubRef equality and the dict probe
   both reduce to ostr_eqb on the tubID attributes.  The history theorem is the table invariant of IdentityProofs once more,
   with `kjust` reading the tub id off the TubRef key. *)
From Coq Require Import ZArith List String Bool.
Import ListNotations.
Require Import Verif.lib.PyLite Verif.gen.NegotiateGen Verif.lib.Negotiate
               Verif.gen.IdentityGen Verif.lib.Identity Verif.lib.IdentityProofs Verif.lib.IdentityKeys.
Local Open Scope Z_scope.

Lemma ostr_eqb_refl a : ostr_eqb a a = true.
Proof. apply ostr_eqb_eq. reflexivity. Qed.

Lemma tubref_eqb_tub a b : tubref_eqb a b = ostr_eqb (sr_tub a) (sr_tub b).
Proof. unfold tubref_eqb, tubref_hkey, tubref_distinguishers. cbn [map field_val fvals_eqb fval_eqb]. apply andb_true_r. Qed.

Theorem tubref_eq a b : tubref_eqb a b = true <-> sr_tub a = sr_tub b.
Proof. rewrite tubref_eqb_tub. apply ostr_eqb_eq. Qed.

Lemma dict_match_tub a b : dict_match a b = ostr_eqb (sr_tub a) (sr_tub b).
Proof. unfold dict_match. fold (tubref_eqb a b). rewrite tubref_eqb_tub. apply andb_diag. Qed.

(* WHAT "NAMING X" MEANS: a probe TubRef finds a stored TubRef (equal hashed tuples, and __eq__) exactly when their tubID
   attributes are equal -- location hints play no part *)
Theorem dict_match_iff a b : dict_match a b = true <-> sr_tub a = sr_tub b.
Proof. rewrite dict_match_tub. apply ostr_eqb_eq. Qed.

Corollary dict_match_ignores_hints a b h1 h2 n1 n2 :
  dict_match {| sr_tub := a; sr_hints := h1; sr_name := n1 |} {| sr_tub := b; sr_hints := h2; sr_name := n2 |} =
  dict_match {| sr_tub := a; sr_hints := []; sr_name := None |} {| sr_tub := b; sr_hints := []; sr_name := None |}.
Proof. rewrite !dict_match_tub. reflexivity. Qed.

Lemma tub_of_some target t : tub_of target = t -> t <> [] -> sr_tub target = Some t.
Proof. unfold tub_of. destruct (sr_tub target); [congruence|]. intros <- H. contradiction H. reflexivity. Qed.

(* the comparison of the translated identity checks (`theirTubRef != self.target`, modelled on ids) is TubRef's own __eq__ *)
Theorem client_check_is_tubref_eq t target :
  ostr_eqb (Some t) (Some (tub_of target)) = true -> sr_tub target <> None -> tubref_eqb (tubref_of_id t) target = true.
Proof.
  intros H Hn. apply tubref_eq. unfold tubref_of_id. cbn [sr_tub]. unfold tub_of in H.
  destruct (sr_tub target) as [x|]; [|contradiction Hn; reflexivity].
  cbv beta iota in H. cbn [ostr_eqb] in H. apply list_eqb_eq in H. subst t. reflexivity.
Qed.

(* the SAFETY direction: `theirTubRef != self.target` refuses at least what the model's comparison on ids refuses; no side
   condition *)
Theorem client_check_is_tubref_eq_converse t target :
  tubref_eqb (tubref_of_id t) target = true -> ostr_eqb (Some t) (Some (tub_of target)) = true.
Proof.
  intros H. apply tubref_eq in H. unfold tubref_of_id in H. cbn [sr_tub] in H. unfold tub_of. rewrite <- H.
  apply ostr_eqb_refl.
Qed.

Theorem client_check_iff_tubref_eq t target :
  sr_tub target <> None ->
  (ostr_eqb (Some t) (Some (tub_of target)) = true <-> tubref_eqb (tubref_of_id t) target = true).
Proof.
  intros Hn. split; [intros H; apply client_check_is_tubref_eq; assumption|apply client_check_is_tubref_eq_converse].
Qed.

(* the side condition of the completeness direction is needed: a connector whose target TubRef has tubID None (tub_of = "") and a
   peer id "" are equal on ids but not as TubRefs.  (No hello is ever accepted with an empty id: evaluate_bound's t <> [].) *)
Example client_check_side_condition_needed :
  ostr_eqb (Some []) (Some (tub_of {| sr_tub := None; sr_hints := []; sr_name := None |})) = true /\
  tubref_eqb (tubref_of_id []) {| sr_tub := None; sr_hints := []; sr_name := None |} = false.
Proof. vm_compute. split; reflexivity. Qed.

Section KeysProofs.
Variable cert : Type.
Variable tubid_of : cert -> list Z.
Notation kt_find := (kt_find cert).
Notation kstep := (kstep cert tubid_of).
Notation krun := (krun cert tubid_of).

(* an entry is justified when its key's tubID is proven by the certificate of its own transport, or it is the loopback *)
Definition kjust (my : list Z) (e : sref * conn cert) : Prop :=
  (conn_loop cert (snd e) = true /\ sr_tub (fst e) = Some my) \/
  (conn_loop cert (snd e) = false /\ exists t, sr_tub (fst e) = Some t /\ proven cert tubid_of (conn_cert cert (snd e)) t).

Lemma kt_find_in k t e : kt_find k t = Some e -> In e t /\ sr_tub k = sr_tub (fst e).
Proof.
  induction t as [|x r IH]; cbn [IdentityKeys.kt_find]; [discriminate|].
  destruct (dict_match k (fst x)) eqn:E.
  - intros H; inversion H; subst. split; [left; reflexivity|apply dict_match_iff; exact E].
  - intros H. destruct (IH H) as [Hi He]. split; [right; exact Hi|exact He].
Qed.

Lemma kt_remove_subset k (t : ktable cert) e : In e (kt_remove cert k t) -> In e t.
Proof.
  induction t as [|x r IH]; cbn [kt_remove]; [intros []|].
  destruct (dict_match k (fst x)); [intros H; right; apply IH; exact H|].
  intros [H|H]; [left; exact H|right; apply IH; exact H].
Qed.

Lemma k_attached_just my k c t :
  Forall (kjust my) t -> kjust my (k, c) -> Forall (kjust my) (k_attached cert k c t).
Proof. intros Ht Hk. unfold k_attached. destruct (kt_find k t); [exact Ht|constructor; assumption]. Qed.

Lemma kstep_just my t e : Forall (kjust my) t -> Forall (kjust my) (kstep my t e).
Proof.
  intros Ht. destruct e as [r target p claimed arrives|k|k]; cbn [IdentityKeys.kstep].
  - destruct (handle_hello cert tubid_of r my (tub_of target) p claimed) as [w|their master] eqn:EH; [exact Ht|].
    destruct (master || arrives); [|exact Ht].
    apply handle_hello_bound in EH. destruct EH as (crt & Hl & Hh & Hcl & Htgt & Hne & _).
    apply k_attached_just; [exact Ht|]. right. cbn [fst snd conn_loop conn_cert]. split; [reflexivity|].
    exists their. split; [|exists crt; auto].
    destruct r; [apply tub_of_some; [symmetry; exact (Htgt eq_refl)|exact Hne]|reflexivity].
  - rewrite Forall_forall in *. intros e He. apply Ht. eapply kt_remove_subset. exact He.
  - destruct (getBroker_decide _ _) eqn:ED; try exact Ht.
    apply k_attached_just; [exact Ht|]. left. cbn [fst snd conn_loop]. split; [reflexivity|].
    (* the loopback branch is only taken when the requested tub id is this Tub's own *)
    destruct (kt_find k t); destruct (ostr_eqb (sr_tub k) (Some my)) eqn:E; cbv in ED; try discriminate ED.
    apply ostr_eqb_eq in E. exact E.
Qed.

Theorem krun_just my evs : Forall (kjust my) (krun my evs).
Proof. apply (fold_left_inv (Forall (kjust my))); [intros t e; apply kstep_just|constructor]. Qed.

(* "getReference on a FURL naming X succeeds over it only if the TLS peer presented a certificate whose hash is X":
   after ANY history, the Broker Tub.brokers finds for the TubRef made from the FURL (whatever its location hints and name) runs
   over a transport whose leaf certificate hashes to the FURL's tub id -- or it is the loopback and the FURL names this Tub.  The
   equality between the probe's and the stored key's tub id comes from the translated __eq__ / __hash__ (dict_match_iff). *)
Theorem getReference_key_proven my evs k c s :
  getReference_broker cert (krun my evs) s = Some (k, c) ->
  sr_tub k = sr_tub s /\
  ((conn_loop cert c = true /\ sr_tub s = Some my) \/
   (conn_loop cert c = false /\ exists x, sr_tub s = Some x /\ proven cert tubid_of (conn_cert cert c) x)).
Proof.
  unfold getReference_broker. intros Hf.
  apply kt_find_in in Hf. destruct Hf as [Hin Heq]. cbn [fst] in Heq.
  unfold getReference_key, sturdy_getTubRef in Heq. cbn [sr_tub] in Heq.
  split; [symmetry; exact Heq|].
  pose proof (krun_just my evs) as J. rewrite Forall_forall in J. specialize (J _ Hin).
  destruct J as [[Hl Hk]|[Hl (t & Hk & Hp)]]; cbn [fst snd] in *.
  - left. split; [exact Hl|congruence].
  - right. split; [exact Hl|]. exists t. split; [congruence|exact Hp].
Qed.

(* two SturdyRefs that name the same tub id -- different hints, different object names -- are served by the same table entry *)
Theorem getReference_same_tub_same_broker (t : ktable cert) s1 s2 :
  sr_tub s1 = sr_tub s2 -> getReference_broker cert t s1 = getReference_broker cert t s2.
Proof.
  intros He. unfold getReference_broker.
  induction t as [|e r IH]; cbn [IdentityKeys.kt_find]; [reflexivity|].
  rewrite !dict_match_tub, IH. unfold getReference_key, sturdy_getTubRef. cbn [sr_tub]. rewrite He. reflexivity.
Qed.

End KeysProofs.

Definition exk_id : list Z := [97; 97; 98].
Definition exk_tubid (c : Z) : list Z := if c =? 2 then exk_id else [].
Definition exk_table : ktable Z :=
  krun Z exk_tubid [122] [KNegotiated Z Client {| sr_tub := Some exk_id; sr_hints := [[116]]; sr_name := None |}
                                         {| leaf := Some 2; extras := [] |} (Some exk_id) true].

(* the connection was dialled through a TubRef with hint "t"; a SturdyRef with other hints and another name finds the same Broker,
   one that names another tub id (differing in the last character) finds nothing *)
Example exk_same_tub_other_words :
  getReference_broker Z exk_table {| sr_tub := Some exk_id; sr_hints := [[120]; [121]]; sr_name := Some [110] |} =
    Some ({| sr_tub := Some exk_id; sr_hints := [[116]]; sr_name := None |}, {| conn_cert := Some 2; conn_loop := false |}) /\
  getReference_broker Z exk_table {| sr_tub := Some [97; 97; 99]; sr_hints := [[116]]; sr_name := None |} = None.
Proof. vm_compute. split; reflexivity. Qed.
