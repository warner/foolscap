(* C14: the translated decision function (gen/ConvergeGen.v) and the two-Tub model lib/Converge.v.
   Agreement: `good` relates the two ends of one connection through what is in flight between them, `inv` adds that a Tub's
   current connection is exactly the connection whose end there is a live Broker; every step keeps `inv`.
   Lookups in virtual time: `wgood b n t` is the accounting of one Tub's lookups at time n (who waits has an armed connector
   whose deadline is within CONNECTION_TIMEOUT of the lookup; answered + waiting = all numbers handed out). *)
From Coq Require Import ZArith List Bool Arith Lia Permutation.
Import ListNotations.
Require Import Verif.lib.PyLite Verif.gen.ConvergeGen Verif.lib.Converge.

Local Open Scope Z_scope.

(* complete case analysis of the decision for modern peers (total: never raises) *)
Lemma compare_total inc last_ir last_seq e_ir e_seq my_ir ho age :
  compare_offer (Some inc) (Some (last_ir, last_seq)) e_ir e_seq my_ir ho age =
  Ok (negb (optZ_eqb (Some inc) e_ir) ||
      (negb (last_ir =? IR_NONE) && (negb (last_ir =? my_ir) || (last_seq =? e_seq))))%bool.
Proof.
  unfold compare_offer. cbn [is_some is_some_last negb orb].
  destruct (optZ_eqb (Some inc) e_ir); cbn [negb orb]; [|reflexivity].
  destruct (last_ir =? IR_NONE); cbn [negb andb]; [reflexivity|].
  destruct (last_ir =? my_ir); cbn [negb orb]; [|reflexivity].
  destruct (last_seq =? e_seq); [reflexivity|]. destruct (last_seq <? e_seq); reflexivity.
Qed.

(* same peer incarnation, and the offer does not know the existing connection: it carries "none" or an
   older seqnum of this master incarnation -> rejected (a redundant attempt does not displace) *)
Lemma compare_same_incarnation_older_or_none inc last_ir last_seq e_seq my_ir ho age :
  (last_ir = IR_NONE \/ (last_ir = my_ir /\ last_seq < e_seq)) ->
  compare_offer (Some inc) (Some (last_ir, last_seq)) (Some inc) e_seq my_ir ho age = Ok false.
Proof.
  intros H. rewrite compare_total. cbn [optZ_eqb]. rewrite Z.eqb_refl. cbn [negb orb].
  destruct H as [->|[-> Hlt]]; rewrite Z.eqb_refl; [reflexivity|].
  rewrite (proj2 (Z.eqb_neq last_seq e_seq)) by lia. rewrite andb_false_r. reflexivity.
Qed.

(* an offer from a different incarnation of the peer (it restarted) is accepted *)
Lemma compare_new_incarnation inc last e_ir e_seq my_ir ho age :
  e_ir <> Some inc ->
  compare_offer (Some inc) (Some last) e_ir e_seq my_ir ho age = Ok true.
Proof.
  intros H. destruct last. rewrite compare_total. destruct e_ir as [e|]; cbn [optZ_eqb]; [|reflexivity].
  destruct (Z.eqb_spec inc e); [subst; congruence|reflexivity].
Qed.

(* the offer proves the peer knows exactly the existing connection and dialled anyway: accepted *)
Lemma compare_equal_seqnum inc e_seq my_ir ho age :
  my_ir <> IR_NONE ->
  compare_offer (Some inc) (Some (my_ir, e_seq)) (Some inc) e_seq my_ir ho age = Ok true.
Proof.
  intros H. rewrite compare_total. cbn [optZ_eqb]. rewrite !Z.eqb_refl, (proj2 (Z.eqb_neq _ _) H). reflexivity.
Qed.

(* a seqnum from the future is refused *)
Lemma compare_greater_seqnum inc last_seq e_seq my_ir ho age :
  e_seq < last_seq ->
  compare_offer (Some inc) (Some (my_ir, last_seq)) (Some inc) e_seq my_ir ho age = Ok false.
Proof.
  intros H. rewrite compare_total. cbn [optZ_eqb]. rewrite !Z.eqb_refl, (proj2 (Z.eqb_neq last_seq e_seq)) by lia.
  cbn [negb orb]. rewrite andb_false_r. reflexivity.
Qed.

(* pre-0.2.0 peers (no my-incarnation or no last-connection): refused, unless handle-old is configured,
   in which case exactly the age of the existing connection decides *)
Lemma compare_old_peer o_inc o_last e_ir e_seq my_ir age :
  o_inc = None \/ o_last = None ->
  compare_offer o_inc o_last e_ir e_seq my_ir None age = Ok false /\
  forall thr, compare_offer o_inc o_last e_ir e_seq my_ir (Some thr) age = Ok (negb (age <? thr)).
Proof.
  intros H. unfold compare_offer, handle_old_fn.
  assert (E : (negb (is_some o_inc) || negb (is_some_last o_last))%bool = true).
  { destruct H as [->| ->]; cbn; [reflexivity|apply orb_true_r]. }
  rewrite E. cbn [is_some]. split; [reflexivity|]. intros thr. destruct (age <? thr); reflexivity.
Qed.

(* the statement "a redundant attempt of the same incarnation never displaces" is FALSE for the code:
   an offer that remembers a past life of the master is accepted although it knows nothing of the
   existing connection (parallel hints after a master restart). *)
Lemma compare_same_incarnation_past_life_accepted :
  exists inc last_ir last_seq e_seq my_ir,
    last_ir <> my_ir /\ compare_offer (Some inc) (Some (last_ir, last_seq)) (Some inc) e_seq my_ir None 0 = Ok true.
Proof. exists 1, 1, 1, 1, 2. split; [lia|reflexivity]. Qed.

Local Close Scope Z_scope.

(* The invariant of one connection, `good`, has three independent parts, each reading a queue only through has_dec /
   has_fin: the decision (the master has left ENeg once a Decision exists, and one is in flight while S still negotiates
   with a live master end), and for each direction a FIN in flight against its sender being closed. *)
Definition decp (m s : est) (q : list msg) (cut : bool) : Prop :=
  (s = EBrk -> m <> ENeg) /\ (has_dec q = true -> m <> ENeg) /\
  (m = EBrk -> negotiating s = true -> cut = true \/ has_dec q = true) /\ m <> EDec.
Definition finp (a b : est) (q : list msg) (cut : bool) : Prop :=
  (closed a = true -> cut = true \/ closed b = true \/ has_fin q = true) /\ (has_fin q = true -> closed a = true).
Definition good (k : conn) : Prop :=
  decp (c_m k) (c_s k) (c_qms k) (c_cut k) /\ finp (c_m k) (c_s k) (c_qms k) (c_cut k) /\ finp (c_s k) (c_m k) (c_qsm k) (c_cut k).

Definition keeps (k k' : conn) : Prop := (good k -> good k') /\ forall x, cend x k' = EBrk <-> cend x k = EBrk.

Definition peer (x : tubname) : tubname := match x with TM => TS | TS => TM end.

Lemma good_mk cl g m s qms qsm cut :
  good (mkconn cl g m s qms qsm cut) <-> decp m s qms cut /\ finp m s qms cut /\ finp s m qsm cut.
Proof. reflexivity. Qed.

Lemma keeps_refl k : keeps k k.
Proof. split; [auto|reflexivity]. Qed.
Lemma keeps_trans k1 k2 k3 : keeps k1 k2 -> keeps k2 k3 -> keeps k1 k3.
Proof. intros [G1 L1] [G2 L2]. split; [auto|]. intros x. rewrite L2. apply L1. Qed.

Definition sent (cut : bool) (q : list msg) (x : msg) : list msg := if cut then q else q ++ [x].
Lemma enq_m x cl g m s qms qsm cut : enq TM x (mkconn cl g m s qms qsm cut) = mkconn cl g m s (sent cut qms x) qsm cut.
Proof. destruct cut; reflexivity. Qed.
Lemma enq_s x cl g m s qms qsm cut : enq TS x (mkconn cl g m s qms qsm cut) = mkconn cl g m s qms (sent cut qsm x) cut.
Proof. destruct cut; reflexivity. Qed.
Lemma existsb_sent p cut q x : existsb p (sent cut q x) = (existsb p q || negb cut && p x)%bool.
Proof. destruct cut; cbn; [|rewrite existsb_app; cbn]; rewrite orb_false_r; reflexivity. Qed.

Lemma cend_enq x y m k : cend y (enq x m k) = cend y k.
Proof. unfold enq. destruct (c_cut k), x, y; reflexivity. Qed.
Lemma cend_set_self x e k : cend x (set_end x e k) = e.
Proof. destruct x; reflexivity. Qed.
Lemma cend_set_peer x e k : cend (peer x) (set_end x e k) = cend (peer x) k.
Proof. destruct x; reflexivity. Qed.

Lemma closed_est e : closed e = true -> negotiating e = false /\ e <> EBrk /\ e <> ENeg /\ e <> EDec.
Proof. destruct e; try discriminate; repeat split; discriminate. Qed.

Lemma decp_closed_m m s q cut : closed m = true -> decp m s q cut.
Proof. intros (_ & B & N & D)%closed_est. unfold decp. tauto. Qed.
Lemma decp_closed_s m s s' q cut : closed s' = true -> decp m s q cut -> decp m s' q cut.
Proof. intros (G & B & _)%closed_est. unfold decp. rewrite G. intuition discriminate. Qed.
Lemma decp_pop m s x q cut : is_dec x = false \/ negotiating s = false -> decp m s (x :: q) cut -> decp m s q cut.
Proof.
  unfold decp. change (has_dec (x :: q)) with (is_dec x || has_dec q)%bool.
  intros [-> | ->] (A & B & C & D); [exact (conj A (conj B (conj C D)))|].
  repeat split; [exact A| |discriminate|exact D]. intros E. apply B. rewrite E. apply orb_true_r.
Qed.
Lemma decp_sent m s q x cut : is_dec x = false -> decp m s q cut -> decp m s (sent cut q x) cut.
Proof. intros E. unfold decp, has_dec. rewrite existsb_sent, E, andb_false_r, orb_false_r. auto. Qed.
Lemma decp_accept s q a b cut : decp EBrk s (sent cut q (Decision a b)) cut.
Proof.
  unfold decp, has_dec. rewrite existsb_sent. repeat split; try discriminate. intros _ _.
  destruct cut; [left; reflexivity|right; apply orb_true_r].
Qed.
Lemma decp_advance_s m s s' q cut :
  negotiating s = true -> (s' = EBrk -> has_dec q = true) -> decp m s q cut -> decp m s' q cut.
Proof. intros G H (A & B & C & D). repeat split; auto. Qed.
Lemma decp_cut m s q cut : decp m s q cut -> decp m s [] true.
Proof. intros (A & _ & _ & D). repeat split; auto; discriminate. Qed.

Lemma finp_closed a b q cut : closed a = true -> cut = true \/ closed b = true \/ has_fin q = true -> finp a b q cut.
Proof. intros A R. split; auto. Qed.
Lemma finp_ends a a' b b' q cut : closed a' = closed a -> (closed b = true -> closed b' = true) -> finp a b q cut -> finp a' b' q cut.
Proof. unfold finp. intros -> H (A & B). split; [|exact B]. intros E. destruct (A E) as [|[|]]; auto. Qed.
Lemma finp_pop a b x q cut : is_fin x = false \/ closed b = true -> finp a b (x :: q) cut -> finp a b q cut.
Proof.
  unfold finp. change (has_fin (x :: q)) with (is_fin x || has_fin q)%bool. intros H (A & B). split.
  - intros E. destruct (A E) as [|[|F]]; auto. destruct H as [H|H]; [rewrite H in F|]; auto.
  - intros E. apply B. rewrite E. apply orb_true_r.
Qed.
Lemma finp_sent a b q x cut : is_fin x = false -> finp a b q cut -> finp a b (sent cut q x) cut.
Proof. intros E. unfold finp, has_fin. rewrite existsb_sent, E, andb_false_r, orb_false_r. auto. Qed.
Lemma finp_hangup a b q cut : closed a = true -> finp a b (sent cut q Fin) cut.
Proof.
  intros A. apply finp_closed; [exact A|]. unfold has_fin. rewrite existsb_sent. destruct cut; [left; reflexivity|right; right; apply orb_true_r].
Qed.
Lemma finp_cut a b : finp a b [] true.
Proof. split; [left; reflexivity|discriminate]. Qed.

Lemma good_dead : good dead_conn.
Proof. split; [apply decp_closed_m; reflexivity|]. split; apply finp_closed; auto. Qed.
Lemma good_fresh x g a b a' b' : good (mkconn x g ENeg ENeg [Hello a b] [Hello a' b'] false).
Proof. repeat split; intros; discriminate. Qed.

Lemma good_hangup x e k : closed e = true -> good k -> good (enq x Fin (set_end x e k)).
Proof.
  destruct k as [cl g m s qms qsm cut]. intros E.
  destruct x; cbn [set_end c_client c_gen c_m c_s c_qms c_qsm c_cut]; [rewrite enq_m|rewrite enq_s]; rewrite !good_mk;
    intros (D & Fm & Fs).
  - split; [apply decp_closed_m, E|]. split; [apply finp_hangup, E|]. eapply finp_ends; [reflexivity|intros _; exact E|exact Fs].
  - split; [exact (decp_closed_s _ _ _ _ _ E D)|]. split; [|apply finp_hangup, E]. eapply finp_ends; [reflexivity|intros _; exact E|exact Fm].
Qed.
Lemma good_lose x k : good k -> good (lose x k).
Proof. intros H. unfold lose. destruct (cend x k); try exact H; apply good_hangup; auto. Qed.
Lemma lose_self x k : cend x (lose x k) <> EBrk.
Proof. unfold lose. destruct (cend x k) eqn:E; rewrite ?cend_enq, ?cend_set_self, ?E; discriminate. Qed.
Lemma lose_peer x k : cend (peer x) (lose x k) = cend (peer x) k.
Proof. unfold lose. destruct (cend x k); rewrite ?cend_enq, ?cend_set_peer; reflexivity. Qed.

Lemma keeps_lose x k : negotiating (cend x k) = true -> keeps k (lose x k).
Proof.
  intros Hn. split; [apply good_lose|]. intros y. pose proof (lose_self x k) as S. pose proof (lose_peer x k) as P.
  destruct x, y; cbn [peer] in P; try (rewrite P; reflexivity); (split; intros E; [contradiction|rewrite E in Hn; discriminate]).
Qed.
Lemma keeps_cancel x g k : keeps k (cancel x g k).
Proof.
  unfold cancel. destruct (tub_eqb (c_client k) x && Nat.eqb (c_gen k) g && negotiating (cend x k))%bool eqn:E; [|apply keeps_refl].
  apply andb_true_iff in E as [_ E]. apply keeps_lose, E.
Qed.
Lemma keeps_srv_expire n d k : keeps k (srv_expire n d k).
Proof.
  unfold srv_expire, srv_armed. destruct (negotiating (cend (server_of k) k) && (d <=? n)%Z)%bool eqn:E; [|apply keeps_refl].
  apply andb_true_iff in E as [E _]. apply keeps_lose, E.
Qed.

Lemma keeps_pop_sm k x q : c_qsm k = x :: q -> is_fin x = false \/ closed (c_m k) = true -> keeps k (pop_sm k).
Proof.
  destruct k as [cl g m s qms qsm cut]. cbn [c_qsm c_m]. intros -> Hx. split; [|intros []; reflexivity].
  unfold pop_sm. cbn. rewrite !good_mk. intros (D & F1 & F2). exact (conj D (conj F1 (finp_pop _ _ _ _ _ Hx F2))).
Qed.
Lemma keeps_pop_ms k x q :
  c_qms k = x :: q -> is_fin x = false \/ closed (c_s k) = true -> is_dec x = false \/ negotiating (c_s k) = false ->
  keeps k (pop_ms k).
Proof.
  destruct k as [cl g m s qms qsm cut]. cbn [c_qms c_s]. intros -> Hf Hd. split; [|intros []; reflexivity].
  unfold pop_ms. cbn. rewrite !good_mk. intros (D & F1 & F2).
  exact (conj (decp_pop _ _ _ _ _ Hd D) (conj (finp_pop _ _ _ _ _ Hf F1) F2)).
Qed.

Lemma good_lost x k :
  closed (cend x k) = true \/ c_cut k = true \/ closed (cend (peer x) k) = true -> good k -> good (set_end x ELost k).
Proof.
  destruct k as [cl g m s qms qsm cut]. destruct x; unfold set_end; cbn; rewrite !good_mk; intros Hr (D & F1 & F2).
  - split; [apply decp_closed_m; reflexivity|]. split; [|eapply finp_ends; [reflexivity|reflexivity|exact F2]].
    apply finp_closed; [reflexivity|]. destruct Hr as [C|[C|C]]; auto. apply F1, C.
  - split; [exact (decp_closed_s _ _ ELost _ _ eq_refl D)|]. split; [eapply finp_ends; [reflexivity|reflexivity|exact F1]|].
    apply finp_closed; [reflexivity|]. destruct Hr as [C|[C|C]]; auto. apply F2, C.
Qed.
Lemma close_pending_why x k : close_pending x k = true -> closed (cend x k) = true \/ c_cut k = true.
Proof. unfold close_pending. destruct (cend x k); auto. Qed.

Lemma good_lost_fin_m k q : c_qsm k = Fin :: q -> good k -> good (set_end TM ELost (pop_sm k)).
Proof.
  intros E H. change (good (pop_sm (set_end TM ELost k))).
  apply (keeps_pop_sm _ Fin q); [exact E|right; reflexivity|]. apply (good_lost TM); [|exact H].
  right; right. destruct H as (_ & _ & _ & F). apply F. rewrite E. reflexivity.
Qed.
Lemma good_lost_fin_s k q : c_qms k = Fin :: q -> good k -> good (set_end TS ELost (pop_ms k)).
Proof.
  intros E H. change (good (pop_ms (set_end TS ELost k))).
  apply (keeps_pop_ms _ Fin q); [exact E|right; reflexivity|left; reflexivity|]. apply (good_lost TS); [|exact H].
  right; right. destruct H as (_ & (_ & F) & _). apply F. rewrite E. reflexivity.
Qed.

Lemma good_accept_m k a b : c_m k = ENeg -> good k -> good (set_end TM EBrk (enq TM (Decision a b) k)).
Proof.
  destruct k as [cl g m s qms qsm cut]. cbn [c_m]. intros ->. rewrite enq_m. unfold set_end. cbn. rewrite !good_mk.
  intros (_ & F1 & F2). split; [apply decp_accept|].
  split; [apply (finp_ends ENeg _ s)|apply (finp_ends s _ ENeg)]; auto. apply finp_sent; [reflexivity|exact F1].
Qed.
Lemma keeps_reject_m k : c_m k = ENeg -> keeps k (lose TM (enq TM ErrorBlk k)).
Proof.
  intros E. apply (keeps_trans _ (enq TM ErrorBlk k)); [|apply keeps_lose; rewrite cend_enq; cbn [cend]; rewrite E; reflexivity].
  split; [|intros x; rewrite cend_enq; reflexivity]. destruct k as [cl g m s qms qsm cut]. rewrite enq_m, !good_mk.
  intros (D & F1 & F2). exact (conj (decp_sent _ _ _ ErrorBlk _ eq_refl D) (conj (finp_sent _ _ _ ErrorBlk _ eq_refl F1) F2)).
Qed.

Lemma keeps_hello_s k a b q : c_qms k = Hello a b :: q -> c_s k = ENeg -> keeps k (set_end TS EDec (pop_ms k)).
Proof.
  intros Eq Es. apply (keeps_trans _ (pop_ms k)); [apply (keeps_pop_ms _ _ _ Eq); left; reflexivity|].
  revert Es. destruct k as [cl g m s qms qsm cut]. unfold set_end, pop_ms. cbn. intros ->.
  split; [|intros []; cbn; [reflexivity|split; discriminate]]. rewrite !good_mk. intros (D & F1 & F2).
  split; [apply (decp_advance_s _ ENeg); [reflexivity|discriminate|exact D]|].
  split; [apply (finp_ends m _ ENeg)|apply (finp_ends ENeg _ m)]; auto.
Qed.
Lemma good_dec_s k a b q : c_qms k = Decision a b :: q -> c_s k = EDec -> good k -> good (set_end TS EBrk (pop_ms k)).
Proof.
  intros Eq Es H. change (good (pop_ms (set_end TS EBrk k))).
  apply (keeps_pop_ms _ (Decision a b) q); [exact Eq|left; reflexivity|right; reflexivity|]. revert Eq Es H.
  destruct k as [cl g m s qms qsm cut]. unfold set_end. cbn. intros -> ->. rewrite !good_mk. intros (D & F1 & F2).
  split; [apply (decp_advance_s _ EDec); [reflexivity|reflexivity|exact D]|].
  split; [apply (finp_ends m _ EDec)|apply (finp_ends EDec _ m)]; auto.
Qed.
(* S hangs up on the block it reads, which may be the decision: its end closes before the block leaves the invariant *)
Lemma keeps_lose_pop_s k x q : c_qms k = x :: q -> negotiating (c_s k) = true -> keeps k (lose TS (pop_ms k)).
Proof.
  destruct k as [cl g m s qms qsm cut]. cbn [c_qms c_s]. intros -> Hn.
  assert (L : lose TS (pop_ms (mkconn cl g m s (x :: q) qsm cut)) = enq TS Fin (mkconn cl g m ECloNeg q qsm cut))
    by (destruct s; try discriminate Hn; reflexivity).
  rewrite L, enq_s. split.
  - rewrite !good_mk. intros (D & F1 & F2).
    split; [apply (decp_pop _ _ x); [right; reflexivity|apply (decp_closed_s _ s); [reflexivity|exact D]]|].
    split; [|apply finp_hangup; reflexivity]. apply (finp_pop _ _ x); [right; reflexivity|]. apply (finp_ends m _ s); auto.
  - intros []; cbn; [reflexivity|]. split; [discriminate|intros E; rewrite E in Hn; discriminate].
Qed.

Lemma keeps_cut k : keeps k (cut_conn k).
Proof.
  split; [|intros []; reflexivity]. destruct k as [cl g m s qms qsm cut]. unfold cut_conn. cbn. rewrite !good_mk. intros (D & _).
  exact (conj (decp_cut _ _ _ _ D) (conj (finp_cut _ _) (finp_cut _ _))).
Qed.

Definition reg (x : tubname) (b : option nat) (f : nat -> conn) (n : nat) : Prop :=
  (forall i, b = Some i <-> cend x (f i) = EBrk) /\ (forall c, b = Some c -> c < n).
Definition inv (s : state) : Prop :=
  (forall i, good (conns s i)) /\ forall x, reg x (t_broker (tubof x s)) (conns s) (nconn s).

Lemma inv_live s x c : inv s -> (t_broker (tubof x s) = Some c <-> cend x (conns s c) = EBrk).
Proof. intros [_ R]. apply R. Qed.

Lemma upd_same {A} (f : nat -> A) c k : upd f c k c = k.
Proof. unfold upd. rewrite Nat.eqb_refl. reflexivity. Qed.
Lemma upd_other {A} (f : nat -> A) c k i : i <> c -> upd f c k i = f i.
Proof. unfold upd. intros H. destruct (Nat.eqb_spec i c); [contradiction|reflexivity]. Qed.

Lemma good_upd f c k' : (forall i, good (f i)) -> good k' -> forall i, good (upd f c k' i).
Proof. intros G Hk i. unfold upd. destruct (Nat.eqb i c); [exact Hk|apply G]. Qed.

Lemma reg_live x b f f' n : reg x b f n -> (forall i, cend x (f' i) = EBrk <-> cend x (f i) = EBrk) -> reg x b f' n.
Proof. intros [R B] H. split; [|exact B]. intros i. rewrite H. apply R. Qed.
Lemma reg_upd x b f c k' n : reg x b f n -> (cend x k' = EBrk <-> cend x (f c) = EBrk) -> reg x b (upd f c k') n.
Proof.
  intros R Hk. apply (reg_live x b f); [exact R|]. intros i. unfold upd. destruct (Nat.eqb_spec i c) as [->|]; [exact Hk|reflexivity].
Qed.
Lemma reg_clear x e f k' n : reg x (Some e) f n -> cend x k' <> EBrk -> reg x None (upd f e k') n.
Proof.
  intros [R _] Hk. split; [|discriminate]. intros i. split; [discriminate|]. unfold upd.
  destruct (Nat.eqb_spec i e); [contradiction|]. intros E. apply R in E. congruence.
Qed.
Lemma reg_set x c f k' n : reg x None f n -> c < n -> cend x k' = EBrk -> reg x (Some c) (upd f c k') n.
Proof.
  intros [R _] Hc Hk. split; [|intros c' E; injection E as <-; exact Hc]. intros i. unfold upd.
  destruct (Nat.eqb_spec i c) as [->|Hi]; [tauto|]. split; [congruence|]. intros E. apply R in E. discriminate.
Qed.

Lemma init_inv : inv init.
Proof. split; [intros i; apply good_dead|]. intros []; (split; [intros i; split; discriminate|discriminate]). Qed.

Lemma broker_getref_tub n t : t_broker (getref_tub n t) = t_broker t.
Proof. unfold getref_tub. destruct (t_broker t) eqn:E; [cbn; auto|]. destruct (t_connector t); cbn; auto. Qed.

Lemma broker_connector_gone n t : t_broker (connector_gone n t) = t_broker t.
Proof.
  unfold connector_gone, connection_failed_forgets_first, errback_all.
  cbn [set_connector t_broker]. destruct (t_broker t) eqn:E; [cbn [set_connector t_broker]; exact E|].
  match goal with |- context [if ?b then _ else _] => destruct b end;
    [rewrite broker_getref_tub|]; cbn [set_retry fire set_connector t_broker]; exact E.
Qed.

Lemma conns_set_tub x t s : conns (set_tub x t s) = conns s.
Proof. destruct x; reflexivity. Qed.
Lemma tubof_set_tub x t s : tubof x (set_tub x t s) = t.
Proof. destruct x; reflexivity. Qed.

Lemma inv_set_tub x t s :
  (forall i, good (conns s i)) -> reg x (t_broker t) (conns s) (nconn s) ->
  reg (peer x) (t_broker (tubof (peer x) s)) (conns s) (nconn s) -> inv (set_tub x t s).
Proof. intros G Rx Rp. destruct x; (split; [exact G|intros []; assumption]). Qed.

Lemma set_tub_inv x t s : t_broker t = t_broker (tubof x s) -> inv s -> inv (set_tub x t s).
Proof. intros E [G R]. apply inv_set_tub; [exact G|rewrite E; apply R|apply R]. Qed.

Lemma inv_conns f s : inv s -> (forall i, keeps (conns s i) (f i)) -> inv (set_conns f s).
Proof.
  intros [G R] K. split; [intros i; apply K, G|]. intros x. apply (reg_live x _ (conns s)); [apply R|intros i; apply K].
Qed.
Lemma inv_upd c s k' : inv s -> keeps (conns s c) k' -> inv (set_conns (upd (conns s) c k') s).
Proof.
  intros H K. apply inv_conns; [exact H|]. intros i. unfold upd. destruct (Nat.eqb_spec i c) as [->|]; [exact K|apply keeps_refl].
Qed.

Lemma connector_failed_inv x g s : inv s -> inv (connector_failed x g s).
Proof.
  intros H. unfold connector_failed. destruct (t_connector (tubof x s)); [|exact H].
  destruct (Nat.eqb g n && negb (any_pending x g s))%bool; [|exact H].
  apply set_tub_inv; [apply broker_connector_gone|exact H].
Qed.

Lemma dial_inv x s : inv s -> inv (do_dial x s).
Proof.
  intros [G R]. unfold do_dial. destruct (t_connector (tubof x s)); [|exact (conj G R)].
  split; [intros i; apply good_upd; [exact G|apply good_fresh]|].
  intros y. destruct (R y) as [Ry By]. destruct y; (split; [|intros c E; apply By in E; cbn [nconn]; lia]);
    intros i; cbn [conns]; unfold upd; (destruct (Nat.eqb_spec i (nconn s)) as [->|]; [|apply Ry]);
    (split; [intros E; apply By in E; lia|discriminate]).
Qed.

Lemma restart_inv x s : inv s -> inv (do_restart x s).
Proof.
  intros [G R]. apply inv_set_tub; cbn [map_conns set_conns conns nconn new_tub t_broker].
  - intros i. apply good_lost; [right; left; reflexivity|apply (keeps_cut _), G].
  - split; [|discriminate]. intros i. unfold kill. rewrite cend_set_self. split; discriminate.
  - apply (reg_live _ _ (conns s)); [apply R|]. intros i. unfold kill. rewrite cend_set_peer. destruct x; reflexivity.
Qed.

Lemma timeout_inv x s : inv s -> inv (do_timeout x s).
Proof.
  intros H. unfold do_timeout. destruct (t_connector (tubof x s)); [|exact H].
  apply set_tub_inv; [apply broker_connector_gone|]. apply inv_conns; [exact H|intros i; apply keeps_cancel].
Qed.

Lemma conn_lost_cases (P : state -> Prop) x c pre s :
  let k := pre (conns s c) in
  let s1 := set_conns (upd (conns s) c (set_end x ELost k)) s in
  (cend x k <> EBrk \/ t_broker (tubof x s) <> Some c -> P s1) ->
  (cend x k = EBrk -> t_broker (tubof x s) = Some c -> P (set_tub x (set_broker None (tubof x s1)) s1)) ->
  (cend x k <> EBrk -> P (connector_failed x (c_gen k) s1)) ->
  P (conn_lost x c pre s).
Proof.
  cbv zeta. intros H1 Hb Hf. unfold conn_lost.
  destruct (cend x (pre (conns s c))) eqn:E; try (apply H1; left; discriminate);
    try (destruct (tub_eqb _ x); [apply Hf|apply H1; left]; discriminate).
  change (tubof x (set_conns _ s)) with (tubof x s). destruct (t_broker (tubof x s)) as [b|] eqn:Eb; [|apply H1; right; discriminate].
  destruct (Nat.eqb_spec b c) as [->|Hne]; [apply Hb; reflexivity|apply H1; right; congruence].
Qed.

Lemma conn_lost_inv x c pre s :
  inv s -> (forall y, cend y (pre (conns s c)) = cend y (conns s c)) -> good (set_end x ELost (pre (conns s c))) ->
  inv (conn_lost x c pre s).
Proof.
  intros H He Hg. pose proof H as [G R].
  assert (Hp : cend (peer x) (set_end x ELost (pre (conns s c))) = cend (peer x) (conns s c)) by (rewrite cend_set_peer; apply He).
  assert (Hnb : cend x (conns s c) <> EBrk -> inv (set_conns (upd (conns s) c (set_end x ELost (pre (conns s c)))) s)).
  { intros Hne. apply inv_upd; [exact H|]. split; [intros _; exact Hg|]. intros y.
    pose proof (cend_set_self x ELost (pre (conns s c))) as Hs.
    destruct x, y; cbn [peer] in Hp; try (rewrite Hp; reflexivity); rewrite Hs; (split; [discriminate|contradiction]). }
  apply conn_lost_cases; rewrite He.
  - intros [Hne|Hne]; apply Hnb; [exact Hne|]. intros E. apply Hne, (inv_live s x c H), E.
  - intros _ Eb. apply inv_set_tub; cbn [set_conns conns nconn set_broker t_broker].
    + apply good_upd; assumption.
    + apply reg_clear; [rewrite <- Eb; apply R|rewrite cend_set_self; discriminate].
    + apply reg_upd; [apply R|rewrite Hp; reflexivity].
  - intros Hne. apply connector_failed_inv, Hnb, Hne.
Qed.

Lemma closeseen_inv c x s : inv s -> inv (do_closeseen c x s).
Proof.
  intros H. unfold do_closeseen. destruct (close_pending x (conns s c)) eqn:E; [|exact H].
  apply close_pending_why in E. apply conn_lost_inv; [exact H|reflexivity|]. apply good_lost; [destruct E; auto|apply H].
Qed.

Lemma attach_inv x c s :
  (forall i, good (conns s i)) -> reg x (Some c) (conns s) (nconn s) ->
  reg (peer x) (t_broker (tubof (peer x) s)) (conns s) (nconn s) -> inv (attach x c s).
Proof.
  intros G Rx Rp. unfold attach.
  assert (A : forall s1, nconn s1 = nconn s -> tubof (peer x) s1 = tubof (peer x) s -> (forall i, keeps (conns s i) (conns s1 i)) ->
              inv (set_tub x (fire (now s) true (set_bcreated (now s) (set_broker (Some c) (set_connector None (tubof x s1))))) s1)).
  { intros s1 En Et K. apply inv_set_tub; rewrite ?En, ?Et.
    - intros i. apply K, G.
    - apply (reg_live x _ (conns s)); [exact Rx|intros i; apply K].
    - apply (reg_live (peer x) _ (conns s)); [exact Rp|intros i; apply K]. }
  destruct (tub_eqb (c_client (conns s c)) x); [|destruct (t_connector (tubof x s))]; apply A; try reflexivity;
    intros i; first [apply keeps_cancel|apply keeps_refl].
Qed.

Lemma drop_existing_inv x s :
  inv s ->
  let s' := drop_existing x s in
  inv s' /\ t_broker (tubof x s') = None /\ nconn s' = nconn s /\ (forall j, cend x (conns s j) <> EBrk -> conns s' j = conns s j).
Proof.
  intros H. pose proof H as [G R]. unfold drop_existing. destruct (t_broker (tubof x s)) as [e|] eqn:E; cbv zeta.
  - split; [|split; [rewrite tubof_set_tub; reflexivity|split; [destruct x; reflexivity|]]].
    + apply inv_set_tub; cbn [set_conns conns nconn set_broker t_broker].
      * apply good_upd; [exact G|apply good_lose, G].
      * apply reg_clear; [rewrite <- E; apply R|apply lose_self].
      * apply reg_upd; [apply R|rewrite lose_peer; reflexivity].
    + intros j Hj. rewrite conns_set_tub. apply upd_other. intros ->. apply Hj, (R x), E.
  - rewrite E. split; [exact H|repeat split; auto].
Qed.

Lemma master_accept_inv c inc s :
  inv s -> t_broker (tm s) = None -> c < nconn s -> c_m (conns s c) = ENeg -> inv (master_accept c inc s).
Proof.
  intros [G R] Eb Hc Em. unfold master_accept. apply attach_inv; cbn [set_tub set_conns tubof peer tm ts conns nconn].
  - apply good_upd; [exact G|apply good_accept_m; [exact Em|apply G]].
  - apply reg_set; [rewrite <- Eb; apply (R TM)|exact Hc|reflexivity].
  - apply reg_upd; [apply (R TS)|]. change (cend TS (enq TM (Decision (t_inc (tm s)) (t_master (tm s) + seqnum_step)) (conns s c)) = EBrk <-> cend TS (conns s c) = EBrk).
    rewrite cend_enq. reflexivity.
Qed.

Lemma deliver_m_cases (P : state -> Prop) c s :
  let k := conns s c in
  let s0 := set_conns (upd (conns s) c (pop_sm k)) s in
  P s ->
  (forall m q, c_qsm k = m :: q -> is_fin m = false \/ closed (c_m k) = true -> P s0) ->
  (forall m q, c_qsm k = m :: q -> is_fin m = false -> c_m k = ENeg -> P (set_conns (upd (conns s) c (lose TM (pop_sm k))) s)) ->
  (forall q, c_qsm k = Fin :: q -> P (conn_lost TM c pop_sm s)) ->
  (forall inc last q, c_qsm k = Hello inc last :: q -> c_m k = ENeg ->
     (t_broker (tm s) <> None -> P (master_reject c s0)) /\ P (master_accept c inc (drop_existing TM s0))) ->
  P (deliver_m c s).
Proof.
  cbv zeta. intros Hs Hpop Herr Hfin Hoffer. unfold deliver_m. destruct (c_qsm (conns s c)) as [|m q] eqn:Eq; [exact Hs|].
  specialize (Hpop m q eq_refl). specialize (Herr m q eq_refl).
  destruct m as [inc last|a b| |].
  - destruct (c_m (conns s c)) eqn:Em; try (apply Hpop; left; reflexivity).
    destruct (Hoffer inc last q eq_refl eq_refl) as [Hr Ha]. cbn [set_conns tm]. destruct (t_broker (tm s)) eqn:Eb.
    + destruct (compare_offer _ _ _ _ _ _ _) as [[|]|]; try (apply Hr; congruence). exact Ha.
    + unfold drop_existing in Ha. cbn [tubof set_conns tm] in Ha. rewrite Eb in Ha. exact Ha.
  - destruct (c_m (conns s c)) eqn:Em; try (apply Hpop; left; reflexivity). apply Herr; reflexivity.
  - destruct (c_m (conns s c)) eqn:Em; try (apply Hpop; left; reflexivity). apply Herr; reflexivity.
  - destruct (c_m (conns s c)) eqn:Em; try exact (Hfin q eq_refl). apply Hpop. right. reflexivity.
Qed.

Lemma deliver_m_inv c s : c < nconn s -> inv s -> inv (deliver_m c s).
Proof.
  intros Hc H. apply deliver_m_cases; [exact H|..].
  - intros m q Eq Hm. apply inv_upd; [exact H|]. apply (keeps_pop_sm _ m q); assumption.
  - intros m q Eq Hm Em. apply inv_upd; [exact H|]. eapply keeps_trans; [apply (keeps_pop_sm _ m q); auto|].
    apply keeps_lose. change (negotiating (c_m (conns s c)) = true). rewrite Em. reflexivity.
  - intros q Eq. apply conn_lost_inv; [exact H|reflexivity|]. apply (good_lost_fin_m _ q Eq), H.
  - intros inc last q Eq Em. set (s0 := set_conns (upd (conns s) c (pop_sm (conns s c))) s).
    assert (H0 : inv s0) by (apply inv_upd; [exact H|]; apply (keeps_pop_sm _ _ q Eq); left; reflexivity).
    assert (Em0 : c_m (conns s0 c) = ENeg) by (cbn [s0 set_conns conns]; rewrite upd_same; exact Em).
    split; [intros _; apply inv_upd; [exact H0|apply keeps_reject_m, Em0]|].
    destruct (drop_existing_inv TM s0 H0) as (D1 & D2 & D3 & D4).
    apply master_accept_inv; [exact D1|exact D2|rewrite D3; exact Hc|rewrite (D4 c); [exact Em0|cbn [cend]; rewrite Em0; discriminate]].
Qed.

Lemma deliver_s_cases (P : state -> Prop) c s :
  let k := conns s c in
  P s ->
  (forall m q, c_qms k = m :: q -> is_fin m = false \/ closed (c_s k) = true -> negotiating (c_s k) = false ->
     P (set_conns (upd (conns s) c (pop_ms k)) s)) ->
  (forall m q, c_qms k = m :: q -> negotiating (c_s k) = true -> P (set_conns (upd (conns s) c (lose TS (pop_ms k))) s)) ->
  (forall q, c_qms k = Fin :: q -> P (conn_lost TS c pop_ms s)) ->
  (forall a b q, c_qms k = Hello a b :: q -> c_s k = ENeg -> P (set_conns (upd (conns s) c (set_end TS EDec (pop_ms k))) s)) ->
  (forall inc seq q, c_qms k = Decision inc seq :: q -> c_s k = EDec ->
     let s1 := drop_existing TS s in
     let r := if slave_table_recorded_always || tub_eqb (c_client k) TS then Some (inc, seq) else t_slave (ts s1) in
     P (attach TS c (set_tub TS (set_slave r (ts s1)) (set_conns (upd (conns s1) c (set_end TS EBrk (pop_ms (conns s1 c)))) s1)))) ->
  P (deliver_s c s).
Proof.
  cbv zeta. intros Hs Hpop Herr Hfin Hhello Hdec. unfold deliver_s. destruct (c_qms (conns s c)) as [|m q] eqn:Eq; [exact Hs|].
  specialize (Hpop m q eq_refl). specialize (Herr m q eq_refl).
  destruct m as [a b|inc seq| |].
  - destruct (c_s (conns s c)) eqn:Es; try (apply Hpop; [left|]; reflexivity); [exact (Hhello a b q eq_refl eq_refl)|apply Herr; reflexivity].
  - destruct (c_s (conns s c)) eqn:Es; try (apply Hpop; [left|]; reflexivity); [apply Herr; reflexivity|exact (Hdec inc seq q eq_refl eq_refl)].
  - destruct (c_s (conns s c)) eqn:Es; try (apply Hpop; [left|]; reflexivity); apply Herr; reflexivity.
  - destruct (c_s (conns s c)) eqn:Es; try exact (Hfin q eq_refl). apply Hpop; [right|]; reflexivity.
Qed.

Lemma deliver_s_inv c s : c < nconn s -> inv s -> inv (deliver_s c s).
Proof.
  intros Hc H. apply deliver_s_cases; [exact H|..].
  - intros m q Eq Hm Hn. apply inv_upd; [exact H|]. apply (keeps_pop_ms _ m q); auto.
  - intros m q Eq Hn. apply inv_upd; [exact H|]. apply (keeps_lose_pop_s _ m q); assumption.
  - intros q Eq. apply conn_lost_inv; [exact H|reflexivity|]. apply (good_lost_fin_s _ q Eq), H.
  - intros a b q Eq Es. apply inv_upd; [exact H|]. apply (keeps_hello_s _ a b q); assumption.
  - intros inc seq q Eq Es. cbv zeta. destruct (drop_existing_inv TS s H) as ([G1 R1] & D2 & D3 & D4).
    assert (Ec : conns (drop_existing TS s) c = conns s c) by (apply D4; cbn [cend]; rewrite Es; discriminate).
    apply attach_inv; cbn [set_tub set_conns set_slave tubof peer tm ts conns nconn t_broker].
    + apply good_upd; [exact G1|]. rewrite Ec. apply (good_dec_s _ inc seq q Eq Es), H.
    + apply reg_set; [rewrite <- D2; apply (R1 TS)|rewrite D3; exact Hc|reflexivity].
    + apply reg_upd; [apply (R1 TM)|reflexivity].
Qed.

Lemma advance_inv dt s : inv s -> inv (do_advance dt s).
Proof.
  intros H. unfold do_advance.
  set (n := Z.max (now s) (next_time s (now s + Z.max dt 0))).
  set (s2 := set_conns (fun i => srv_expire n (sdl s i) (conns s i)) (set_now n s)).
  assert (H2 : inv s2) by (apply inv_conns; [exact H|intros i; apply keeps_srv_expire]).
  assert (H3 : inv (if expired TM s2 then do_timeout TM s2 else s2)).
  { destruct (expired TM s2); [apply timeout_inv|]; exact H2. }
  destruct (expired TS _); [apply timeout_inv|]; exact H3.
Qed.

Theorem step_inv s o : inv s -> inv (step s o).
Proof.
  intros H. destruct o as [x|x|c to|c x|c|x|x|x|dt|o]; cbn [step].
  - apply set_tub_inv; [apply broker_getref_tub|exact H].
  - apply dial_inv, H.
  - destruct to; destruct (Nat.ltb_spec c (nconn s)); try exact H; [apply deliver_m_inv|apply deliver_s_inv]; assumption.
  - destruct (Nat.ltb_spec c (nconn s)); [apply closeseen_inv|]; exact H.
  - destruct (Nat.ltb_spec c (nconn s)); [apply inv_upd, keeps_cut|]; exact H.
  - apply restart_inv, H.
  - apply timeout_inv, H.
  - apply set_tub_inv; [reflexivity|exact H].
  - apply advance_inv, H.
  - exact H.
Qed.

Lemma run_invariant (P : state -> Prop) : P init -> (forall s o, P s -> P (step s o)) -> forall ops, P (run ops).
Proof.
  intros H0 HS ops. unfold run. generalize init H0.
  induction ops as [|o r IH]; intros s H; cbn [fold_left]; [exact H|apply IH, HS, H].
Qed.

Theorem run_inv ops : inv (run ops).
Proof. apply run_invariant; [exact init_inv|exact step_inv]. Qed.

Lemma quiet_agree k : good k -> quiet_conn k = true -> (c_m k = EBrk <-> c_s k = EBrk).
Proof.
  destruct k as [cl g m s qms qsm cut]. unfold quiet_conn, close_pending. cbn. rewrite good_mk.
  intros ((D1 & _ & D3 & D4) & (F1 & _) & (F2 & _)) Hq.
  destruct qms, qsm; try discriminate Hq. apply andb_true_iff in Hq as [Qm Qs].
  (* a live end sees no cut; the other end is not behind (the decision is not in flight), has not hung up (it would
     still owe its connectionLost) and is not lost (no FIN in flight, no cut) *)
  split; intros ->; cbn in Qm, Qs; (destruct cut; [discriminate|]).
  - destruct s; try reflexivity; try discriminate Qs;
      [destruct (D3 eq_refl eq_refl)|destruct (D3 eq_refl eq_refl)|destruct (F2 eq_refl) as [|[|]]]; discriminate.
  - destruct m; try reflexivity; try discriminate Qm;
      [destruct (D1 eq_refl eq_refl)|destruct (D4 eq_refl)|destruct (F1 eq_refl) as [|[|]]; discriminate].
Qed.

Theorem agree_at_quiescence ops :
  quiescent (run ops) ->
  forall c, t_broker (tm (run ops)) = Some c <-> t_broker (ts (run ops)) = Some c.
Proof.
  intros Hq c. rewrite (inv_live _ TM c (run_inv ops)), (inv_live _ TS c (run_inv ops)). apply quiet_agree; [apply run_inv|apply Hq].
Qed.

(* hence a Tub has at most one live Broker end *)
Theorem broker_is_live_end ops c :
  (t_broker (tm (run ops)) = Some c <-> c_m (conns (run ops) c) = EBrk) /\
  (t_broker (ts (run ops)) = Some c <-> c_s (conns (run ops) c) = EBrk).
Proof. split; [apply (inv_live _ TM)|apply (inv_live _ TS)]; apply run_inv. Qed.

(* the quiescence hypothesis is satisfiable with a shared connection: S dials, everything is delivered *)
Example quiescent_connected :
  let s := run [GetRef TS; DialHint TS; Deliver 0 TM; Deliver 0 TS; Deliver 0 TS] in
  quiet_conn (conns s 0) = true /\ t_broker (tm s) = Some 0 /\ t_broker (ts s) = Some 0.
Proof. vm_compute. auto. Qed.

(* ... and after a cut seen by both ends: neither side has one *)
Example quiescent_after_cut :
  let s := run [GetRef TS; DialHint TS; Deliver 0 TM; Deliver 0 TS; Deliver 0 TS; Cut 0; CloseSeen 0 TM; CloseSeen 0 TS] in
  quiet_conn (conns s 0) = true /\ t_broker (tm s) = None /\ t_broker (ts s) = None.
Proof. vm_compute. auto. Qed.

(* the flap found on the real code, in the model: M restarted, S (remembering M's past life) dials two hints;
   M accepts both offers; S takes the first decision and cancels the second attempt: nobody is connected *)
Example flap_after_master_restart :
  let s := run [GetRef TS; DialHint TS; Deliver 0 TM; Deliver 0 TS; Deliver 0 TS;
                Restart TM; CloseSeen 0 TS;
                GetRef TS; DialHint TS; DialHint TS;
                Deliver 1 TM; Deliver 2 TM;            (* both offers accepted: seqnum 2 *)
                Deliver 1 TS; Deliver 1 TS;            (* S attaches link 1, cancels link 2 *)
                Deliver 1 TS; Deliver 2 TM; CloseSeen 1 TM; CloseSeen 2 TS; Deliver 2 TS; Deliver 2 TS; Deliver 2 TS;
                Deliver 1 TM] in
  t_master (tm s) = 2%Z /\ t_broker (tm s) = None /\ t_broker (ts s) = None /\ List.length (t_fired (ts s)) = 2 /\
  forallb (fun i => quiet_conn (conns s i)) (seq 0 (nconn s)) = true.
Proof. vm_compute. auto. Qed.

Lemma T_pos : (0 < CONNECTION_TIMEOUT)%Z.
Proof. unfold CONNECTION_TIMEOUT. lia. Qed.

(* the numbers of all lookups that were answered or are waiting *)
Definition ids (t : tub) : list nat := map f_id (t_fired t) ++ map fst (t_waiters t).
(* between operations an armed timer lies strictly in the future (b = true); inside `Advance`, after the clock
   has moved and before the due timers have fired, it may be due now (b = false) *)
Definition dl_ok (b : bool) (n d : Z) : Prop := if b then (n < d)%Z else (n <= d)%Z.

Definition wgood (b : bool) (n : Z) (t : tub) : Prop :=
  (t_waiters t <> [] -> t_connector t <> None) /\
  (t_broker t <> None -> t_waiters t = []) /\
  Permutation (ids t) (seq 0 (t_issued t)) /\
  (t_connector t <> None -> dl_ok b n (t_deadline t) /\ (t_deadline t <= n + CONNECTION_TIMEOUT)%Z) /\
  (forall w r, In (w, r) (t_waiters t) -> (r <= n)%Z /\ (t_deadline t <= r + CONNECTION_TIMEOUT)%Z) /\
  (forall f, In f (t_fired t) -> (f_reg f <= f_at f)%Z /\ (f_at f <= f_reg f + CONNECTION_TIMEOUT)%Z /\ (f_at f <= n)%Z).
Definition winv (b : bool) (s : state) : Prop := forall x, wgood b (now s) (tubof x s).

Lemma dl_ok_le b n d : dl_ok b n d -> (n <= d)%Z.
Proof. destruct b; cbn; lia. Qed.
Lemma dl_ok_fresh b n : dl_ok b n (n + CONNECTION_TIMEOUT)%Z.
Proof. pose proof T_pos. destruct b; cbn; lia. Qed.

Lemma wgood_idle b n t : wgood b n t -> t_connector t = None -> t_waiters t = [].
Proof. intros (W1 & _) E. destruct (t_waiters t); [reflexivity|]. exfalso. apply W1; [discriminate|exact E]. Qed.
Lemma wgood_armed n t : wgood true n t -> t_connector t <> None -> (n < t_deadline t)%Z.
Proof. intros (_ & _ & _ & W4 & _) Hc. apply W4, Hc. Qed.

Lemma perm_mid {A} (l1 l2 : list A) x : Permutation (l1 ++ [x] ++ l2) ((l1 ++ l2) ++ [x]).
Proof. rewrite <- app_assoc. apply Permutation_app_head. apply Permutation_cons_append. Qed.

Lemma wgood_getref b n t : wgood b n t -> wgood b n (getref_tub n t).
Proof.
  intros H. pose proof (wgood_idle _ _ _ H) as Hi. destruct H as (H1 & H2 & H3 & H4 & H5 & H6). pose proof T_pos as HT. unfold getref_tub.
  destruct (t_broker t) as [e|] eqn:Eb.
  - unfold wgood, ids. cbn [t_waiters t_connector t_broker t_fired t_issued t_deadline].
    split; [exact H1|]. split; [intros _; apply H2; discriminate|]. split.
    { rewrite map_app, <- app_assoc, seq_S. cbn [plus map f_id].
      eapply Permutation_trans; [apply perm_mid|]. apply Permutation_app_tail. exact H3. }
    split; [exact H4|]. split; [exact H5|].
    intros f Hf. apply in_app_or in Hf as [Hf|[<-|[]]]; [apply H6, Hf|]. cbn. lia.
  - destruct (t_connector t) as [g|] eqn:Ec.
    + unfold wgood, ids. cbn [t_waiters t_connector t_broker t_fired t_issued t_deadline].
      split; [intros _; discriminate|]. split; [intros C; contradiction C; reflexivity|]. split.
      { rewrite map_app, app_assoc, seq_S. cbn [plus map fst]. apply Permutation_app_tail. exact H3. }
      split; [exact H4|]. split; [|exact H6].
      intros w r Hw. apply in_app_or in Hw as [Hw|[E|[]]]; [apply (H5 w r), Hw|]. inversion E; subst.
      destruct H4 as [_ H4]; [discriminate|]. lia.
    + assert (Hw0 : t_waiters t = []) by (apply Hi; reflexivity).
      unfold wgood, ids. cbn [t_waiters t_connector t_broker t_fired t_issued t_deadline]. rewrite Hw0 in *.
      split; [intros _; discriminate|]. split; [intros C; contradiction C; reflexivity|]. split.
      { cbn [app map fst]. rewrite seq_S. cbn [plus]. apply Permutation_app_tail.
        unfold ids in H3. rewrite Hw0 in H3. cbn [map] in H3. rewrite app_nil_r in H3. exact H3. }
      split; [intros _; split; [apply dl_ok_fresh|lia]|]. split; [|exact H6].
      intros w r [E|[]]. inversion E; subst. lia.
Qed.

(* all waiters are answered at time n and the connector is forgotten: holds with either flag afterwards *)
Lemma wgood_fire_all b b' n ok t t' :
  wgood b n t ->
  t_connector t' = None -> t_waiters t' = [] -> t_issued t' = t_issued t ->
  t_fired t' = t_fired t ++ map (fun w => mkfired (fst w) (snd w) n ok) (t_waiters t) ->
  wgood b' n t'.
Proof.
  intros (H1 & H2 & H3 & H4 & H5 & H6) Ec Ew Ei Ef. unfold wgood, ids. rewrite Ec, Ew, Ei, Ef.
  split; [intros C; contradiction C; reflexivity|]. split; [reflexivity|]. split.
  { rewrite map_app, map_map. cbn [f_id map app]. rewrite app_nil_r. exact H3. }
  split; [intros C; contradiction C; reflexivity|]. split; [intros w r []|].
  intros f Hf. apply in_app_or in Hf as [Hf|Hf]; [apply H6, Hf|].
  apply in_map_iff in Hf as ([w r] & <- & Hw). cbn [f_reg f_at fst snd].
  destruct (H5 w r Hw) as [Hr Hd].
  assert (Hc : t_connector t <> None) by (apply H1; intros E; rewrite E in Hw; exact Hw).
  destruct (H4 Hc) as [Hk _]. apply dl_ok_le in Hk. lia.
Qed.

Lemma wgood_flag_none b b' n t : t_connector t = None -> wgood b n t -> wgood b' n t.
Proof.
  intros Ec H. unfold wgood in *. rewrite Ec in *. destruct H as (H1 & H2 & H3 & H4 & H5 & H6).
  split; [exact H1|]. split; [exact H2|]. split; [exact H3|]. split; [intros C; contradiction C; reflexivity|]. split; assumption.
Qed.

Lemma wgood_ext b n t t' :
  t_broker t' = t_broker t -> t_connector t' = t_connector t -> t_deadline t' = t_deadline t ->
  t_waiters t' = t_waiters t -> t_fired t' = t_fired t -> t_issued t' = t_issued t -> wgood b n t -> wgood b n t'.
Proof. unfold wgood, ids. intros -> -> -> -> -> ->. auto. Qed.

(* uses the ORDER read from Tub.connectionFailed: the connector is forgotten before the errbacks run, so a lookup
   issued from inside an errback starts a new connector *)
Lemma wgood_gone b b' n t : wgood b n t -> wgood b' n (connector_gone n t).
Proof.
  intros H. unfold connector_gone, connection_failed_forgets_first. cbn [set_connector t_broker].
  destruct (t_broker t) as [e|] eqn:Eb.
  - assert (Hw : t_waiters t = []) by (apply H; rewrite Eb; discriminate).
    eapply (wgood_fire_all _ _ _ false); [exact H|reflexivity|exact Hw|reflexivity|]. rewrite Hw. symmetry. apply app_nil_r.
  - unfold errback_all.
    assert (Hf : forall b2, wgood b2 n (fire n false (set_connector None t))).
    { intros b2. eapply wgood_fire_all; [exact H| | | |]; reflexivity. }
    destruct (t_retry (set_connector None t) && negb (Nat.eqb (List.length (t_waiters (set_connector None t))) 0))%bool.
    + apply wgood_getref. eapply wgood_ext; [| | | | | |apply (Hf b')]; reflexivity.
    + apply Hf.
Qed.

Lemma wgood_nobroker b n t : wgood b n t -> wgood b n (set_broker None t).
Proof.
  intros (H1 & H2 & H3 & H4 & H5 & H6). unfold wgood, ids. cbn [set_broker t_waiters t_connector t_broker t_fired t_issued t_deadline].
  split; [exact H1|]. split; [intros C; contradiction C; reflexivity|]. repeat (split; [assumption|]). assumption.
Qed.

(* the clock moves from n to n', not beyond an armed deadline *)
Lemma wgood_mono b n n' t : wgood b n t -> (n <= n')%Z -> (t_connector t <> None -> (n' <= t_deadline t)%Z) -> wgood false n' t.
Proof.
  intros (H1 & H2 & H3 & H4 & H5 & H6) Hn Hd. unfold wgood.
  split; [exact H1|]. split; [exact H2|]. split; [exact H3|]. split.
  { intros Hc. destruct (H4 Hc) as [_ Hk]. specialize (Hd Hc). cbn. lia. }
  split; [intros w r Hw; destruct (H5 w r Hw); lia|]. intros f Hf. destruct (H6 f Hf) as (? & ? & ?). lia.
Qed.
Lemma wgood_strict n t : wgood false n t -> (t_connector t <> None -> (n < t_deadline t)%Z) -> wgood true n t.
Proof.
  intros (H1 & H2 & H3 & H4 & H5 & H6) Hd. unfold wgood.
  split; [exact H1|]. split; [exact H2|]. split; [exact H3|]. split; [|split; assumption].
  intros Hc. destruct (H4 Hc) as [_ Hk]. split; [cbn; apply Hd, Hc|exact Hk].
Qed.

Lemma wgood_new b n inc g : wgood b n (new_tub inc g).
Proof.
  unfold wgood, ids. cbn. split; [intros C; contradiction C; reflexivity|]. split; [reflexivity|]. split; [constructor|].
  split; [intros C; contradiction C; reflexivity|]. split; [intros w r []|intros f []].
Qed.

Lemma now_set_tub x t s : now (set_tub x t s) = now s.
Proof. destruct x; reflexivity. Qed.
Lemma tubof_attach x c s :
  tubof x (attach x c s) = fire (now s) true (set_bcreated (now s) (set_broker (Some c) (set_connector None (tubof x s)))).
Proof.
  unfold attach. rewrite tubof_set_tub. destruct (tub_eqb _ x); [|destruct (t_connector _)]; destruct x; reflexivity.
Qed.

Lemma tubof_timeout x s :
  tubof x (do_timeout x s) =
  match t_connector (tubof x s) with Some _ => connector_gone (now s) (tubof x s) | None => tubof x s end.
Proof. unfold do_timeout. destruct (t_connector (tubof x s)); [rewrite tubof_set_tub|]; destruct x; reflexivity. Qed.

Lemma winv_set_tub b x t s : winv b s -> wgood b (now s) t -> winv b (set_tub x t s).
Proof. intros H Ht y. destruct x, y; first [exact Ht|exact (H TM)|exact (H TS)]. Qed.

Lemma winv_connector_failed b x g s : winv b s -> winv b (connector_failed x g s).
Proof.
  intros H. unfold connector_failed. destruct (t_connector (tubof x s)); [|exact H].
  destruct (Nat.eqb g n && negb (any_pending x g s))%bool; [|exact H].
  apply winv_set_tub; [exact H|eapply wgood_gone, H].
Qed.

Lemma winv_conn_lost b x c pre s : winv b s -> winv b (conn_lost x c pre s).
Proof.
  intros H. apply conn_lost_cases; intros; [exact H|apply winv_set_tub; [exact H|apply wgood_nobroker, H]|apply winv_connector_failed, H].
Qed.

Lemma winv_drop b x s : winv b s -> winv b (drop_existing x s).
Proof.
  intros H. unfold drop_existing. destruct (t_broker (tubof x s)); [|exact H].
  apply winv_set_tub; [exact H|apply wgood_nobroker, H].
Qed.

Lemma winv_attach b x c s : winv b s -> winv b (attach x c s).
Proof.
  intros H. unfold attach.
  match goal with |- winv b (set_tub x _ ?s1) => assert (H1 : winv b s1 /\ now s1 = now s) end.
  { destruct (tub_eqb (c_client (conns s c)) x); [split; [exact H|reflexivity]|].
    destruct (t_connector (tubof x s)); split; try exact H; reflexivity. }
  destruct H1 as [H1 En]. apply winv_set_tub; [exact H1|]. rewrite En. eapply wgood_fire_all; [rewrite <- En; apply H1| | | |]; reflexivity.
Qed.

Lemma winv_master_accept b c inc s : winv b s -> winv b (master_accept c inc s).
Proof.
  intros H. unfold master_accept. apply winv_attach, (winv_set_tub b TM); [exact H|].
  eapply wgood_ext; [| | | | | |exact (H TM)]; reflexivity.
Qed.

Lemma winv_deliver_m b c s : winv b s -> winv b (deliver_m c s).
Proof.
  intros H. apply deliver_m_cases; intros; try exact H; [apply winv_conn_lost, H|].
  split; [intros _; exact H|apply winv_master_accept, winv_drop, H].
Qed.

Lemma winv_deliver_s b c s : winv b s -> winv b (deliver_s c s).
Proof.
  intros H. apply deliver_s_cases; intros; try exact H; [apply winv_conn_lost, H|].
  apply winv_attach, (winv_set_tub b TS); [exact (winv_drop b TS s H)|].
  eapply wgood_ext; [| | | | | |exact (winv_drop b TS s H TS)]; reflexivity.
Qed.

(* the connector's timer fires (or is forced): afterwards the flag is whatever is wanted for x; the other Tub is untouched *)
Lemma timeout_self b b' x s : wgood b (now s) (tubof x s) -> wgood b' (now s) (tubof x (do_timeout x s)).
Proof.
  intros H. rewrite tubof_timeout. destruct (t_connector (tubof x s)) eqn:Ec.
  - eapply wgood_gone, H.
  - eapply wgood_flag_none; [exact Ec|exact H].
Qed.
Lemma timeout_now x s : now (do_timeout x s) = now s.
Proof. unfold do_timeout. destruct (t_connector (tubof x s)); [|reflexivity]. rewrite now_set_tub. reflexivity. Qed.
Lemma timeout_other x s : tubof (peer x) (do_timeout x s) = tubof (peer x) s.
Proof. unfold do_timeout. destruct (t_connector (tubof x s)); destruct x; reflexivity. Qed.

Lemma winv_timeout b x s : winv b s -> winv b (do_timeout x s).
Proof.
  intros H y. rewrite timeout_now. destruct x, y; try (apply (timeout_self b b), H);
    [rewrite (timeout_other TM)|rewrite (timeout_other TS)]; apply H.
Qed.

Lemma expire_self x s :
  wgood false (now s) (tubof x s) -> wgood true (now s) (tubof x (if expired x s then do_timeout x s else s)).
Proof.
  intros G. destruct (expired x s) eqn:Ex; [apply (timeout_self false true), G|]. apply wgood_strict; [exact G|].
  intros Hc. unfold expired in Ex. destruct (t_connector (tubof x s)); [apply Z.leb_gt, Ex|contradiction Hc; reflexivity].
Qed.
Lemma expire_now x s : now (if expired x s then do_timeout x s else s) = now s.
Proof. destruct (expired x s); [apply timeout_now|reflexivity]. Qed.
Lemma expire_other x s : tubof (peer x) (if expired x s then do_timeout x s else s) = tubof (peer x) s.
Proof. destruct (expired x s); [apply timeout_other|reflexivity]. Qed.

Lemma fold_min_le (P : nat -> bool) (f : nat -> Z) l : forall a, (fold_left (fun n i => if P i then Z.min n (f i) else n) l a <= a)%Z.
Proof.
  induction l as [|i l IH]; intros a; cbn [fold_left]; [lia|].
  eapply Z.le_trans; [apply IH|]. destruct (P i); lia.
Qed.

Lemma next_time_le s n0 x : t_connector (tubof x s) <> None -> (next_time s n0 <= t_deadline (tubof x s))%Z.
Proof.
  unfold next_time.
  match goal with |- context [fold_left ?g ?l ?a] =>
    pose proof (fold_min_le (fun i => srv_armed (conns s i) && (now s <? sdl s i)%Z)%bool (sdl s) l a) as Hf end.
  cbv beta in Hf.
  destruct x; cbn [tubof]; destruct (t_connector (tm s)), (t_connector (ts s)); intros C; try (contradiction C; reflexivity); lia.
Qed.

Lemma winv_advance dt s : winv true s -> winv true (do_advance dt s).
Proof.
  intros H. unfold do_advance.
  set (n := Z.max (now s) (next_time s (now s + Z.max dt 0))).
  assert (Hn : (now s <= n)%Z) by (unfold n; lia).
  set (s2 := set_conns (fun i => srv_expire n (sdl s i) (conns s i)) (set_now n s)).
  assert (G2 : winv false s2).
  { intros y. apply (wgood_mono true (now s) n (tubof y s)); [apply H|exact Hn|]. intros Hc.
    pose proof (next_time_le s (now s + Z.max dt 0) y Hc). pose proof (wgood_armed _ _ (H y) Hc). unfold n. lia. }
  intros [].
  - rewrite !expire_now, (expire_other TS). apply (expire_self TM), G2.
  - rewrite expire_now. apply (expire_self TS). rewrite expire_now, (expire_other TM). apply G2.
Qed.

Theorem step_winv s o : winv true s -> winv true (step s o).
Proof.
  intros H. destruct o as [x|x|c to|c x|c|x|x|x|dt|o]; cbn [step].
  - apply winv_set_tub; [exact H|apply wgood_getref, H].
  - unfold do_dial. destruct (t_connector (tubof x s)); exact H.
  - destruct to; destruct (Nat.ltb c (nconn s)); try exact H; [apply winv_deliver_m|apply winv_deliver_s]; exact H.
  - destruct (Nat.ltb c (nconn s)); [|exact H]. unfold do_closeseen. destruct (close_pending x (conns s c)); [|exact H].
    apply winv_conn_lost, H.
  - destruct (Nat.ltb c (nconn s)); exact H.
  - unfold do_restart. apply winv_set_tub; [exact H|apply wgood_new].
  - apply winv_timeout, H.
  - apply winv_set_tub; [exact H|]. eapply wgood_ext; [| | | | | |exact (H x)]; reflexivity.
  - apply winv_advance, H.
  - exact H.
Qed.

Theorem run_winv ops : winv true (run ops).
Proof.
  apply run_invariant; [intros []; apply wgood_new|exact step_winv].
Qed.

(* when the connector is gone (success, every attempt failed, or time-out) nobody is left waiting *)
Theorem waiters_fire ops x : t_connector (tubof x (run ops)) = None -> t_waiters (tubof x (run ops)) = [].
Proof.
  apply (wgood_idle true (now (run ops))), run_winv.
Qed.

(* no lookup is lost or answered twice: the numbers of the answered and the waiting lookups are exactly 0 .. issued-1,
   each once; nobody waits while a connection exists *)
Theorem lookups_accounted ops x :
  let t := tubof x (run ops) in
  NoDup (map f_id (t_fired t) ++ map fst (t_waiters t)) /\
  (forall w, In w (map f_id (t_fired t) ++ map fst (t_waiters t)) <-> w < t_issued t) /\
  (t_broker t <> None -> t_waiters t = []).
Proof.
  cbv zeta. destruct (run_winv ops x) as (_ & W2 & W3 & _). fold (ids (tubof x (run ops))).
  split; [|split; [|exact W2]].
  - eapply Permutation_NoDup; [apply Permutation_sym, W3|apply seq_NoDup].
  - intros w. split; intros H.
    + apply (Permutation_in _ W3) in H. apply in_seq in H. lia.
    + apply (Permutation_in _ (Permutation_sym W3)). apply in_seq. lia.
Qed.

(* every answer came within CONNECTION_TIMEOUT of the lookup (and not before it) *)
Theorem fired_within_timeout ops x f :
  In f (t_fired (tubof x (run ops))) ->
  (f_reg f <= f_at f)%Z /\ (f_at f <= f_reg f + CONNECTION_TIMEOUT)%Z /\ (f_at f <= now (run ops))%Z.
Proof. intros H. destruct (run_winv ops x) as (_ & _ & _ & _ & _ & W6). apply W6, H. Qed.

(* whoever still waits has a live connector whose armed timer fires within CONNECTION_TIMEOUT of the lookup, and that
   moment has not passed: no lookup is ever waiting at (time of the lookup + CONNECTION_TIMEOUT) *)
Theorem waiting_has_armed_timer ops x w r :
  In (w, r) (t_waiters (tubof x (run ops))) ->
  t_connector (tubof x (run ops)) <> None /\
  (r <= now (run ops))%Z /\ (now (run ops) < t_deadline (tubof x (run ops)))%Z /\
  (t_deadline (tubof x (run ops)) <= r + CONNECTION_TIMEOUT)%Z.
Proof.
  intros H. destruct (run_winv ops x) as (W1 & _ & _ & W4 & W5 & _).
  assert (Hc : t_connector (tubof x (run ops)) <> None) by (apply W1; intros E; rewrite E in H; exact H).
  destruct (W4 Hc) as [Hk _]. cbn in Hk. destruct (W5 w r H). auto.
Qed.

(* the two together: a lookup number that has been handed out is answered exactly once within the time-out, or it is
   waiting and its time-out has not been reached *)
Theorem every_lookup_fires_within_timeout ops x w :
  let t := tubof x (run ops) in
  w < t_issued t ->
  (exists f, In f (t_fired t) /\ f_id f = w /\ (f_reg f <= f_at f <= f_reg f + CONNECTION_TIMEOUT)%Z) \/
  (exists r, In (w, r) (t_waiters t) /\ (r <= now (run ops) < r + CONNECTION_TIMEOUT)%Z).
Proof.
  cbv zeta. intros Hw. destruct (lookups_accounted ops x) as (_ & Hin & _). cbv zeta in Hin.
  apply Hin in Hw. apply in_app_or in Hw as [Hw|Hw].
  - left. apply in_map_iff in Hw as (f & Ef & Hf). exists f. split; [exact Hf|]. split; [exact Ef|].
    destruct (fired_within_timeout ops x f Hf) as (? & ? & _). lia.
  - right. apply in_map_iff in Hw as ([w' r] & Ef & Hf). cbn in Ef. subst w'. exists r. split; [exact Hf|].
    destruct (waiting_has_armed_timer ops x w r Hf) as (_ & ? & ? & ?). lia.
Qed.

Lemma fold_min_gt (P : nat -> bool) (f : nat -> Z) lo l :
  (forall i, P i = true -> (lo < f i)%Z) -> forall a, (lo < a)%Z -> (lo < fold_left (fun n i => if P i then Z.min n (f i) else n) l a)%Z.
Proof.
  intros HP. induction l as [|i l IH]; intros a Ha; cbn [fold_left]; [exact Ha|].
  apply IH. destruct (P i) eqn:E; [specialize (HP i E); lia|exact Ha].
Qed.

Lemma now_advance dt s : now (do_advance dt s) = Z.max (now s) (next_time s (now s + Z.max dt 0)).
Proof.
  unfold do_advance. rewrite !expire_now. reflexivity.
Qed.

(* time can always pass (the model never blocks the clock): Advance by dt > 0 moves the clock forward *)
Theorem time_passes ops dt : (0 < dt)%Z -> (now (run ops) < now (step (run ops) (Advance dt)))%Z.
Proof.
  intros Hdt. cbn [step]. rewrite now_advance. set (s := run ops).
  pose proof (wgood_armed _ _ (run_winv ops TM)) as Lm. pose proof (wgood_armed _ _ (run_winv ops TS)) as Ls. cbn [tubof] in Lm, Ls. fold s in Lm, Ls.
  assert (G : (now s < next_time s (now s + Z.max dt 0))%Z); [|lia].
  unfold next_time. apply (fold_min_gt (fun i => srv_armed (conns s i) && (now s <? sdl s i)%Z)%bool (sdl s)).
  - intros i E. apply andb_true_iff in E as [_ E]. apply Z.ltb_lt in E. exact E.
  - destruct (t_connector (tm s)); [specialize (Lm ltac:(discriminate))|];
      (destruct (t_connector (ts s)); [specialize (Ls ltac:(discriminate))|]); lia.
Qed.

(* the forced firing of the connector's timer answers everybody who was waiting (no retry armed: nobody waits afterwards) *)
Theorem timeout_answers_all ops x :
  let s := run ops in let s' := step s (Timeout x) in
  (t_waiters (tubof x s) <> [] -> t_connector (tubof x s) <> None) /\
  (t_retry (tubof x s) = false -> t_waiters (tubof x s') = []) /\
  (forall w r, In (w, r) (t_waiters (tubof x s)) -> t_broker (tubof x s) = None /\
     In (mkfired w r (now s) false) (t_fired (tubof x s'))).
Proof.
  cbv zeta. destruct (run_winv ops x) as (W1 & W2 & _).
  split; [exact W1|]. cbn [step]. rewrite tubof_timeout.
  destruct (t_connector (tubof x (run ops))) as [g|] eqn:Ec.
  - unfold connector_gone, connection_failed_forgets_first, errback_all. cbn [set_connector t_broker t_retry t_waiters].
    destruct (t_broker (tubof x (run ops))) eqn:Eb.
    + assert (Hw : t_waiters (tubof x (run ops)) = []) by (apply W2; discriminate). rewrite Hw.
      split; [intros _; cbn; exact Hw|]. intros w r [].
    + split.
      * intros ->. cbn [andb]. reflexivity.
      * intros w r Hw. split; [reflexivity|].
        assert (G : In (mkfired w r (now (run ops)) false) (t_fired (fire (now (run ops)) false (set_connector None (tubof x (run ops)))))).
        { cbn [fire set_connector t_fired t_waiters]. apply in_or_app. right.
          apply in_map_iff. exists (w, r). split; [reflexivity|exact Hw]. }
        match goal with |- context [if ?b then _ else _] => destruct b end; [|exact G].
        unfold getref_tub. cbn [set_retry fire set_connector t_broker t_connector]. rewrite Eb.
        cbn [t_fired]. exact G.
  - split; [|intros w r Hw; exfalso; apply W1; [intros E; rewrite E in Hw; exact Hw|reflexivity]].
    intros _. apply waiters_fire, Ec.
Qed.

(* a lookup whose connector fails synchronously (Converge.nohints_ops) is a schedule of the model: every theorem about
   `run ops` holds for the harness's schedules with such lookups *)
Lemma hrun_from_run hs : forall ops0, exists ops, fold_left hstep hs (run ops0) = run ops.
Proof.
  induction hs as [|h hs IH]; intros ops0; cbn [fold_left].
  - exists ops0. reflexivity.
  - assert (E : exists ops1, hstep (run ops0) h = run ops1).
    { destruct h as [o|x]; cbn [hstep].
      - exists (ops0 ++ [o]). unfold run. rewrite fold_left_app. reflexivity.
      - exists (ops0 ++ nohints_ops x (run ops0)). symmetry. unfold run at 1. rewrite fold_left_app. reflexivity. }
    destruct E as [ops1 E]. rewrite E. apply IH.
Qed.

Theorem hrun_is_run hs : exists ops, hrun hs = run ops.
Proof. unfold hrun. change init with (run []). apply hrun_from_run. Qed.

(* ... and it is answered at once: the lookup is errbacked at the moment it is made; without an armed retry the Tub is
   left with NO connector and nobody waiting (so the next lookup starts a connector, with a time-out, of its own: getref_tub);
   with one, the retry made from inside the errback waits on a new connector whose timer runs from now.
   Uses the order of effects read from Tub.connectionFailed; the registration of the connector BEFORE connect() is a
   translated shape fact of Tub.getBrokerForTubRef (translate/g_converge.py) *)
Lemma getref_then_gone n t :
  t_broker t = None -> t_connector t = None -> t_waiters t = [] ->
  let t' := connector_gone n (getref_tub n t) in
  In (mkfired (t_issued t) n n false) (t_fired t') /\
  (t_retry t = false -> t_connector t' = None /\ t_waiters t' = []) /\
  (t_retry t = true ->
     t_waiters t' = [(S (t_issued t), n)] /\ t_connector t' <> None /\
     t_deadline t' = (n + CONNECTION_TIMEOUT)%Z /\ t_retry t' = false).
Proof.
  destruct t as [inc br bir bseq bcr mas sl cn dl gen ws fd iss rt]. cbn [t_broker t_connector t_waiters t_issued t_retry].
  (* on a Tub given by its fields both calls compute; each claim is read off the result *)
  intros -> -> ->. destruct rt; (split; [apply in_or_app; right; left; reflexivity|]).
  - split; [discriminate|]. intros _. repeat split. discriminate.
  - split; [|discriminate]. intros _. split; reflexivity.
Qed.

Theorem sync_failure_answered_at_once ops x :
  let s := run ops in
  t_broker (tubof x s) = None -> t_connector (tubof x s) = None ->
  let s' := fold_left step (nohints_ops x s) s in
  now s' = now s /\
  In (mkfired (t_issued (tubof x s)) (now s) (now s) false) (t_fired (tubof x s')) /\
  (t_retry (tubof x s) = false -> t_connector (tubof x s') = None /\ t_waiters (tubof x s') = []) /\
  (t_retry (tubof x s) = true ->
     t_waiters (tubof x s') = [(S (t_issued (tubof x s)), now s)] /\ t_connector (tubof x s') <> None /\
     t_deadline (tubof x s') = (now s + CONNECTION_TIMEOUT)%Z /\ t_retry (tubof x s') = false).
Proof.
  cbv zeta. intros Eb Ec. pose proof (waiters_fire ops x Ec) as Ew.
  unfold nohints_ops. rewrite Eb, Ec. cbn [fold_left step].
  split; [rewrite timeout_now; apply now_set_tub|].
  rewrite tubof_timeout. unfold do_getref. rewrite tubof_set_tub, now_set_tub.
  replace (t_connector (getref_tub _ _)) with (Some (t_gen (tubof x (run ops)))) by (unfold getref_tub; rewrite Eb, Ec; reflexivity).
  exact (getref_then_gone _ _ Eb Ec Ew).
Qed.

(* with a Broker or a live connector the hints are not looked at: it is an ordinary lookup *)
Lemma nohints_is_plain_lookup x s :
  t_broker (tubof x s) <> None \/ t_connector (tubof x s) <> None -> nohints_ops x s = [GetRef x].
Proof.
  unfold nohints_ops. intros [H|H]; destruct (t_broker (tubof x s)); destruct (t_connector (tubof x s)); try reflexivity;
    exfalso; apply H; reflexivity.
Qed.

(* no hints at all; no hints with a retry armed for the errback (which dials one good hint) *)
Example sync_failure_examples :
  let s := hrun [GetRefNoHints TS] in
  t_fired (ts s) = [mkfired 0 0 0 false] /\ t_connector (ts s) = None /\ t_waiters (ts s) = [] /\
  let s2 := hrun [GetRefNoHints TS; Plain (GetRef TS); Plain (DialHint TS); Plain (Deliver 0 TM); Plain (Deliver 0 TS); Plain (Deliver 0 TS)] in
  t_fired (ts s2) = [mkfired 0 0 0 false; mkfired 1 0 0 true] /\ t_broker (ts s2) = Some 0%nat /\ t_broker (tm s2) = Some 0%nat /\
  let s3 := hrun [Plain (ArmRetry TM); Plain (Advance 7); GetRefNoHints TM; Plain (DialHint TM); GetRefNoHints TM] in
  t_fired (tm s3) = [mkfired 0 7 7 false] /\ t_waiters (tm s3) = [(1%nat, 7%Z); (2%nat, 7%Z)] /\ t_deadline (tm s3) = 127%Z.
Proof. vm_compute. repeat split. Qed.

(* the instant retry: a lookup fails at the time-out, its errback looks the Tub up again at once; the new lookup waits
   on a NEW connector and is answered by that connector's own time-out, CONNECTION_TIMEOUT later *)
Example retry_from_errback :
  let s := run [GetRef TM; DialHint TM; ArmRetry TM; Advance 500] in
  now s = 120%Z /\ t_fired (tm s) = [mkfired 0 0 120 false] /\ t_waiters (tm s) = [(1, 120%Z)] /\ t_connector (tm s) = Some 1 /\
  t_deadline (tm s) = 240%Z /\
  let s' := step s (Advance 500) in now s' = 240%Z /\ t_waiters (tm s') = [] /\
  t_fired (tm s') = [mkfired 0 0 120 false; mkfired 1 120 240 false].
Proof. vm_compute. repeat split. Qed.

(* two lookups at different times share the connector of the first: both are answered when ITS timer fires *)
Example waiting_then_timeout :
  let s := run [GetRef TM; DialHint TM; DialHint TM; Advance 50; GetRef TM; Advance 60] in
  now s = 110%Z /\ t_waiters (tm s) = [(0, 0%Z); (1, 50%Z)] /\
  let s' := step s (Advance 60) in
  now s' = 120%Z /\ t_waiters (tm s') = [] /\ t_fired (tm s') = [mkfired 0 0 120 false; mkfired 1 50 120 false].
Proof. vm_compute. repeat split. Qed.

(* the listening end's own negotiation timer: S's hello never arrives; M (listening) hangs up at SERVER_TIMEOUT *)
Example server_timer_fires :
  let s := run [GetRef TS; Advance 10; DialHint TS; Timeout TS; GetRef TS; Advance 200] in
  now s = 130%Z /\ c_m (conns s 0) = ECloNeg.
Proof. vm_compute. repeat split. Qed.

Section Offer.
  Variables (s : state) (c : nat) (inc : Z) (last : option (Z * Z)) (rest : list msg) (e : nat).
  Hypotheses (Hc : Nat.ltb c (nconn s) = true) (Eq : c_qsm (conns s c) = Hello inc last :: rest)
             (Em : c_m (conns s c) = ENeg) (Eb : t_broker (tm s) = Some e).
  Let verdict := compare_offer (Some inc) last (t_bir (tm s)) (t_bseq (tm s)) (t_inc (tm s)) (ho s) (now s - t_bcreated (tm s)).

  Lemma deliver_m_offer :
    step s (Deliver c TM) =
      let s0 := set_conns (upd (conns s) c (pop_sm (conns s c))) s in
      match verdict with Ok true => master_accept c inc (drop_existing TM s0) | _ => master_reject c s0 end.
  Proof. cbn [step]. rewrite Hc. unfold deliver_m. rewrite Eq, Em. cbn [set_conns tm now ho]. rewrite Eb. reflexivity. Qed.

  (* refused: the master's Tub (current connection, tables, waiters) is untouched, every other connection is untouched,
     the offering connection is hung up *)
  Lemma offer_refused :
    verdict = Ok false ->
    let s' := step s (Deliver c TM) in
    tm s' = tm s /\ ts s' = ts s /\ (forall j, j <> c -> conns s' j = conns s j) /\ c_m (conns s' c) = ECloNeg.
  Proof.
    intros Ecmp. cbv zeta. rewrite deliver_m_offer. cbv zeta. rewrite Ecmp.
    unfold master_reject. cbn [set_conns tm ts conns].
    split; [reflexivity|]. split; [reflexivity|]. split.
    - intros j Hj. rewrite !upd_other by exact Hj. reflexivity.
    - rewrite !upd_same. clear Eq. destruct (conns s c) as [cl g m s_ qms qsm cut]. cbn in Em. subst m.
      unfold lose, enq, pop_sm. cbn. destruct cut; reflexivity.
  Qed.

  (* accepted: the offering connection becomes the master's current one, with the offer's incarnation and the next seqnum *)
  Lemma offer_accepted :
    verdict = Ok true ->
    let s' := step s (Deliver c TM) in
    t_broker (tm s') = Some c /\ t_bir (tm s') = Some inc /\ t_bseq (tm s') = (t_master (tm s) + seqnum_step)%Z /\
    t_master (tm s') = (t_master (tm s) + seqnum_step)%Z /\ t_bcreated (tm s') = now s.
  Proof.
    intros Ecmp. cbv zeta. rewrite deliver_m_offer. cbv zeta. rewrite Ecmp.
    unfold master_accept. rewrite (tubof_attach TM). unfold drop_existing. cbn [tubof set_conns tm]. rewrite Eb.
    repeat split.
  Qed.
End Offer.

(* "an established healthy connection is not displaced by a redundant attempt from the same peer incarnation", in the
   model: the offer of the incarnation the master is connected to, which remembers nothing or an older connection of
   this master incarnation, leaves the master's Tub exactly as it was *)
Theorem model_redundant_not_displacing s c inc lir lseq rest e :
  Nat.ltb c (nconn s) = true -> c_qsm (conns s c) = Hello inc (Some (lir, lseq)) :: rest -> c_m (conns s c) = ENeg ->
  t_broker (tm s) = Some e -> t_bir (tm s) = Some inc ->
  (lir = IR_NONE \/ (lir = t_inc (tm s) /\ (lseq < t_bseq (tm s))%Z)) ->
  let s' := step s (Deliver c TM) in
  tm s' = tm s /\ ts s' = ts s /\ (forall j, j <> c -> conns s' j = conns s j) /\ c_m (conns s' c) = ECloNeg.
Proof.
  intros Hc Eq Em Eb Eir Hl. apply (offer_refused s c inc (Some (lir, lseq)) rest e Hc Eq Em Eb).
  rewrite Eir. apply compare_same_incarnation_older_or_none. exact Hl.
Qed.

(* "an attempt from a restarted peer does displace the stale one", in the model *)
Theorem model_restart_displaces s c inc last rest e :
  Nat.ltb c (nconn s) = true -> c_qsm (conns s c) = Hello inc (Some last) :: rest -> c_m (conns s c) = ENeg ->
  t_broker (tm s) = Some e -> t_bir (tm s) <> Some inc ->
  let s' := step s (Deliver c TM) in
  t_broker (tm s') = Some c /\ t_bir (tm s') = Some inc /\ t_bseq (tm s') = (t_master (tm s) + seqnum_step)%Z /\
  t_master (tm s') = (t_master (tm s) + seqnum_step)%Z /\ t_bcreated (tm s') = now s.
Proof.
  intros Hc Eq Em Eb Hir. apply (offer_accepted s c inc (Some last) rest e Hc Eq Em Eb).
  apply compare_new_incarnation. exact Hir.
Qed.

(* the hypotheses are satisfiable: S dials twice after being connected (parallel redundant hint: refused);
   S restarts and dials (displaces) *)
Example redundant_offer_reachable :
  let s := run [GetRef TS; DialHint TS; DialHint TS; Deliver 0 TM] in
  c_qsm (conns s 1) = [Hello 1 (Some (IR_NONE, 0%Z))] /\ c_m (conns s 1) = ENeg /\ t_broker (tm s) = Some 0 /\
  t_bir (tm s) = Some 1%Z /\ tm (step s (Deliver 1 TM)) = tm s.
Proof. vm_compute. repeat split. Qed.
Example restarted_offer_reachable :
  let s := run [GetRef TS; DialHint TS; Deliver 0 TM; Deliver 0 TS; Deliver 0 TS; Restart TS; GetRef TS; DialHint TS] in
  c_qsm (conns s 1) = [Hello 2 (Some (IR_NONE, 0%Z))] /\ c_m (conns s 1) = ENeg /\ t_broker (tm s) = Some 0 /\
  t_bir (tm s) = Some 1%Z /\ t_broker (tm (step s (Deliver 1 TM))) = Some 1.
Proof. vm_compute. repeat split. Qed.
