(* C14, second leg of Tub.getReference: proofs over C03's request-table model (lib/Requests.v, lib/RequestsProofs.v).
   Once the callback's call is pending on a connected Broker it stays pending under every operation that cannot concern
   it, any other operation ends it, and once over it stays over: hence, for every continuation, it is over iff the
   continuation holds an answer for it or Broker.finish. *)
From Coq Require Import ZArith List Bool Lia.
Import ListNotations.
Require Import Verif.gen.RequestsGen Verif.lib.Requests Verif.lib.RequestsProofs Verif.lib.RefLeg.
Local Open Scope Z_scope.

Lemma run_snoc ops o : run (ops ++ [o]) = step (run ops) o.
Proof. unfold run. rewrite fold_left_app. reflexivity. Qed.

Lemma complete_closed_other s h' h : h' <> h -> get (complete_closed s h') h = get s h.
Proof.
  intros N. unfold complete_closed. destruct (get s h') as [d|]; [|reflexivity].
  destruct (c_tracked d); [destruct (tbl_has (c_rid d) (table s))|]; try destruct (c_active d); try reflexivity;
    rewrite get_fire; (destruct (Nat.eqb_spec h' h); [congruence|reflexivity]).
Qed.

Lemma fail_closed_other s h' o h : h' <> h -> get (fail_closed s h' o) h = get s h.
Proof.
  intros N. unfold fail_closed. destruct (get s h') as [d|]; [|reflexivity].
  destruct (c_active d); [|reflexivity].
  destruct (c_tracked d); [destruct (tbl_has (c_rid d) (table s))|]; try reflexivity;
    rewrite get_fire; (destruct (Nat.eqb_spec h' h); [congruence|reflexivity]).
Qed.

(* one operation that cannot concern the request leaves it pending and the Broker connected *)
Lemma inert_step s o h rid : Inv s -> disconnected s = false -> pending s h rid -> inert rid h o = true ->
  pending (step s o) h rid /\ disconnected (step s o) = false.
Proof.
  intros [I [D Q]] Hd (c & G & Tw & R & F) Hi.
  assert (KEEP : forall s', get s' h = Some c -> disconnected s' = false -> pending s' h rid /\ disconnected s' = false).
  { intros s' G' D'. split; [exists c; auto|exact D']. }
  assert (CO : forall h', h' <> h -> pending (complete_step s h') h rid /\ disconnected (complete_step s h') = false).
  { intros h' N. rewrite complete_step_closed. apply KEEP; [rewrite complete_closed_other; [exact G|exact N]|].
    destruct (frame_complete s h') as [E1 _]. rewrite E1. exact Hd. }
  assert (FA : forall h' o', h' <> h -> pending (fail_step s h' o') h rid /\ disconnected (fail_step s h' o') = false).
  { intros h' o' N. rewrite fail_step_closed. apply KEEP; [rewrite fail_closed_other; [exact G|exact N]|].
    destruct (frame_fail s h' o') as [E1 _]. rewrite E1. exact Hd. }
  assert (BY_ID : forall r h', r <> rid -> tbl_find r (table s) = Some h' -> h' <> h).
  { intros r h' Nr E Eh. subst h'. apply tbl_find_some in E. destruct (I_tbl _ I _ _ E) as [c' [G' [R' _]]].
    rewrite G in G'. inversion G'. subst c'. congruence. }
  destruct o as [k|r|r|r|h'|h' o'|r|b|]; cbn [step inert] in *.
  - apply KEEP; [apply call_extends; exact G|]. destruct (frame_call s k) as [E _]. rewrite E. exact Hd.
  - apply negb_true_iff, Z.eqb_neq in Hi.
    destruct (tbl_find r (table s)) as [h'|] eqn:E; [apply CO, (BY_ID r h' Hi E)|apply KEEP; assumption].
  - apply negb_true_iff, Z.eqb_neq in Hi.
    destruct (tbl_find r (table s)) as [h'|] eqn:E; [apply FA, (BY_ID r h' Hi E)|apply KEEP; assumption].
  - apply negb_true_iff, Z.eqb_neq in Hi.
    destruct (tbl_find r (table s)) as [h'|] eqn:E; [apply FA, (BY_ID r h' Hi E)|apply KEEP; assumption].
  - apply negb_true_iff, Nat.eqb_neq in Hi. apply CO, Hi.
  - apply negb_true_iff, Nat.eqb_neq in Hi. apply FA, Hi.
  - discriminate.
  - apply KEEP; [exact G|exact Hd].
  - destruct (turn_cases s) as [[_ ->]|[[h' [o' [q [b [E ->]]]]]|[r [q [b [E ->]]]]]].
    + apply KEEP; [exact G|exact Hd].
    + exfalso. apply (Q Hd h' o'). rewrite E. left. reflexivity.
    + apply KEEP; [exact G|exact Hd].
Qed.

Lemma inert_run post : forall pre h rid, disconnected (run pre) = false -> pending (run pre) h rid ->
  Forall (fun o => inert rid h o = true) post ->
  pending (run (pre ++ post)) h rid /\ disconnected (run (pre ++ post)) = false.
Proof.
  induction post as [|o post IH]; intros pre h rid Hd P Fo.
  - rewrite app_nil_r. auto.
  - inversion Fo as [|? ? Ho Fo']; subst.
    replace (pre ++ o :: post) with ((pre ++ [o]) ++ post) by (rewrite <- app_assoc; reflexivity).
    destruct (inert_step (run pre) o h rid (inv_run pre) Hd P Ho) as [P' D']. rewrite <- run_snoc in P', D'.
    apply IH; assumption.
Qed.

(* "only if": WITHOUT an answer / error / violation for this request, complete()/fail() on it, or Broker.finish, the
   second leg stays exactly as it is -- whatever else the Broker does, however many turns the eventual queue takes.
   (There is no time in lib/Requests.v: nothing in the request table is driven by a timer.) *)
Theorem leg_silent pre post h rid :
  disconnected (run pre) = false -> pending (run pre) h rid ->
  Forall (fun o => inert rid h o = true) post ->
  pending (run (pre ++ post)) h rid /\ disconnected (run (pre ++ post)) = false /\
  ~ (exists o, In (EFail h o) (evq (run (pre ++ post)))).
Proof.
  intros Hd P Fo. destruct (inert_run post pre h rid Hd P Fo) as [P' D']. split; [exact P'|]. split; [exact D'|].
  intros [o Ho]. destruct (inv_run (pre ++ post)) as [_ [_ Q]]. exact (Q D' h o Ho).
Qed.

(* one of the remaining operations ends it *)
Lemma resolving_step ops o h rid :
  disconnected (run ops) = false -> pending (run ops) h rid -> inert rid h o = false -> done (step (run ops) o) h.
Proof.
  intros Hd (c & G & Tw & R & F) Hi.
  destruct (pending_is_in_table ops h c G Tw F) as [Hin Hfind]. rewrite R in Hin, Hfind.
  destruct (step_extends (run ops) o h c G) as [c2 [G2 [_ [E2 _]]]].
  assert (RES : forall o', resolves (run ops) (step (run ops) o) h rid o' -> done (step (run ops) o) h).
  { intros o' [(c0 & c' & _ & _ & _ & G' & F' & _) _]. exists c2. split; [exact G2|]. split; [congruence|].
    left. rewrite G2 in G'. inversion G'. subst c'. rewrite F'. discriminate. }
  destruct o as [k|r|r|r|h'|h' o'|r|b|]; cbn [inert] in Hi; try discriminate.
  - apply negb_false_iff, Z.eqb_eq in Hi. subst r. apply (RES OResult). apply answer_fires_result. exact Hfind.
  - apply negb_false_iff, Z.eqb_eq in Hi. subst r. apply (RES ORemoteError). apply error_fires_remote_failure. exact Hfind.
  - apply negb_false_iff, Z.eqb_eq in Hi. subst r. apply (RES OViolation). apply violation_fires_violation. exact Hfind.
  - apply negb_false_iff, Nat.eqb_eq in Hi. subst h'. apply (RES OResult). apply (fail_on_pending_fires ops rid h OOther Hin).
  - apply negb_false_iff, Nat.eqb_eq in Hi. subst h'. apply (RES o'). apply (fail_on_pending_fires ops rid h o' Hin).
  - exists c2. split; [exact G2|]. split; [congruence|]. right. exists (reason_outcome r).
    cbn [step]. rewrite finish_step_closed. unfold finish_closed. rewrite Hd. cbn [evq set_evq].
    apply in_or_app. right. apply in_map_iff. exists (rid, h). split; [reflexivity|exact Hin].
Qed.

(* ... and once it is over it stays over *)
Lemma done_step s o h : Inv s -> done s h -> done (step s o) h.
Proof.
  intros [I [D Q]] (c & G & Tw & H).
  destruct (step_extends s o h c G) as [c2 [G2 [_ [E2 [_ [ex Ex]]]]]].
  assert (FIRED : c_fires c <> [] -> done (step s o) h).
  { intros Hf. exists c2. split; [exact G2|]. split; [congruence|]. left. rewrite Ex. destruct (c_fires c); [contradiction|discriminate]. }
  destruct H as [Hf|[o0 Hq]]; [apply FIRED; exact Hf|].
  destruct (c_fires c) as [|f0 fl] eqn:F; [|apply FIRED; discriminate].
  assert (QUEUED : (exists o1, In (EFail h o1) (evq (step s o))) -> done (step s o) h).
  { intros Hq'. exists c2. split; [exact G2|]. split; [congruence|]. right. exact Hq'. }
  assert (CO : forall h', In (EFail h o0) (evq (complete_step s h'))).
  { intros h'. rewrite complete_step_closed. destruct (frame_complete s h') as [_ [E _]]. rewrite E. exact Hq. }
  assert (FA : forall h' o', In (EFail h o0) (evq (fail_step s h' o'))).
  { intros h' o'. rewrite fail_step_closed. destruct (frame_fail s h' o') as [_ [E _]]. rewrite E. exact Hq. }
  destruct o as [k|r|r|r|h'|h' o'|r|b|]; cbn [step] in *.
  - apply QUEUED. exists o0. destruct (frame_call s k) as [_ [E _]]. rewrite E. exact Hq.
  - apply QUEUED. exists o0. destruct (tbl_find r (table s)); [apply CO|exact Hq].
  - apply QUEUED. exists o0. destruct (tbl_find r (table s)); [apply FA|exact Hq].
  - apply QUEUED. exists o0. destruct (tbl_find r (table s)); [apply FA|exact Hq].
  - apply QUEUED. exists o0. apply CO.
  - apply QUEUED. exists o0. apply FA.
  - apply QUEUED. exists o0. rewrite finish_step_closed. unfold finish_closed. destruct (disconnected s); [exact Hq|].
    cbn [evq set_evq]. apply in_or_app. left. exact Hq.
  - apply QUEUED. exists o0. cbn [evq set_evq]. apply in_or_app. left. exact Hq.
  - destruct (turn_cases s) as [[E _]|[[h' [o' [q [b [E Et]]]]]|[r [q [b [E Et]]]]]].
    + rewrite E in Hq. destruct Hq.
    + rewrite E in Hq. destruct Hq as [Hq|Hq].
      * inversion Hq. subst h' o'. set (s1 := set_batch (set_evq s q) b) in *.
        assert (I1 : Inv0 s1) by (apply inv0_set_batch, inv0_set_evq, I).
        destruct (I_calls _ I _ _ G) as [_ [_ [K3 [_ K5]]]].
        assert (A : c_active c = true).
        { destruct (c_active c); [reflexivity|]. specialize (K3 eq_refl Tw). rewrite F in K3. discriminate. }
        pose proof (I_pend _ I _ _ G (K5 Tw A) A) as P.
        destruct (fail_pending s1 (c_rid c) h o0 I1 P) as [(c0 & c' & _ & _ & _ & G' & F' & _) _].
        exists c2. split; [exact G2|]. split; [congruence|]. left. rewrite Et in G2. rewrite G2 in G'. inversion G'. subst c'.
        rewrite F'. discriminate.
      * apply QUEUED. exists o0. rewrite Et. destruct (frame_fail (set_batch (set_evq s q) b) h' o') as [_ [E1 _]]. rewrite E1. exact Hq.
    + rewrite E in Hq. destruct Hq as [Hq|Hq]; [discriminate|]. apply QUEUED. exists o0. rewrite Et. exact Hq.
Qed.

Lemma done_run post : forall pre h, done (run pre) h -> done (run (pre ++ post)) h.
Proof.
  induction post as [|o post IH]; intros pre h Dn; [rewrite app_nil_r; exact Dn|].
  replace (pre ++ o :: post) with ((pre ++ [o]) ++ post) by (rewrite <- app_assoc; reflexivity).
  apply IH. rewrite run_snoc. apply done_step; [apply inv_run|exact Dn].
Qed.

Lemma leg_cases post : forall pre h rid, disconnected (run pre) = false -> pending (run pre) h rid ->
  (Forall (fun o => inert rid h o = true) post /\ pending (run (pre ++ post)) h rid /\ disconnected (run (pre ++ post)) = false) \/
  (Exists (fun o => inert rid h o = false) post /\ done (run (pre ++ post)) h).
Proof.
  induction post as [|o post IH]; intros pre h rid Hd P.
  - left. rewrite app_nil_r. auto.
  - replace (pre ++ o :: post) with ((pre ++ [o]) ++ post) by (rewrite <- app_assoc; reflexivity).
    destruct (inert rid h o) eqn:Ei.
    + destruct (inert_step (run pre) o h rid (inv_run pre) Hd P Ei) as [P' D']. rewrite <- run_snoc in P', D'.
      destruct (IH (pre ++ [o]) h rid D' P') as [[Fo R]|[Ex Dn]]; [left|right]; split; auto.
    + right. split; [left; exact Ei|]. apply done_run. rewrite run_snoc. apply (resolving_step pre o h rid Hd P Ei).
Qed.

(* pending and over exclude each other on a connected Broker *)
Lemma pending_not_done s h rid : Inv s -> disconnected s = false -> pending s h rid -> ~ done s h.
Proof.
  intros [_ [_ Q]] Hd (c & G & _ & _ & F) (c' & G' & _ & [Hf|[o Hq]]).
  - rewrite G in G'. inversion G'. subst c'. contradiction.
  - exact (Q Hd h o Hq).
Qed.

(* THE second-leg theorem.  The Broker is connected and the call is pending after `pre` (= when the Broker lookup was
   answered and the callback made the call).  For EVERY continuation `post` of that Broker's request table:
   the getReference Deferred has fired, or its failure has been queued by Broker.finish,
   IF AND ONLY IF  post contains an answer / error / violation for this request id, complete()/fail() on this request
   object, or Broker.finish (connectionLost / shutdown). *)
Theorem leg_fires_iff pre post h rid :
  disconnected (run pre) = false -> pending (run pre) h rid ->
  (done (run (pre ++ post)) h <-> Exists (fun o => inert rid h o = false) post).
Proof.
  intros Hd P. destruct (leg_cases post pre h rid Hd P) as [[Fo [P' D']]|[Ex Dn]]; split; intros H; auto.
  - exfalso. exact (pending_not_done _ h rid (inv_run (pre ++ post)) D' P' H).
  - exfalso. apply Exists_exists in H as [o [Hin Ho]]. rewrite Forall_forall in Fo. rewrite (Fo o Hin) in Ho. discriminate.
Qed.

(* the callback's call on a connected Broker IS such a pending request: handle = number of calls made before, request id =
   the Broker's next id *)
Theorem leg_call_starts ops :
  disconnected (run ops) = false ->
  pending (run (ops ++ [leg_call])) (List.length (calls (run ops))) (nextid (run ops)).
Proof.
  intros Hd. rewrite run_snoc. unfold leg_call. cbn [step]. unfold call_step. rewrite Hd. cbn [andb].
  eexists. split; [rewrite get_set_table; apply (get_push_new (take_id (run ops)))|]. cbn. auto.
Qed.

(* the answer fires it with the result ... *)
Theorem leg_answer_fires ops h rid : pending (run ops) h rid ->
  exists c', get (step (run ops) (Answer rid)) h = Some c' /\ c_fires c' = [OResult].
Proof.
  intros (c & G & Tw & R & F). destruct (pending_is_in_table ops h c G Tw F) as [_ Hfind]. rewrite R in Hfind.
  destruct (answer_fires_result ops rid h Hfind) as [(c0 & c' & _ & _ & _ & G' & F' & _) _]. exists c'. auto.
Qed.

(* ... and the loss of the connection fires it with what the reason maps to (DeadReferenceError for every
   lost-connection reason: RequestsProofs.lost_reason_is_DeadReferenceError), as many turns of the eventual queue later as
   there are entries in it *)
Theorem leg_loss_fires ops r h rid : disconnected (run ops) = false -> pending (run ops) h rid ->
  let s1 := run (ops ++ [Finish r]) in
  let s2 := run_from s1 (repeat Turn (List.length (evq s1))) in
  exists c', get s2 h = Some c' /\ c_fires c' = [reason_outcome r].
Proof. intros Hd (c & G & Tw & _ & F). exact (loss_outcome ops r h c Hd G Tw F). Qed.

(* non-vacuity: a Broker that has already made two calls (one answered); the getReference callback makes the third;
   other traffic and turns do nothing to it; its answer fires it; so does a loss *)
Example leg_example :
  let pre := [Call KTwoWay; Call KTwoWay; Answer 1; leg_call] in
  disconnected (run pre) = false /\ pending (run pre) 2%nat 3 /\
  pending (run (pre ++ [Answer 2; Call KOneWay; Enqueue true; Turn; Turn; Error 7])) 2%nat 3 /\
  done (run (pre ++ [Turn; Answer 3])) 2%nat /\ done (run (pre ++ [Finish (RListed ConnectionLostC)])) 2%nat.
Proof.
  cbn zeta. split; [vm_compute; reflexivity|]. split; [eexists; vm_compute; repeat split; reflexivity|].
  split; [eexists; vm_compute; repeat split; reflexivity|].
  split; eexists; (split; [vm_compute; reflexivity|]); (split; [reflexivity|]).
  - left. vm_compute. discriminate.
  - right. exists ODeadRef. vm_compute. auto.
Qed.
