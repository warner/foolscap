(* C10: proofs about lib/Send.v.
   The sending machine and the number-checking receiver are tied by one invariant (Inv: the receiver's state after the stream
   written so far is a function of the sender's state), which gives well-formedness and the delivery of siblings; that a history
   leaves only the OPEN numbering behind is a simulation (shift_state).  The facts about the counting receiver follow the written
   stream through `wrote`, the summary of what one turn of produce writes. *)
From Coq Require Import ZArith List Bool Lia.
Import ListNotations.
Require Import Verif.lib.PyLite Verif.gen.SendGen Verif.lib.Send.
Local Open Scope Z_scope.

Lemma run_app s a b : run s (a ++ b) = run (run s a) b.
Proof. unfold run. apply fold_left_app. Qed.

Lemma run_cons s e evs : run s (e :: evs) = run (step s e) evs.
Proof. reflexivity. Qed.

Lemma rrun_app r a b : rrun r (a ++ b) = rrun (rrun r a) b.
Proof. unfold rrun. apply fold_left_app. Qed.

(* both `except Violation` sites of produce pass doPop = sendAbort (False, False where nothing was pushed; True, True around
   next()): either way ABORT n; CLOSE n is written for every slicer on the stack, innermost first, and only the RootSlicer is left *)
Lemma violation_unwinds f s : stack s <> [] ->
  violation f f s =
  {| stack := []; cnt := cnt s; up := up s; out := out s ++ unwind_all (stack s); cur := []; log := log s ++ [OAborted] |}.
Proof. intros H. unfold violation. destruct (stack s) as [|id r], f; congruence || reflexivity. Qed.

Lemma violation_root f1 f2 s : stack s = [] ->
  violation f1 f2 s = {| stack := []; cnt := cnt s; up := up s; out := out s; cur := []; log := log s ++ [ONotStarted] |}.
Proof. intros H. unfold violation. rewrite H. reflexivity. Qed.

Lemma run_invariant (P : sstate -> Prop) : (forall s e, P s -> P (step s e)) -> forall evs s, P s -> P (run s evs).
Proof. intros St. induction evs as [|e evs IH]; intros s H; [exact H|]. apply IH, St, H. Qed.

Lemma step_down s e : up s = false -> step s e = s.
Proof. intros U. unfold step. rewrite U. reflexivity. Qed.

Lemma step_tok_in s z : up s = true -> stack s <> [] ->
  step s (ETok z) = {| stack := stack s; cnt := cnt s; up := true; out := out s ++ [TData z]; cur := cur s ++ [z]; log := log s |}.
Proof. intros U N. unfold step. rewrite U. destruct (stack s); [congruence|reflexivity]. Qed.

Lemma step_push s : up s = true ->
  step s EPush = {| stack := cnt s :: stack s; cnt := cnt s + open_counter_step; up := true; out := out s ++ [TOpen (cnt s)];
                    cur := cur s; log := log s |}.
Proof. intros U. unfold step. rewrite U. reflexivity. Qed.

Lemma step_end_in s id r : up s = true -> stack s = id :: r -> r <> [] ->
  step s EEnd = {| stack := r; cnt := cnt s; up := true; out := out s ++ [TClose id]; cur := cur s; log := log s |}.
Proof. intros U K N. unfold step. rewrite U, K. destruct r; [congruence|reflexivity]. Qed.

Lemma step_end_last s id : up s = true -> stack s = [id] ->
  step s EEnd = {| stack := []; cnt := cnt s; up := true; out := out s ++ [TClose id]; cur := []; log := log s ++ [OSent (cur s)] |}.
Proof. intros U K. unfold step. rewrite U, K. reflexivity. Qed.

Lemma step_abort s e : up s = true -> stack s <> [] -> (e = EUnsendable \/ e = ERaise) ->
  step s e = {| stack := []; cnt := cnt s; up := true; out := out s ++ unwind_all (stack s); cur := []; log := log s ++ [OAborted] |}.
Proof.
  intros U N H. unfold step. rewrite U. cbn [negb]. destruct H as [-> | ->].
  - rewrite (violation_unwinds push_violation_pops), U by exact N. reflexivity.
  - destruct (stack s) eqn:E; [congruence|]. rewrite (violation_unwinds next_violation_pops), U, E by (rewrite E; exact N). reflexivity.
Qed.

(* C10_send_abort_shape: what a Violation at any depth writes *)
Theorem violation_shape s e : up s = true -> stack s <> [] -> (e = EUnsendable \/ e = ERaise) ->
  let s' := step s e in
  out s' = out s ++ unwind_all (stack s) /\ stack s' = [] /\ up s' = true /\ cnt s' = cnt s /\
  log s' = log s ++ [OAborted].
Proof. intros U N H. cbn zeta. rewrite (step_abort s e U N H). repeat split. Qed.

(* the last two tokens of an aborted object are ABORT n; CLOSE n for the n of its own top-level OPEN *)
Lemma unwind_all_last st : st <> [] -> exists pre, unwind_all st = pre ++ [TAbort (last st 0); TClose (last st 0)].
Proof.
  induction st as [|a [|b r] IH]; intros H; [congruence|exists []; reflexivity|].
  destruct IH as [pre E]; [discriminate|]. exists ([TAbort a; TClose a] ++ pre).
  change (unwind_all (a :: b :: r)) with ([TAbort a; TClose a] ++ unwind_all (b :: r)). rewrite E.
  rewrite <- app_assoc. reflexivity.
Qed.

Example ex_abort_depth2 :
  out (run (init 7) (events_of_top (Sub [Tok 1; Sub [Tok 2; Sub [Tok 3; Unsendable; Tok 9]]; Tok 4]))) =
  [TOpen 7; TData 1; TOpen 8; TData 2; TOpen 9; TData 3; TAbort 9; TClose 9; TAbort 8; TClose 8; TAbort 7; TClose 7].
Proof. vm_compute. reflexivity. Qed.

Lemma unwind_recv st : st <> [] -> forall r, rsync r = true -> rstack r = st ->
  rrun r (unwind_all st) = {| rstack := []; rcur := []; raborted := false; rlog := rlog r ++ [Dropped]; rsync := true |}.
Proof.
  induction st as [|a [|b rest] IH]; intros N r S E; [congruence| |].
  - cbn [unwind_all flat_map app rrun fold_left]. unfold rstep at 2. rewrite S, E. cbn [negb]. rewrite Z.eqb_refl.
    unfold rstep. cbn [rsync rstack raborted rlog negb]. rewrite Z.eqb_refl. reflexivity.
  - change (unwind_all (a :: b :: rest)) with ([TAbort a; TClose a] ++ unwind_all (b :: rest)).
    rewrite rrun_app. cbn [rrun fold_left]. unfold rstep at 2. rewrite S, E. cbn [negb]. rewrite Z.eqb_refl.
    unfold rstep at 1. cbn [rsync rstack raborted rlog rcur negb]. rewrite Z.eqb_refl.
    fold (rrun {| rstack := b :: rest; rcur := rcur r; raborted := true; rlog := rlog r; rsync := true |} (unwind_all (b :: rest))).
    rewrite IH; [reflexivity|discriminate|reflexivity|reflexivity].
Qed.

Lemma visible_app a b : visible (a ++ b) = visible a ++ visible b.
Proof. induction a as [|[d| |] a IH]; cbn [visible app]; rewrite ?IH; reflexivity. Qed.

(* sender and receiver stay in step: the receiver's state is a function of the sender's -- same nesting, same pending data,
   and it has been handed exactly the objects that the sender's RootSlicer reported as sent; aborted ones were dropped whole *)
Definition recv_of (s : sstate) : rstate :=
  {| rstack := stack s; rcur := cur s; raborted := false; rlog := visible (log s); rsync := true |}.

Definition Inv (s : sstate) : Prop := rrun rinit (out s) = recv_of s /\ (stack s = [] -> cur s = []).

Lemma Inv_init c : Inv (init c).
Proof. split; reflexivity. Qed.

Lemma Inv_step s e : Inv s -> Inv (step s e).
Proof.
  intros [R C0]. destruct (up s) eqn:U; [|rewrite step_down by exact U; split; assumption].
  assert (W : forall w, rrun rinit (out s ++ w) = rrun (recv_of s) w) by (intros w; rewrite rrun_app, R; reflexivity).
  destruct s as [st c u o cu lg]. cbn [up stack cur out] in U, C0, W, R. subst u. unfold Inv, step. cbn [up negb stack].
  destruct e.
  - (* ETok *) destruct st as [|id st]; cbn [out]; rewrite W; unfold recv_of; cbn [stack cur log]; rewrite ?visible_app;
      split; (reflexivity || discriminate || exact C0).
  - (* EPush *) cbn [out]. rewrite W. split; [reflexivity|discriminate].
  - (* EUnsendable *) destruct st as [|id st].
    + cbn [violation stack out cur log cnt up]. rewrite R. unfold recv_of. cbn [stack cur log]. rewrite visible_app, app_nil_r, (C0 eq_refl).
      split; reflexivity.
    + rewrite (violation_unwinds push_violation_pops) by discriminate. cbn [out stack]. rewrite W, (unwind_recv (id :: st)) by (reflexivity || discriminate).
      unfold recv_of. cbn [stack cur log rlog]. rewrite visible_app. split; reflexivity.
  - (* EEnd *) destruct st as [|id [|id2 st]]; [split; assumption| |]; cbn [out]; rewrite W; unfold recv_of; cbn [stack cur log];
      cbn [rrun fold_left rstep negb rsync rstack raborted rcur rlog]; rewrite Z.eqb_refl, ?visible_app; split; (reflexivity || discriminate).
  - (* ERaise *) destruct st as [|id st]; [split; assumption|].
    rewrite (violation_unwinds next_violation_pops) by discriminate. cbn [out stack]. rewrite W, (unwind_recv (id :: st)) by (reflexivity || discriminate).
    unfold recv_of. cbn [stack cur log rlog]. rewrite visible_app. split; reflexivity.
  - (* ECrash *) split; assumption.
Qed.

Lemma Inv_run evs : forall s, Inv s -> Inv (run s evs).
Proof. exact (run_invariant Inv Inv_step evs). Qed.

(* C10_send_abort_wellformed: for EVERY sequence of slicer behaviours (any trees, any violation or crash
   positions) the stream written so far is well nested -- a receiver that checks every CLOSE and ABORT number against
   its own stack never loses sync and has exactly the sender's open sequences on its stack -- and it has been handed
   exactly the sender's finished objects, each aborted one dropped as a whole *)
Theorem wire_wellformed c evs :
  let s := run (init c) evs in
  let r := rrun rinit (out s) in
  rsync r = true /\ rstack r = stack s /\ rlog r = visible (log s).
Proof. destruct (Inv_run evs (init c) (Inv_init c)) as [R _]. cbn zeta. rewrite R. repeat split. Qed.

(* ---- the connection survives everything except a non-Violation exception *)
Lemma step_up s e : ok_event s e = true -> up (step s e) = up s.
Proof.
  intros H. unfold step. destruct (up s) eqn:U; cbn [negb]; [|exact U].
  destruct e; cbn in H; try discriminate; try reflexivity.
  - (* ETok *) destruct (stack s); reflexivity.
  - (* EUnsendable *) unfold violation. destruct (stack s); cbn; exact U.
  - (* EEnd *) destruct (stack s) as [|a [|b l]]; cbn; try reflexivity; exact U.
  - (* ERaise: ok_event excludes the empty stack *) destruct (stack s) eqn:E; [discriminate|]. unfold violation. rewrite E. cbn. exact U.
Qed.

Theorem stays_up evs : forall s, all_ok s evs = true -> up (run s evs) = up s.
Proof.
  induction evs as [|e evs IH]; intros s H; [reflexivity|]. cbn [all_ok] in H. apply andb_true_iff in H as [H1 H2].
  rewrite run_cons, IH by exact H2. apply step_up, H1.
Qed.

Example ex_all_ok : all_ok (init 0) (events_of_top (Sub [Tok 1; Sub [RaiseV]]) ++ events_of_top (Sub [Tok 5])) = true.
Proof. vm_compute. reflexivity. Qed.

(* ---- siblings: a fault-free object, sent after ANY history that left the RootSlicer in charge (whatever was aborted
   in it), is written and delivered in full *)
Inductive bal : list event -> list Z -> Prop :=
| bal_nil : bal [] []
| bal_tok z evs d : bal evs d -> bal (ETok z :: evs) (z :: d)
| bal_sub b db evs d : bal b db -> bal evs d -> bal (EPush :: b ++ EEnd :: evs) (db ++ d).

Lemma run_bal b d : bal b d -> forall s, up s = true -> stack s <> [] ->
  let s' := run s b in stack s' = stack s /\ cur s' = cur s ++ d /\ log s' = log s /\ up s' = true.
Proof.
  induction 1 as [|z evs d _ IH|b db evs d _ IHb _ IHe]; intros s U N; cbn zeta.
  - rewrite app_nil_r. auto.
  - rewrite run_cons, step_tok_in by assumption. set (s1 := Build_sstate _ _ _ _ _ _).
    destruct (IH s1 eq_refl N) as (A & B & C & D). rewrite A, B, C, D. subst s1. cbn [stack cur log]. rewrite <- app_assoc. auto.
  - rewrite run_cons, run_app, run_cons, step_push by exact U. set (s0 := Build_sstate _ _ _ _ _ _).
    destruct (IHb s0 eq_refl ltac:(discriminate)) as (A & B & C & D).
    rewrite (step_end_in (run s0 b) (cnt s) (stack s) D A N). set (s1 := Build_sstate _ _ _ _ _ _).
    destruct (IHe s1 eq_refl N) as (A' & B' & C' & D'). rewrite A', B', C', D'. subst s1. cbn [stack cur log]. rewrite B, C, app_assoc. auto.
Qed.

Theorem sibling_delivered c pre b d : bal b d ->
  let s := run (init c) pre in
  up s = true -> stack s = [] ->
  let s' := run (init c) (pre ++ EPush :: b ++ [EEnd]) in
  up s' = true /\ stack s' = [] /\ log s' = log s ++ [OSent d] /\
  rlog (rrun rinit (out s')) = rlog (rrun rinit (out s)) ++ [Delivered d].
Proof.
  intros B s U K s'.
  destruct (Inv_run pre (init c) (Inv_init c)) as [R R0]. fold s in R, R0.
  destruct (Inv_run (pre ++ EPush :: b ++ [EEnd]) (init c) (Inv_init c)) as [R' _]. fold s' in R'. rewrite R', R.
  subst s'. rewrite run_app. fold s. rewrite run_cons, run_app, step_push by exact U. set (s0 := Build_sstate _ _ _ _ _ _).
  destruct (run_bal b d B s0 eq_refl ltac:(discriminate)) as (A1 & B1 & C1 & D1).
  assert (A2 : stack (run s0 b) = [cnt s]) by (rewrite A1; subst s0; cbn [stack]; rewrite K; reflexivity).
  change (run (run s0 b) [EEnd]) with (step (run s0 b) EEnd). rewrite (step_end_last _ _ D1 A2).
  cbn [recv_of up stack log rlog]. rewrite B1, C1, visible_app. subst s0. cbn [cur log]. rewrite (R0 K). auto.
Qed.

Example ex_bal : bal [ETok 1; EPush; ETok 2; EEnd; ETok 3] [1; 2; 3].
Proof. apply bal_tok. apply (bal_sub [ETok 2] [2] [ETok 3] [3]); repeat constructor. Qed.

(* ---- the numbers in OPEN/CLOSE/ABORT are the only thing a history leaves behind: the stream written for any
   continuation is the same up to that offset *)
Definition shift_state (d : Z) (s : sstate) : sstate :=
  {| stack := map (fun n => n + d) (stack s); cnt := cnt s + d; up := up s; out := map (shift_tok d) (out s);
     cur := cur s; log := log s |}.

Lemma unwind_shift d st : unwind_all (map (fun n => n + d) st) = map (shift_tok d) (unwind_all st).
Proof. unfold unwind_all. induction st as [|a st IH]; [reflexivity|]. cbn [map flat_map]. rewrite map_app, IH. reflexivity. Qed.

Lemma violation_shift d f1 f2 s : violation f1 f2 (shift_state d s) = shift_state d (violation f1 f2 s).
Proof.
  unfold violation, shift_state. destruct (stack s) as [|id st]; cbn [stack cnt up out cur log map]; [reflexivity|].
  rewrite !map_app. destruct f1; [rewrite unwind_shift|rewrite <- (unwind_shift d (id :: st))]; destruct f2; reflexivity.
Qed.

Lemma step_shift d s e : step (shift_state d s) e = shift_state d (step s e).
Proof.
  destruct s as [st c [|] o cu lg]; [|reflexivity].
  destruct e; try apply violation_shift.
  - (* ETok *) destruct st; unfold step, shift_state; cbn [map negb stack cnt up out cur log]; rewrite map_app; reflexivity.
  - (* EPush *) unfold step, shift_state. cbn [map negb stack cnt up out cur log]. rewrite map_app, Z.add_shuffle0. reflexivity.
  - (* EEnd *) destruct st as [|id [|id2 st]]; unfold step, shift_state; cbn [map negb stack cnt up out cur log]; rewrite ?map_app; reflexivity.
  - (* ERaise *) destruct st; [reflexivity|apply violation_shift].
  - (* ECrash *) reflexivity.
Qed.

Theorem run_shift d evs : forall s, run (shift_state d s) evs = shift_state d (run s evs).
Proof.
  induction evs as [|e evs IH]; intros s; [reflexivity|]. rewrite !run_cons, step_shift. apply IH.
Qed.

Corollary numbering_only c d evs :
  out (run (init (c + d)) evs) = map (shift_tok d) (out (run (init c) evs)) /\
  log (run (init (c + d)) evs) = log (run (init c) evs) /\ up (run (init (c + d)) evs) = up (run (init c) evs).
Proof.
  change (init (c + d)) with (shift_state d (init c)). rewrite run_shift. cbn. auto.
Qed.

(* ---- a non-Violation exception is different: the connection goes down and nothing further is written *)
Lemma run_down evs : forall s, up s = false -> run s evs = s.
Proof.
  induction evs as [|e evs IH]; intros s H; [reflexivity|]. rewrite run_cons, step_down by exact H. apply IH, H.
Qed.

Theorem crash_drops_connection c pre post : up (run (init c) pre) = true ->
  let s := run (init c) (pre ++ ECrash :: post) in
  up s = false /\ out s = out (run (init c) pre) /\ log s = log (run (init c) pre).
Proof.
  intros U. cbn zeta. rewrite run_app, run_cons.
  assert (E : step (run (init c) pre) ECrash = crash (run (init c) pre)) by (unfold step; rewrite U; reflexivity).
  rewrite E, run_down by reflexivity. repeat split.
Qed.

Inductive wrote (s s' : sstate) : list tok -> Prop :=
| wrote_data w : w = [] \/ (exists z, w = [TData z]) -> stack s' = stack s -> cnt s' = cnt s -> wrote s s' w
| wrote_open : stack s' = cnt s :: stack s -> cnt s' = cnt s + open_counter_step -> wrote s s' [TOpen (cnt s)]
| wrote_close id : stack s = id :: stack s' -> cnt s' = cnt s -> wrote s s' [TClose id]
| wrote_unwind : stack s' = [] -> cnt s' = cnt s -> wrote s s' (unwind_all (stack s)).

Lemma step_wrote s e : exists w, out (step s e) = out s ++ w /\ wrote s (step s e) w.
Proof.
  assert (Z0 : forall s', out s' = out s -> stack s' = stack s -> cnt s' = cnt s -> exists w, out s' = out s ++ w /\ wrote s s' w).
  { intros s' O K C. exists []. rewrite app_nil_r. split; [exact O|apply wrote_data; auto]. }
  destruct s as [st c [|] o cu lg]; [|apply Z0; reflexivity]. unfold step. cbn [up negb stack].
  destruct e.
  - (* ETok *) exists [TData z]. destruct st; (split; [reflexivity|apply wrote_data; eauto]).
  - (* EPush *) exists [TOpen c]. split; [reflexivity|apply wrote_open; reflexivity].
  - (* EUnsendable *) destruct st as [|id st]; [apply Z0; reflexivity|].
    exists (unwind_all (id :: st)). split; [reflexivity|apply wrote_unwind; reflexivity].
  - (* EEnd *) destruct st as [|id [|id2 st]]; [apply Z0; reflexivity| |];
      exists [TClose id]; (split; [reflexivity|apply (wrote_close _ _ id); reflexivity]).
  - (* ERaise *) destruct st as [|id st]; [apply Z0; reflexivity|].
    exists (unwind_all (id :: st)). split; [reflexivity|apply wrote_unwind; reflexivity].
  - (* ECrash *) apply Z0; reflexivity.
Qed.

(* ---- OPEN numbers: the sender writes consecutive numbers into its OPENs ... *)
Lemma next_open_app c a b : next_open c (a ++ b) = match next_open c a with Some c' => next_open c' b | None => None end.
Proof.
  revert c. induction a as [|t a IH]; intros c; [reflexivity|]. destruct t; cbn [app next_open]; try apply IH.
  destruct (n =? c); [apply IH|reflexivity].
Qed.

Lemma next_open_unwind c st : next_open c (unwind_all st) = Some c.
Proof. induction st as [|a st IH]; [reflexivity|]. cbn [unwind_all flat_map app next_open] in *. exact IH. Qed.

Lemma step_opens c0 s e : next_open c0 (out s) = Some (cnt s) -> next_open c0 (out (step s e)) = Some (cnt (step s e)).
Proof.
  intros H. destruct (step_wrote s e) as (w & -> & W). rewrite next_open_app, H.
  destruct W as [w [->|[z ->]] _ ->| _ ->|id _ ->| _ ->]; cbn [next_open]; rewrite ?Z.eqb_refl; try reflexivity.
  apply next_open_unwind.
Qed.

(* the receiver's run takes a token list paired with a flag per token: any list of pairs whose first components are the tokens *)
Lemma fst_combine {A B} (l : list A) : forall l' : list B, List.length l' = List.length l -> map fst (combine l l') = l.
Proof.
  induction l as [|a l IH]; intros [|b l'] L; try discriminate L; [reflexivity|].
  injection L as L. cbn [combine map fst]. rewrite (IH l' L). reflexivity.
Qed.

Lemma crun_cons c tv tvs : crun c (tv :: tvs) = crun (cstep c tv) tvs.
Proof. reflexivity. Qed.

(* ... and a receiver that counts EVERY OPEN -- also the ones it is discarding, whatever made it discard -- gives each
   OPEN exactly that number *)
Lemma crun_numbered tvs : forall c n, next_open (ccount c) (map fst tvs) = Some n -> cagree c = true ->
  cagree (crun c tvs) = true /\ ccount (crun c tvs) = n.
Proof.
  induction tvs as [|[t v] tvs IH]; intros c n H A; [injection H as <-; auto|].
  rewrite crun_cons. cbn [map fst] in H. destruct t as [m| | |]; cbn [next_open] in H; try (apply IH; [exact H|exact A]).
  destruct (m =? ccount c) eqn:E; [|discriminate]. apply IH.
  - unfold cstep, recv_counts_rejected_opens. rewrite orb_true_r. exact H.
  - unfold cstep. cbn [cagree]. rewrite A, E. reflexivity.
Qed.

Theorem open_numbers_in_step c evs flags :
  let s := run (init c) evs in
  List.length flags = List.length (out s) ->
  let r := crun (cinit c) (combine (out s) flags) in
  cagree r = true /\ ccount r = cnt s.
Proof.
  intros s L. apply crun_numbered; [|reflexivity]. rewrite fst_combine by exact L.
  cbn [cinit ccount]. apply (run_invariant _ (step_opens c)). reflexivity.
Qed.

Example ex_discarded_opens_counted :     (* the receiver rejects at the 3rd token; 2 more OPENs follow in the discarded part *)
  let s := run (init 0) (events_of_top (Sub [Tok 1; Sub [Tok 2; Sub [Tok 3]]]) ++ events_of_top (Sub [Sub [Tok 4]])) in
  let r := crun (cinit 0) (combine (out s) [false; false; true; false; false; false; false; false; false; false; false; false; false; false]) in
  (List.length (out s), ccount r, cnt s, cagree r) = (14%nat, 5, 5, true).
Proof. vm_compute. reflexivity. Qed.

(* ---- receive-side rejections stay inside their top-level object *)
Lemma dep_app d a b : dep d (a ++ b) = dep (dep d a) b.
Proof. revert d. induction a as [|t a IH]; intros d; [reflexivity|]. destruct t; cbn [app dep]; apply IH. Qed.

Lemma dep_unwind st : forall k, dep (List.length st + k) (unwind_all st) = k.
Proof.
  induction st as [|a st IH]; intros k; [reflexivity|]. cbn [unwind_all flat_map app dep List.length plus pred].
  apply IH.
Qed.

Lemma step_depth s e : dep 0 (out s) = List.length (stack s) -> dep 0 (out (step s e)) = List.length (stack (step s e)).
Proof.
  intros H. destruct (step_wrote s e) as (w & -> & W). rewrite dep_app, H.
  destruct W as [w [->|[z ->]] -> _| -> _|id -> _| -> _]; try reflexivity.
  rewrite <- (Nat.add_0_r (List.length (stack s))). apply dep_unwind.
Qed.

Lemma cstep_depth c tv : cdepth (cstep c tv) = dep (cdepth c) [fst tv].
Proof. destruct tv as [[] v]; reflexivity. Qed.

Lemma crun_depth tvs : forall c, cdepth (crun c tvs) = dep (cdepth c) (map fst tvs).
Proof.
  induction tvs as [|tv tvs IH]; intros c; [reflexivity|]. rewrite crun_cons, IH, cstep_depth. symmetry. apply (dep_app _ [fst tv]).
Qed.

Definition CInv (c : cstate) : Prop := cdown c = false /\ (cdepth c = 0%nat -> cdiscard c = false).

Lemma cstep_inv c tv : CInv c -> CInv (cstep c tv).
Proof.
  intros [D R]. destruct tv as [t v]. unfold CInv, cstep, stuck, reject, pb_unslicers_propagate.
  destruct t; cbn [cdown cdepth cdiscard].
  - split; [exact D|discriminate].
  - split.
    + rewrite D. cbn. rewrite !andb_false_r. reflexivity.
    + destruct (cdepth c) as [|[|k]]; cbn [pred]; try reflexivity. discriminate.
  - split; [exact D|]. intros Z0. rewrite Z0. apply R. exact Z0.
  - split.
    + rewrite D. cbn. rewrite !andb_false_r. reflexivity.
    + intros Z0. rewrite Z0. rewrite R by exact Z0. rewrite andb_false_r. reflexivity.
Qed.

Lemma crun_inv tvs : forall c, CInv c -> CInv (crun c tvs).
Proof. induction tvs as [|tv tvs IH]; intros c I; [exact I|]. apply IH, cstep_inv, I. Qed.

(* for EVERY sequence of slicer behaviours on the sending side and EVERY choice of tokens at which the receiving side's
   unslicers raise Violation: no unslicer is left behind on the stack, the receiver's nesting is the sender's, and whenever
   the sender is back at its RootSlicer the receiver is back at its root and discards nothing -- the next call is received
   as if nothing had happened *)
Theorem receiver_rejections_contained c evs flags :
  let s := run (init c) evs in
  List.length flags = List.length (out s) ->
  let r := crun (cinit c) (combine (out s) flags) in
  cdown r = false /\ cdepth r = List.length (stack s) /\ (stack s = [] -> cdiscard r = false).
Proof.
  intros s L r.
  destruct (crun_inv (combine (out s) flags) (cinit c)) as [D R]; [split; reflexivity|].
  pose proof (crun_depth (combine (out s) flags) (cinit c)) as Dp. rewrite fst_combine in Dp by exact L.
  fold r in D, R, Dp. cbn [cinit cdepth] in Dp.
  assert (E : dep 0 (out s) = List.length (stack s)) by (apply (run_invariant _ step_depth); reflexivity).
  split; [exact D|]. split; [rewrite Dp; exact E|].
  intros K. apply R. rewrite Dp, E, K. reflexivity.
Qed.

Example ex_receiver_rejects_then_recovers :
  let s := run (init 0) (events_of_top (Sub [Tok 1; Sub [Tok 2; Sub [Tok 3]]]) ++ events_of_top (Sub [Sub [Tok 4]])) in
  let r := crun (cinit 0) (combine (out s) [false; false; true; false; false; false; false; false; false; false; false; false; false; false]) in
  (cdown r, cdepth r, cdiscard r) = (false, 0%nat, false).
Proof. vm_compute. reflexivity. Qed.

(* ---- what ABORT does to the counting receiver (receiver_rejections_contained alone does not say: a receiver that ignored ABORT
   would satisfy it too).  An ABORT inside a sequence -- the sender's handleSendViolation writes one for every open sequence of the
   failed object -- makes the receiver discard, and it goes on discarding for EVERY continuation that stays inside that top-level
   object, whatever the tokens and wherever its own unslicers raise: nothing of an aborted call is handed on after the ABORT. *)
Lemma discard_persists c tv : cdiscard c = true -> (1 <= dep (cdepth c) [fst tv])%nat -> cdiscard (cstep c tv) = true.
Proof.
  intros D L. destruct tv as [t v]. unfold cstep, reject. destruct t; cbn [cdiscard fst dep] in *.
  - rewrite D. reflexivity.
  - destruct (cdepth c) as [|[|k]]; cbn [pred] in L; [lia|lia|]. rewrite D. reflexivity.
  - destruct (cdepth c); [lia|reflexivity].
  - rewrite D. reflexivity.
Qed.

Lemma discard_run tvs : forall c, cdiscard c = true -> inside (cdepth c) (map fst tvs) = true -> cdiscard (crun c tvs) = true.
Proof.
  induction tvs as [|tv tvs IH]; intros c D I; [exact D|]. rewrite crun_cons. cbn [map inside] in I.
  rewrite <- cstep_depth in I. destruct (cdepth (cstep c tv)) as [|k] eqn:E; [discriminate|]. rewrite <- E in I.
  apply IH; [|exact I]. apply discard_persists; [exact D|]. rewrite <- cstep_depth, E. apply le_n_S, Nat.le_0_l.
Qed.

Theorem abort_discards_whole_object c n v ts flags : (1 <= cdepth c)%nat -> List.length flags = List.length ts ->
  inside (cdepth c) ts = true ->
  let r := crun (cstep c (TAbort n, v)) (combine ts flags) in
  cdiscard r = true /\ cdepth r = dep (cdepth c) ts.
Proof.
  intros P L I. cbn zeta.
  assert (D : cdiscard (cstep c (TAbort n, v)) = true) by (cbn; destruct (cdepth c); [lia|reflexivity]).
  rewrite crun_depth, fst_combine by exact L. split; [|reflexivity].
  apply discard_run; [exact D|]. rewrite fst_combine by exact L. exact I.
Qed.

(* non-vacuity, on the sender's own stream: the 2nd argument of a call is unsendable at depth 2 (ABORT/CLOSE of the inner list, ABORT
   of the call, then its CLOSE); the receiver rejects nothing itself.  From the first ABORT to just before the last CLOSE it
   discards; after the last CLOSE it is back at top level and the sibling call is received *)
Example ex_abort_discards :
  let s := run (init 0) (events_of_top (Sub [Tok 1; Sub [Tok 2; Unsendable]])) in
  let nof := map (fun _ => false) in
  out s = [TOpen 0; TData 1; TOpen 1; TData 2; TAbort 1; TClose 1; TAbort 0; TClose 0] /\
  let c := crun (cinit 0) (combine (firstn 4 (out s)) (nof (firstn 4 (out s)))) in
  cdepth c = 2%nat /\ cdiscard c = false /\ inside (cdepth c) [TClose 1; TAbort 0] = true /\
  cdiscard (crun (cstep c (TAbort 1, false)) (combine [TClose 1; TAbort 0] [false; false])) = true /\
  cdiscard (crun (cinit 0) (combine (out s) (nof (out s)))) = false.
Proof. vm_compute. auto 10. Qed.

(* ---- f.type: module and name are the two sides of the LAST dot of the transmitted name, and qual() joins them back *)
Lemma split_last_spec sep t m n : split_last sep t = Some (m, n) -> t = m ++ [sep] ++ n /\ ~ In sep n.
Proof.
  revert m n. induction t as [|c r IH]; intros m n H; [discriminate|]. cbn [split_last] in H.
  destruct (split_last sep r) as [[m' n']|] eqn:E.
  - inversion H; subst. destruct (IH _ _ eq_refl) as [A B]. split; [cbn; f_equal; exact A|exact B].
  - destruct (c =? sep) eqn:C; [|discriminate]. inversion H; subst. apply Z.eqb_eq in C. subst c.
    split; [reflexivity|]. clear H IH. revert E. induction n as [|x n IHn]; intros E; [intros []|].
    cbn [split_last] in E. destruct (split_last sep n) as [[? ?]|] eqn:E2; [discriminate|].
    destruct (x =? sep) eqn:X; [discriminate|]. intros [F|F]; [apply Z.eqb_neq in X; congruence|exact (IHn eq_refl F)].
Qed.

Lemma split_last_some sep t : In sep t -> exists m n, split_last sep t = Some (m, n).
Proof.
  induction t as [|c r IH]; intros H; [destruct H|]. cbn [split_last].
  destruct (split_last sep r) as [[m n]|] eqn:E; [eauto|].
  destruct H as [H|H]; [subst; rewrite Z.eqb_refl; eauto|]. destruct (IH H) as (m & n & X). discriminate.
Qed.

Theorem type_name_identified sep t : In sep t -> requal sep t = t.
Proof.
  intros H. unfold requal. destruct (split_last_some sep t H) as (m & n & E). rewrite E.
  destruct (split_last_spec _ _ _ _ E) as [A _]. symmetry. exact A.
Qed.

Example ex_split : split_last 46 [97; 46; 98; 46; 88] = Some ([97; 46; 98], [88]).
Proof. reflexivity. Qed.

(* ---- every delivery is handled, in order, whatever happens to the readiness of the ones before it *)
Theorem deliveries_all_handled q : drain false q = map expected_handling q.
Proof.
  induction q as [|[req r] q IH]; [reflexivity|]. cbn [drain map]. destruct r; unfold expected_handling at 1; cbn [fst snd].
  - rewrite IH. reflexivity.
  - unfold ready_flag_cleared_on_failure. cbn [negb]. rewrite IH. reflexivity.
Qed.

Example ex_deliveries : drain false [(1, ReadyOk); (2, ReadyFails); (3, ReadyOk); (4, ReadyFails); (5, ReadyOk)]
                        = [Ran 1; Refused 2; Ran 3; Refused 4; Ran 5].
Proof. reflexivity. Qed.

(* ---- whatever the logging options and whether or not the target declares a RemoteInterface, failing an active request
   fires its Deferred exactly once and raises nothing *)
Theorem fail_fires_once logging known r : p_active r = true ->
  fail_request logging known r = FailDone {| p_active := false; p_fired := S (p_fired r) |}.
Proof.
  intros A. unfold fail_request, log_name_has_fallback. rewrite A. rewrite andb_false_r. reflexivity.
Qed.
