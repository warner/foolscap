(* C13: the negotiation on the wire IS the record-level negotiation.  Decimal round trip int("%d" % n) = n, well-formedness of the
   formatted fields, and the refinement  wire_negotiate hf a b = negotiate a b : every message of lib/NegWire.v is formatted
   (sendBlock), framed, cut by the receiver's terminator search and cap, parsed (parseLines, str.split, int) -- all TRANSLATED or
   modelled byte by byte -- and the two ends come out exactly as lib/Negotiate.v says.  So the agreement theorems carry down to
   the bytes. *)
From Coq Require Import ZArith List String Bool Lia Arith.
Import ListNotations.
Require Import Verif.lib.PyLite Verif.gen.NegotiateGen Verif.lib.Negotiate Verif.lib.NegotiateProofs Verif.lib.NegCodec
  Verif.gen.NegCodecGen Verif.lib.NegSplit Verif.lib.NegSplitProofs Verif.lib.NegCodecProofs Verif.lib.NegWire Verif.lib.NegWireProofs.
Local Open Scope Z_scope.

(* what decimal numbers and hex digests are written in *)
Definition tokc (c : Z) : Prop := 32 < c < 128.
Definition tok (l : list Z) : Prop := l <> [] /\ Forall tokc l.

Lemma tokc_not_space c : tokc c -> is_space c = false /\ is_uspace c = false.
Proof.
  unfold tokc, is_uspace, is_space. intros H.
  destruct (Z.eqb_spec c 32); [lia|]. destruct (Z.leb_spec 9 c), (Z.leb_spec c 13), (Z.leb_spec 28 c), (Z.leb_spec c 31); cbn; auto; lia.
Qed.

Lemma tok_not_nil l : tok l -> list_is_nil l = false.
Proof. intros [N _]. destruct l; [congruence|reflexivity]. Qed.

Lemma is_nil_app_cons {A} (a : list A) b c : list_is_nil (a ++ b :: c) = false.
Proof. destruct a; reflexivity. Qed.

Lemma tok_rev l : tok l -> tok (rev l).
Proof.
  intros [N F]. split; [|apply Forall_rev; exact F]. intros E. apply N. rewrite <- (rev_involutive l), E. reflexivity.
Qed.

Lemma tok_lstrip l : tok l -> bytes_lstrip l = l.
Proof.
  intros [N F]. destruct l as [|c r]; [congruence|]. inversion F; subst. cbn [bytes_lstrip].
  destruct (tokc_not_space c H1) as [E _]. rewrite E. reflexivity.
Qed.

Lemma tok_strip l : tok l -> bytes_strip l = l.
Proof.
  intros T. unfold bytes_strip. rewrite (tok_lstrip l T). rewrite (tok_lstrip _ (tok_rev l T)). apply rev_involutive.
Qed.

Lemma tok_ascii l : Forall tokc l -> existsb (fun c => 128 <=? c) l = false.
Proof.
  induction 1 as [|c r H _ IH]; [reflexivity|]. cbn [existsb]. rewrite IH. unfold tokc in H.
  destruct (Z.leb_spec 128 c); [lia|reflexivity].
Qed.

Lemma ascii_valid f : forall l, (List.length l < f)%nat -> Forall (fun c => c < 128) l -> utf8_valid f l = true.
Proof.
  induction f as [|f IH]; intros l L H; [lia|]. destruct l as [|b r]; [reflexivity|].
  inversion H; subst. cbn [utf8_valid]. destruct (Z.ltb_spec b 128); [|lia]. apply IH; [cbn [List.length] in L; lia|assumption].
Qed.

Lemma printable_wf_val l : Forall (fun c => 32 <= c < 128) l -> (forall c r, l = c :: r -> c <> 32) -> wf_val l.
Proof.
  intros F Hd. split; [|split].
  - unfold nocr. eapply Forall_impl; [|exact F]. cbn. intros; lia.
  - destruct l as [|c r]; [reflexivity|]. inversion F; subst. cbn [bytes_lstrip].
    destruct (tokc_not_space c) as [E _]; [specialize (Hd c r eq_refl); unfold tokc; lia|]. rewrite E. reflexivity.
  - unfold ensure_str. rewrite ascii_valid; [reflexivity|lia|]. eapply Forall_impl; [|exact F]. cbn. intros; lia.
Qed.

Lemma tokc_printable l : Forall tokc l -> Forall (fun c => 32 <= c < 128) l.
Proof. intros F. eapply Forall_impl; [|exact F]. unfold tokc. intros; lia. Qed.

Lemma tok_wf_val l : tok l -> wf_val l.
Proof.
  intros [N F]. apply printable_wf_val; [apply tokc_printable; exact F|].
  intros c r ->. inversion F; subst. unfold tokc in *. lia.
Qed.

Lemma tok_pair_wf_val t1 t2 : tok t1 -> tok t2 -> wf_val (t1 ++ 32 :: t2).
Proof.
  intros [N1 F1] [N2 F2]. apply printable_wf_val.
  - apply Forall_app. split; [apply tokc_printable; exact F1|]. constructor; [lia|apply tokc_printable; exact F2].
  - intros c r E. destruct t1 as [|c1 r1]; [congruence|]. inversion E; subst. inversion F1; subst. unfold tokc in *. lia.
Qed.

Lemma ws_go_tok t : forall cur rest, Forall tokc t -> ws_split_go cur (t ++ rest) = ws_split_go (rev t ++ cur) rest.
Proof.
  induction t as [|c t IH]; intros cur rest F; [reflexivity|]. inversion F; subst.
  change ((c :: t) ++ rest) with (c :: (t ++ rest)). cbn [ws_split_go].
  destruct (tokc_not_space c H1) as [_ E]. rewrite E. rewrite (IH (c :: cur) rest H2). cbn [rev]. rewrite <- app_assoc. reflexivity.
Qed.

Lemma ws_split_two t1 t2 : tok t1 -> tok t2 -> ws_split (t1 ++ 32 :: t2) = [t1; t2].
Proof.
  intros T1 T2. unfold ws_split. rewrite (ws_go_tok t1 [] _ (proj2 T1)), app_nil_r.
  cbn [ws_split_go]. change (is_uspace 32) with true. cbv iota.
  destruct (tok_rev _ T1) as [N1 _]. destruct (rev t1) eqn:E1; [congruence|]. rewrite <- E1, rev_involutive. f_equal.
  rewrite <- (app_nil_r t2) at 1. rewrite (ws_go_tok t2 [] [] (proj2 T2)), app_nil_r. cbn [ws_split_go].
  destruct (tok_rev _ T2) as [N2 _]. destruct (rev t2) eqn:E2; [congruence|]. rewrite <- E2, rev_involutive. reflexivity.
Qed.

Definition digitP (c : Z) : Prop := 48 <= c <= 57.
Definition dv (acc : Z) (l : list Z) : Z := fold_left (fun a c => a * 10 + (c - 48)) l acc.

Lemma digits_val_all l : forall acc b, Forall digitP l -> (l <> [] \/ b = true) -> digits_val acc b l = Some (dv acc l).
Proof.
  induction l as [|c r IH]; intros acc b F H.
  - destruct H as [H|H]; [congruence|subst; reflexivity].
  - inversion F as [|? ? Hc Hr]; subst. cbn [digits_val]. unfold is_digit. unfold digitP in Hc.
    destruct (Z.leb_spec 48 c), (Z.leb_spec c 57); try lia. cbn [andb].
    unfold dv. cbn [fold_left]. apply IH; [assumption|right; reflexivity].
Qed.

Lemma digits_go_acc f : forall n acc, digits_go f n acc = digits_go f n [] ++ acc.
Proof.
  induction f as [|f IH]; intros n acc; cbn [digits_go]; [reflexivity|].
  destruct (n <? 10); [reflexivity|]. rewrite IH. rewrite (IH _ [_]). rewrite <- app_assoc. reflexivity.
Qed.

Lemma dv_app a l1 l2 : dv a (l1 ++ l2) = dv (dv a l1) l2.
Proof. unfold dv. apply fold_left_app. Qed.

Lemma digits_go_S f n acc :
  digits_go (S f) n acc = if n <? 10 then (48 + n) :: acc else digits_go f (n / 10) ((48 + n mod 10) :: acc).
Proof. reflexivity. Qed.

Lemma digits_go_ok f : forall n, 0 <= n < 2 ^ Z.of_nat (S f) ->
  Forall digitP (digits_go (S f) n []) /\ digits_go (S f) n [] <> [] /\ dv 0 (digits_go (S f) n []) = n.
Proof.
  induction f as [|f IH]; intros n H; rewrite digits_go_S; destruct (Z.ltb_spec n 10) as [L|L].
  1, 3: split; [constructor; [unfold digitP; lia|constructor]|split; [discriminate|unfold dv; cbn [fold_left]; lia]].
  - change (2 ^ Z.of_nat 1) with 2 in H. lia.
  - rewrite digits_go_acc.
    assert (B : 0 <= n / 10 < 2 ^ Z.of_nat (S f)).
    { rewrite (Nat2Z.inj_succ (S f)), Z.pow_succ_r in H by lia.
      split; [apply Z.div_pos; lia|]. apply Z.div_lt_upper_bound; lia. }
    destruct (IH (n / 10) B) as (F & N & V).
    pose proof (Z.mod_pos_bound n 10 ltac:(lia)) as M. pose proof (Z.div_mod n 10 ltac:(lia)) as D.
    split; [apply Forall_app; split; [exact F|constructor; [unfold digitP; lia|constructor]]|].
    split; [intros E; apply app_eq_nil in E; destruct E; discriminate|].
    rewrite dv_app, V. unfold dv. cbn [fold_left]. lia.
Qed.

Lemma fmt_nat_ok n : 0 <= n -> Forall digitP (fmt_nat n) /\ fmt_nat n <> [] /\ dv 0 (fmt_nat n) = n.
Proof.
  intros H. unfold fmt_nat. apply digits_go_ok. split; [exact H|].
  rewrite Nat2Z.inj_succ, Z2Nat.id by apply Z.log2_nonneg.
  destruct (Z.eq_dec n 0) as [->|NZ]; [cbn; lia|]. apply Z.log2_spec. lia.
Qed.

Lemma digit_tokc l : Forall digitP l -> Forall tokc l.
Proof. intros F. eapply Forall_impl; [|exact F]. unfold digitP, tokc. intros; lia. Qed.

Theorem fmt_d_tok n : tok (fmt_d n).
Proof.
  unfold fmt_d. destruct (Z.ltb_spec n 0).
  - destruct (fmt_nat_ok (- n) ltac:(lia)) as (F & _ & _). split; [discriminate|].
    constructor; [unfold tokc; lia|apply digit_tokc; exact F].
  - destruct (fmt_nat_ok n H) as (F & N & _). split; [exact N|apply digit_tokc; exact F].
Qed.

Theorem py_int_fmt_d n : py_int (fmt_d n) = Ok n.
Proof.
  pose proof (fmt_d_tok n) as T. unfold py_int. rewrite (tok_ascii _ (proj2 T)). rewrite (tok_strip _ T).
  unfold fmt_d. destruct (Z.ltb_spec n 0).
  - destruct (fmt_nat_ok (- n) ltac:(lia)) as (F & N & V). cbn [Z.eqb Pos.eqb].
    rewrite (digits_val_all _ 0 false F (or_introl N)), V. f_equal. lia.
  - destruct (fmt_nat_ok n H) as (F & N & V). destruct (fmt_nat n) as [|c r] eqn:E; [congruence|].
    pose proof (Forall_inv F) as Hc. unfold digitP in Hc.
    destruct (Z.eqb_spec c 45); [lia|]. destruct (Z.eqb_spec c 43); [lia|].
    rewrite (digits_val_all _ 0 false F (or_introl N)), V. reflexivity.
Qed.

Corollary fmt_d_injective a b : fmt_d a = fmt_d b -> a = b.
Proof. intros E. pose proof (py_int_fmt_d a) as A. rewrite E, py_int_fmt_d in A. inversion A. reflexivity. Qed.

Lemma fmt_pair_eq a b : fmt_pair a b = fmt_d a ++ 32 :: fmt_d b.
Proof. reflexivity. Qed.

Theorem parse_pair_strict_fmt a b : parse_pair_strict (fmt_pair a b) = Ok (a, b).
Proof.
  unfold parse_pair_strict. rewrite fmt_pair_eq, (ws_split_two _ _ (fmt_d_tok a) (fmt_d_tok b)).
  unfold bind. rewrite !py_int_fmt_d. reflexivity.
Qed.

Theorem parse_pair_lax_fmt a b : parse_pair_lax (fmt_pair a b) = Ok (a, b).
Proof.
  unfold parse_pair_lax. rewrite fmt_pair_eq, (ws_split_two _ _ (fmt_d_tok a) (fmt_d_tok b)).
  unfold bind. rewrite !py_int_fmt_d. reflexivity.
Qed.

(* keys: a decidable check, run on the keys read from the source *)
Definition wf_keyb (k : list Z) : bool :=
  forallb (fun c => negb (c =? 13) && negb (c =? 58)) k && list_eqb (bytes_lower k) k && utf8_valid (S (List.length k)) k.

Lemma wf_keyb_ok k : wf_keyb k = true -> wf_key k.
Proof.
  unfold wf_keyb. intros H. apply andb_true_iff in H as [H H3]. apply andb_true_iff in H as [H1 H2].
  split; [|split].
  - rewrite Forall_forall. rewrite forallb_forall in H1. intros c Hc. specialize (H1 c Hc).
    apply andb_true_iff in H1 as [A B]. apply negb_true_iff in A, B. apply Z.eqb_neq in A, B. auto.
  - apply list_eqb_eq. exact H2.
  - unfold ensure_str. rewrite H3. reflexivity.
Qed.

Lemma wf_pair_intro k v : wf_keyb k = true -> wf_val v -> wf_pair (k, v).
Proof. intros K V. split; [apply wf_keyb_ok; exact K|exact V]. Qed.

Section Refine.
Variable hf : Z -> list Z.

(* how a table hash is written: a token, and different hashes are written differently (four hex digits in the code) *)
Definition token_fmt : Prop := (forall x, tok (hf x)) /\ (forall x y, hf x = hf y -> x = y).
Hypothesis HF : token_fmt.

Definition decision_block (me : endpoint) (idx ver : Z) : list (list Z * list Z) :=
  dset (dset [] decision_key_vocab_written (fmt_d idx ++ [32] ++ hf (ep_hash me idx))) decision_key_version_written (fmt_d ver).

Definition fits (d : list (list Z * list Z)) : Prop := (List.length (header_of d) <= cap)%nat.

Lemma hello_block_list e :
  hello_block e = [(hello_key_version_range_written, fmt_pair (ep_vmin e) (ep_vmax e));
                   (hello_key_vocab_range_written, fmt_pair (ep_vocmin e) (ep_vocmax e));
                   (hello_key_tubid_written, ep_id e)].
Proof. reflexivity. Qed.

Lemma decision_block_list me idx ver :
  decision_block me idx ver = [(decision_key_version_written, fmt_d ver);
                               (decision_key_vocab_written, fmt_d idx ++ 32 :: hf (ep_hash me idx))].
Proof. reflexivity. Qed.

Lemma fmt_pair_wf a b : wf_val (fmt_pair a b).
Proof. rewrite fmt_pair_eq. apply tok_pair_wf_val; apply fmt_d_tok. Qed.

Lemma deliver_hello e : wf_val (ep_id e) -> fits (hello_block e) -> deliver (hello_block e) [] = Ok (hello_block e, []).
Proof.
  intros W L. apply deliver_round_trip; [rewrite hello_block_list; discriminate| | |exact L]; rewrite hello_block_list.
  - cbn [canonical fst]. repeat split; repeat constructor.
  - apply Forall_cons; [apply wf_pair_intro; [vm_compute; reflexivity|apply fmt_pair_wf]|].
    apply Forall_cons; [apply wf_pair_intro; [vm_compute; reflexivity|apply fmt_pair_wf]|].
    apply Forall_cons; [apply wf_pair_intro; [vm_compute; reflexivity|exact W]|]. apply Forall_nil.
Qed.

Lemma deliver_decision me idx ver : fits (decision_block me idx ver) ->
  deliver (decision_block me idx ver) [] = Ok (decision_block me idx ver, []).
Proof.
  intros L. apply deliver_round_trip; [rewrite decision_block_list; discriminate| | |exact L]; rewrite decision_block_list.
  - cbn [canonical fst]. repeat split; repeat constructor.
  - apply Forall_cons; [apply wf_pair_intro; [vm_compute; reflexivity|apply tok_wf_val, fmt_d_tok]|].
    apply Forall_cons; [apply wf_pair_intro; [vm_compute; reflexivity|]|apply Forall_nil].
    apply tok_pair_wf_val; [apply fmt_d_tok|apply (proj1 HF)].
Qed.

(* handleENCRYPTED + evaluateHello on the peer's hello block = eval_hello on the peer's record.  A handler sees a block only
   through the fields it looks up; in hello_block and decision_block the keys are fixed byte strings, so those look-ups evaluate *)
Lemma eval_hello_wire_eq me peer d :
  dget d error_key = None -> dget d hello_key_version_range_written = Some (fmt_pair (ep_vmin peer) (ep_vmax peer)) ->
  eval_hello_wire me d = eval_hello me peer.
Proof. intros E R. unfold eval_hello_wire, bind. rewrite E, R, parse_pair_strict_fmt. reflexivity. Qed.

Lemma decide_wire_eq me peer ver d :
  dget d hello_key_vocab_range_written = Some (fmt_pair (ep_vocmin peer) (ep_vocmax peer)) ->
  decide_wire hf me d ver =
    match best_overlap (ep_vocmin me) (ep_vocmax me) (ep_vocmin peer) (ep_vocmax peer) with
    | Exc t => Exc t
    | Ok idx => Ok (decision_block me idx ver, {| p_version := ver; p_vocab := idx |})
    end.
Proof.
  intros R. unfold decide_wire, bind. rewrite R, parse_pair_lax_fmt. cbn [fst snd].
  destruct (best_overlap _ _ _ _); reflexivity.
Qed.

Lemma hf_eqb x y : list_eqb (hf x) (hf y) = (x =? y).
Proof.
  destruct (Z.eqb_spec x y) as [->|N]; [apply list_eqb_eq; reflexivity|].
  destruct (list_eqb (hf x) (hf y)) eqn:E; [|reflexivity]. apply list_eqb_eq in E. apply (proj2 HF) in E. congruence.
Qed.

(* handleDECIDING: acceptDecision + acceptDecisionVersion1 on the decider's block = slave_accept on the decider's record *)
Lemma accept_wire_eq me dec d :
  dget d decision_key_version_written = Some (fmt_d (d_version dec)) -> dget d error_key = None ->
  dget d decision_key_vocab_written = Some (fmt_d (d_vocab dec) ++ 32 :: hf (d_hash dec)) ->
  accept_wire hf me d = slave_accept me dec.
Proof.
  intros V E I. unfold accept_wire, bind.
  rewrite V, (tok_not_nil _ (fmt_d_tok _)), py_int_fmt_d, E, I, is_nil_app_cons.
  rewrite (ws_split_two _ _ (fmt_d_tok _) (proj1 HF _)), py_int_fmt_d. cbn [fst snd]. rewrite hf_eqb. reflexivity.
Qed.

Definition wire_ok (m s : endpoint) : Prop :=
  wf_val (ep_id m) /\ wf_val (ep_id s) /\ fits (hello_block m) /\ fits (hello_block s) /\
  (forall idx ver, in_range (ep_vocmin m) (ep_vocmax m) idx -> in_range (ep_vmin m) (ep_vmax m) ver -> fits (decision_block m idx ver)).

Lemma wire_run_eq m s : wire_ok m s -> wire_run hf m s = run m s.
Proof.
  intros (Wm & Ws & Fm & Fs & Fd). unfold wire_run. cbv zeta.
  rewrite (deliver_hello m Wm Fm), (deliver_hello s Ws Fs). unfold bind. cbn [fst].
  rewrite (eval_hello_wire_eq s m), (eval_hello_wire_eq m s) by reflexivity.
  unfold run, master_decide. destruct (eval_hello m s) as [ver|t1] eqn:Em; [|reflexivity].
  rewrite (decide_wire_eq m s) by reflexivity.
  destruct (best_overlap (ep_vocmin m) (ep_vocmax m) (ep_vocmin s) (ep_vocmax s)) as [idx|t2] eqn:Ev; [|reflexivity].
  cbn [fst snd]. destruct (eval_hello s m) as [v0|t0]; [|reflexivity].
  apply best_overlap_common in Em as (Vm & _ & _), Ev as (Im & _ & _).
  rewrite (deliver_decision m idx ver (Fd idx ver Im Vm)). cbn [fst].
  rewrite (accept_wire_eq s {| d_version := ver; d_vocab := idx; d_hash := ep_hash m idx |}) by reflexivity. reflexivity.
Qed.

(* C13: the negotiation on the wire is the record-level negotiation *)
Theorem wire_negotiate_eq a b : wire_ok a b -> wire_ok b a -> wire_negotiate hf a b = negotiate a b.
Proof.
  intros Oab Oba. unfold wire_negotiate, negotiate.
  destruct (i_am_master (ep_id a) (ep_id b)); [apply wire_run_eq; exact Oab|].
  destruct (i_am_master (ep_id b) (ep_id a)); [|reflexivity]. rewrite (wire_run_eq b a Oba). reflexivity.
Qed.

(* ... so the exact three-way statement holds of the bytes: identical parameters iff compatible; both abandon, each with a
   negotiation error, when the ranges do not meet (no decision block is ever written); and when a decision block IS written and
   the non-decider refuses it, the decider has already switched and only loses the connection *)
Theorem wire_agreement_exact a b :
  wire_ok a b -> wire_ok b a ->
  ep_id a <> ep_id b -> implements_own_range a -> implements_own_range b ->
  (compatible a b -> exists p, wire_negotiate hf a b = (Banana p, Banana p) /\ agreed a b p) /\
  (~ ranges_meet a b -> exists w1 w2, wire_negotiate hf a b = (Failed w1, Failed w2) /\ negotiation_error w1 /\ negotiation_error w2) /\
  (ranges_meet a b -> ~ compatible a b ->
     exists p, best_params a b p /\ decider_first a b (wire_negotiate hf a b) = (SwitchedThenLost p, Failed "NegotiationError")).
Proof. intros Oab Oba. rewrite (wire_negotiate_eq a b Oab Oba). apply agreement_exact. Qed.

End Refine.

(* non-vacuity: decimal rendering of the hash is a token format, and two concrete endpoints satisfy wire_ok *)
Example fmt_d_token_fmt : token_fmt fmt_d.
Proof. split; [apply fmt_d_tok|apply fmt_d_injective]. Qed.

Example ex_wire_ok : wire_ok fmt_d ex_a ex_b /\ wire_ok fmt_d ex_b ex_a.
Proof.
  assert (W : forall c, 32 < c < 128 -> wf_val [c]) by (intros c H; apply tok_wf_val; split; [discriminate|auto]).
  assert (Wa : wf_val (ep_id ex_a)) by (apply W; lia).
  assert (Wb : wf_val (ep_id ex_b)) by (apply W; lia).
  assert (F : forall d, (List.length (header_of d) <=? cap)%nat = true -> fits d) by (intros d; apply Nat.leb_le).
  assert (Fa : fits (hello_block ex_a)) by (apply F; vm_compute; reflexivity).
  assert (Fb : fits (hello_block ex_b)) by (apply F; vm_compute; reflexivity).
  (* the two write the same decision blocks, having the same tables *)
  assert (Fd : forall idx ver, 0 <= idx <= 4 -> 1 <= ver <= 5 -> fits (decision_block fmt_d ex_a idx ver)).
  { intros idx ver Hi Hv.
    assert (Ei : idx = 0 \/ idx = 1 \/ idx = 2 \/ idx = 3 \/ idx = 4) by lia.
    assert (Ev : ver = 1 \/ ver = 2 \/ ver = 3 \/ ver = 4 \/ ver = 5) by lia.
    destruct Ei as [->|[->|[->|[->| ->]]]], Ev as [->|[->|[->|[->| ->]]]]; apply F; vm_compute; reflexivity. }
  split; (split; [assumption|split; [assumption|split; [assumption|split; [assumption|]]]]);
    intros idx ver Hi Hv; unfold in_range in Hi, Hv; cbn in Hi, Hv; apply (Fd idx ver); lia.
Qed.

Example ex_wire_negotiate :
  wire_negotiate fmt_d ex_a ex_b = (Banana {| p_version := 3; p_vocab := 1 |}, Banana {| p_version := 3; p_vocab := 1 |}).
Proof. vm_compute. reflexivity. Qed.
