(* C10: proofs about lib/SendRecv.v, the stream of lib/Send.v handed to the C07 receiver (lib/BananaRecv.v).
   Two numbers are computed twice: the signed nesting change and the number of OPENs, of the abstract stream (zdep, nopens: they
   are the sender's stack depth and openCount advance, SInv) and of its wire form (BananaRecvProofs.delta_sum,
   BananaRecvCount.count_opens: they are the receiver's open_depth and objectCounter whenever it returns Ok').  They agree because
   a payload token is neither OPEN nor CLOSE. *)
From Coq Require Import ZArith List Bool Lia.
Import ListNotations.
Require Import Verif.lib.PyLite Verif.gen.SendGen Verif.lib.Send Verif.lib.SendProofs Verif.gen.BananaGen Verif.lib.SendRecv.
Require Verif.lib.Recv Verif.lib.BananaRecv Verif.lib.BananaRecvProofs Verif.lib.BananaRecvCount.
Local Open Scope Z_scope.

Module BR := Verif.lib.BananaRecv.
Module BP := Verif.lib.BananaRecvProofs.
Module BC := Verif.lib.BananaRecvCount.

Lemma zdep_app a b : zdep (a ++ b) = zdep a + zdep b.
Proof. induction a as [|t a IH]; [reflexivity|]. destruct t; cbn [app zdep]; rewrite IH; lia. Qed.

Lemma nopens_app a b : nopens (a ++ b) = nopens a + nopens b.
Proof. induction a as [|t a IH]; [reflexivity|]. destruct t; cbn [app nopens]; rewrite IH; lia. Qed.

Lemma zdep_unwind st : zdep (unwind_all st) = - Z.of_nat (List.length st).
Proof.
  induction st as [|a st IH]; [reflexivity|].
  change (unwind_all (a :: st)) with ([TAbort a; TClose a] ++ unwind_all st). cbn [app zdep List.length].
  rewrite IH. lia.
Qed.

Lemma nopens_unwind st : nopens (unwind_all st) = 0.
Proof.
  induction st as [|a st IH]; [reflexivity|].
  change (unwind_all (a :: st)) with ([TAbort a; TClose a] ++ unwind_all st). cbn [app nopens]. exact IH.
Qed.

(* the sender's view: nesting of what was written = its slicer stack; OPENs written = advance of openCount *)
Definition SInv (c0 : Z) (s : sstate) : Prop :=
  zdep (out s) = Z.of_nat (List.length (stack s)) /\ cnt s = c0 + open_counter_step * nopens (out s).

Lemma step_sinv c0 s e : SInv c0 s -> SInv c0 (step s e).
Proof.
  intros [D N]. unfold SInv. destruct (step_wrote s e) as (w & -> & W). rewrite zdep_app, nopens_app, D.
  destruct W as [w [->|[z ->]] -> ->| -> ->|id -> ->| -> ->]; rewrite ?zdep_unwind, ?nopens_unwind; cbn [zdep nopens List.length]; lia.
Qed.

Lemma sinv_init c : SInv c (init c).
Proof. split; cbn; lia. Qed.

(* wire view of the same two quantities *)
Lemma tok_delta_payload t : is_payload t = true -> BR.tok_delta (fst (fst t)) = 0.
Proof.
  destruct t as [[ty h] b]. cbn [is_payload fst]. intros H. apply andb_true_iff in H as [H1 H2].
  unfold BR.tok_delta. apply negb_true_iff in H1, H2. rewrite H1, H2. reflexivity.
Qed.

Lemma is_open_payload t : is_payload t = true -> BC.is_open (fst (fst t)) = 0.
Proof.
  destruct t as [[ty h] b]. cbn [is_payload fst]. intros H. apply andb_true_iff in H as [H1 _].
  unfold BC.is_open. apply negb_true_iff in H1. rewrite H1. reflexivity.
Qed.

Lemma delta_sum_cons ty h b r : BP.delta_sum ((ty, h, b) :: r) = BR.tok_delta ty + BP.delta_sum r.
Proof. reflexivity. Qed.

Lemma count_opens_cons ty h b r : BC.count_opens ((ty, h, b) :: r) = BC.is_open ty + BC.count_opens r.
Proof. reflexivity. Qed.

Lemma delta_sum_enc pay ts : (forall z, is_payload (pay z) = true) -> BP.delta_sum (map (enc pay) ts) = zdep ts.
Proof.
  intros P. induction ts as [|t ts IH]; [reflexivity|]. destruct t; cbn [map enc zdep].
  1-3: rewrite delta_sum_cons, IH; reflexivity.
  pose proof (tok_delta_payload (pay z) (P z)) as H. destruct (pay z) as [[ty h] b]. cbn [fst] in H.
  rewrite delta_sum_cons, H, IH. lia.
Qed.

Lemma count_opens_enc pay ts : (forall z, is_payload (pay z) = true) -> BC.count_opens (map (enc pay) ts) = nopens ts.
Proof.
  intros P. induction ts as [|t ts IH]; [reflexivity|]. destruct t; cbn [map enc nopens].
  1-3: rewrite count_opens_cons, IH; reflexivity.
  pose proof (is_open_payload (pay z) (P z)) as H. destruct (pay z) as [[ty h] b]. cbn [fst] in H.
  rewrite count_opens_cons, H, IH. lia.
Qed.

(* C10_real_receiver_in_step_partial.  For EVERY sequence of slicer behaviours on the sending side (any trees, any number of
   Violations at any depth), every wire form of the primitive tokens, every policy of the receiving root and every
   vocabulary -- hence every pattern of Violations raised by the receiving unslicers (doOpen, checkToken, receiveChild,
   receiveClose, finish: which ones fire is decided by the payload and the modes) -- as long as the receiving Banana has not
   dropped the connection: its nesting (discardCount + unslicers above the root + a pending index phase) is the sender's
   slicer stack depth, its objectCounter has advanced by exactly the sender's openCount advance, and whenever the sender
   is back at its RootSlicer the receiver is back at top level: discardCount = 0, only the root unslicer on the stack, no
   index phase pending -- the next call is received by a receiver in the state a fault-free history would have left. *)
Theorem real_receiver_in_step c evs mode voc pay c' es :
  (forall z, is_payload (pay z) = true) ->
  let s := run (init c) evs in
  received mode voc pay s = BR.Ok' c' es ->
  BR.open_depth c' = Z.of_nat (List.length (stack s)) /\
  open_counter_step * BR.objctr c' = cnt s - c /\
  (stack s = [] -> BR.at_top c') /\
  BR.rootmode c' = mode /\ BR.vocab c' = voc.
Proof.
  intros P s R. unfold received in R.
  destruct (run_invariant _ (step_sinv c) evs (init c) (sinv_init c)) as [D N]. fold s in D, N.
  destruct (BP.apply_all_depth _ _ _ _ (BP.ctx0_wf mode voc) R) as (W & M & V & OD).
  rewrite (delta_sum_enc pay _ P), D in OD. change (BR.open_depth (BR.ctx0 mode voc)) with 0 in OD.
  pose proof (BC.apply_all_objctr _ _ _ _ R) as OC. rewrite (count_opens_enc pay _ P) in OC. cbn [BR.ctx0 BR.objctr] in OC.
  split; [lia|]. split; [rewrite OC; lia|]. split; [|split; [exact M|exact V]].
  intros K. apply BP.depth_zero_top; [exact W|]. rewrite OD, K. reflexivity.
Qed.

Lemma run_out_extends evs : forall s, exists o, out (run s evs) = out s ++ o.
Proof.
  induction evs as [|e evs IH]; intros s; [exists []; rewrite app_nil_r; reflexivity|].
  rewrite run_cons. destruct (IH (step s e)) as [o2 ->]. destruct (step_wrote s e) as (o1 & -> & _).
  exists (o1 ++ o2). symmetry. apply app_assoc.
Qed.

Lemma apply_all_app_ok a : forall b c0 cz ez, BR.apply_all c0 (a ++ b) = BR.Ok' cz ez ->
  exists c1 e1 e2, BR.apply_all c0 a = BR.Ok' c1 e1 /\ BR.apply_all c1 b = BR.Ok' cz e2 /\ ez = e1 ++ e2.
Proof.
  induction a as [|[[ty h] bd] a IH]; intros b c0 cz ez H.
  - exists c0, [], ez. cbn. auto.
  - cbn [app BR.apply_all] in *. destruct (BR.tok_apply c0 ty h bd) as [c1 e1|] eqn:E1; [|discriminate].
    destruct (BR.apply_all c1 (a ++ b)) as [cy ey|] eqn:E2; [|discriminate]. inversion H; subst.
    destruct (IH _ _ _ _ E2) as (c3 & e3 & e4 & A1 & A2 & A3). rewrite A1. exists c3, (e1 ++ e3), e4.
    split; [reflexivity|]. split; [exact A2|]. rewrite A3, app_assoc. reflexivity.
Qed.

(* C10_sibling_after_any_history_partial.  A further top-level object -- fault-free or not -- written after
   ANY history that left the RootSlicer in charge is processed by a receiver that is at top level; and after it, if the
   connection is still there, the receiver is at top level again.  So the receiver's treatment of a sibling can depend on
   the history only through the counters (objectCounter / inboundObjectCount / inboundOpenCount) and the last opentype. *)
Theorem sibling_after_any_history c pre more mode voc pay c2 es2 :
  (forall z, is_payload (pay z) = true) ->
  stack (run (init c) pre) = [] -> stack (run (init c) (pre ++ more)) = [] ->
  received mode voc pay (run (init c) (pre ++ more)) = BR.Ok' c2 es2 ->
  BR.at_top c2 /\
  exists c1 es1 es', received mode voc pay (run (init c) pre) = BR.Ok' c1 es1 /\ BR.at_top c1 /\
                     es2 = es1 ++ es' /\
                     open_counter_step * (BR.objctr c2 - BR.objctr c1) = cnt (run (init c) (pre ++ more)) - cnt (run (init c) pre).
Proof.
  intros P K1 K2 R.
  destruct (real_receiver_in_step c (pre ++ more) mode voc pay c2 es2 P R) as (_ & O2 & T2 & _).
  split; [exact (T2 K2)|].
  (* what was written up to `pre` is a prefix of what was written up to `pre ++ more` *)
  rewrite run_app in R. destruct (run_out_extends more (run (init c) pre)) as [o' E]. unfold received in R. rewrite E, map_app in R.
  destruct (apply_all_app_ok _ _ _ _ _ R) as (c1 & e1 & e2 & R1 & _ & EE).
  destruct (real_receiver_in_step c pre mode voc pay c1 e1 P R1) as (_ & O1 & T1 & _).
  exists c1, e1, e2. split; [exact R1|]. split; [exact (T1 K1)|]. split; [exact EE|].
  rewrite Z.mul_sub_distr_l. lia.
Qed.

(* non-vacuity: the receiving root accepts only ints (mode 1): the first object's string is a Violation in the index
   phase, the second object is an aborted one; afterwards the receiver is at top level with both OPENs counted *)
Example ex_real_receiver :
  let pay := fun z : Z => if z =? 0 then (tok_STRING, 1, [76]) else (tok_INT, z, []) in
  let s := run (init 0) (events_of_top (Sub [Tok 0; Tok 5]) ++ events_of_top (Sub [Tok 0; Sub [Tok 0; Unsendable]])) in
  (forall z, is_payload (pay z) = true) /\ stack s = [] /\
  exists c' es, received 1 [] pay s = BR.Ok' c' es /\ BR.discard c' = 0 /\ BR.objctr c' = 3 /\ List.length (BR.stack c') = 1%nat.
Proof.
  split; [intros z; cbn; destruct (z =? 0); reflexivity|]. split; [reflexivity|].
  eexists _, _. split; [vm_compute; reflexivity|]. cbn. auto.
Qed.
