(* C01, object layer, the pending-completion mechanism of the receiver (model only; proofs in ObjDeferProofs.v).

   Obj.v's machine `run` hands a reference to a container that is still being built around as a pointer (VPtr k).  The
   implementation cannot do that for immutable containers: TupleUnslicer.start / FrozenSetUnslicer.start /
   RemoteCopyUnslicer.start register a twisted Deferred under the object number, Banana.getObject hands that Deferred
   to ReferenceUnslicer, and every parent that is given a Deferred child
     - list / set / dict value / tuple / frozenset: stores a placeholder and adds its `update` as a callback,
     - dict key: raises BananaError, Copyable (attribute name or value): assert, root: assert,
   TupleUnslicer counts its placeholders (num_unreferenceable_children); receiveClose with placeholders left returns
   the Deferred itself (the tuple stays pending, its parent treats it like a reference to a pending tuple); the last
   `update` of a closed tuple runs checkComplete -> complete: setObject(count, tuple), deferred.callback(tuple), which
   runs the registered callbacks in registration order, depth first (a callback that completes another tuple fires
   that tuple's callbacks before the next one of this tuple runs), each being handed WHAT THE PREVIOUS ONE RETURNED
   (Deferred callback chain: `upd_ret_*`, translated from the four `update` methods).

   This file is that mechanism: `dvalue` adds placeholders (DHole k: waiting for object k) and Deferreds (DDefer k),
   `dstate` adds the pending set, the callback lists and the placeholder counters, `dstep` / `drun` / `dunslice` are
   the receiver.  `erase` forgets the difference (placeholder / Deferred of k |-> pointer to k); ObjDeferProofs.v shows
   that `drun` refines the pointer machine for EVERY token stream and that a run that ends with nothing pending and
   no placeholder left delivers exactly the denoted graph. *)
From Coq Require Import ZArith List String Bool Lia.
Import ListNotations.
Require Import Verif.lib.PyLite Verif.gen.BananaGen Verif.gen.SlicersGen Verif.lib.Token Verif.lib.Obj.
Local Open Scope Z_scope.

(* ------------------------------------------------------------------ the pointer machine without the close-time hazard test *)
(* Obj.step refuses, at CLOSE, a Copyable / dict whose attribute value / key points at an immutable that is still on
   the stack (its approximation of "was given a Deferred").  The Deferred-level machine below makes that test where
   the code makes it (receiveChild), so its reference machine is Obj.step without the test. *)
Definition step0 (st : mstate) (t : token) : option mstate :=
  match s_inopen st, t with
  | None, TClose n =>
    match s_stack st with
    | f :: r =>
      if f_open f =? n then
        match f_kind f with
        | KVocab => if even_len (f_items f)
                    then Some {| s_stack := r; s_inopen := None; s_counter := s_counter st; s_heap := s_heap st |} else None
        | _ =>
          match seal f with
          | Some (v, nd) =>
            match recv r v with
            | Some r' => Some {| s_stack := r'; s_inopen := None; s_counter := s_counter st;
                                 s_heap := match nd with Some x => s_heap st ++ [(f_count f, x)] | None => s_heap st end |}
            | None => None
            end
          | None => None
          end
        end
      else None
    | [] => None
    end
  | _, _ => step st t
  end.

Fixpoint run0 (ts : list token) (st : mstate) : option mstate :=
  match ts with
  | [] => Some st
  | t :: r => match step0 st t with Some st' => run0 r st' | None => None end
  end.

(* ------------------------------------------------------------------ values with placeholders and Deferreds *)
Inductive dvalue :=
| DV (v : value)        (* a real object *)
| DHole (k : Z)         (* the placeholder a container put where object k will go (its `update` is a callback of k) *)
| DDefer (k : Z).       (* the Deferred registered for object k, travelling as a child value *)

Definition erase (d : dvalue) : value := match d with DV v => v | DHole k | DDefer k => VPtr k end.
Definition is_dv (d : dvalue) : bool := match d with DV _ => true | _ => false end.

Record dframe := { df_kind : kind; df_open : Z; df_count : Z; df_items : list dvalue (* newest first *); df_refs : list Z }.
Record dnode := { dn_kind : ckind; dn_items : list dvalue }.

(* one registered callback: Deferred of object cb_of, `update` of container cb_tgt, placeholder at index cb_idx
   (oldest-first position) *)
Record cb := { cb_of : Z; cb_tgt : Z; cb_idx : nat }.

Record dstate := {
  d_stack : list dframe;
  d_inopen : option (Z * Z * list (list Z));
  d_counter : Z;
  d_heap : list (Z * dnode);        (* containers whose CLOSE has been seen, placeholders included *)
  d_pend : list Z;                  (* object numbers whose table entry is a Deferred that has not fired *)
  d_cbs : list cb;                  (* callbacks of all pending Deferreds, in registration order *)
  d_unref : list (Z * Z) }.         (* tuple / frozenset number -> num_unreferenceable_children (absent = 0) *)

Definition erase_frame (f : dframe) : frame :=
  {| f_kind := df_kind f; f_open := df_open f; f_count := df_count f; f_items := map erase (df_items f); f_refs := df_refs f |}.
Definition erase_node (nd : dnode) : node := {| n_kind := dn_kind nd; n_items := map erase (dn_items nd) |}.
Definition erase_heap (h : list (Z * dnode)) : heap := map (fun p => (fst p, erase_node (snd p))) h.
Definition erase_state (st : dstate) : mstate :=
  {| s_stack := map erase_frame (d_stack st); s_inopen := d_inopen st; s_counter := d_counter st; s_heap := erase_heap (d_heap st) |}.

(* ------------------------------------------------------------------ tables *)
Definition dis_scope_frame (f : dframe) : bool := match df_kind f with KRoot b => b | KC c => is_scope c | _ => false end.
Definition dreg1 (ids : list Z) (f : dframe) : dframe :=
  if dis_scope_frame f then {| df_kind := df_kind f; df_open := df_open f; df_count := df_count f; df_items := df_items f;
                               df_refs := df_refs f ++ ids |} else f.
Definition dlookup (k : Z) (s : list dframe) : bool := existsb (fun f => dis_scope_frame f && mem k (df_refs f)) s.

Fixpoint unref_get (k : Z) (l : list (Z * Z)) : Z := match l with [] => 0 | (j, n) :: r => if j =? k then n else unref_get k r end.
Fixpoint unref_add (k d : Z) (l : list (Z * Z)) : list (Z * Z) :=
  match l with [] => [(k, d)] | (j, n) :: r => if j =? k then (j, n + d) :: r else (j, n) :: unref_add k d r end.

Definition dpush (v : dvalue) (f : dframe) : dframe :=
  {| df_kind := df_kind f; df_open := df_open f; df_count := df_count f; df_items := v :: df_items f; df_refs := df_refs f |}.

(* what a parent of kind c does with a Deferred child when it already holds `have` children:
   Some true = placeholder + callback + counter (tuple / frozenset), Some false = placeholder + callback, None = refuses *)
Definition takes_deferred (c : ckind) (have : nat) : option bool :=
  match c with
  | CList | CSet => Some false
  | CTuple | CFrozen => Some true
  | CDict => if Nat.even have then None else Some false      (* key: BananaError; value: callback *)
  | CCopy _ => None                                          (* assert not isinstance(obj, Deferred) *)
  | CScope _ => None                                         (* not modelled: no sender stream puts one there (no immutable ancestor) *)
  end.

(* whose `start` registers a Deferred instead of the object (translated: defers_*; FrozenSetUnslicer inherits TupleUnslicer.start) *)
Definition defers_c (c : ckind) : bool :=
  match c with
  | CList => defers_list | CSet => defers_set | CDict => defers_dict | CTuple | CFrozen => defers_tuple
  | CCopy _ => defers_copyable | CScope _ => false
  end.
Definition defers (k : kind) : bool := match k with KC c => defers_c c | _ => false end.

Definition with_stack (st : dstate) (s : list dframe) : dstate :=
  {| d_stack := s; d_inopen := None; d_counter := d_counter st; d_heap := d_heap st; d_pend := d_pend st;
     d_cbs := d_cbs st; d_unref := d_unref st |}.

(* the container numbered j: a frame still on the stack, else a closed node; oldest-first items and its kind *)
Fixpoint find_frame (j : Z) (s : list dframe) : option dframe :=
  match s with [] => None | f :: r => if (df_count f =? j) && (match df_kind f with KC _ => true | _ => false end) then Some f else find_frame j r end.
Fixpoint dfind (k : Z) (h : list (Z * dnode)) : option dnode :=
  match h with [] => None | (i, nd) :: r => if i =? k then Some nd else dfind k r end.

(* the kind of the container numbered k, open or closed *)
Definition kind_of_obj (k : Z) (st : dstate) : option ckind :=
  match find_frame k (d_stack st) with
  | Some f => match df_kind f with KC c => Some c | _ => None end
  | None => match dfind k (d_heap st) with Some nd => Some (dn_kind nd) | None => None end
  end.
(* a reference to a frozenset is outside the model: TupleUnslicer.complete stores the intermediate TUPLE under the
   frozenset's number (only FrozenSetUnslicer.receiveClose converts what it returns), so such a reference would deliver a
   tuple.  No sender emits one (FrozenSetSlicer.trackReferences = False, translated as tr_frozen);
   the model refuses it rather than pretend it is a pointer to the frozenset. *)
Definition ref_ok (k : Z) (st : dstate) : bool := match kind_of_obj k st with Some CFrozen => false | _ => true end.

(* <top unslicer>.receiveChild(v) *)
Definition drecv (st : dstate) (s : list dframe) (v : dvalue) : option dstate :=
  match s with
  | [] => None
  | f :: r =>
    match df_kind f with
    | KRoot _ => match v with DV _ => Some (with_stack st (dpush v f :: r)) | _ => None end
    | KC c =>
      match v with
      | DV _ => Some (with_stack st (dpush v f :: r))
      | DDefer k =>
        match takes_deferred c (List.length (df_items f)) with
        | Some counts =>
          Some {| d_stack := dpush (DHole k) f :: r; d_inopen := None; d_counter := d_counter st; d_heap := d_heap st;
                  d_pend := d_pend st;
                  d_cbs := d_cbs st ++ [{| cb_of := k; cb_tgt := df_count f; cb_idx := List.length (df_items f) |}];
                  d_unref := if counts then unref_add (df_count f) 1 (d_unref st) else d_unref st |}
        | None => None
        end
      | DHole _ => None
      end
    | KText | KDecimal => match df_items f, v with [], DV (VBytes _) => Some (with_stack st (dpush v f :: r)) | _, _ => None end
    | KBool => match df_items f, v with [], DV (VInt _) => Some (with_stack st (dpush v f :: r)) | _, _ => None end
    | KNone => None
    | KVocab => match v with
                | DV (VInt _) => Some (with_stack st (dpush v f :: r))
                | DV (VBytes s) => if word_ok s then Some (with_stack st (dpush v f :: r)) else None
                | _ => None
                end
    | KRef => match df_items f, v with
              | [], DV (VInt k) =>
                if dlookup k s && ref_ok k st   (* Banana.getObject: the table entry is the object, or its Deferred while pending *)
                then Some (with_stack st (dpush (if mem k (d_pend st) then DDefer k else DV (VPtr k)) f :: r))
                else None
              | _, _ => None
              end
    end
  end.

(* ------------------------------------------------------------------ firing a Deferred *)
Fixpoint set_nth {A} (i : nat) (x : A) (l : list A) : list A :=
  match l, i with
  | [], _ => []
  | _ :: r, O => x :: r
  | a :: r, S j => a :: set_nth j x r
  end.

Definition dvalue_eqb_hole (d : dvalue) (k : Z) : bool := match d with DHole j => j =? k | _ => false end.

(* container j, index i := v, provided the placeholder for k is there (the code assigns unconditionally; that the
   placeholder is always there is an invariant of the code, the model tests it and gives up otherwise) *)
Fixpoint fill_stack (j : Z) (i : nat) (k : Z) (v : dvalue) (s : list dframe) : option (list dframe * ckind) :=
  match s with
  | [] => None
  | f :: r =>
    match df_kind f with
    | KC c =>
      if df_count f =? j then
        let items := rev (df_items f) in
        if dvalue_eqb_hole (nth i items (DV VNone)) k
        then Some ({| df_kind := df_kind f; df_open := df_open f; df_count := df_count f;
                      df_items := rev (set_nth i v items); df_refs := df_refs f |} :: r, c)
        else None
      else match fill_stack j i k v r with Some (r', c') => Some (f :: r', c') | None => None end
    | _ => match fill_stack j i k v r with Some (r', c') => Some (f :: r', c') | None => None end
    end
  end.
Fixpoint fill_heap (j : Z) (i : nat) (k : Z) (v : dvalue) (h : list (Z * dnode)) : option (list (Z * dnode) * ckind) :=
  match h with
  | [] => None
  | (a, nd) :: r =>
    if a =? j then
      if dvalue_eqb_hole (nth i (dn_items nd) (DV VNone)) k
      then Some ((a, {| dn_kind := dn_kind nd; dn_items := set_nth i v (dn_items nd) |}) :: r, dn_kind nd)
      else None
    else match fill_heap j i k v r with Some (r', c') => Some ((a, nd) :: r', c') | None => None end
  end.

Definition upd_returns (c : ckind) : bool :=
  match c with
  | CList => upd_ret_list | CSet => upd_ret_set | CDict => upd_ret_dict | CTuple | CFrozen => upd_ret_tuple
  | CCopy _ | CScope _ => true
  end.

Definition closed (j : Z) (st : dstate) : bool := match dfind j (d_heap st) with Some _ => true | None => false end.
Fixpoint remove_z (k : Z) (l : list Z) : list Z := match l with [] => [] | x :: r => if x =? k then remove_z k r else x :: remove_z k r end.

(* TupleUnslicer.complete / RemoteCopyUnslicer.receiveClose for object k: the table entry becomes the object, the
   Deferred fires.  `fire v cbs st`: the remaining callbacks of k, v = what the previous callback returned. *)
Fixpoint complete (fuel : nat) (k : Z) (st : dstate) {struct fuel} : option dstate :=
  match fuel with
  | O => None
  | S fu =>
    (fix fire (v : dvalue) (cbs : list cb) (st : dstate) {struct cbs} : option dstate :=
       match cbs with
       | [] => Some st
       | c :: rest =>
         let j := cb_tgt c in
         match (match fill_stack j (cb_idx c) k v (d_stack st) with
                | Some (s', kd) => Some ({| d_stack := s'; d_inopen := d_inopen st; d_counter := d_counter st; d_heap := d_heap st;
                                           d_pend := d_pend st; d_cbs := d_cbs st; d_unref := d_unref st |}, kd)
                | None =>
                  match fill_heap j (cb_idx c) k v (d_heap st) with
                  | Some (h', kd) => Some ({| d_stack := d_stack st; d_inopen := d_inopen st; d_counter := d_counter st; d_heap := h';
                                             d_pend := d_pend st; d_cbs := d_cbs st; d_unref := d_unref st |}, kd)
                  | None => None
                  end
                end) with
         | None => None
         | Some (st1, kd) =>
           let v' := if upd_returns kd then v else DV VNone in
           match kd with
           | CTuple | CFrozen =>
             (* TupleUnslicer.update: num_unreferenceable_children -= 1; if self.finished: checkComplete() *)
             let st2 := {| d_stack := d_stack st1; d_inopen := d_inopen st1; d_counter := d_counter st1; d_heap := d_heap st1;
                           d_pend := d_pend st1; d_cbs := d_cbs st1; d_unref := unref_add j (-1) (d_unref st1) |} in
             if closed j st2 && (unref_get j (d_unref st2) =? 0) && mem j (d_pend st2) then
               match complete fu j st2 with Some st3 => fire v' rest st3 | None => None end
             else fire v' rest st2
           | _ => fire v' rest st1
           end
         end
       end)
      (DV (VPtr k))
      (filter (fun c => cb_of c =? k) (d_cbs st))
      {| d_stack := d_stack st; d_inopen := d_inopen st; d_counter := d_counter st; d_heap := d_heap st;
         d_pend := remove_z k (d_pend st); d_cbs := filter (fun c => negb (cb_of c =? k)) (d_cbs st); d_unref := d_unref st |}
  end.

(* ------------------------------------------------------------------ one token *)
Definition dseal_leaf (f : dframe) : option dvalue :=
  let items := rev (df_items f) in
  match df_kind f with
  | KText => match items with [DV (VBytes u)] => Some (DV (VText u)) | _ => None end
  | KDecimal => match items with [DV (VBytes s)] => Some (DV (VDecimal s)) | _ => None end
  | KBool => match items with [DV (VInt z)] => Some (DV (VBool (negb (z =? 0)))) | _ => None end
  | KNone => match items with [] => Some (DV VNone) | _ => None end
  | KRef => match items with [DV (VPtr k)] => Some (DV (VPtr k)) | [DDefer k] => Some (DDefer k) | _ => None end
  | _ => None
  end.

Definition dstep (st : dstate) (t : token) : option dstate :=
  match d_inopen st with
  | Some (hdr, cnt, idx) =>
    match t with
    | TString bs =>
      let idx' := idx ++ [bs] in
      match open_kind (match d_stack st with [_] => true | _ => false end) idx' with
      | None => None
      | Some None => Some {| d_stack := d_stack st; d_inopen := Some (hdr, cnt, idx'); d_counter := d_counter st; d_heap := d_heap st;
                             d_pend := d_pend st; d_cbs := d_cbs st; d_unref := d_unref st |}
      | Some (Some k) =>
        let child := {| df_kind := k; df_open := hdr; df_count := cnt; df_items := []; df_refs := [] |} in
        let stk := child :: d_stack st in
        Some {| d_stack := if kind_registers k then map (dreg1 [cnt]) stk else stk;
                d_inopen := None; d_counter := d_counter st; d_heap := d_heap st;
                (* Tuple / FrozenSet / RemoteCopy .start: setObject(count, self.deferred) *)
                d_pend := if defers k then cnt :: d_pend st else d_pend st; d_cbs := d_cbs st; d_unref := d_unref st |}
      end
    | TPing _ | TPong _ => if keepalive_tokens_ignored then Some st else None     (* keepalive tokens are dealt with in Banana.handleData (`continue`) before handleOpen sees
                                          anything: legal between OPEN and its index tokens too *)
    | _ => None
    end
  | None =>
    match t with
    | TOpen n => Some {| d_stack := d_stack st; d_inopen := Some (n, d_counter st, []); d_counter := d_counter st + 1; d_heap := d_heap st;
                         d_pend := d_pend st; d_cbs := d_cbs st; d_unref := d_unref st |}
    | TInt z => drecv st (d_stack st) (DV (VInt z))
    | TFloat b => drecv st (d_stack st) (DV (VFloat b))
    | TString b => drecv st (d_stack st) (DV (VBytes b))
    | TClose n =>
      match d_stack st with
      | f :: r =>
        if df_open f =? n then
          match df_kind f with
          | KRoot _ => None
          | KVocab => if even_len (df_items f) then Some (with_stack st r) else None
          | KC c =>
            let items := rev (df_items f) in
            let ok := match c with CDict => even_len items | CCopy _ => even_bytes (map erase items) | _ => true end in
            if ok then
              let k := df_count f in
              let st1 := {| d_stack := r; d_inopen := None; d_counter := d_counter st;
                            d_heap := d_heap st ++ [(k, {| dn_kind := c; dn_items := items |})];
                            d_pend := d_pend st; d_cbs := d_cbs st; d_unref := d_unref st |} in
              if defers_c c then
                if 0 <? unref_get k (d_unref st1)
                then drecv st1 r (DDefer k)        (* receiveClose returns self.deferred: still pending *)
                else match complete (S (List.length (d_pend st1))) k st1 with
                     | Some st2 => drecv st2 (d_stack st2) (DV (VPtr k))
                     | None => None
                     end
              else drecv st1 r (DV (VPtr k))
            else None
          | _ => match dseal_leaf f with Some v => drecv (with_stack st r) r v | None => None end
          end
        else None
      | [] => None
      end
    | TPing _ | TPong _ => if keepalive_tokens_ignored then Some st else None
    | TVocab _ | TAbort _ | TError _ => None
    end
  end.

Fixpoint drun (ts : list token) (st : dstate) : option dstate :=
  match ts with
  | [] => Some st
  | t :: r => match dstep st t with Some st' => drun r st' | None => None end
  end.

Definition droot (scoped : bool) : dframe := {| df_kind := KRoot scoped; df_open := -1; df_count := -1; df_items := []; df_refs := [] |}.
Definition dinit (scoped : bool) (n : Z) : dstate :=
  {| d_stack := [droot scoped]; d_inopen := None; d_counter := n; d_heap := []; d_pend := []; d_cbs := []; d_unref := [] |}.

Definition node_clean (p : Z * dnode) : bool := forallb is_dv (dn_items (snd p)).

(* the whole receiver: Some (graph, top-level values) when the stream was consumed, no Deferred is left unfired and
   no placeholder is left anywhere *)
Definition dunslice (scoped : bool) (n : Z) (ts : list token) : option (heap * list value) :=
  match drun ts (dinit scoped n) with
  | Some st =>
    match d_stack st, d_inopen st, d_pend st with
    | [f], None, [] =>
      if forallb node_clean (d_heap st) && forallb is_dv (df_items f)
      then Some (erase_heap (d_heap st), rev (map erase (df_items f))) else None
    | _, _, _ => None
    end
  | None => None
  end.

(* how a run ends, for the correspondence: 0 delivered, 1 refused (the implementation raises), 2 consumed but something
   is still pending / a placeholder is left (the implementation never delivers the object) *)
Definition doutcome (scoped : bool) (n : Z) (ts : list token) : Z :=
  match drun ts (dinit scoped n) with
  | None => 1
  | Some st => match dunslice scoped n ts with Some _ => 0 | None => 2 end
  end.
