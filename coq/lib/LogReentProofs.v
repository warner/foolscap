(* C18: numbering of re-entrant msg() calls (lib/LogReent.v).  A call takes its number before the calls made from
   inside it start, so a tree of logger-numbered calls, read in the order the calls start, is numbered seq+1, seq+2, ... *)
From Coq Require Import ZArith List Bool Lia Sorting.Sorted.
Import ListNotations.
Require Import Verif.lib.PyLite Verif.gen.LogBufGen Verif.lib.LogBuf Verif.lib.LogBufProofs Verif.lib.LogReent.
Local Open Scope Z_scope.

(* the local recursions over the children in rcall, size and all_auto are rcalls, sizes and alls_auto, up to conversion *)
Lemma rcall_unfold seq ex inner :
  rcall seq (Call ex inner) =
  let '(num, seq1) := match ex with Some n => (n, seq) | None => next_num seq end in
  let '(seq2, rets) := rcalls seq1 inner in (seq2, num, num :: rets).
Proof. reflexivity. Qed.

Lemma size_unfold ex inner : size (Call ex inner) = S (sizes inner).
Proof. reflexivity. Qed.

Lemma all_auto_unfold ex inner : all_auto (Call ex inner) = match ex with None => true | Some _ => false end && alls_auto inner.
Proof. reflexivity. Qed.

Lemma zrange_app a n m : zrange a (n + m) = zrange a n ++ zrange (a + Z.of_nat n) m.
Proof.
  revert a. induction n as [|n IH]; intros a.
  - cbn [zrange Nat.add app Z.of_nat]. replace (a + 0) with a by lia. reflexivity.
  - cbn [zrange Nat.add app]. rewrite IH. replace (a + 1 + Z.of_nat n) with (a + Z.of_nat (S n)) by lia. reflexivity.
Qed.

(* induction over call trees, lists of children included *)
Lemma call_ind2 (P : call -> Prop) : (forall ex inner, Forall P inner -> P (Call ex inner)) -> forall c, P c.
Proof.
  intros H. fix IH 1. intros [ex inner]. apply H. induction inner as [|x t IHt]; constructor; [apply IH | exact IHt].
Qed.

Lemma rcalls_exact l :
  Forall (fun c => forall seq, all_auto c = true ->
            rcall seq c = (seq + Z.of_nat (size c), seq + 1, zrange (seq + 1) (size c))) l ->
  forall s, alls_auto l = true -> rcalls s l = (s + Z.of_nat (sizes l), zrange (s + 1) (sizes l)).
Proof.
  induction 1 as [|x t Hx _ IH]; intros s A; cbn [rcalls sizes alls_auto] in *.
  - rewrite Z.add_0_r. reflexivity.
  - apply andb_prop in A as [A1 A2]. rewrite (Hx s A1), (IH _ A2), zrange_app, Nat2Z.inj_add, Z.add_assoc.
    replace (s + Z.of_nat (size x) + 1) with (s + 1 + Z.of_nat (size x)) by lia. reflexivity.
Qed.

(* a tree of logger-numbered calls: the numbers returned, in the order the calls start, are seq+1, seq+2, ...; the
   counter advances by the number of calls *)
Theorem reentrant_numbers_exact c : forall seq, all_auto c = true ->
  rcall seq c = (seq + Z.of_nat (size c), seq + 1, zrange (seq + 1) (size c)).
Proof.
  induction c as [ex inner IH] using call_ind2. intros seq Ha. rewrite all_auto_unfold in Ha.
  destruct ex as [n|]; [discriminate|]. rewrite rcall_unfold, next_num_spec, size_unfold, (rcalls_exact inner IH _ Ha).
  cbn [zrange]. replace (seq + 1 + Z.of_nat (sizes inner)) with (seq + Z.of_nat (S (sizes inner))) by lia. reflexivity.
Qed.

Corollary reentrant_forest_exact l s : alls_auto l = true -> rcalls s l = (s + Z.of_nat (sizes l), zrange (s + 1) (sizes l)).
Proof. apply rcalls_exact, Forall_forall. intros c _. apply reentrant_numbers_exact. Qed.

Lemma zrange_upper n : forall a, Forall (fun x => x < a + Z.of_nat n) (zrange a n).
Proof.
  induction n as [|n IH]; intros a; cbn [zrange]; constructor; [lia|].
  eapply Forall_impl; [|apply IH]. cbn beta. intros x Hx. lia.
Qed.

(* hence: strictly increasing in the order the calls start; every call made from inside a call returns more than that
   call; whatever is called after the whole tree gets a number above everything in it (the counter) *)
Theorem reentrant_numbers_increase c seq : all_auto c = true ->
  let '(seq', ret, rets) := rcall seq c in
  StronglySorted Z.lt rets /\ Forall (fun n => seq < n <= seq') rets /\ ret = seq + 1 /\ hd 0 rets = ret.
Proof.
  intros Ha. rewrite (reentrant_numbers_exact c seq Ha).
  split; [apply zrange_sorted|]. split; [|split; [reflexivity | destruct c as [ex inner]; rewrite size_unfold; reflexivity]].
  pose proof (zrange_lower (seq + 1) (size c)) as L. pose proof (zrange_upper (size c) (seq + 1)) as U.
  rewrite Forall_forall in *. intros x Hx. specialize (L x Hx). specialize (U x Hx). cbn beta in *. lia.
Qed.

(* non-vacuity: msg A whose observer logs B (whose own observer logs C) and then D; afterwards E *)
Example ex_reentrant :
  rcalls 4 [Call None [Call None [Call None []]; Call None []]; Call None []] = (9, [5; 6; 7; 8; 9]).
Proof. vm_compute. reflexivity. Qed.
