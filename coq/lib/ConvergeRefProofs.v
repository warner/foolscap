(* C14: proofs about the composed model lib/ConvergeRef.v (two-Tub model + the request table of one Broker).
   A live Broker end survives every step of the two-Tub model that is not a delivery, a close notification or a restart,
   so such steps put no Broker.finish into the Broker's part of a history; that part splits over append, which carries the
   theorems of RefLegProofs.v over to the composed system. *)
From Coq Require Import ZArith List Bool Arith Lia.
Import ListNotations.
Require Verif.lib.Requests Verif.lib.RequestsProofs Verif.lib.RefLeg Verif.lib.RefLegProofs.
Require Import Verif.lib.PyLite Verif.gen.ConvergeGen Verif.lib.Converge Verif.lib.ConvergeProofs Verif.lib.ConvergeHist
  Verif.lib.ConvergeRef.

(* ---- no timer, no cut, no lookup, no dial touches an established end *)
Lemma timeout_keeps_brk x y c s : cend x (conns s c) = EBrk -> cend x (conns (do_timeout y s) c) = EBrk.
Proof.
  intros H. unfold do_timeout. destruct (t_connector (tubof y s)) as [g|]; [|exact H].
  rewrite conns_set_tub. unfold map_conns, set_conns. cbn [conns]. apply (keeps_cancel y g), H.
Qed.

Lemma advance_keeps_brk x c dt s : cend x (conns s c) = EBrk -> cend x (conns (do_advance dt s) c) = EBrk.
Proof.
  intros H. unfold do_advance.
  set (n := Z.max (now s) (next_time s (now s + Z.max dt 0))).
  set (s2 := set_conns (fun i => srv_expire n (sdl s i) (conns s i)) (set_now n s)).
  assert (H2 : cend x (conns s2 c) = EBrk) by (unfold s2, set_conns; cbn [conns]; apply (keeps_srv_expire n), H).
  assert (H3 : cend x (conns (if expired TM s2 then do_timeout TM s2 else s2) c) = EBrk).
  { destruct (expired TM s2); [apply timeout_keeps_brk|]; exact H2. }
  destruct (expired TS _); [apply timeout_keeps_brk|]; exact H3.
Qed.

Lemma established_end_kept_at s x c o :
  c < nconn s -> cend x (conns s c) = EBrk -> not_a_notification o = true -> cend x (conns (step s o) c) = EBrk.
Proof.
  intros Hc H Hn. destruct o as [y|y|c' to|c' y|c'|y|y|y|dt|ho]; cbn [not_a_notification] in Hn; try discriminate; cbn [step].
  - unfold do_getref. rewrite conns_set_tub. exact H.
  - unfold do_dial. destruct (t_connector (tubof y s)); [|exact H]. cbn [conns]. unfold upd.
    destruct (Nat.eqb_spec c (nconn s)); [lia|exact H].
  - destruct (Nat.ltb c' (nconn s)); [|exact H]. unfold do_cut, set_conns. cbn [conns]. unfold upd.
    destruct (Nat.eqb_spec c c'); [subst c'; destruct x; exact H|exact H].
  - apply timeout_keeps_brk, H.
  - rewrite conns_set_tub. exact H.
  - apply advance_keeps_brk, H.
  - exact H.
Qed.

Lemma live_bounded ops x c : cend x (conns (run ops) c) = EBrk -> c < nconn (run ops).
Proof.
  intros H. destruct (proj2 (run_inv ops) x) as [R B]. apply B, R, H.
Qed.

(* In every reachable state of the two-Tub model an end that is a live Broker is still one after a lookup, a dial, a CUT of
   any connection (its own included), a forced connector time-out, an armed retry, a change of the option and after ANY
   passage of time: the TubConnector's timer is disarmed when the Broker is attached, the listening end's negotiation timer
   when it switches to Banana, and nothing else in the model is timed (Tub.disconnectTimeout is None by default -- a
   translated shape fact: with a default the translation fails closed --; the keepalive timer, 240 s by default, only
   writes a PING; timers on established connections are C15's subject).  Only a delivery, a close notification at that
   end or the death of the process end it. *)
Theorem established_end_kept ops x c o :
  cend x (conns (run ops) c) = EBrk -> not_a_notification o = true -> cend x (conns (step (run ops) o) c) = EBrk.
Proof. intros H Hn. apply established_end_kept_at; [apply (live_bounded ops x c H)|exact H|exact Hn]. Qed.

Lemma run_snoc ops o : run (ops ++ [o]) = step (run ops) o.
Proof. unfold run. rewrite fold_left_app. reflexivity. Qed.

Theorem established_end_kept_run more : forall ops x c,
  cend x (conns (run ops) c) = EBrk -> Forall (fun o => not_a_notification o = true) more ->
  cend x (conns (run (ops ++ more)) c) = EBrk.
Proof.
  induction more as [|o more IH]; intros ops x c H Fo; [rewrite app_nil_r; exact H|].
  inversion Fo as [|? ? Ho Fo']; subst.
  replace (ops ++ o :: more) with ((ops ++ [o]) ++ more) by (rewrite <- app_assoc; reflexivity).
  apply IH; [rewrite run_snoc; apply established_end_kept; assumption|exact Fo'].
Qed.

Lemma phist_snd x c l : forall s, snd (phist x c s l) = fold_left step (net_ops l) s.
Proof.
  induction l as [|[o why|o] l IH]; intros s; cbn [phist snd]; [reflexivity| |].
  - unfold net_ops. cbn [flat_map app fold_left]. apply IH.
  - unfold net_ops. cbn [flat_map app]. apply IH.
Qed.

Lemma phist_app x c l1 : forall s l2,
  phist x c s (l1 ++ l2) =
  (fst (phist x c s l1) ++ fst (phist x c (snd (phist x c s l1)) l2), snd (phist x c (snd (phist x c s l1)) l2)).
Proof.
  induction l1 as [|[o why|o] l1 IH]; intros s l2; cbn [app phist fst snd].
  - destruct (phist x c s l2); reflexivity.
  - rewrite IH. cbn [fst snd]. rewrite app_assoc. reflexivity.
  - rewrite IH. cbn [fst snd]. rewrite app_assoc. reflexivity.
Qed.

Lemma broker_requests_app x c l1 l2 :
  broker_requests x c (l1 ++ l2) = Requests.run (fst (phist x c init l1) ++ fst (phist x c (pnet l1) l2)).
Proof. unfold broker_requests, pnet, run. rewrite phist_app. cbn [fst]. rewrite phist_snd. reflexivity. Qed.

Lemma quiet_hist x c rid h more : forall ops,
  Forall (fun p => quiet_pop rid h p = true) more ->
  Forall (fun o => RefLeg.inert rid h o = true) (fst (phist x c (run ops) more)).
Proof.
  induction more as [|p more IH]; intros ops Fo; [constructor|]. inversion Fo as [|? ? Hp Fo']; subst.
  destruct p as [o why|o]; cbn [phist fst quiet_pop] in *; apply Forall_app; split.
  - unfold net_events. apply Forall_app. split.
    + destruct (live x c (run ops)) eqn:L; cbn [andb]; [|constructor].
      assert (L' : live x c (step (run ops) o) = true).
      { unfold live in *. destruct (cend x (conns (run ops) c)) eqn:E; try discriminate.
        rewrite (established_end_kept ops x c o E Hp). reflexivity. }
      rewrite L'. constructor.
    + apply Forall_forall. intros o' Ho'. apply repeat_spec in Ho'. subst. reflexivity.
  - rewrite <- run_snoc. apply IH, Fo'.
  - destruct o; cbn [wire_event]; repeat constructor; try exact Hp.
  - apply IH, Fo'.
Qed.

(* THE composed "only if".  After any history `pops` of the composed system in which the request (rid, h) of x's Broker on
   connection c is pending on a connected Broker -- the second leg of a getReference --, let the system go on with ANY
   steps that are neither a delivery / close notification / restart in the two-Tub model nor an answer (error, violation,
   complete, fail) for this request: lookups, dials, cuts, time-outs, other traffic on the Broker, turns of the eventual
   queue, and any passage of time.  The request is still pending: the getReference Deferred has not fired. *)
Theorem second_leg_silent x c pops more h rid :
  Requests.disconnected (broker_requests x c pops) = false -> RefLeg.pending (broker_requests x c pops) h rid ->
  Forall (fun p => quiet_pop rid h p = true) more ->
  RefLeg.pending (broker_requests x c (pops ++ more)) h rid /\
  Requests.disconnected (broker_requests x c (pops ++ more)) = false /\
  ~ RefLeg.done (broker_requests x c (pops ++ more)) h.
Proof.
  intros Hd P Fo. rewrite broker_requests_app.
  destruct (RefLegProofs.inert_run (fst (phist x c (pnet pops) more)) (fst (phist x c init pops)) h rid Hd P) as [P' D'].
  { apply quiet_hist, Fo. }
  split; [exact P'|]. split; [exact D'|].
  apply (RefLegProofs.pending_not_done _ h rid); [apply RequestsProofs.inv_run|exact D'|exact P'].
Qed.

(* THE composed "iff": for EVERY continuation, the second leg is over (fired, or its failure queued by Broker.finish) iff the
   Broker's part of the continuation contains an answer / error / violation / complete / fail for this request or
   Broker.finish -- and (definition of phist / net_events) Broker.finish is in it exactly for the steps of the two-Tub model
   in which x's end of c stops being a live Broker. *)
Theorem second_leg_fires_iff x c pops more h rid :
  Requests.disconnected (broker_requests x c pops) = false -> RefLeg.pending (broker_requests x c pops) h rid ->
  (RefLeg.done (broker_requests x c (pops ++ more)) h <->
   Exists (fun o => RefLeg.inert rid h o = false) (fst (phist x c (pnet pops) more))).
Proof. intros Hd P. rewrite broker_requests_app. apply RefLegProofs.leg_fires_iff; assumption. Qed.

(* the loss of the connection, as the two-Tub model sees it, ends the second leg (RefLegProofs.leg_loss_fires: with the
   outcome the reason maps to, when the eventual queue reaches it) *)
Theorem second_leg_ends_on_loss x c pops o why h rid :
  Requests.disconnected (broker_requests x c pops) = false -> RefLeg.pending (broker_requests x c pops) h rid ->
  live x c (pnet pops) = true -> live x c (step (pnet pops) o) = false ->
  RefLeg.done (broker_requests x c (pops ++ [PNet o why])) h.
Proof.
  intros Hd P L L'. apply (second_leg_fires_iff x c pops [PNet o why] h rid Hd P).
  cbn [phist fst]. unfold net_events. rewrite L, L'. cbn [andb negb app]. left. reflexivity.
Qed.

(* the first leg hands over to the second: a lookup made while the Tub holds the Broker on c is answered at once
   (getref_tub) and the callback makes its call on that Broker -- a pending request (RefLegProofs.leg_call_starts) *)
Theorem second_leg_starts x c pops why :
  t_broker (tubof x (pnet pops)) = Some c -> Requests.disconnected (broker_requests x c pops) = false ->
  broker_requests x c (pops ++ [PNet (GetRef x) why]) = Requests.step (broker_requests x c pops) RefLeg.leg_call /\
  RefLeg.pending (broker_requests x c (pops ++ [PNet (GetRef x) why]))
                 (List.length (Requests.calls (broker_requests x c pops))) (Requests.nextid (broker_requests x c pops)).
Proof.
  intros Hb Hd.
  assert (E : broker_requests x c (pops ++ [PNet (GetRef x) why]) = Requests.run (fst (phist x c init pops) ++ [RefLeg.leg_call])).
  { rewrite broker_requests_app. f_equal. f_equal. cbn [phist fst]. rewrite app_nil_r. unfold net_events.
    assert (Lsame : live x c (step (pnet pops) (GetRef x)) = live x c (pnet pops)).
    { unfold live. cbn [step]. unfold do_getref. rewrite conns_set_tub. reflexivity. }
    rewrite Lsame. destruct (live x c (pnet pops)); cbn [andb negb app];
    (replace (new_ok x c (pnet pops) (step (pnet pops) (GetRef x))) with 1; [reflexivity|]);
    (unfold new_ok; cbn [step]; unfold do_getref; rewrite tubof_set_tub; unfold getref_tub; rewrite Hb;
     cbn [t_inc t_broker t_fired]; rewrite Z.eqb_refl, Nat.eqb_refl; cbn [andb];
     rewrite skipn_app, skipn_all, Nat.sub_diag; reflexivity). }
  split.
  - rewrite E. apply RefLegProofs.run_snoc.
  - rewrite E. apply RefLegProofs.leg_call_starts. exact Hd.
Qed.

(* the full sentence "every getReference fires within the connection timeout" is REFUTED for the second leg.
   The schedule ConvergeRef.silent_ops: S looks M up and dials, negotiation completes at both ends -- S's
   Broker lookup IS answered, with a Broker, at time 0 (so the Broker-lookup theorems hold of it) -- then the network
   drops the link without telling anybody.  For EVERY further passage of time: both ends are still live Brokers, nothing
   was delivered to the request table, the getReference Deferred has not fired. *)
Theorem getReference_black_holed why dts :
  let base := silent_pops why [] in
  let l := silent_pops why dts in
  In (mkfired 0 0 0 true) (t_fired (ts (pnet base))) /\ t_broker (ts (pnet base)) = Some 0 /\
  c_cut (conns (pnet base) 0) = true /\ broker_requests TS 0 base = Requests.run [RefLeg.leg_call] /\
  live TS 0 (pnet l) = true /\ live TM 0 (pnet l) = true /\
  RefLeg.pending (broker_requests TS 0 l) 0 1 /\ ~ RefLeg.done (broker_requests TS 0 l) 0.
Proof.
  cbn zeta.
  assert (El : silent_pops why dts = silent_pops why [] ++ map (fun o => PNet o why) (map Advance dts)).
  { unfold silent_pops. cbn [map app]. rewrite map_app. reflexivity. }
  assert (Eb : broker_requests TS 0 (silent_pops why []) = Requests.run [RefLeg.leg_call]) by (vm_compute; reflexivity).
  assert (En : net_ops (silent_pops why dts) = silent_ops ++ map Advance dts).
  { unfold silent_pops, net_ops. induction (silent_ops ++ map Advance dts) as [|o r IH]; [reflexivity|].
    cbn [map flat_map app]. rewrite IH. reflexivity. }
  assert (Fa : Forall (fun o => not_a_notification o = true) (map Advance dts)).
  { apply Forall_forall. intros o Ho. apply in_map_iff in Ho as [dt [<- _]]. reflexivity. }
  split; [vm_compute; auto|]. split; [vm_compute; reflexivity|]. split; [vm_compute; reflexivity|]. split; [exact Eb|].
  split.
  { unfold live, pnet. rewrite En. rewrite (established_end_kept_run (map Advance dts) silent_ops TS 0); [reflexivity|vm_compute; reflexivity|exact Fa]. }
  split.
  { unfold live, pnet. rewrite En. rewrite (established_end_kept_run (map Advance dts) silent_ops TM 0); [reflexivity|vm_compute; reflexivity|exact Fa]. }
  rewrite El.
  destruct (second_leg_silent TS 0 (silent_pops why []) (map (fun o => PNet o why) (map Advance dts)) 0 1) as [P [_ N]].
  - rewrite Eb. vm_compute. reflexivity.
  - rewrite Eb. eexists. vm_compute. repeat split; reflexivity.
  - apply Forall_forall. intros p Hp. apply in_map_iff in Hp as [o [<- Ho]]. apply in_map_iff in Ho as [dt [<- _]]. reflexivity.
  - split; assumption.
Qed.

(* ... and time does pass meanwhile: 20 x 130 s = 2600 s, far beyond CONNECTION_TIMEOUT (the numbers are
   SECOND_LEG_ROUNDS x SECOND_LEG_STEP of harness/c14_impl.py) *)
Example black_holed_time :
  now (pnet (silent_pops (Requests.RListed RequestsGen.ConnectionLostC) (repeat 130%Z 20))) = 2600%Z /\
  (CONNECTION_TIMEOUT < 2600)%Z.
Proof. split; vm_compute; reflexivity. Qed.

(* when the loss IS notified (CloseSeen at S's end) the leg ends; a few turns later it has fired with DeadReferenceError *)
Example black_holed_then_notified :
  let why := Requests.RListed RequestsGen.ConnectionLostC in
  let l := silent_pops why [130%Z; 130%Z] ++ [PNet (CloseSeen 0 TS) why; PWire Requests.Turn] in
  Requests.snapshot (broker_requests TS 0 l) = ([], [[Requests.ocode Requests.ODeadRef]], (true, [], 0%Z)).
Proof. vm_compute. reflexivity. Qed.
