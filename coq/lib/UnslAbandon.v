(* Abandoned or abstained: every fatal result of the receive logic of lib/Unsl.v ends with `ufatal k` for some code k -- the
   exception handler of dataReceived for an exception kind, or the abstention marker for the two reserved codes.  Hence a fatal
   result in which the model did NOT abstain is a real abandonment: the ERROR token was sent and the connection was closed.
   (For every unslicer semantics whose own events carry no abstention marker in a run that ends otherwise.) *)
From Coq Require Import ZArith List Bool Lia.
Import ListNotations.
Require Import Verif.lib.PyLite Verif.gen.BananaGen Verif.gen.RecvGen Verif.lib.Token Verif.lib.Recv Verif.lib.RecvProofs Verif.lib.Unsl Verif.lib.UnslProofs.
Local Open Scope Z_scope.

Definition fshape (es : list uevent) : Prop := exists pre k, es = pre ++ ufatal k.

Lemma fshape_ufatal k : fshape (ufatal k).
Proof. exists [], k. reflexivity. Qed.

Lemma fshape_app a b : fshape b -> fshape (a ++ b).
Proof. intros (pre & k & ->). exists (a ++ pre), k. rewrite app_assoc. reflexivity. Qed.

Lemma abstained_app a b : abstained (a ++ b) = abstained a || abstained b.
Proof. unfold abstained. apply existsb_app. Qed.

(* a fatal event list without the abstention marker contains the ERROR token and the loseConnection *)
Lemma fshape_abandoned es : fshape es -> abstained es = false -> In UErrorSent es /\ In ULose es.
Proof.
  intros (pre & k & ->) A. rewrite abstained_app in A. apply orb_false_iff in A as [_ A].
  destruct (abstain_code k) eqn:K.
  - rewrite (ufatal_abstains k K) in A. discriminate.
  - destruct (ufatal_closes k K) as [L E]. split; apply in_or_app; right; assumption.
Qed.

Section Abandon.
Variable fr : Type.
Variable u_check : fr -> Z -> Z -> oc unit.
Variable u_opener_check : list fr -> Z -> Z -> list (list Z) -> oc unit.
Variable u_do_open : list fr -> list (list Z) -> oc (option fr).
Variable u_start : fr -> Z -> oc fr.
Variable u_child : fr -> uval -> list uevent * oc fr.
Variable u_close : fr -> oc uval.
Variable u_finish : fr -> oc unit.
Variable u_report : fr -> option (list uevent).

Notation uhv_loop := (uhv_loop fr u_finish u_report).
Notation uhandle_violation := (uhandle_violation fr u_finish u_report).
Notation uhandle_token := (uhandle_token fr u_child u_finish u_report).
Notation uhandle_close := (uhandle_close fr u_child u_close u_finish u_report).
Notation uhandle_open := (uhandle_open fr u_do_open u_start u_finish u_report).
Notation udeliver := (udeliver fr u_do_open u_start u_child u_finish u_report).
Notation ustep_nobody_hr := (ustep_nobody_hr fr u_check u_opener_check u_do_open u_start u_child u_close u_finish u_report).
Notation utok_apply := (utok_apply fr u_check u_opener_check u_do_open u_start u_child u_close u_finish u_report).
Notation uapply_all := (uapply_all fr u_check u_opener_check u_do_open u_start u_child u_close u_finish u_report).

Definition hr_shape (r : uhr fr) : Prop := match r with UOk _ _ _ => True | UFatal _ es => fshape es end.

Lemma upre_shape es r : hr_shape r -> hr_shape (upre fr es r).
Proof. destruct r; cbn; [auto|apply fshape_app]. Qed.

Lemma shape_respected : respected fr u_do_open u_start u_child u_report (fun _ => True) (fun _ => True) hr_shape.
Proof.
  constructor; try (intros; exact I).
  - intros; split; intros; exact I.
  - exact fshape_ufatal.
  - exact (fshape_ufatal 98).
  - intros es r _. apply upre_shape.
Qed.

Lemma hv_loop_shape : forall st d ic, match uhv_loop st d ic with HvOk _ _ _ _ => True | HvFatal _ es => fshape es end.
Proof.
  intros st d ic. pose proof (hv_loop_respected fr u_do_open u_start u_child u_finish u_report _ _ _ shape_respected st d ic I) as H.
  destruct (uhv_loop st d ic); [exact I|exact H].
Qed.

Lemma hv_shape c io ic : hr_shape (uhandle_violation c io ic).
Proof. eapply violation_respected; [exact shape_respected|exact I]. Qed.

Lemma token_shape c v : hr_shape (uhandle_token c v).
Proof. eapply token_respected; [exact shape_respected|exact I]. Qed.

Lemma close_shape c n : hr_shape (uhandle_close c n).
Proof. eapply close_respected; [exact shape_respected|exact I]. Qed.

Lemma open_shape c v : hr_shape (uhandle_open c v).
Proof. eapply open_respected; [exact shape_respected|exact I]. Qed.

Lemma deliver_shape c v : hr_shape (udeliver c v).
Proof. eapply deliver_respected; [exact shape_respected|exact I]. Qed.

Lemma step_nobody_shape c ty hdr : hr_shape (ustep_nobody_hr c ty hdr).
Proof. eapply ustep_nobody_respected; [exact shape_respected|exact I]. Qed.

Lemma tok_apply_shape c ty hdr body : hr_shape (utok_apply c ty hdr body).
Proof. eapply utok_apply_respected; [exact shape_respected|exact I]. Qed.

Lemma apply_all_shape ts : forall c, hr_shape (uapply_all c ts).
Proof.
  induction ts as [|[[ty hdr] body] ts IH]; intros c; cbn [Unsl.uapply_all]; [exact I|].
  pose proof (tok_apply_shape c ty hdr body) as H. destruct (utok_apply c ty hdr body) as [c' es|es]; [|exact H].
  apply upre_shape. apply IH.
Qed.

(* THE THREE-WAY READING IS SOUND: "abandoned" means abandoned -- whatever the unslicers are, a fatal result in which the model did
   not abstain has sent the ERROR token and closed the connection *)
Theorem unsl_abandoned_is_real c ts : match uview fr (uapply_all c ts) with
                                        | U3Abandoned _ es => In UErrorSent es /\ In ULose es
                                        | _ => True
                                        end.
Proof.
  pose proof (apply_all_shape ts c) as H. destruct (uapply_all c ts) as [c' es|es]; cbn [uview hr_shape] in *; [exact I|].
  destruct (abstained es) eqn:A; [exact I|]. apply (fshape_abandoned es H A).
Qed.

End Abandon.
