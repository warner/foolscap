(* C18: "rendering an event to text never raises" for lib/LogFmt.v.  The outer handler of format_message selects every
   exception and its fallback cannot raise, so whatever sits inside the try is harmless; what remains is the key
   normalisation, harmless when it sits inside the try or when the keys are text or utf-8 bytes. *)
From Coq Require Import ZArith List Bool Lia.
Import ListNotations.
Require Import Verif.lib.PyLite Verif.gen.LogJsonGen Verif.lib.LogJson Verif.lib.LogJsonProofs Verif.lib.LogFmt.
Local Open Scope Z_scope.

Lemma outer_all x : catches fmt_outer_catch x = true.
Proof. destruct x; vm_compute; reflexivity. Qed.

Lemma fallback_total e : fallback_raises e = false.
Proof.
  unfold fallback_raises. destruct (dget N_message e) as [[s|s u| |[|]]|]; vm_compute; reflexivity.
Qed.

Lemma guarded_total pct e : exists o, guarded pct e = Ok o.
Proof.
  unfold guarded. destruct (try_part pct e) as [o|x]; [eauto|]. rewrite outer_all, fallback_total. eauto.
Qed.

Lemma ensure_keys_ok e : keys_textlike e -> exists e', ensure_keys e = Ok e'.
Proof.
  intros H. apply map_res_all_ok. intros [k v] Hin. pose proof (proj1 (Forall_forall _ _) H _ Hin) as Hk.
  destruct k as [s|s [|]|]; try discriminate Hk; cbn [fst snd ensure_key]; eauto.
Qed.

(* for every event dict whose keys are text or utf-8 bytes -- and for EVERY dict once the key normalisation sits inside
   the try -- whatever the values and whatever the % operator does *)
Theorem format_total pct e : fmt_keys_outside_try = false \/ keys_textlike e -> exists o, format_message pct e = Ok o.
Proof.
  intros H. unfold format_message. destruct (ensure_keys e) as [e'|x] eqn:E; [apply guarded_total|].
  destruct H as [H|H].
  - rewrite H, outer_all, fallback_total. eauto.
  - destruct (ensure_keys_ok e H) as [e' E']. rewrite E' in E. discriminate.
Qed.

(* on this tree (8594ad6) the key normalisation is the first statement INSIDE the try: no hypothesis on the dict *)
Theorem format_total_all pct e : exists o, format_message pct e = Ok o.
Proof. apply format_total. left. vm_compute. reflexivity. Qed.

(* why it has to be inside (the defect repaired by 8594ad6, kept as a regression statement): with the normalisation
   outside the try a key that is neither text nor utf-8 bytes escapes.  Oracle witnesses: format_message({5: 1}),
   format_message({b"\xff": 1, "message": "m"}) (signature oracle/format-raises-nontext-key). *)
Theorem format_unguarded_keys_escape : fmt_keys_outside_try = true ->
  (forall pct, format_message pct [(FKOther, FVText 10)] = Raise ETypeError) /\
  (forall pct, format_message pct [(FKBytes 11 false, FVText 10); (FKText N_message, FVText 12)] = Raise EValueError).
Proof. intros H. split; intros pct; unfold format_message; rewrite H; reflexivity. Qed.

(* what the repaired code answers on those inputs *)
Example ex_odd_keys_now :
  format_message true [(FKOther, FVText 10)] = Ok (Fallback MNoMessage) /\
  format_message true [(FKBytes 11 false, FVText 10); (FKText N_message, FVText 12)] = Ok (Fallback (MText 12)).
Proof. split; vm_compute; reflexivity. Qed.

Example ex_format_kinds :
  format_message false [(FKText N_format, FVText 10); (FKText N_message, FVText 11)] = Ok (Fallback (MText 11)) /\
  format_message true [(FKBytes N_message true, FVBytes 11 false)] = Ok (Fallback (MDecoded 11)) /\
  format_message true [(FKText N_message, FVObj false)] = Ok (Fallback MUnprintable) /\
  format_message true [(FKText N_args, FVArgs)] = Ok (Fallback MNoMessage) /\
  format_message true [(FKText N_message, FVText 11); (FKText N_args, FVArgs)] = Ok Formatted /\
  keys_textlike [(FKBytes N_message true, FVBytes 11 false)].
Proof. repeat split; try (vm_compute; reflexivity). repeat constructor. Qed.
