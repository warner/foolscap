(* C05: proofs about lib/Identity.v.  One end: both translated versions of the identity checks of gen/IdentityGen.v are the
   three tests of id_checks, and everything about evaluate / handle_hello comes from id_checks_ok.  Two ends: session is a case
   analysis, done once in session_obs.  Histories (block-level receive loop, Tub.brokers, pending lookups, queued getReference
   requests, inbound references): each is a fold_left, and its theorem is an invariant of the step. *)
From Coq Require Import ZArith List String Bool.
Import ListNotations.
Require Import Verif.lib.PyLite Verif.gen.NegotiateGen Verif.lib.Negotiate Verif.lib.NegotiateProofs
               Verif.gen.IdentityGen Verif.lib.Identity.
Local Open Scope Z_scope.

Lemma list_eqb_refl a : list_eqb a a = true.
Proof. apply list_eqb_eq. reflexivity. Qed.

Lemma list_eqb_false a b : list_eqb a b = false <-> a <> b.
Proof. rewrite <- not_true_iff_false, list_eqb_eq. reflexivity. Qed.

Lemma ostr_eqb_eq a b : ostr_eqb a b = true <-> a = b.
Proof. destruct a, b; cbn [ostr_eqb]; rewrite ?list_eqb_eq; split; congruence. Qed.

Lemma ostr_eqb_false a b : ostr_eqb a b = false <-> a <> b.
Proof. rewrite <- not_true_iff_false, ostr_eqb_eq. reflexivity. Qed.

Lemma oid_dec (a b : option id) : a = b \/ a <> b.
Proof. destruct (ostr_eqb a b) eqn:E; [left; apply ostr_eqb_eq|right; apply ostr_eqb_false]; exact E. Qed.

Lemma fold_left_inv {A B} (P : A -> Prop) (f : A -> B -> A) :
  (forall a b, P a -> P (f a b)) -> forall l a, P a -> P (fold_left f l a).
Proof. intros Hf l. induction l as [|b l IH]; intros a Ha; [exact Ha|]. apply IH, Hf, Ha. Qed.

(* The exception classes in the translated code are string literals: large terms, copied by every case analysis over a goal
   that mentions them.  This names them first. *)
Ltac name_strings := repeat match goal with |- context [String ?a ?s] => generalize (String a s); intros ?tag end.

Section IdentityProofs.
Variable cert : Type.
Variable tubid_of : cert -> id.

Notation ev1 := (ev1_identity cert tubid_of).
Notation evaluate := (evaluate cert tubid_of).
Notation handle_hello := (handle_hello cert tubid_of).
Notation session := (session cert tubid_of).

(* `asserts`: is `assert theirTubID` executed *)
Definition id_checks (asserts ic : bool) (target : id) (c : option cert) (claimed : option id) : res (option id) :=
  if negb (ostr_eqb (option_map tubid_of c) claimed) then Exc "BananaError"
  else if asserts && negb (ostr_truthy claimed) then Exc "AssertionError"
  else if ic && negb (ostr_eqb claimed (Some target)) then Exc "BananaError"
  else Ok claimed.

Lemma ev1_checks ic target c claimed : ev1 ic target c claimed = id_checks true ic target c claimed.
Proof.
  unfold ev1_identity, id_checks. name_strings.
  destruct c as [crt|]; cbn [option_map].
  - destruct (negb (ostr_eqb (Some (tubid_of crt)) claimed)); [reflexivity|]. destruct (ostr_truthy claimed), ic; reflexivity.
  - destruct claimed as [[|x t]|]; reflexivity.
Qed.

Lemma ev1_noassert_checks ic target c claimed :
  ev1_identity_noassert cert tubid_of ic target c claimed = id_checks false ic target c claimed.
Proof.
  unfold ev1_identity_noassert, id_checks. name_strings.
  destruct c as [crt|]; cbn [option_map].
  - destruct (negb (ostr_eqb (Some (tubid_of crt)) claimed)); [reflexivity|]. destruct ic; reflexivity.
  - destruct claimed as [t|], ic; reflexivity.
Qed.

Lemma id_checks_ok asserts ic target c claimed r :
  id_checks asserts ic target c claimed = Ok r <->
  option_map tubid_of c = claimed /\ (asserts = true -> ostr_truthy claimed = true) /\ (ic = true -> claimed = Some target) /\
  r = claimed.
Proof.
  unfold id_checks. name_strings. split.
  - destruct (ostr_eqb (option_map tubid_of c) claimed) eqn:E1; [|discriminate].
    destruct (asserts && negb (ostr_truthy claimed)) eqn:E2; [discriminate|].
    destruct (ic && negb (ostr_eqb claimed (Some target))) eqn:E3; [discriminate|]. intros [= <-].
    apply ostr_eqb_eq in E1. repeat split; [exact E1| |].
    + intros ->. apply negb_false_iff. exact E2.
    + intros ->. apply ostr_eqb_eq, negb_false_iff. exact E3.
  - intros (H1 & H2 & H3 & ->). apply ostr_eqb_eq in H1. rewrite H1. cbn [negb].
    destruct asserts; [rewrite H2 by reflexivity|]; cbn [andb negb].
    all: destruct ic; [rewrite (proj2 (ostr_eqb_eq _ _) (H3 eq_refl))|]; reflexivity.
Qed.

Lemma ev1_never_anonymous ic target c claimed : ev1 ic target c claimed <> Ok None.
Proof. rewrite ev1_checks, id_checks_ok. intros (_ & H & _ & <-). discriminate (H eq_refl). Qed.

(* What the `assert theirTubID` is needed for: python -O does not execute assert statements.  The same translated statements
   without them: the ONLY additional acceptance is the anonymous peer on a listener (no certificate, no my-tub-id), stored as
   TubRef(None), which names no Tub; every accepted id is still the hash of the presented certificate and, on a client, the
   dialled id.  (An empty claim is then accepted only from a certificate whose hash is the empty string.) *)
Lemma ev1_noassert_sound ic target c claimed r :
  ev1_identity_noassert cert tubid_of ic target c claimed = Ok r ->
  (r = None /\ c = None /\ claimed = None /\ ic = false) \/
  (exists crt t, c = Some crt /\ tubid_of crt = t /\ claimed = Some t /\ r = Some t /\ (ic = true -> t = target)).
Proof.
  rewrite ev1_noassert_checks, id_checks_ok. intros (<- & _ & Ht & ->). destruct c as [crt|]; cbn [option_map] in *.
  - right. exists crt, (tubid_of crt). repeat split. intros Hic. injection (Ht Hic) as E. exact E.
  - left. repeat split. destruct ic; [discriminate (Ht eq_refl)|reflexivity].
Qed.

Lemma ev1_noassert_anonymous_accepted target :
  ev1_identity_noassert cert tubid_of false target None None = Ok None.
Proof. reflexivity. Qed.

Lemma ev1_assert_only_removes ic target c claimed r :
  ev1 ic target c claimed = Ok r -> ev1_identity_noassert cert tubid_of ic target c claimed = Ok r.
Proof.
  rewrite ev1_checks, ev1_noassert_checks, !id_checks_ok. intros (H1 & _ & H3 & H4). repeat split; try assumption. discriminate.
Qed.

(* ... and with the certificate coming from crypto.peerFromTransport (which raises when there is none) even the unchecked
   statements accept only the proven id: the assert is a second line of defence behind twisted's CertificateError *)
Lemma ev1_noassert_with_certificate ic target crt claimed r :
  ev1_identity_noassert cert tubid_of ic target (Some crt) claimed = Ok r ->
  r = Some (tubid_of crt) /\ claimed = Some (tubid_of crt) /\ (ic = true -> tubid_of crt = target).
Proof.
  rewrite ev1_noassert_checks, id_checks_ok. cbn [option_map]. intros (<- & _ & Ht & ->). repeat split.
  intros Hic. injection (Ht Hic) as E. exact E.
Qed.

Lemma attach_key_accepted r tgt t : (r = Client -> t = tgt) -> attach_key (is_client r) tgt t = t.
Proof. destruct r; [intros H; symmetry; exact (H eq_refl)|reflexivity]. Qed.

Lemma evaluate_accept_iff r me tgt c claimed t m :
  evaluate r me tgt c claimed = Accept t m <->
  exists crt, c = Some crt /\ tubid_of crt = t /\ claimed = Some t /\ (r = Client -> t = tgt) /\ t <> [] /\
              m = i_am_master me t.
Proof.
  unfold Identity.evaluate. name_strings. rewrite ev1_checks. split.
  - destruct (id_checks true _ _ _ _) as [[t'|]|w] eqn:E; try discriminate. intros [= -> <-].
    apply id_checks_ok in E as (Hc & Hne & Ht & <-). destruct c as [crt|]; [injection Hc as Hc|discriminate Hc].
    exists crt. repeat split; [exact Hc| |].
    + intros ->. injection (Ht eq_refl) as E. exact E.
    + intros ->. discriminate (Hne eq_refl).
  - intros (crt & -> & <- & -> & Ht & Hne & ->).
    replace (id_checks true _ _ _ _) with (Ok (Some (tubid_of crt)) : res (option id)); [reflexivity|].
    symmetry. apply id_checks_ok. repeat split.
    + intros _. destruct (tubid_of crt); [contradiction Hne|]; reflexivity.
    + destruct r; [intros _; f_equal; exact (Ht eq_refl)|discriminate].
Qed.

Theorem evaluate_bound r me tgt c claimed t m :
  evaluate r me tgt c claimed = Accept t m ->
  exists crt, c = Some crt /\ tubid_of crt = t /\ claimed = Some t /\ (r = Client -> t = tgt) /\ t <> [] /\
              m = i_am_master me t.
Proof. apply evaluate_accept_iff. Qed.

(* the key under which the connection is registered is the hash of the presented certificate *)
Theorem attach_key_proven r me tgt c claimed t m :
  evaluate r me tgt c claimed = Accept t m ->
  exists crt, c = Some crt /\ tubid_of crt = attach_key (is_client r) tgt t /\
              (r = Client -> attach_key (is_client r) tgt t = tgt).
Proof.
  intros H. apply evaluate_bound in H as (crt & Hc & Hh & _ & Htgt & _). rewrite (attach_key_accepted r tgt t Htgt).
  exists crt. exact (conj Hc (conj Hh Htgt)).
Qed.

Definition mismatch (r : role) (tgt : id) (c : option cert) (claimed : option id) : Prop :=
  c = None \/ claimed = None \/ claimed = Some [] \/
  (exists crt, c = Some crt /\ claimed <> Some (tubid_of crt)) \/
  (r = Client /\ claimed <> Some tgt).

(* any mismatch between presented certificate, claimed identity and expected identity rejects *)
Theorem mismatch_rejects r me tgt c claimed :
  mismatch r tgt c claimed -> exists w, evaluate r me tgt c claimed = Reject w.
Proof.
  intros Hm.
  destruct (evaluate r me tgt c claimed) as [w|t m] eqn:E; [exists w; reflexivity|exfalso].
  apply evaluate_bound in E as (crt & -> & <- & -> & Htgt & Hne & _).
  destruct Hm as [H|[H|[[= H]|[(crt' & [= <-] & H)|[Hr H]]]]].
  - discriminate H.
  - discriminate H.
  - exact (Hne H).
  - apply H. reflexivity.
  - apply H. rewrite (Htgt Hr). reflexivity.
Qed.

Theorem consistent_accepts r me tgt crt :
  tubid_of crt <> [] -> (r = Client -> tubid_of crt = tgt) ->
  evaluate r me tgt (Some crt) (Some (tubid_of crt)) = Accept (tubid_of crt) (i_am_master me (tubid_of crt)).
Proof. intros Hne Ht. apply evaluate_accept_iff. exists crt. repeat split; assumption. Qed.

Theorem accept_iff_no_mismatch r me tgt c claimed :
  (exists t m, evaluate r me tgt c claimed = Accept t m) <-> ~ mismatch r tgt c claimed.
Proof.
  split.
  - intros (t & m & H) Hm. destruct (mismatch_rejects r me tgt c claimed Hm) as (w & Hw). congruence.
  - intros Hn. destruct c as [crt|]; [|contradiction Hn; left; reflexivity].
    destruct (oid_dec claimed (Some (tubid_of crt))) as [->|Hc]; [|contradiction Hn; do 3 right; left; exists crt; auto].
    exists (tubid_of crt), (i_am_master me (tubid_of crt)). apply consistent_accepts.
    + intros E. apply Hn. right; right; left. rewrite E. reflexivity.
    + intros Hr. destruct (oid_dec (Some (tubid_of crt)) (Some tgt)) as [[= E]|Ht]; [exact E|].
      contradiction Hn. do 4 right. auto.
Qed.

(* identity = the LEAF certificate, the one whose key the handshake proves *)
Lemma handle_hello_leaf r me tgt p claimed :
  handle_hello r me tgt p claimed =
  match leaf p with Some c => evaluate r me tgt (Some c) claimed | None => Reject "CertificateError" end.
Proof. unfold Identity.handle_hello, peer_from_transport. destruct peer_cert_choice. destruct (leaf p); reflexivity. Qed.

Lemma handle_hello_accept_iff r me tgt p claimed t m :
  handle_hello r me tgt p claimed = Accept t m <->
  exists crt, leaf p = Some crt /\ tubid_of crt = t /\ claimed = Some t /\ (r = Client -> t = tgt) /\ t <> [] /\
              m = i_am_master me t.
Proof.
  rewrite handle_hello_leaf. destruct (leaf p) as [c|].
  - apply evaluate_accept_iff.
  - split; [discriminate|intros (crt & [=] & _)].
Qed.

Theorem handle_hello_bound r me tgt p claimed t m :
  handle_hello r me tgt p claimed = Accept t m ->
  exists crt, leaf p = Some crt /\ tubid_of crt = t /\ claimed = Some t /\ (r = Client -> t = tgt) /\ t <> [] /\
              m = i_am_master me t.
Proof. apply handle_hello_accept_iff. Qed.

Definition key_ok (r : role) (tgt : id) (p : presented cert) (k : id) : Prop :=
  exists crt, leaf p = Some crt /\ tubid_of crt = k /\ (r = Client -> k = tgt).

Theorem hello_key_proven r me tgt p claimed t m :
  handle_hello r me tgt p claimed = Accept t m -> key_ok r tgt p (attach_key (is_client r) tgt t).
Proof.
  intros H. apply handle_hello_bound in H as (crt & Hc & Hh & _ & Htgt & _). rewrite (attach_key_accepted r tgt t Htgt).
  exists crt. exact (conj Hc (conj Hh Htgt)).
Qed.

Theorem mismatch_rejects_hello r me tgt p claimed :
  mismatch r tgt (leaf p) claimed -> exists w, handle_hello r me tgt p claimed = Reject w.
Proof.
  intros Hm. rewrite handle_hello_leaf. destruct (leaf p) as [c|]; [|eexists; reflexivity].
  apply mismatch_rejects. exact Hm.
Qed.

Theorem consistent_accepts_hello r me tgt p crt :
  leaf p = Some crt -> tubid_of crt <> [] -> (r = Client -> tubid_of crt = tgt) ->
  handle_hello r me tgt p (Some (tubid_of crt)) = Accept (tubid_of crt) (i_am_master me (tubid_of crt)).
Proof. intros Hl Hne Ht. apply handle_hello_accept_iff. exists crt. repeat split; assumption. Qed.

(* the extra certificates a peer sends along never change the outcome *)
Theorem extras_irrelevant r me tgt l e1 e2 claimed :
  handle_hello r me tgt {| leaf := l; extras := e1 |} claimed = handle_hello r me tgt {| leaf := l; extras := e2 |} claimed.
Proof. rewrite !handle_hello_leaf. reflexivity. Qed.

Lemma server_lookup_ok requested my : server_lookup requested my = Ok tt <-> (requested = my /\ requested <> []).
Proof.
  unfold server_lookup. destruct requested as [|x q]; cbn [list_is_nil].
  - split; [discriminate|intros [_ H]; contradiction H; reflexivity].
  - destruct (list_eqb (x :: q) my) eqn:E.
    + apply list_eqb_eq in E. split; [intros _; split; [exact E|discriminate]|reflexivity].
    + apply list_eqb_false in E. split; [discriminate|intros [H _]; contradiction].
Qed.

Definition proven (c : option cert) (k : id) : Prop := exists crt, c = Some crt /\ tubid_of crt = k.

Lemma final_ever_failed w k : final (obs_failed w) = Some k -> ever (obs_failed w) = Some k.
Proof. discriminate. Qed.

Lemma session_obs s :
  let (oc, os) := session s in
  (forall k, ever oc = Some k -> (requested s = srv_id s /\ requested s <> []) /\
     exists t m, handle_hello Client (cl_id s) (dialled s) (pres_c s) (claim_c s) = Accept t m /\
                 k = attach_key true (dialled s) t) /\
  (forall k, ever os = Some k -> (requested s = srv_id s /\ requested s <> []) /\
     exists t m, handle_hello Server (srv_id s) [] (pres_s s) (claim_s s) = Accept t m /\ k = attach_key false [] t) /\
  (final oc = None /\ final os = None \/ exists kc ks, oc = obs_connected kc /\ os = obs_connected ks).
Proof.
  unfold Identity.session. name_strings.
  destruct (server_lookup (requested s) (srv_id s)) as [[]|w] eqn:L.
  - apply server_lookup_ok in L.
    generalize (handle_hello Client (cl_id s) (dialled s) (pres_c s) (claim_c s)) as vc,
               (handle_hello Server (srv_id s) [] (pres_s s) (claim_s s)) as vs.
    intros [wc|tc mc] [ws|ts ms];
      [|destruct ms|destruct mc|destruct mc, ms; [| destruct (inbound_url_check _ _).. |]];
      (split; [intros k [= <-]; eauto|split; [intros k [= <-]; eauto|eauto]]).
  - split; [intros k [=]|split; [intros k [=]|auto]].
Qed.

(* whatever the two ends present and claim: a key is registered on an end only if the certificate that end saw
   hashes to it; the client's key is the id it dialled; what is left at quiescence was registered *)
Theorem session_bound s oc os :
  session s = (oc, os) ->
  (forall k, ever oc = Some k -> k = dialled s /\ proven (leaf (pres_c s)) k /\ claim_c s = Some k /\ requested s = srv_id s) /\
  (forall k, ever os = Some k -> proven (leaf (pres_s s)) k /\ claim_s s = Some k /\ requested s = srv_id s) /\
  (forall k, final oc = Some k -> ever oc = Some k) /\
  (forall k, final os = Some k -> ever os = Some k).
Proof.
  intros H. pose proof (session_obs s) as O. rewrite H in O. destruct O as (Hc & Hs & Hf). repeat apply conj.
  - intros k Hk. destruct (Hc k Hk) as ([Hl _] & t & m & Hh & ->).
    apply handle_hello_bound in Hh as (crt & Hleaf & Hid & Hcl & Htgt & _). rewrite (Htgt eq_refl) in *.
    split; [reflexivity|]. split; [exists crt|]; auto.
  - intros k Hk. destruct (Hs k Hk) as ([Hl _] & t & m & Hh & ->).
    apply handle_hello_bound in Hh as (crt & Hleaf & Hid & Hcl & _). split; [exists crt|]; auto.
  - intros k. destruct Hf as [[-> _]|(kc & ks & -> & _)]; [discriminate|auto].
  - intros k. destruct Hf as [[_ ->]|(kc & ks & _ & ->)]; [discriminate|auto].
Qed.

Lemma accepted_no_mismatch r me tgt p claimed t m :
  handle_hello r me tgt p claimed = Accept t m -> ~ mismatch r tgt (leaf p) claimed.
Proof. intros H Hx. apply (mismatch_rejects_hello r me) in Hx as (w & Hw). congruence. Qed.

(* a mismatch anywhere (unknown tub requested, or either end's evaluation rejecting) leaves no connection on
   either side, and the end that saw the mismatch never registered one *)
Theorem session_mismatch_no_connection s oc os :
  session s = (oc, os) ->
  (requested s <> srv_id s \/ requested s = [] \/
   mismatch Client (dialled s) (leaf (pres_c s)) (claim_c s) \/ mismatch Server [] (leaf (pres_s s)) (claim_s s)) ->
  final oc = None /\ final os = None /\
  (mismatch Client (dialled s) (leaf (pres_c s)) (claim_c s) -> ever oc = None) /\
  (mismatch Server [] (leaf (pres_s s)) (claim_s s) -> ever os = None).
Proof.
  intros H Hm. pose proof (session_obs s) as O. rewrite H in O. destruct O as (Hc & Hs & Hf).
  assert (Ec : forall k, ever oc = Some k -> ~ mismatch Client (dialled s) (leaf (pres_c s)) (claim_c s)).
  { intros k Hk. destruct (Hc k Hk) as (_ & t & m & Hh & _). exact (accepted_no_mismatch _ _ _ _ _ _ _ Hh). }
  assert (Es : forall k, ever os = Some k -> ~ mismatch Server [] (leaf (pres_s s)) (claim_s s)).
  { intros k Hk. destruct (Hs k Hk) as (_ & t & m & Hh & _). exact (accepted_no_mismatch _ _ _ _ _ _ _ Hh). }
  assert (Hn : final oc = None /\ final os = None).
  { destruct Hf as [Hf|(kc & ks & -> & ->)]; [exact Hf|exfalso].
    destruct (Hc kc eq_refl) as [[] _]. specialize (Ec kc eq_refl). specialize (Es ks eq_refl). tauto. }
  split; [apply Hn|]. split; [apply Hn|]. split; intros Hx.
  - destruct (ever oc) as [k|]; [destruct (Ec k eq_refl Hx)|reflexivity].
  - destruct (ever os) as [k|]; [destruct (Es k eq_refl Hx)|reflexivity].
Qed.

Lemma master_flip a b : a <> b -> i_am_master a b = negb (i_am_master b a).
Proof.
  intros Hne. pose proof (one_decider_op master_cmp a b eq_refl Hne) as H. unfold i_am_master.
  destruct (cmp_eval master_cmp a b), (cmp_eval master_cmp b a); (reflexivity || discriminate H).
Qed.

(* non-vacuity of the whole: two honest, distinct Tubs end up connected, each under the other's id *)
Theorem session_honest s ca cb :
  leaf (pres_c s) = Some cb -> tubid_of cb = srv_id s -> claim_c s = Some (srv_id s) ->
  leaf (pres_s s) = Some ca -> tubid_of ca = cl_id s -> claim_s s = Some (cl_id s) ->
  dialled s = srv_id s -> requested s = srv_id s ->
  cl_id s <> srv_id s -> cl_id s <> [] -> srv_id s <> [] ->
  session s = (obs_connected (srv_id s), obs_connected (cl_id s)).
Proof.
  intros Hcc Hhb Hclc Hcs Hha Hcls Hd Hr Hne Hna Hnb.
  pose proof (consistent_accepts_hello Client (cl_id s) (dialled s) _ cb Hcc) as EC. rewrite Hhb, <- Hclc in EC.
  pose proof (consistent_accepts_hello Server (srv_id s) [] _ ca Hcs) as ES. rewrite Hha, <- Hcls in ES.
  unfold Identity.session. name_strings.
  rewrite (proj2 (server_lookup_ok _ _)) by (rewrite Hr; auto). rewrite EC by auto. rewrite ES by (assumption || discriminate).
  cbv beta iota zeta.
  rewrite (master_flip (srv_id s) (cl_id s) (fun e => Hne (eq_sym e))).
  unfold inbound_url_check, attach_key. rewrite Hd, list_eqb_refl.
  destruct (i_am_master (cl_id s) (srv_id s)); reflexivity.
Qed.

Notation handle_block := (handle_block cert tubid_of).
Notation drain := (drain cert tubid_of).
Notation recv_chunk := (recv_chunk cert tubid_of).
Notation recv_all := (recv_all cert tubid_of).

(* dataReceived's error handler does not assign receive_phase *)
Lemma exc_phase_id x : exc_phase x = x.
Proof. reflexivity. Qed.

Lemma their_after_rejected_cases p claimed old :
  their_after_rejected_evaluation cert tubid_of p claimed old = old \/
  exists crt, leaf p = Some crt /\ their_after_rejected_evaluation cert tubid_of p claimed old = Some (tubid_of crt).
Proof.
  unfold their_after_rejected_evaluation.
  destruct (leaf p) as [c|]; [|left; reflexivity]. destruct claimed as [[|x t]|]; try (left; reflexivity).
  destruct (list_eqb (tubid_of c) (x :: t)) eqn:E; [|left; reflexivity].
  apply list_eqb_eq in E. right. exists c. rewrite E. auto.
Qed.

(* second clause: while the decision is awaited, self.theirTubRef is what switchToBanana will compute the key from *)
Definition ninv (r : role) (tgt : id) (p : presented cert) (st : nstate) : Prop :=
  (forall k, In k (n_attached st) -> key_ok r tgt p k) /\
  (n_phase st = PhDeciding -> exists t, n_their st = Some t /\ key_ok r tgt p (attach_key (is_client r) tgt t)).

Lemma ninv_keep r tgt p st st' :
  ninv r tgt p st -> n_attached st' = n_attached st ->
  (n_phase st' = PhDeciding -> n_phase st = PhDeciding /\ n_their st' = n_their st) -> ninv r tgt p st'.
Proof.
  intros [Ha Hd] Ea Hp. split; [rewrite Ea; exact Ha|]. intros H. destruct (Hp H) as [H1 ->]. exact (Hd H1).
Qed.

Lemma ninv_attach r tgt p st k st' :
  ninv r tgt p st -> key_ok r tgt p k -> n_attached st' = k :: n_attached st -> n_phase st' = PhBanana -> ninv r tgt p st'.
Proof.
  intros [Ha _] Hk Ea Hp. split; [|rewrite Hp; discriminate]. rewrite Ea. intros k' [<-|H]; [exact Hk|exact (Ha k' H)].
Qed.

Lemma handle_block_inv r my tgt p st b :
  ninv r tgt p st -> ninv r tgt p (fst (handle_block r my tgt p st b)).
Proof.
  intros Hinv. unfold Identity.handle_block.
  destruct (n_phase st) eqn:Eph; [| |exact Hinv..].
  - (* ENCRYPTED: no exception leads into the decision-waiting phase *)
    assert (Keep : forall ph th, ph <> PhDeciding ->
              ninv r tgt p {| n_phase := exc_phase ph; n_their := th; n_attached := n_attached st; n_buf := n_buf st |}).
    { intros ph th Hph. apply (ninv_keep _ _ _ st); [exact Hinv|reflexivity|]. rewrite exc_phase_id. intros H. contradiction. }
    destruct (peer_from_transport cert p); [|apply Keep; discriminate].
    destruct b as [claimed|acc| |]; try (apply Keep; discriminate).
    destruct (handle_hello r my tgt p claimed) as [w|t m] eqn:EH; [apply Keep; discriminate|].
    apply hello_key_proven in EH. destruct m; cbn [fst].
    + apply (ninv_attach _ _ _ st _ _ Hinv EH); reflexivity.
    + split; [apply Hinv|]. intros _. exists t. auto.
  - destruct (proj2 Hinv Eph) as (t & Ht & Hk). rewrite Ht.
    assert (Keep : ninv r tgt p (with_phase st (exc_phase PhDeciding))).
    { apply (ninv_keep _ _ _ st); [exact Hinv|reflexivity|]. intros _. auto. }
    destruct b as [claimed|[|]| |]; try exact Keep. apply (ninv_attach _ _ _ st _ _ Hinv Hk); reflexivity.
Qed.

Lemma drain_inv r my tgt p buf : forall st, ninv r tgt p st -> ninv r tgt p (drain r my tgt p st buf).
Proof.
  induction buf as [|b rest IH]; intros st Hinv; cbn [Identity.drain]; [exact Hinv|].
  pose proof (handle_block_inv r my tgt p st b Hinv) as Hinv'.
  destruct (handle_block r my tgt p st b) as [st' [|]]; destruct (n_phase st); try exact Hinv; try exact Hinv'; apply IH, Hinv'.
Qed.

Lemma recv_chunk_inv r my tgt p st chunk : ninv r tgt p st -> ninv r tgt p (recv_chunk r my tgt p st chunk).
Proof.
  intros Hinv. unfold Identity.recv_chunk. destruct (n_phase st); try exact Hinv; apply drain_inv; exact Hinv.
Qed.

(* whatever header blocks an arbitrary peer sends, in whatever chunking, before and after any of them was rejected:
   every key ever handed to Tub.brokerAttached is the hash of the LEAF certificate of that transport, and on a client
   it is the dialled id *)
Theorem recv_attach_proven r my tgt p chunks k :
  In k (n_attached (recv_all r my tgt p chunks)) ->
  exists crt, leaf p = Some crt /\ tubid_of crt = k /\ (r = Client -> k = tgt).
Proof.
  revert k. apply (fold_left_inv (ninv r tgt p)); [intros st c; apply recv_chunk_inv|].
  split; [intros k []|discriminate].
Qed.

Theorem inbound_url_rule k url_id : accept_inbound_ref k url_id = true <-> url_id = k.
Proof.
  unfold accept_inbound_ref, inbound_url_check.
  destruct (list_eqb k url_id) eqn:E; cbn [negb is_ok].
  - apply list_eqb_eq in E. split; [intros _; symmetry; exact E|reflexivity].
  - apply list_eqb_false in E. split; [discriminate|intros H; symmetry in H; contradiction].
Qed.

Definition justified (my_id : id) (e : id * conn cert) : Prop :=
  (conn_loop cert (snd e) = true /\ fst e = my_id) \/
  (conn_loop cert (snd e) = false /\ proven (conn_cert cert (snd e)) (fst e)).

Definition table_ok (my_id : id) (t : table cert) : Prop :=
  Forall (justified my_id) t /\ NoDup (map fst t).

Lemma justified_loopback my : justified my (my, {| conn_cert := None; conn_loop := true |}).
Proof. left. split; reflexivity. Qed.

Lemma justified_transport my r tgt p k : key_ok r tgt p k -> justified my (k, {| conn_cert := leaf p; conn_loop := false |}).
Proof. intros (crt & Hl & Hk & _). right. split; [reflexivity|]. exists crt. auto. Qed.

Lemma tbl_mem_in k (t : table cert) : tbl_mem cert k t = false -> ~ In k (map fst t).
Proof.
  induction t as [|[k' c] t IH]; cbn [tbl_mem map fst In]; [tauto|].
  intros H. apply orb_false_iff in H as [H1 H2]. apply list_eqb_false in H1.
  intros [Hin|Hin]; [congruence|]. apply IH; assumption.
Qed.

Lemma tbl_remove_in k (t : table cert) e : In e (tbl_remove cert k t) -> In e t.
Proof.
  induction t as [|[k' c] t IH]; cbn [tbl_remove]; [intros []|].
  destruct (list_eqb k k'); cbn [In]; [auto|]. intros [H|H]; auto.
Qed.

Lemma tbl_remove_ok my k t : table_ok my t -> table_ok my (tbl_remove cert k t).
Proof.
  intros [HF HN]. split.
  - rewrite Forall_forall in *. intros e He. apply HF, (tbl_remove_in k), He.
  - induction t as [|[k' c] t IH]; cbn [tbl_remove]; [constructor|].
    inversion HN as [|? ? Hk HN']; subst. inversion HF; subst.
    destruct (list_eqb k k'); [apply IH; assumption|].
    cbn [map fst]. constructor; [|apply IH; assumption].
    intros Hin. apply in_map_iff in Hin as (e & <- & He). apply Hk, in_map, (tbl_remove_in k), He.
Qed.

Lemma broker_attached_ok my k c t :
  table_ok my t -> justified my (k, c) -> table_ok my (broker_attached cert k c t).
Proof.
  intros [HF HN] Hj. unfold broker_attached. destruct (tbl_mem cert k t) eqn:E; [split; assumption|].
  split; [constructor; assumption|]. cbn [map fst]. constructor; [apply tbl_mem_in; exact E|exact HN].
Qed.

Notation step := (step cert tubid_of).
Notation run := (run cert tubid_of).

Lemma step_ok my t e : table_ok my t -> table_ok my (step my t e).
Proof.
  intros Hok. destruct e as [r tgt p claimed arrives dropped|k|]; cbn [Identity.step].
  - destruct (handle_hello r my tgt p claimed) as [w|t' m] eqn:E; [exact Hok|].
    destruct (m || arrives); [|exact Hok].
    apply broker_attached_ok; [destruct dropped; [apply tbl_remove_ok|]; exact Hok|].
    apply hello_key_proven in E. exact (justified_transport my _ _ _ _ E).
  - apply tbl_remove_ok. exact Hok.
  - apply broker_attached_ok; [exact Hok|apply justified_loopback].
Qed.

(* for every history of negotiations (with arbitrary presented certificates and claims), detachments and loopback
   requests: every entry of the Tub's table is backed by the certificate of its own transport, one entry per id *)
Theorem table_invariant my evs : table_ok my (run my evs).
Proof. apply (fold_left_inv (table_ok my)); [intros t e; apply step_ok|split; constructor]. Qed.

Lemma tbl_get_in k (t : table cert) c : tbl_get cert k t = Some c -> In (k, c) t.
Proof.
  induction t as [|[k' c'] t IH]; cbn [tbl_get]; [discriminate|].
  destruct (list_eqb k k') eqn:E.
  - apply list_eqb_eq in E. intros [= <-]. left. rewrite E. reflexivity.
  - intros H. right. apply IH. exact H.
Qed.

Lemma tbl_get_justified my t k c : table_ok my t -> tbl_get cert k t = Some c -> justified my (k, c).
Proof. intros [HF _] H. rewrite Forall_forall in HF. apply HF, tbl_get_in, H. Qed.

(* getReference(FURL naming X) is served over a connection whose transport certificate hashes to X (or by the
   Tub's own loopback when X is its own id), after any history *)
Theorem getref_proven my evs x c :
  get_broker cert (run my evs) x = Some c ->
  (conn_loop cert c = true /\ x = my) \/ (conn_loop cert c = false /\ proven (conn_cert cert c) x).
Proof. apply (tbl_get_justified my), table_invariant. Qed.

(* a reference whose URL names Tub U, accepted over the connection found for X after any history, names X, and that
   connection's certificate hashes to U *)
Theorem inbound_ref_proven my evs x c u :
  get_broker cert (run my evs) x = Some c -> conn_loop cert c = false ->
  accept_inbound_ref x u = true -> proven (conn_cert cert c) u.
Proof.
  intros Hg Hl Ha. apply inbound_url_rule in Ha. subst u.
  destruct (getref_proven my evs x c Hg) as [[H _]|[_ H]]; [congruence|exact H].
Qed.

Notation tstep := (tstep cert tubid_of).
Notation trun := (trun cert tubid_of).

Definition tinv (my : id) (st : tstate cert) : Prop :=
  table_ok my (t_tab cert st) /\
  (forall n x c, In (n, x, Some c) (t_ans cert st) -> justified my (x, c)).

Lemma fire_in k o w n x o' : In (n, x, o') (fire cert k o w) -> x = k /\ o' = o.
Proof.
  unfold fire. intros H. apply in_map_iff in H as ([x0 n0] & [= <- <- <-] & Hin).
  apply filter_In in Hin as [_ Hk]. apply list_eqb_eq in Hk. auto.
Qed.

Lemma t_attach_tab st k c : t_tab cert (t_attach cert st k c) = broker_attached cert k c (t_tab cert st).
Proof. unfold t_attach, broker_attached. destruct (tbl_mem cert k (t_tab cert st)); reflexivity. Qed.

Lemma t_attach_inv my st k c : tinv my st -> justified my (k, c) -> tinv my (t_attach cert st k c).
Proof.
  intros [Ht Ha] Hj. split; [rewrite t_attach_tab; apply broker_attached_ok; assumption|].
  unfold t_attach. destruct (tbl_mem cert k (t_tab cert st)); cbn [t_ans]; [exact Ha|].
  intros n x c' Hin. apply in_app_or in Hin as [Hin|Hin]; [|exact (Ha _ _ _ Hin)].
  apply fire_in in Hin as [-> [= ->]]. exact Hj.
Qed.

Lemma tstep_inv my st e : tinv my st -> tinv my (tstep my st e).
Proof.
  intros Hinv. pose proof Hinv as [Ht Ha].
  destruct e as [x|r tgt p claimed arrives|x|k]; cbn [Identity.tstep].
  - destruct (tbl_get cert x (t_tab cert st)) as [c|] eqn:EG.
    + split; [exact Ht|]. intros n x0 c0 [[= <- <- <-]|Hin]; [exact (tbl_get_justified my _ _ _ Ht EG)|exact (Ha _ _ _ Hin)].
    + destruct (list_eqb x my) eqn:EM; [|exact Hinv].
      apply list_eqb_eq in EM. subst x.
      destruct (t_attach_inv my st my _ Hinv (justified_loopback my)) as [Ht' Ha'].
      split; [exact Ht'|]. intros n x0 c0 [[= <- <- <-]|Hin]; [apply justified_loopback|exact (Ha' _ _ _ Hin)].
  - destruct (handle_hello r my tgt p claimed) as [w|t m] eqn:E; [exact Hinv|].
    destruct (m || arrives); [|exact Hinv].
    apply hello_key_proven in E. apply t_attach_inv; [exact Hinv|exact (justified_transport my _ _ _ _ E)].
  - destruct (tbl_mem cert x (t_tab cert st)); [exact Hinv|]. split; [exact Ht|].
    intros n x0 c0 Hin. apply in_app_or in Hin as [Hin|Hin]; [apply fire_in in Hin as [_ [=]]|exact (Ha _ _ _ Hin)].
  - split; [apply tbl_remove_ok, Ht|exact Ha].
Qed.

(* several lookups pending, connections (outbound and inbound, honest and not) completing, failing and going away in any
   order: a lookup for tub id X is only ever answered with a Broker whose transport's leaf certificate hashes to X (or
   with the Tub's own loopback when X is its own id), and the table invariant holds throughout *)
Theorem tub_answers_proven my evs :
  table_ok my (t_tab cert (trun my evs)) /\
  (forall n x c, In (n, x, Some c) (t_ans cert (trun my evs)) ->
     (conn_loop cert c = true /\ x = my) \/ (conn_loop cert c = false /\ proven (conn_cert cert c) x)).
Proof.
  apply (fold_left_inv (tinv my)); [intros st e; apply tstep_inv|]. split; [split; constructor|intros n x c []].
Qed.

End IdentityProofs.

Definition gr_inv (st : gr_state) : Prop :=
  map fst (g_log st) = rev (seq 0 (g_next st)) /\
  incl (g_pending st) (g_log st) /\
  (forall r a, In (r, a) (g_delivered st) -> exists f, In (r, f) (g_log st) /\ a = get_reference_now f).

Lemma resumed_own q : resumed q = q.
Proof. reflexivity. Qed.

Lemma gr_step_inv st e : gr_inv st -> gr_inv (gr_step st e).
Proof.
  intros (Hn & Hp & Hd). destruct e as [f|]; cbn [gr_step].
  - assert (Hn' : map fst ((g_next st, f) :: g_log st) = rev (seq 0 (S (g_next st)))).
    { rewrite seq_S, rev_app_distr. cbn [map fst rev app]. rewrite Hn. reflexivity. }
    assert (Hd' : forall r a, In (r, a) (g_delivered st) ->
                    exists f0, In (r, f0) ((g_next st, f) :: g_log st) /\ a = get_reference_now f0).
    { intros r a Hin. destruct (Hd r a Hin) as (f0 & Hl & Ha). exists f0. split; [right; exact Hl|exact Ha]. }
    destruct (g_started st); (split; [exact Hn'|split]); cbn [g_pending g_log g_delivered].
    + apply incl_tl, Hp.
    + intros r a [[= <- <-]|Hin]; [exists f; split; [left|]; reflexivity|exact (Hd' r a Hin)].
    + apply incl_app; [apply incl_tl, Hp|intros x [<-|[]]; left; reflexivity].
    + exact Hd'.
  - rewrite resumed_own. split; [exact Hn|split; [intros x []|]]. cbn [g_delivered g_log].
    intros r a Hin. apply in_app_or in Hin as [Hin|Hin]; [|exact (Hd _ _ Hin)].
    apply in_rev, in_map_iff in Hin as ([r0 f0] & [= <- <-] & Hin). exists f0. split; [apply Hp, Hin|reflexivity].
Qed.

Lemma gr_run_inv evs : gr_inv (gr_run evs).
Proof. apply (fold_left_inv gr_inv gr_step gr_step_inv). split; [reflexivity|split; [intros x []|intros r a []]]. Qed.

Lemma NoDup_fst_functional {A B} (l : list (A * B)) a b b' :
  NoDup (map fst l) -> In (a, b) l -> In (a, b') l -> b = b'.
Proof.
  induction l as [|[a0 b0] l IH]; cbn [map fst In]; [intros _ []|]. intros Hu H H'.
  inversion Hu as [|? ? Hnot Hu']; subst.
  destruct H as [E|H], H' as [E'|H'].
  - congruence.
  - injection E as -> _. contradiction Hnot. exact (in_map fst _ _ H').
  - injection E' as -> _. contradiction Hnot. exact (in_map fst _ _ H).
  - exact (IH Hu' H H').
Qed.

(* for every history of getReference requests made before and after startService: whatever a request's Deferred is fired
   with was obtained for THAT request's FURL -- over the Tub.brokers entry for the tub id it names, asking for the name it
   names; and a request number stands for one FURL only *)
Theorem gr_answers_match evs r a :
  In (r, a) (g_delivered (gr_run evs)) ->
  exists f, In (r, f) (g_log (gr_run evs)) /\ a_key a = f_tub f /\ a_name a = f_name f /\
            (forall f', In (r, f') (g_log (gr_run evs)) -> f' = f).
Proof.
  intros Hin. destruct (gr_run_inv evs) as (Hn & _ & Hd).
  destruct (Hd _ _ Hin) as (f & Hl & ->). exists f. repeat split; [exact Hl|].
  intros f' Hl'. apply (NoDup_fst_functional (g_log (gr_run evs)) r); [|assumption..].
  rewrite Hn. apply NoDup_rev, seq_NoDup.
Qed.

Example ex_getref_queue :
  g_delivered (gr_run [GrRequest {| f_tub := [97]; f_name := [1] |}; GrRequest {| f_tub := [98]; f_name := [2] |}; GrStart;
                       GrRequest {| f_tub := [97]; f_name := [3] |}])
  = [(2%nat, {| a_key := [97]; a_name := [3] |}); (1%nat, {| a_key := [98]; a_name := [2] |});
     (0%nat, {| a_key := [97]; a_name := [1] |})].
Proof. vm_compute. reflexivity. Qed.

Definition ex_tubid (c : Z) : id := [c; c + 1].
Definition pz (l : option Z) (e : list Z) : presented Z := {| leaf := l; extras := e |}.

Example ex_accept_server :
  evaluate Z ex_tubid Server [120] [] (Some 97) (Some [97; 98]) = Accept [97; 98] true.
Proof. vm_compute. reflexivity. Qed.

Example ex_accept_client :
  evaluate Z ex_tubid Client [50] [97; 98] (Some 97) (Some [97; 98]) = Accept [97; 98] false.
Proof. vm_compute. reflexivity. Qed.

Example ex_reject_wrong_cert :
  evaluate Z ex_tubid Client [50] [97; 98] (Some 99) (Some [97; 98]) = Reject "BananaError".
Proof. vm_compute. reflexivity. Qed.

Example ex_reject_wrong_tub :
  evaluate Z ex_tubid Client [50] [97; 98] (Some 99) (Some [99; 100]) = Reject "BananaError".
Proof. vm_compute. reflexivity. Qed.

Example ex_reject_anonymous :
  evaluate Z ex_tubid Server [50] [] None None = Reject "AssertionError".
Proof. vm_compute. reflexivity. Qed.

Example ex_session_honest :
  session Z ex_tubid {| cl_id := [50; 51]; dialled := [97; 98]; requested := [97; 98]; srv_id := [97; 98];
                        pres_c := pz (Some 97) []; claim_c := Some [97; 98]; pres_s := pz (Some 50) []; claim_s := Some [50; 51] |}
  = (obs_connected [97; 98], obs_connected [50; 51]).
Proof. vm_compute. reflexivity. Qed.

(* a server that redirects the GET and proves ANOTHER identity than the dialled one *)
Example ex_session_wrong_tub :
  session Z ex_tubid {| cl_id := [50; 51]; dialled := [97; 98]; requested := [99; 100]; srv_id := [99; 100];
                        pres_c := pz (Some 99) []; claim_c := Some [99; 100]; pres_s := pz (Some 50) []; claim_s := Some [50; 51] |}
  = (obs_failed "BananaError", obs_transient [50; 51]).
Proof. vm_compute. reflexivity. Qed.

Example ex_table :
  run Z ex_tubid [50; 51]
      [Negotiated Z Client [97; 98] (pz (Some 97) []) (Some [97; 98]) true false;
       Negotiated Z Server [] (pz (Some 99) [97]) (Some [97; 98]) true false;       (* impostor showing the victim's public certificate as an extra: rejected *)
       Negotiated Z Server [] (pz (Some 20) []) (Some [20; 21]) false false;      (* we decide: attached at once *)
       LoopbackRequested Z;
       Detached Z [97; 98]]
  = [([50; 51], {| conn_cert := None; conn_loop := true |});
     ([20; 21], {| conn_cert := Some 20; conn_loop := false |})].
Proof. vm_compute. reflexivity. Qed.

(* an intruder that authenticates with its own certificate 99, appends Tub [97;98]'s public certificate and claims it *)
Example ex_reject_extra_chain :
  handle_hello Z ex_tubid Client [50] [97; 98] (pz (Some 99) [97]) (Some [97; 98]) = Reject "BananaError".
Proof. vm_compute. reflexivity. Qed.

Example ex_reject_no_leaf :
  handle_hello Z ex_tubid Server [50] [] (pz None [97]) (Some [97; 98]) = Reject "CertificateError".
Proof. vm_compute. reflexivity. Qed.

(* every tracker that carries a URL -- whatever my-reference sequences, for new or known clids, the peer sent over this
   connection -- names the id k the connection is registered under *)
Definition rtab_ok (k : list Z) (t : rtab) : Prop := forall clid u, In (clid, Some u) t -> u = k.

(* rt_set is reached only under the policies SetIfUnset / SetAlways; with the translated KeepUrl, ref_step_ok below does not
   need these two *)
Lemma rt_set_in clid u t e : In e (rt_set clid u t) -> In e t \/ snd e = u.
Proof.
  induction t as [|[c u0] r IH]; cbn [rt_set]; [auto|].
  destruct (c =? clid); cbn [In]; [intros [<-|H]; auto|]. intros [H|H]; [auto|]. destruct (IH H); auto.
Qed.

Lemma rt_set_ok k clid t : rtab_ok k t -> forall u, (forall u', u = Some u' -> u' = k) -> rtab_ok k (rt_set clid u t).
Proof.
  intros Hok u Hu c u' H. apply rt_set_in in H as [H|H]; [exact (Hok c u' H)|]. apply Hu. symmetry. exact H.
Qed.

Lemma ref_step_ok k t m : rtab_ok k t -> rtab_ok k (ref_step k t m).
Proof.
  intros Hok. destruct m as [clid url]. unfold ref_step.
  destruct (rt_get clid t) as [old|]; [exact Hok|].   (* known clid: known_clid_url_policy keeps the tracker's URL *)
  destruct url as [u|].
  - destruct (accept_inbound_ref k u) eqn:E; [|exact Hok].
    apply inbound_url_rule in E. intros c' u' [[= <- <-]|H]; [exact E|exact (Hok c' u' H)].
  - intros c' u' [[=]|H]. exact (Hok c' u' H).
Qed.

Theorem ref_urls_proven k ms clid u : In (clid, Some u) (ref_run k ms) -> u = k.
Proof. revert clid u. apply (fold_left_inv (rtab_ok k)); [intros t m; apply ref_step_ok|intros c u []]. Qed.

Example ex_ref_history :
  ref_run [1; 2] [(3, None); (3, Some [9; 9]); (4, Some [9; 9]); (5, Some [1; 2]); (5, Some [9; 9])] = [(5, Some [1; 2]); (3, None)].
Proof. vm_compute. reflexivity. Qed.
