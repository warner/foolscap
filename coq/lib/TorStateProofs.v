(* TorStateProofs.v -- the Tor handler classifies a hint by the string alone, whatever its Tor is doing
   (model: TorState.v, step order translated from connections/tor.py). *)
From Coq Require Import ZArith List String Bool.
Import ListNotations.
Require Import Verif.lib.PyLite Verif.lib.Regex Verif.lib.FurlPrim Verif.gen.FurlGen Verif.lib.Furl Verif.lib.FurlProofs Verif.lib.TorState.
Local Open Scope Z_scope.

(* the outcome is a function of (classification of the string, state of the Tor): the handler looks at the string first, in the
   order of the classification (Furl.tor_hint_to_endpoint), and only then at its Tor; the port group of a matching hint is
   numeric (FurlProofs.tor_port), so the classification fails with InvalidHintError only *)
Lemma tor_outcome_table : forall nonpublic st hint,
  tor_handler nonpublic st hint =
  match tor_hint_to_endpoint nonpublic hint with
  | Ok ep => match st with TorReady => Done (Ok ep) | TorStarting => Waiting | TorFails e => Done (Exc e) end
  | Exc _ => Done invalid
  end.
Proof.
  intros np st h. unfold tor_handler, tor_handler_gen, TOR_STEPS, tor_hint_to_endpoint, unbound.
  cbn [tor_run tor_env0 e_mo e_hp e_socks].
  destruct (re_apply TOR_HINT_RE TOR_HINT_RE_method h) as [c|] eqn:E; [|reflexivity].
  destruct (tor_port h c E) as [v ->]. cbn [tor_run e_mo e_hp e_socks].
  destruct (np (group_or_nil 1 c)); [reflexivity|]. destruct st; reflexivity.
Qed.

(* the classification itself always ends in an endpoint or InvalidHintError (FurlProofs.handler_total for KTor) *)
Lemma tor_classification_total : forall nonpublic hint,
  (exists ep, tor_hint_to_endpoint nonpublic hint = Ok ep) \/ tor_hint_to_endpoint nonpublic hint = invalid.
Proof. intros np h. exact (handler_total true np KTor h I). Qed.

(* with a Tor that is there, the handler IS the classification of Furl.v (so everything proved about
   tor_hint_to_endpoint / get_endpoint with a KTor handler is about this function) *)
Lemma tor_ready_is_classification : forall nonpublic hint,
  tor_handler nonpublic TorReady hint = Done (tor_hint_to_endpoint nonpublic hint).
Proof.
  intros np h. rewrite tor_outcome_table. destruct (tor_classification_total np h) as [[ep ->]| ->]; reflexivity.
Qed.

(* a hint the classification rejects is rejected at once, whatever the Tor does: no waiting, no other exception *)
Lemma tor_invalid_whatever_tor : forall nonpublic st hint,
  tor_hint_to_endpoint nonpublic hint = invalid -> tor_handler nonpublic st hint = Done invalid.
Proof. intros np st h E. rewrite tor_outcome_table, E. reflexivity. Qed.

(* a hint the classification accepts: the endpoint once the Tor is there; until then / instead the Tor's own fate *)
Lemma tor_valid_follows_tor : forall nonpublic st hint ep,
  tor_hint_to_endpoint nonpublic hint = Ok ep ->
  tor_handler nonpublic st hint = match st with TorReady => Done (Ok ep) | TorStarting => Waiting | TorFails e => Done (Exc e) end.
Proof. intros np st h ep E. rewrite tor_outcome_table, E. reflexivity. Qed.

(* so the handler never waits on a hint it is going to reject ... *)
Lemma tor_waits_only_for_valid : forall nonpublic st hint,
  tor_handler nonpublic st hint = Waiting -> st = TorStarting /\ exists ep, tor_hint_to_endpoint nonpublic hint = Ok ep.
Proof.
  intros np st h. rewrite tor_outcome_table. destruct (tor_hint_to_endpoint np h) as [ep|e]; [|discriminate].
  destruct st; try discriminate. intros _. split; [reflexivity | exists ep; reflexivity].
Qed.

(* ... and an exception is InvalidHintError or the very exception the handler's Tor failed with *)
Lemma tor_exception_origin : forall nonpublic st hint e,
  tor_handler nonpublic st hint = Done (Exc e) -> e = "InvalidHintError"%string \/ st = TorFails e.
Proof.
  intros np st h e. rewrite tor_outcome_table. destruct (tor_hint_to_endpoint np h) as [ep|e'].
  - destruct st; try discriminate. intros H. injection H as <-. right. reflexivity.
  - intros H. injection H as <-. left. reflexivity.
Qed.

Lemma tor_outcome_by_classification : forall nonpublic st h1 h2,
  tor_hint_to_endpoint nonpublic h1 = tor_hint_to_endpoint nonpublic h2 ->
  tor_handler nonpublic st h1 = tor_handler nonpublic st h2.
Proof. intros np st h1 h2 E. rewrite !tor_outcome_table, E. reflexivity. Qed.

(* "never another exception", read strictly (endpoint or InvalidHintError, nothing else), does NOT hold for a Tor handler whose
   Tor cannot be had: an accepted hint ends in the Tor's own exception e, whatever e is (tor_valid_follows_tor) ... *)
Lemma tor_fails_own_exception : forall nonpublic e hint,
  tor_handler nonpublic (TorFails e) hint =
  match tor_hint_to_endpoint nonpublic hint with Ok _ => Done (Exc e) | Exc _ => Done invalid end.
Proof. intros np e h. rewrite tor_outcome_table. destruct (tor_hint_to_endpoint np h); reflexivity. Qed.

Definition bad_tor_hint : str := [116; 111; 114; 58; 110; 111; 116; 64; 97; 64; 104; 105; 110; 116; 58; 49; 50; 51].  (* "tor:not@a@hint:123" *)
Definition good_tor_hint : str := [116; 111; 114; 58; 97; 46; 98; 58; 56; 48].                                      (* "tor:a.b:80" *)

(* ... witness: "tor:a.b:80" with a Tor whose launch fails with RuntimeError *)
Lemma tor_strict_total_refuted : exists nonpublic st hint e,
  tor_handler nonpublic st hint = Done (Exc e) /\ e <> "InvalidHintError"%string.
Proof.
  exists (fun _ => false), (TorFails "RuntimeError"), good_tor_hint, "RuntimeError"%string.
  split; [vm_compute; reflexivity | discriminate].
Qed.

(* regression (seeded change C20-r6s1): with the order "get the Tor going first" an invalid hint waits for as long as
   the Tor takes and ends in the Tor's exception, not in InvalidHintError *)
Lemma tor_wait_first_refuted : exists nonpublic hint,
  tor_hint_to_endpoint nonpublic hint = invalid /\
  tor_handler_gen TOR_STEPS_WAIT_FIRST nonpublic TorStarting hint = Waiting /\
  tor_handler_gen TOR_STEPS_WAIT_FIRST nonpublic (TorFails "RuntimeError") hint = Done (Exc "RuntimeError").
Proof.
  exists (fun _ => false), bad_tor_hint. split; [vm_compute; reflexivity|]. split; reflexivity.
Qed.

Example tor_invalid_ex : tor_hint_to_endpoint (fun _ => false) bad_tor_hint = invalid
  /\ tor_handler (fun _ => false) TorStarting bad_tor_hint = Done invalid
  /\ tor_handler (fun _ => false) (TorFails "RuntimeError") bad_tor_hint = Done invalid.
Proof. vm_compute. auto. Qed.

Example tor_nonpublic_ex : tor_hint_to_endpoint (fun _ => true) good_tor_hint = invalid
  /\ tor_handler (fun _ => true) TorStarting good_tor_hint = Done invalid.
Proof. vm_compute. auto. Qed.

Example tor_valid_ex : tor_hint_to_endpoint (fun _ => false) good_tor_hint = Ok (EpTor [97; 46; 98] 80)
  /\ tor_handler (fun _ => false) TorReady good_tor_hint = Done (Ok (EpTor [97; 46; 98] 80))
  /\ tor_handler (fun _ => false) TorStarting good_tor_hint = Waiting
  /\ tor_handler (fun _ => false) (TorFails "RuntimeError") good_tor_hint = Done (Exc "RuntimeError").
Proof. vm_compute. auto. Qed.
