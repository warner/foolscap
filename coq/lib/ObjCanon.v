(* C01: the read-back `canon` inverts the denotation: for every well-formed term t the graph it denotes
   (heap_of n t, val_of n t) canonicalises back to t.  Used to state "the receiver's graph is isomorphic to the
   sender's" as equality of canonical terms (SendHeapE2E.iso_to_sender). *)
From Coq Require Import ZArith List String Bool Lia.
Import ListNotations.
Require Import Verif.lib.PyLite Verif.gen.BananaGen Verif.gen.SlicersGen Verif.lib.Token Verif.lib.TokenProofs
        Verif.lib.Obj Verif.lib.ObjProofs.
Local Open Scope Z_scope.

(* every reference points below the position (OPEN number) at which it is emitted *)
Fixpoint refs_lt (n : Z) (t : obj) : bool :=
  match t with
  | ORef k => k <? n
  | OCont _ xs => (fix go (m : Z) (l : list obj) : bool := match l with [] => true | x :: r => refs_lt m x && go (m + opens x) r end) (n + 1) xs
  | _ => true
  end.
Definition refs_lt_list := fix go (m : Z) (l : list obj) : bool := match l with [] => true | x :: r => refs_lt m x && go (m + opens x) r end.

Definition all_lt (hi : Z) (l : list Z) : Prop := forall k, mem k l = true -> k < hi.

Definition PU (t : obj) : Prop :=
  forall s sc vis imm n vis', wf_gen s sc vis imm n t = Some vis' -> all_lt n vis ->
    refs_lt n t = true /\ all_lt (n + opens t) vis'.

Lemma all_lt_mono a b l : a <= b -> all_lt a l -> all_lt b l.
Proof. intros L A k H. specialize (A k H). lia. Qed.

Lemma refs_lt_list_wf xs : Forall PU xs -> forall s sc vis imm n vis',
  wf_list_gen s sc imm vis n xs = Some vis' -> all_lt n vis -> refs_lt_list n xs = true /\ all_lt (n + opens_list xs) vis'.
Proof.
  induction 1 as [|x r Hx _ IH]; intros s sc vis imm n vis' W A.
  - cbn in W. inversion W; subst. split; [reflexivity|]. cbn [opens_list]. rewrite Z.add_0_r. exact A.
  - rewrite wf_list_cons in W. destruct (wf_gen s sc vis imm n x) as [v1|] eqn:W1; [|discriminate].
    destruct (Hx s sc vis imm n v1 W1 A) as [R1 A1].
    destruct (IH s sc v1 imm (n + opens x) vis' W A1) as [R2 A2].
    split; [cbn [refs_lt_list]; rewrite R1; exact R2|].
    change (opens_list (x :: r)) with (opens x + opens_list r). rewrite Z.add_assoc. exact A2.
Qed.

Theorem refs_below : forall t, PU t.
Proof.
  apply obj_ind'.
  - intros t L s sc vis imm n vis' W A. pose proof (opens_nonneg t) as ON.
    destruct t; try discriminate; try (cbn in W; inversion W; subst; split; [reflexivity|eapply all_lt_mono; [|exact A]; lia]).
    cbn [wf_gen] in W. destruct (sc && mem k vis) eqn:E; [|discriminate]. inversion W; subst.
    apply andb_true_iff in E as [_ E]. split; [cbn; apply Z.ltb_lt; apply A; exact E|eapply all_lt_mono; [|exact A]; lia].
  - intros c xs F s sc vis imm n vis' W A. destruct (wf_cont_inv _ _ _ _ _ _ _ _ W) as (v & WL & -> & _).
    assert (A1 : all_lt (n + 1) (if (sc || is_scope c) && tracked c then n :: vis else vis)).
    { destruct ((sc || is_scope c) && tracked c).
      - intros k H. cbn [mem] in H. apply orb_true_iff in H as [H|H]; [apply Z.eqb_eq in H; lia|specialize (A k H); lia].
      - eapply all_lt_mono; [|exact A]. lia. }
    destruct (refs_lt_list_wf xs F s _ _ _ (n + 1) v WL A1) as [R A2].
    rewrite opens_cont. split; [exact R|].
    replace (n + (1 + opens_list xs)) with (n + 1 + opens_list xs) by lia.
    destruct (is_scope c); [|exact A2].
    eapply all_lt_mono; [|exact A]. pose proof (opens_nonneg (OCont c xs)) as ON. rewrite opens_cont in ON. lia.
Qed.

Lemma find_app k a b : find k (a ++ b) = match find k a with Some nd => Some nd | None => find k b end.
Proof. induction a as [|[i nd] a IH]; cbn [app find]; [reflexivity|]. destruct (i =? k); [reflexivity|exact IH]. Qed.

Lemma opens_list_nonneg xs : 0 <= opens_list xs.
Proof. induction xs as [|y r IH]; cbn; [lia|]. pose proof (opens_nonneg y). lia. Qed.

Definition PK (t : obj) : Prop := forall n k nd, find k (heap_of n t) = Some nd -> n <= k < n + opens t.

Lemma keys_list xs : Forall PK xs -> forall n k nd, find k (heap_list n xs) = Some nd -> n <= k < n + opens_list xs.
Proof.
  induction 1 as [|x r Hx _ IH]; intros n k nd H; [discriminate|].
  change (heap_list n (x :: r)) with (heap_of n x ++ heap_list (n + opens x) r) in H. rewrite find_app in H.
  change (opens_list (x :: r)) with (opens x + opens_list r).
  pose proof (opens_nonneg x) as O1.
  pose proof (opens_list_nonneg r) as O2.
  destruct (find k (heap_of n x)) as [nd1|] eqn:E.
  - specialize (Hx n k nd1 E). lia.
  - specialize (IH _ _ _ H). lia.
Qed.

Theorem keys_range : forall t, PK t.
Proof.
  apply obj_ind'.
  - intros t L n k nd H. destruct t; try discriminate; cbn in H; discriminate.
  - intros c xs F n k nd H. rewrite heap_of_cont, find_app in H. rewrite opens_cont.
    pose proof (opens_list_nonneg xs) as O2.
    destruct (find k (heap_list (n + 1) xs)) as [nd1|] eqn:E.
    + pose proof (keys_list xs F _ _ _ E). lia.
    + cbn [find] in H. destruct (n =? k) eqn:Q; [|discriminate]. apply Z.eqb_eq in Q. lia.
Qed.

Definition sub_heap (a H : heap) : Prop := forall k nd, find k a = Some nd -> find k H = Some nd.

Definition PC (t : obj) : Prop :=
  forall H n fuel, refs_lt n t = true -> sub_heap (heap_of n t) H -> (size t <= fuel)%nat ->
    canon fuel H n (val_of n t) = Some (t, n + opens t).

Lemma canon_list_inv xs : Forall PC xs -> forall H n fuel, refs_lt_list n xs = true -> sub_heap (heap_list n xs) H ->
  (size_list xs <= fuel)%nat -> canon_list fuel H n (vals_list n xs) = Some (xs, n + opens_list xs).
Proof.
  induction 1 as [|x r Hx _ IH]; intros H n fuel R S F.
  - cbn. rewrite Z.add_0_r. reflexivity.
  - cbn [refs_lt_list] in R. apply andb_true_iff in R as [R1 R2].
    change (size_list (x :: r)) with (size x + size_list r)%nat in F.
    change (vals_list n (x :: r)) with (val_of n x :: vals_list (n + opens x) r). cbn [canon_list].
    change (heap_list n (x :: r)) with (heap_of n x ++ heap_list (n + opens x) r) in S.
    assert (S1 : sub_heap (heap_of n x) H).
    { intros k nd E. apply S. rewrite find_app, E. reflexivity. }
    assert (S2 : sub_heap (heap_list (n + opens x) r) H).
    { intros k nd E. apply S. rewrite find_app. destruct (find k (heap_of n x)) as [nd1|] eqn:E1; [|exact E].
      pose proof (keys_range x n k nd1 E1). pose proof (keys_list r (Forall_all _ keys_range r) _ _ _ E). lia. }
    rewrite (Hx H n fuel R1 S1 ltac:(lia)).
    fold (canon_list fuel H). rewrite (IH H (n + opens x) fuel R2 S2 ltac:(lia)).
    change (opens_list (x :: r)) with (opens x + opens_list r). rewrite Z.add_assoc. reflexivity.
Qed.

Theorem canon_inv : forall t, PC t.
Proof.
  apply obj_ind'.
  - intros t L H n fuel R S F. destruct fuel as [|fu]; [destruct t; cbn in F; lia|].
    destruct t; try discriminate; cbn [val_of canon opens]; rewrite ?Z.add_0_r; try reflexivity.
    + (* bool *) destruct (bool_toks) as [T1 T2]. destruct b; rewrite ?T1, ?T2; reflexivity.
    + (* ref *) cbn [refs_lt] in R. rewrite R. reflexivity.
  - intros c xs Fx H n fuel R S F. destruct fuel as [|fu]; [cbn in F; lia|].
    cbn [val_of canon]. rewrite Z.ltb_irrefl, Z.eqb_refl.
    assert (FN : find n H = Some {| n_kind := c; n_items := vals_list (n + 1) xs |}).
    { apply S. rewrite heap_of_cont, find_app.
      destruct (find n (heap_list (n + 1) xs)) as [nd1|] eqn:E.
      - pose proof (keys_list xs (Forall_all _ keys_range xs) _ _ _ E). lia.
      - cbn [find]. rewrite Z.eqb_refl. reflexivity. }
    rewrite FN. cbn [n_items n_kind].
    assert (S1 : sub_heap (heap_list (n + 1) xs) H).
    { intros k nd E. apply S. rewrite heap_of_cont, find_app, E. reflexivity. }
    change (size (OCont c xs)) with (Datatypes.S (size_list xs)) in F.
    pose proof (canon_list_inv xs Fx H (n + 1) fu R S1 ltac:(lia)) as CL. unfold canon_list in CL. rewrite CL.
    rewrite opens_cont. f_equal. f_equal. lia.
Qed.

(* the property's "equal in value and type ... same sharing/cycle structure", as a statement about graphs: the graph
   the receiver builds reads back as the sender's canonical term *)
Theorem canon_inverts_fuel scoped n t fuel : wf_obj_wide scoped n t = true -> (size t <= fuel)%nat ->
  canon fuel (heap_of n t) n (val_of n t) = Some (t, n + opens t).
Proof.
  unfold wf_obj_wide, wf_wide. destruct (wf_gen false scoped [] [] n t) as [v|] eqn:W; [|discriminate]. intros _ F.
  apply canon_inv; [|intros k nd E; exact E|exact F].
  apply (refs_below t false scoped [] [] n v W). intros k H. discriminate.
Qed.

Theorem canon_inverts scoped n t : wf_obj_wide scoped n t = true ->
  canon (size t) (heap_of n t) n (val_of n t) = Some (t, n + opens t).
Proof. intros W. exact (canon_inverts_fuel _ _ _ _ W (le_n _)). Qed.

Example ex_canon : let t := OTuple [OList [OTuple [ORef 0]; ORef 1]; OText [97]] in
  wf_obj_wide true 0 t = true /\ canon (size t) (heap_of 0 t) 0 (val_of 0 t) = Some (t, 6).
Proof. vm_compute. split; reflexivity. Qed.
