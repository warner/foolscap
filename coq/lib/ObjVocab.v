(* C01: the in-band vocabulary switch, proved for every interleaving of tokens and table replacements.
   Sender: `sender_wire cur items` (Banana.sendToken abbreviates with the table in force; ReplaceVocabSlicer sends
   OPEN set-vocab (index string)* CLOSE unabbreviated and installs the new table when it is done).
   Receiver: `receiver_view` (VOCAB expanded with the table in force; a set-vocab sequence replaces the table).
   Theorem: the receiver's object layer sees exactly the sender's plain tokens, whatever the tables and wherever they
   are replaced. *)
From Coq Require Import ZArith List String Bool Lia.
Import ListNotations.
Require Import Verif.lib.PyLite Verif.gen.BananaGen Verif.gen.SlicersGen Verif.lib.Token Verif.lib.TokenProofs
        Verif.lib.Obj Verif.lib.ObjProofs.
Local Open Scope Z_scope.

Definition sv : list Z := hd [] ot_set_vocab.

(* hypotheses on the sender's queue:
   - no object token is a VOCAB token already (the object layer produces INT/FLOAT/STRING/OPEN/CLOSE);
   - no object sequence is itself OPEN "set-vocab" (that opentype belongs to the table replacement);
   - every table has distinct indices (it is dict(zip(words, range))) *)
Fixpoint items_ok (items : list item) : bool :=
  match items with
  | [] => true
  | ITok t :: r =>
    no_vocab t
    && (match t, r with
        | TOpen _, ITok (TString s) :: _ => negb (list_eqb s sv)
        | _, _ => true
        end)
    && items_ok r
  | ISetVocab _ tbl :: r => items_ok r
  end.
Fixpoint tables_nodup (items : list item) : Prop :=
  match items with
  | [] => True
  | ITok _ :: r => tables_nodup r
  | ISetVocab _ tbl :: r => NoDup (map snd tbl) /\ tables_nodup r
  end.

(* - every word of every table that is installed fits the receiver's limit (ReplaceVocabUnslicer.valueConstraint =
     ByteStringConstraint(vocab_word_limit), translated): a longer word is a Violation at the receiver, which then KEEPS ITS OLD
     TABLE while the sender goes on with the new one -- vocab_switch_long_word_refuted *)
Fixpoint tables_words_ok (items : list item) : bool :=
  match items with
  | [] => true
  | ITok _ :: r => tables_words_ok r
  | ISetVocab _ tbl :: r => forallb word_ok (map fst tbl) && tables_words_ok r
  end.

Lemma list_eqb_refl a : list_eqb a a = true.
Proof. apply list_eqb_eq. reflexivity. Qed.

Lemma devocab_envocab1 tbl t : NoDup (map snd tbl) -> no_vocab t = true -> devocab1 tbl (envocab1 tbl t) = Some t.
Proof.
  intros ND NV. destruct t; try discriminate; cbn [envocab1 devocab1]; try reflexivity.
  destruct (vfind bs tbl) as [i|] eqn:F; cbn [devocab1]; [|reflexivity]. rewrite (vfind_inv_vfind tbl ND bs i F). reflexivity.
Qed.

(* ReplaceVocabUnslicer reads back the (index, word) tokens ReplaceVocabSlicer sends, when every word fits its limit *)
Lemma parse_table_tokens tbl : forallb word_ok (map fst tbl) = true ->
  forall acc n rest, parse_table (table_tokens tbl ++ TClose n :: rest) acc = Some (Some (acc ++ tbl), rest).
Proof.
  induction tbl as [|[s i] r IH]; intros WK acc n rest; cbn [table_tokens app parse_table].
  - rewrite app_nil_r. reflexivity.
  - cbn [map fst forallb] in WK. apply andb_true_iff in WK as [W1 W2]. rewrite W1, (IH W2), <- app_assoc. reflexivity.
Qed.

Lemma setvocab_view fuel cur n tbl rest out :
  forallb word_ok (map fst tbl) = true ->
  receiver_view fuel tbl rest = Some out ->
  receiver_view (S fuel) cur (setvocab_tokens n tbl ++ rest) = Some (setvocab_tokens n tbl ++ out).
Proof.
  intros WK H. unfold setvocab_tokens.
  change (strs ot_set_vocab) with [TString sv]. cbn [app receiver_view].
  change (hd [] ot_set_vocab) with sv. rewrite list_eqb_refl.
  rewrite <- app_assoc. cbn [app]. rewrite (parse_table_tokens _ WK). cbn [app]. rewrite H. reflexivity.
Qed.

Theorem vocab_switch_in_band : forall items cur fuel,
  NoDup (map snd cur) -> tables_nodup items -> items_ok items = true -> tables_words_ok items = true ->
  (List.length (sender_wire cur items) <= fuel)%nat ->
  receiver_view fuel cur (sender_wire cur items) = Some (plain_tokens items).
Proof.
  induction items as [|it r IH]; intros cur fuel ND TN OK WK L.
  - destruct fuel; reflexivity.
  - destruct it as [t|n tbl].
    + cbn [items_ok] in OK. apply andb_true_iff in OK as [OK OK3]. apply andb_true_iff in OK as [NV OK2].
      cbn [sender_wire plain_tokens tables_nodup tables_words_ok] in *. cbn [List.length] in L.
      destruct fuel as [|fu]; [lia|].
      assert (IHr : receiver_view fu cur (sender_wire cur r) = Some (plain_tokens r)) by (apply IH; auto; lia).
      destruct t; try discriminate; try (cbn [envocab1 receiver_view devocab1]; rewrite IHr; reflexivity).
      * (* STRING: possibly abbreviated *)
        cbn [envocab1]. destruct (vfind bs cur) as [i|] eqn:F.
        -- cbn [receiver_view devocab1]. rewrite (vfind_inv_vfind cur ND bs i F), IHr. reflexivity.
        -- cbn [receiver_view devocab1]. rewrite IHr. reflexivity.
      * (* OPEN: the receiver looks at the next token *)
        cbn [envocab1].
        destruct r as [|[t2|n2 tbl2] r2].
        -- cbn [sender_wire receiver_view devocab1] in *. rewrite IHr. reflexivity.
        -- cbn [sender_wire] in *.
           destruct (envocab1 cur t2) eqn:EV; try (cbn [receiver_view devocab1] in *; rewrite IHr; reflexivity).
           (* the next wire token is a plain STRING: it is t2 itself, and it is not "set-vocab" *)
           assert (T2 : t2 = TString bs).
           { destruct t2; cbn [envocab1] in EV; try discriminate; try (inversion EV; reflexivity).
             destruct (vfind bs0 cur); [discriminate|exact EV]. }
           subst t2. cbn [receiver_view]. change (hd [] ot_set_vocab) with sv.
           apply negb_true_iff in OK2. rewrite OK2.
           rewrite IHr. reflexivity.
        -- (* OPEN directly followed by a table replacement: cannot be a sender's queue, but harmless *)
           cbn [sender_wire] in *. unfold setvocab_tokens in *. cbn [app receiver_view devocab1] in *. rewrite IHr. reflexivity.
    + cbn [sender_wire plain_tokens tables_nodup items_ok tables_words_ok] in *. destruct TN as [ND2 TN].
      apply andb_true_iff in WK as [WK1 WK2].
      rewrite app_length in L. unfold setvocab_tokens in L. cbn [List.length] in L.
      destruct fuel as [|fu]; [lia|].
      apply setvocab_view; [exact WK1|]. apply IH; auto. lia.
Qed.

(* the table's indices have a gap (1 and 2, no 0) *)
Example ex_switch :
  let w := [TOpen 0; TString [108; 105; 115; 116]; TInt 1; TClose 0] in
  let items := map ITok w ++ [ISetVocab 1 [([108; 105; 115; 116], 1); ([100], 2)]] ++ map ITok [TOpen 2; TString [108; 105; 115; 116]; TClose 2] in
  items_ok items = true /\ tables_words_ok items = true /\
  sender_wire [] items = w ++ setvocab_tokens 1 [([108; 105; 115; 116], 1); ([100], 2)] ++ [TOpen 2; TVocab 1; TClose 2] /\
  receiver_view 20 [] (sender_wire [] items) = Some (plain_tokens items).
Proof. vm_compute. repeat split; reflexivity. Qed.

(* table [tuple] in force; [1] sent; setOutgoingVocabulary([b"list", b"x"*101]); [2] sent.  Every other hypothesis of
   vocab_switch_in_band holds.  The receiver raises a Violation on the 101-byte word, drops the whole set-vocab sequence and
   KEEPS [tuple]; the sender installs the new table and abbreviates "list" as VOCAB 0, which the receiver expands to "tuple":
   the list [2] is delivered as the tuple (2,) -- replayed on the code (harness: vocab-switch/word-length family).
   With a 100-byte word everything is fine. *)
Definition long_word (k : nat) : list Z := List.repeat 120 k.
Definition w_tuple : list Z := [116; 117; 112; 108; 101].
Definition w_list : list Z := [108; 105; 115; 116].
Definition long_word_items (k : nat) : list item :=
  map ITok (slice 0 (OList [OInt 1])) ++ [ISetVocab 1 [(w_list, 0); (long_word k, 1)]] ++ map ITok (slice 2 (OList [OInt 2])).
Theorem vocab_switch_long_word_refuted :
  let cur := [(w_tuple, 0)] in
  let items := long_word_items 101 in
  items_ok items = true /\ tables_words_ok items = false /\
  receiver_view 100 cur (sender_wire cur items) = None /\
  (exists toks, receiver_view_v 100 cur (sender_wire cur items) = Some (toks, 1) /\
     unslice true 0 toks = Some ([(0, {| n_kind := CList; n_items := [VInt 1] |}); (2, {| n_kind := CTuple; n_items := [VInt 2] |})],
                                 [VPtr 0; VPtr 2])) /\
  (* inside the guard: a 100-byte word *)
  tables_words_ok (long_word_items 100) = true /\
  (exists toks, receiver_view 100 cur (sender_wire cur (long_word_items 100)) = Some toks /\
     unslice true 0 toks = Some ([(0, {| n_kind := CList; n_items := [VInt 1] |}); (2, {| n_kind := CList; n_items := [VInt 2] |})],
                                 [VPtr 0; VPtr 2])).
Proof.
  cbv zeta. split; [vm_compute; reflexivity|]. split; [vm_compute; reflexivity|]. split; [vm_compute; reflexivity|].
  split; [eexists; split; vm_compute; reflexivity|]. split; [vm_compute; reflexivity|].
  eexists; split; vm_compute; reflexivity.
Qed.
