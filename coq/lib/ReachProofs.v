(* C06: proofs about the one-step model lib/Reach.v.
   `step` on `Msg` is brought into normal form once (broker_call_cases, obj_call_cases, step_msg_cases: the few ways a call
   can end, each with what the dispatcher must have seen); the theorems about a single call are case analyses on that form.
   For histories, msg_effect lists what a call can do to the tables; the invariant of `run`, the frame and locality theorems
   and the origin theorems come from it. *)
From Coq Require Import ZArith List String Bool Lia Ascii NArith.
Import ListNotations.
Require Import Verif.lib.PyLite Verif.gen.ReachGen Verif.lib.Reach.
Local Open Scope Z_scope.

(* the constants of gen/ReachGen.v are translated from the source on every run: these facts about them are checked, by
   evaluation, against the translation at hand *)
Lemma swissnum_bits : 128 <= NAMEBITS /\ swissnum_source = OsEntropy.
Proof. split; [unfold NAMEBITS; lia | reflexivity]. Qed.

Lemma remote_prefix_is : remote_prefix = "remote_"%string.
Proof. reflexivity. Qed.

Lemma broker_clid_is : broker_clid = 0.
Proof. reflexivity. Qed.

Lemma broker_methods_pinned :
  broker_methods = ["getReferenceByName"; "decref"; "decgift"]%string /\
  broker_remote_attrs = map (fun m => remote_prefix ++ m)%string ["decref"; "decgift"; "getReferenceByName"]%string.
Proof. split; reflexivity. Qed.

(* every OPEN type accepted below the top level builds plain data or one of the four reference forms, none of them code;
   the top level accepts the three sequences of the call protocol only *)
Definition data_types : list (list string) :=
  [["arguments"]; ["boolean"]; ["decimal"]; ["dict"]; ["immutable-set"]; ["list"]; ["my-reference"]; ["none"];
   ["reference"]; ["set"]; ["their-reference"]; ["tuple"]; ["unicode"]; ["your-reference"]]%string.
Lemma open_types_closed_all :
  forallb (fun k => mem_type k data_types) open_types = true /\
  forallb (fun t => negb (mem_type [t] open_types))
          ["instance"; "class"; "module"; "function"; "method"; "call"; "answer"; "error"; "copyable"]%string = true /\
  top_types = [["answer"]; ["call"]; ["error"]]%string.
Proof. split; [|split]; reflexivity. Qed.

Lemma zget_In {V} k (v : V) l : zget k l = Some v -> In (k, v) l.
Proof.
  induction l as [|[k' v'] l IH]; cbn [zget]; [discriminate|].
  destruct (Z.eqb_spec k k') as [->|_]; [intros [= ->]; left; reflexivity | right; auto].
Qed.

Lemma In_zdel {V} k (x : Z * V) l : In x (zdel k l) -> In x l.
Proof.
  induction l as [|[k' v'] l IH]; cbn [zdel]; [tauto|].
  destruct (k =? k'); cbn [In]; tauto.
Qed.

Lemma In_zset {V} k (v : V) x l : In x (zset k v l) -> x = (k, v) \/ In x l.
Proof. intros [H|H]; [left; auto | right; eapply In_zdel; eauto]. Qed.

Lemma zget_zdel_same {V} k (l : list (Z * V)) : zget k (zdel k l) = None.
Proof.
  induction l as [|[k' v] l IH]; [reflexivity|]. cbn [zdel]. destruct (k =? k') eqn:E; [exact IH|]. cbn [zget]. rewrite E. exact IH.
Qed.

Lemma zdel_zdel {V} k (l : list (Z * V)) : zdel k (zdel k l) = zdel k l.
Proof.
  induction l as [|[k' v] l IH]; cbn; [reflexivity|]. destruct (k =? k') eqn:E; [exact IH|].
  cbn. rewrite E, IH. reflexivity.
Qed.

Lemma zget_zset_same {V} k (v : V) l : zget k (zset k v l) = Some v.
Proof. cbn. rewrite Z.eqb_refl. reflexivity. Qed.

Lemma sget_In {V} k (v : V) l : sget k l = Some v -> In (k, v) l.
Proof.
  induction l as [|[k' v'] l IH]; cbn [sget]; [discriminate|].
  destruct (String.eqb_spec k k') as [->|_]; [intros [= ->]; left; reflexivity | right; auto].
Qed.

Lemma sget_none_not_in {V} n (v : V) l : sget n l = None -> ~ In (n, v) l.
Proof.
  induction l as [|[k v'] l IH]; cbn [sget In]; [tauto|].
  destruct (String.eqb_spec n k) as [->|NE]; [discriminate|]. intros G [[= E _]|H]; [congruence | exact (IH G H)].
Qed.

Lemma In_sdel {V} k (x : string * V) l : In x (sdel k l) -> In x l.
Proof.
  induction l as [|[k' v'] l IH]; cbn [sdel]; [tauto|].
  destruct (String.eqb k k'); cbn [In]; tauto.
Qed.

Lemma In_sset {V} k (v : V) x l : In x (sset k v l) -> x = (k, v) \/ In x l.
Proof. intros [H|H]; [left; auto | right; eapply In_sdel; eauto]. Qed.

Lemma sget_sdel_same {V} n (l : list (string * V)) : sget n (sdel n l) = None.
Proof.
  induction l as [|[k v] l IH]; [reflexivity|]. cbn [sdel]. destruct (String.eqb n k) eqn:E; [exact IH|].
  cbn [sget]. rewrite E. exact IH.
Qed.

Lemma sget_sdel_other {V} n n' (l : list (string * V)) : n' <> n -> sget n' (sdel n l) = sget n' l.
Proof.
  intros NE. induction l as [|[k v] l IH]; [reflexivity|]. cbn [sdel]. destruct (String.eqb_spec n k) as [<-|_]; cbn [sget].
  - destruct (String.eqb_spec n' n); [contradiction | exact IH].
  - destruct (String.eqb n' k); [reflexivity | exact IH].
Qed.

Lemma mem_str_In s l : mem_str s l = true <-> In s l.
Proof.
  unfold mem_str. rewrite existsb_exists. split.
  - intros [x [H1 H2]]. apply String.eqb_eq in H2. subst; auto.
  - intros H. exists s. split; auto. apply String.eqb_refl.
Qed.

Lemma find_obj_In o l k rc : find_obj o l = Some (k, rc) -> In (k, (o, rc)) l.
Proof.
  induction l as [|[k' [o' rc']] l IH]; cbn [find_obj]; [discriminate|].
  destruct (Z.eqb_spec o o') as [->|_]; [intros [= -> ->]; left; reflexivity | right; auto].
Qed.

Lemma prefix_app p s : String.prefix p (p ++ s) = true.
Proof.
  induction p as [|a p IH]; cbn.
  - destruct s; reflexivity.
  - destruct (ascii_dec a a); [exact IH | congruence].
Qed.

(* the translated ReferenceableTracker.decref *)
Lemma tracker_decref_spec n rc done rc' :
  tracker_decref n rc = Ok (done, rc') -> rc' = rc - n /\ 0 <= rc' /\ (done = true <-> rc' = 0).
Proof.
  unfold tracker_decref. rewrite Z.geb_leb. destruct (Z.leb_spec n rc); [|discriminate].
  destruct (Z.eqb_spec (rc - n) 0); intros [= <- <-]; repeat split; try lia; intros; congruence.
Qed.

Definition argres_inst (r : argres) : list Z := match r with ArgsOk i | ArgsFail i _ => i end.

Lemma do_args_inst copy ex args : forall inst0 cls,
  In cls (argres_inst (do_args copy ex args inst0)) ->
  In cls inst0 \/ exists n, In (ACopyable n) args /\ sget n copy = Some cls.
Proof.
  induction args as [|a args IH]; intros inst0 cls; cbn [do_args]; [auto|].
  assert (T : forall i, In cls (argres_inst (do_args copy ex args i)) ->
                        In cls i \/ exists n, In (ACopyable n) (a :: args) /\ sget n copy = Some cls).
  { intros i Hi. destruct (IH _ _ Hi) as [?|[n [? ?]]]; [auto | right; exists n; split; [right|]; auto]. }
  destruct a as [v|s|k|n|t]; [exact (T _) | exact (T _) | | |].
  - destruct ((k <? 0) && negb yourref_accepts_neg); [auto|].
    destruct ((k =? broker_clid) || is_some (zget k ex)); [exact (T _) | auto].
  - destruct (sget n copy) as [c|] eqn:E; [|auto].
    intros H. destruct (T _ H) as [[?|[<-|[]]]%in_app_or|?]; auto. right; exists n; split; [left|]; auto.
  - destruct (mem_type [t] open_types); [exact (T _) | auto].
Qed.

Definition arg_accepted (copy : list (string * Z)) (ex : list (Z * (Z * Z))) (a : arg) : Prop :=
  match a with
  | AInt _ | ABytes _ => True
  | AYourRef k => k = broker_clid \/ exists v, zget k ex = Some v
  | ACopyable n => exists c, sget n copy = Some c
  | AOpen t => mem_type [t] open_types = true
  end.

Lemma do_args_ok copy ex args : forall inst0 inst,
  do_args copy ex args inst0 = ArgsOk inst -> Forall (arg_accepted copy ex) args.
Proof.
  induction args as [|a args IH]; intros inst0 inst H; [constructor|]. cbn [do_args] in H.
  destruct a as [v|s|k|n|t]; cbn [arg_accepted].
  - constructor; [exact I | eauto].
  - constructor; [exact I | eauto].
  - destruct ((k <? 0) && negb yourref_accepts_neg); [discriminate|].
    destruct (Z.eqb_spec k broker_clid) as [E|_]; cbn [orb] in H; [constructor; [left; exact E | eauto]|].
    destruct (zget k ex) as [v|] eqn:G; cbn [is_some] in H; [constructor; [right; eauto | eauto] | destruct clid_lookup; discriminate].
  - destruct (sget n copy) as [c|] eqn:E; [constructor; cbn; eauto | discriminate].
  - destruct (mem_type [t] open_types) eqn:E; [constructor; cbn; eauto | discriminate].
Qed.

Lemma do_args_abort copy ex args : forall inst i,
  do_args copy ex args inst = ArgsFail i AbortR -> exists k, In (AYourRef k) args /\ k < 0.
Proof.
  induction args as [|a args IH]; intros inst i H; cbn [do_args] in H; [discriminate|].
  assert (W : forall inst', do_args copy ex args inst' = ArgsFail i AbortR -> exists k, In (AYourRef k) (a :: args) /\ k < 0).
  { intros inst' H'. destruct (IH _ _ H') as [k [A B]]. exists k. split; [right; exact A | exact B]. }
  destruct a as [v|s|k|n|t]; try exact (W _ H).
  - unfold yourref_accepts_neg in H. cbn [negb] in H. rewrite andb_true_r in H. destruct (k <? 0) eqn:N.
    + exists k. split; [left; reflexivity | apply Z.ltb_lt; exact N].
    + destruct (_ || _); [exact (W _ H) | destruct clid_lookup; discriminate].
  - destruct (sget n copy); [exact (W _ H) | discriminate].
  - destruct (mem_type [t] open_types); [exact (W _ H) | discriminate].
Qed.

Inductive broker_effect : string -> list arg -> effect -> Prop :=
| BeLookup n : broker_effect "getReferenceByName" [ABytes n] (match n with MStr nm => FxLookup nm | MBad => FxNone end)
| BeDecref k n : broker_effect "decref" [AInt k; AInt n] (FxDecref k n)
| BeDecgift k n : broker_effect "decgift" [AInt k; AInt n] FxNone.

Inductive broker_call_spec (m : mname) (args : list arg) : outcome * effect -> Prop :=
| BcEnter s fx : m = MStr s -> In s broker_methods -> In (remote_prefix ++ s)%string broker_remote_attrs ->
    broker_effect s args fx -> broker_call_spec m args (Enter (EBroker (remote_prefix ++ s)), fx)
| BcReject : broker_call_spec m args (Reject, FxNone).

Lemma broker_call_cases m args : broker_call_spec m args (broker_call m args).
Proof.
  unfold broker_call. destruct m as [s|]; [|apply BcReject]. cbn [iface_enforced andb].
  destruct (mem_str s broker_methods) eqn:M; [|apply BcReject]. apply mem_str_In in M.
  destruct (mem_str (remote_prefix ++ s) broker_remote_attrs) eqn:A; [|apply BcReject]. apply mem_str_In in A. cbn [negb].
  destruct (String.eqb_spec s "getReferenceByName") as [E|_].
  { destruct args as [|[] []]; try apply BcReject. apply BcEnter; auto. rewrite E. constructor. }
  destruct (String.eqb_spec s "decref") as [E|_].
  { destruct args as [|[] args]; try apply BcReject. destruct args as [|[] args]; try apply BcReject.
    destruct args; [|apply BcReject]. apply BcEnter; auto. rewrite E. constructor. }
  destruct (String.eqb_spec s "decgift") as [E|_]; [|apply BcReject].
  destruct args as [|[] args]; try apply BcReject. destruct args as [|[] args]; try apply BcReject.
  destruct args; [|apply BcReject]. apply BcEnter; auto. rewrite E. constructor.
Qed.

Lemma broker_call_lookup m args out n :
  broker_call m args = (out, FxLookup n) -> m = MStr "getReferenceByName" /\ args = [ABytes (MStr n)].
Proof.
  destruct (broker_call_cases m args) as [s fx' -> _ _ [[nm|]| |]|]; intros [= _ <-]. auto.
Qed.

Inductive obj_call_spec (w : world) (copy : list (string * Z)) (cn : conn) (clid : Z) (m : mname) (args : list arg)
  : list Z * outcome -> Prop :=
| OcRefused : obj_call_spec w copy cn clid m args ([], Reject)      (* unknown id, undecodable name, name outside the interface *)
| OcArgsFail inst r : do_args copy (c_exports cn) args [] = ArgsFail inst r ->
    obj_call_spec w copy cn clid m args (inst, refuse r)
| OcNoAttr inst : do_args copy (c_exports cn) args [] = ArgsOk inst -> obj_call_spec w copy cn clid m args (inst, Reject)
| OcCallable o rc inst : zget clid (c_exports cn) = Some (o, rc) -> clid < 0 ->
    do_args copy (c_exports cn) args [] = ArgsOk inst -> obj_call_spec w copy cn clid m args (inst, Enter (ECallable o))
| OcObj o rc s inst : zget clid (c_exports cn) = Some (o, rc) -> 0 <= clid -> m = MStr s ->
    do_args copy (c_exports cn) args [] = ArgsOk inst ->
    In (remote_prefix ++ s)%string (o_attrs (w_obj w o)) -> (forall l, o_iface (w_obj w o) = Some l -> In s l) ->
    obj_call_spec w copy cn clid m args (inst, Enter (EObj o (remote_prefix ++ s))).

Lemma obj_call_cases w copy cn clid m args : obj_call_spec w copy cn clid m args (obj_call w copy cn clid m args).
Proof.
  unfold obj_call. destruct (zget clid (c_exports cn)) as [[o rc]|] eqn:G; [|apply OcRefused].
  unfold negative_clid_ignores_name. rewrite andb_true_r. destruct (Z.ltb_spec clid 0) as [S|S].
  { destruct (do_args copy (c_exports cn) args []) as [i|i r] eqn:D; [eapply OcCallable; eauto | apply OcArgsFail; exact D]. }
  destruct m as [s|]; [|apply OcRefused]. cbn [iface_enforced andb].
  destruct (match o_iface (w_obj w o) with Some l => negb (mem_str s l) | None => false end) eqn:IF; [apply OcRefused|].
  destruct (do_args copy (c_exports cn) args []) as [i|i r] eqn:D; [|apply OcArgsFail; exact D].
  destruct (mem_str (remote_prefix ++ s) (o_attrs (w_obj w o))) eqn:A; [|apply OcNoAttr; exact D].
  eapply OcObj; eauto; [apply mem_str_In; exact A|].
  intros l Hl. rewrite Hl in IF. apply negb_false_iff in IF. apply mem_str_In; exact IF.
Qed.

Lemma obj_call_enter w copy cn clid m args inst e :
  obj_call w copy cn clid m args = (inst, Enter e) ->
  exists o rc, zget clid (c_exports cn) = Some (o, rc) /\
  ((clid < 0 /\ e = ECallable o) \/
   (0 <= clid /\ exists s, m = MStr s /\ e = EObj o (remote_prefix ++ s) /\
      In (remote_prefix ++ s)%string (o_attrs (w_obj w o)) /\
      (forall l, o_iface (w_obj w o) = Some l -> In s l))) /\
  do_args copy (c_exports cn) args [] = ArgsOk inst.
Proof.
  destruct (obj_call_cases w copy cn clid m args) as [|i [] _|i _|o rc i G S D|o rc s i G S M D A IF]; intros [= <- <-];
    exists o, rc; (split; [exact G|]); (split; [|exact D]); [left; auto | right; eauto 6].
Qed.

Definition exported (st : state) (c : cid) (clid o : Z) : Prop :=
  exists rc, zget clid (c_exports (get_conn st c)) = Some (o, rc).

Definition run_effect (w : world) (st : state) (c : cid) (req : Z) (fx : effect) : state * list (cid * Z * Z) :=
  match fx with
  | FxNone => (st, [])
  | FxDrop => (set_conn st c (drop_conn (get_conn st c)), [])
  | FxDecref k n => (set_conn st c (decref (get_conn st c) k n), [])
  | FxLookup nm =>
    match found_name w st nm with
    | None => (st, [])
    | Some (o, st0) => if req =? 0 then (st0, []) else grant w st0 c o ""
    end
  end.

Inductive msg_spec (w : world) (st : state) (c : cid) (req clid : Z) (m : mname) (args : list arg) : state * result -> Prop :=
| MsDead : c_alive (get_conn st c) = false -> msg_spec w st c req clid m args (st, res0 Dead)
| MsBroker out fx : c_alive (get_conn st c) = true -> clid = broker_clid -> broker_call m args = (out, fx) ->
    msg_spec w st c req clid m args
      (fst (run_effect w st c req fx), {| r_inst := []; r_out := out; r_sent := snd (run_effect w st c req fx) |})
| MsObj inst out : c_alive (get_conn st c) = true -> clid <> broker_clid ->
    obj_call (eff w (s_decl st)) (s_copy st) (get_conn st c) clid m args = (inst, out) ->
    msg_spec w st c req clid m args
      (match out with Aborted => set_conn st c (drop_conn (get_conn st c)) | _ => st end,
       {| r_inst := inst; r_out := out; r_sent := [] |}).

Lemma step_msg_cases w st c req clid m args : msg_spec w st c req clid m args (step w st (Msg c req clid m args)).
Proof.
  cbn [step]. destruct (c_alive (get_conn st c)) eqn:AL; cbn [negb]; [|apply MsDead; exact AL].
  destruct (Z.eqb_spec clid broker_clid) as [BC|BC].
  - destruct (broker_call m args) as [out fx] eqn:B. pose proof (MsBroker w st c req clid m args out fx AL BC B) as M.
    destruct fx as [| |n|k n]; try exact M. cbn [run_effect] in M.
    destruct (found_name w st n) as [[o st0]|]; [destruct (req =? 0); [|destruct (grant w st0 c o "")]|]; exact M.
  - destruct (obj_call (eff w (s_decl st)) (s_copy st) (get_conn st c) clid m args) as [inst out] eqn:O.
    exact (MsObj w st c req clid m args inst out AL BC O).
Qed.

Theorem calls_sound : forall w st c req clid m args st' r e,
  step w st (Msg c req clid m args) = (st', r) -> r_out r = Enter e ->
  c_alive (get_conn st c) = true /\
  ((clid = 0 /\ exists s, m = MStr s /\ In s broker_methods /\ e = EBroker (remote_prefix ++ s)) \/
   (clid < 0 /\ exists o, exported st c clid o /\ e = ECallable o) \/
   (0 < clid /\ exists o s, exported st c clid o /\ m = MStr s /\ e = EObj o (remote_prefix ++ s) /\
        In (remote_prefix ++ s)%string (o_attrs (w_obj w o)) /\
        (forall l, iface_of w (s_decl st) o = Some l -> In s l))).
Proof.
  intros w st c req clid m args st' r e H Hout. revert H.
  destruct (step_msg_cases w st c req clid m args) as [AL|out fx AL -> B|inst out AL NB O]; intros [= _ <-];
    cbn [r_out] in Hout; [discriminate | subst out..].
  - split; [exact AL|]. left. split; [reflexivity|].
    revert B. destruct (broker_call_cases m args) as [s fx' M HM _ _|]; intros [= <- _]. exists s; auto.
  - split; [exact AL|]. right.
    destruct (obj_call_enter _ _ _ _ _ _ _ _ O) as [o [rc [G [[[S E]|[S [s [M [E [A I]]]]]] _]]]].
    + left. split; [exact S|]. exists o. split; [exists rc; exact G | exact E].
    + right. unfold broker_clid in NB. split; [lia|]. exists o, s. split; [exists rc; exact G | auto].
Qed.

(* only attributes carrying the "remote_" prefix are ever looked up on an application object or on the broker *)
Theorem entered_attr_prefixed : forall w st c req clid m args st' r,
  step w st (Msg c req clid m args) = (st', r) ->
  (forall o a, r_out r = Enter (EObj o a) -> String.prefix "remote_" a = true) /\
  (forall a, r_out r = Enter (EBroker a) -> String.prefix "remote_" a = true).
Proof.
  intros w st c req clid m args st' r H.
  assert (P : forall e, r_out r = Enter e ->
                        match e with EObj _ a | EBroker a => String.prefix "remote_" a = true | ECallable _ => True end).
  { intros e Hout.
    destruct (calls_sound _ _ _ _ _ _ _ _ _ _ H Hout) as [_ [[_ [s [_ [_ ->]]]]|[[_ [o [_ ->]]]|[_ [o [s [_ [_ [-> _]]]]]]]]];
      try exact I; apply (prefix_app "remote_"). }
  split; [intros o a Hout | intros a Hout]; exact (P _ Hout).
Qed.

Lemma iface_of_spec w decl o :
  iface_of w decl o = match o_iface (w_obj w o) with Some l => Some l | None => zget o decl end.
Proof. unfold iface_of, interface_lookup. destruct (o_iface (w_obj w o)); reflexivity. Qed.

(* an object that exposes a RemoteInterface -- declared by its class or on the instance itself -- is entered only through
   the methods of that interface, whatever other instances of its class expose *)
Theorem instance_interface_enforced : forall w st c req clid m args st' r o a l,
  step w st (Msg c req clid m args) = (st', r) -> r_out r = Enter (EObj o a) ->
  match o_iface (w_obj w o) with Some l' => Some l' | None => zget o (s_decl st) end = Some l ->
  exists s, m = MStr s /\ a = (remote_prefix ++ s)%string /\ In s l.
Proof.
  intros w st c req clid m args st' r o a l H Hout HI. rewrite <- iface_of_spec in HI.
  destruct (calls_sound _ _ _ _ _ _ _ _ _ _ H Hout) as [_ [[_ [s [_ [_ E]]]]|[[_ [o' [_ E]]]|[_ [o' [s [_ [M [E [_ I]]]]]]]]]];
    try discriminate.
  injection E as <- ->. exists s. auto.
Qed.

(* instances are created only of classes registered for pass-by-copy, under the names the message carries *)
Theorem classes_sound : forall w st c req clid m args st' r cls,
  step w st (Msg c req clid m args) = (st', r) -> In cls (r_inst r) ->
  exists n, In (ACopyable n) args /\ sget n (s_copy st) = Some cls.
Proof.
  intros w st c req clid m args st' r cls H Hin. revert H.
  destruct (step_msg_cases w st c req clid m args) as [AL|out fx AL BC B|inst out AL NB O]; intros [= _ <-];
    cbn [r_inst res0] in Hin; [destruct Hin.. |].
  assert (D : In cls (argres_inst (do_args (s_copy st) (c_exports (get_conn st c)) args [])) ->
              exists n, In (ACopyable n) args /\ sget n (s_copy st) = Some cls).
  { intros Hd. destruct (do_args_inst _ _ _ _ _ Hd) as [[]|?]; auto. }
  revert O Hin. destruct (obj_call_cases (eff w (s_decl st)) (s_copy st) (get_conn st c) clid m args) as [|i r E|i E|o rc i _ _ E|o rc s i _ _ _ E _ _];
    intros [= <- _] Hin; [destruct Hin | apply D; rewrite E; exact Hin..].
Qed.

Lemma msg_outcome_effect w st c req clid m args st' r : step w st (Msg c req clid m args) = (st', r) ->
  match r_out r with
  | Enter (EBroker _) => True
  | Aborted => st' = set_conn st c (drop_conn (get_conn st c)) /\ r_sent r = []
  | _ => st' = st /\ r_sent r = []
  end.
Proof.
  intros H. revert H.
  destruct (step_msg_cases w st c req clid m args) as [AL|out fx AL BC B|inst out AL NB O]; intros [= <- <-]; cbn [r_out r_sent res0].
  - auto.
  - revert B. destruct (broker_call_cases m args); intros [= <- <-]; [exact I | auto].
  - destruct out as [[]| | | |]; auto.
Qed.

Theorem refusal_pure : forall w st c req clid m args st' r,
  step w st (Msg c req clid m args) = (st', r) -> r_out r = Reject \/ r_out r = Dead -> st' = st /\ r_sent r = [].
Proof.
  intros w st c req clid m args st' r H Hout. apply msg_outcome_effect in H. destruct Hout as [E|E]; rewrite E in H; exact H.
Qed.

(* a dropped connection loses its own table; the other connection and the Tub's tables are untouched *)
Theorem aborted_local : forall w st c req clid m args st' r,
  step w st (Msg c req clid m args) = (st', r) -> r_out r = Aborted ->
  st' = set_conn st c (drop_conn (get_conn st c)) /\ r_sent r = [].
Proof. intros w st c req clid m args st' r H Hout. apply msg_outcome_effect in H. rewrite Hout in H. exact H. Qed.

Theorem plain_call_pure : forall w st c req clid m args st' r,
  step w st (Msg c req clid m args) = (st', r) ->
  (exists o a, r_out r = Enter (EObj o a)) \/ (exists o, r_out r = Enter (ECallable o)) -> st' = st /\ r_sent r = [].
Proof.
  intros w st c req clid m args st' r H Hout. apply msg_outcome_effect in H.
  destruct Hout as [[o [a E]]|[o E]]; rewrite E in H; exact H.
Qed.

(* an id this connection's table does not hold is refused, whatever the other connection's table contains *)
Theorem foreign_clid_refused : forall w st c req clid m args,
  clid <> 0 -> c_alive (get_conn st c) = true -> zget clid (c_exports (get_conn st c)) = None ->
  step w st (Msg c req clid m args) = (st, res0 Reject).
Proof.
  intros w st c req clid m args NZ AL G. cbn [step]. rewrite AL. cbn [negb].
  destruct (Z.eqb_spec clid broker_clid) as [E|_]; [contradiction|]. unfold obj_call. rewrite G. reflexivity.
Qed.

(* holds for calls to the broker too: its schemas admit only integers and byte strings *)
Theorem entering_call_args_accepted : forall w st c req clid m args st' r e,
  step w st (Msg c req clid m args) = (st', r) -> r_out r = Enter e ->
  Forall (arg_accepted (s_copy st) (c_exports (get_conn st c))) args.
Proof.
  intros w st c req clid m args st' r e H Hout. revert H.
  destruct (step_msg_cases w st c req clid m args) as [AL|out fx AL BC B|inst out AL NB O]; intros [= _ <-];
    cbn [r_out] in Hout; [discriminate | subst out..].
  - revert B. destruct (broker_call_cases m args) as [s fx' _ _ _ []|]; [intros _; repeat constructor.. | discriminate].
  - destruct (obj_call_enter _ _ _ _ _ _ _ _ O) as [o [rc [_ [_ D]]]].
    exact (do_args_ok _ _ _ _ _ D).
Qed.

(* an argument of an OPEN type outside the closed registry, an unregistered copyable name or a your-reference this
   connection cannot resolve keeps the call from entering anything *)
Theorem bad_argument_never_enters : forall w st c req clid m args st' r e,
  step w st (Msg c req clid m args) = (st', r) -> r_out r = Enter e -> clid <> 0 ->
  (forall t, In (AOpen t) args -> mem_type [t] open_types = true) /\
  (forall n, In (ACopyable n) args -> exists cls, sget n (s_copy st) = Some cls) /\
  (forall k, In (AYourRef k) args -> k = 0 \/ exists o, exported st c k o).
Proof.
  intros w st c req clid m args st' r e H Hout _. pose proof (entering_call_args_accepted _ _ _ _ _ _ _ _ _ _ H Hout) as D.
  rewrite Forall_forall in D.
  split; [|split]; [intros t Hx | intros n Hx | intros k Hx]; apply D in Hx; [exact Hx | exact Hx |].
  destruct Hx as [E|[[o' rc'] E]]; [left; exact E | right; exists o', rc'; exact E].
Qed.

(* the ONLY inbound call that costs the peer its connection is a protocol error: a NEG token inside a your-reference
   (YourReferenceUnslicer.checkToken: BananaError).  Unknown ids -- as target or as argument --, unknown names, classes, OPEN types
   and method names that are not UTF-8 all fail just that request. *)
Theorem dropped_only_for_protocol_error : forall w st c req clid m args st' r,
  step w st (Msg c req clid m args) = (st', r) -> r_out r = Aborted ->
  clid <> 0 /\ exists k, In (AYourRef k) args /\ k < 0.
Proof.
  intros w st c req clid m args st' r H Hout. revert H.
  destruct (step_msg_cases w st c req clid m args) as [AL|out fx AL BC B|inst out AL NB O]; intros [= _ <-];
    cbn [r_out] in Hout; [discriminate | subst out..].
  - revert B. destruct (broker_call_cases m args); discriminate.
  - split; [exact NB|]. revert O.
    destruct (obj_call_cases (eff w (s_decl st)) (s_copy st) (get_conn st c) clid m args) as [|i [] D| | |]; try discriminate.
    intros _. exact (do_args_abort _ _ _ _ _ D).
Qed.

(* "every other object id ... fails THAT request", for a your-reference ARGUMENT naming an id the connection's table does not
   hold (foolscap commit 0058e18): exactly that request is refused -- the connection stays, no table changes, nothing is sent *)
Theorem unknown_yourref_fails_only_that_request : forall w st c req clid m args st' r k,
  step w st (Msg c req clid m args) = (st', r) -> clid <> 0 -> c_alive (get_conn st c) = true ->
  In (AYourRef k) args -> k <> 0 -> zget k (c_exports (get_conn st c)) = None ->
  (forall k', In (AYourRef k') args -> 0 <= k') ->
  r_out r = Reject /\ st' = st /\ r_sent r = [] /\ c_alive (get_conn st' c) = true.
Proof.
  intros w st c req clid m args st' r k H NZ AL Hin KZ G NN. revert H.
  destruct (step_msg_cases w st c req clid m args) as [A|out fx _ B _|inst out _ _ O]; [congruence | contradiction |]. intros [= <- <-].
  assert (NOk : forall i, do_args (s_copy st) (c_exports (get_conn st c)) args [] <> ArgsOk i).
  { intros i D. apply do_args_ok in D. rewrite Forall_forall in D. destruct (D _ Hin) as [?|[v E]]; [contradiction | congruence]. }
  revert O. destruct (obj_call_cases (eff w (s_decl st)) (s_copy st) (get_conn st c) clid m args) as [|i [] D|i D|o rc i _ _ D|o rc s i _ _ _ D _ _];
    intros [= <- <-]; try (destruct (NOk _ D)); cbn; auto.
  destruct (do_args_abort _ _ _ _ _ D) as [k' [A B]]. specialize (NN k' A). lia.
Qed.

Theorem top_level_pure : forall w st c t st' r,
  step w st (TopMsg c t) = (st', r) -> st' = st /\ r_inst r = [] /\ r_sent r = [] /\ (r_out r = Reject \/ r_out r = Dead).
Proof.
  intros w st c t st' r H. cbn [step] in H. inversion H. cbn.
  destruct (c_alive (get_conn st' c)); auto.
Qed.

(* name lookup yields only what the name table holds, or what a registered handler provides *)
Theorem names_sound : forall w st n o,
  lookup_name w st n = Some o ->
  In (n, o) (s_n2r st) \/ (sget n (s_n2r st) = None /\ sget n (s_h st) = Some o).
Proof.
  intros w st n o. unfold lookup_name. destruct (sget n (s_n2r st)) as [o'|] eqn:E; intros H.
  - inversion H; subst. left. apply sget_In; auto.
  - right; auto.
Qed.

Lemma found_name_some w st n o st0 : found_name w st n = Some (o, st0) ->
  lookup_name w st n = Some o /\ s_n2r st0 = s_n2r st /\ forall c, get_conn st0 c = get_conn st c.
Proof.
  unfold found_name, lookup_name, handler_answers_cached. destruct (sget n (s_n2r st)); [intros [= <- <-]; auto|].
  destruct (sget n (s_h st)); [|discriminate].
  (* `inversion`, not an injection pattern: the proof term of the latter is slow to check here *)
  destruct (is_some _); intros E; inversion E; subst; (split; [reflexivity | split; [reflexivity | intros []; reflexivity]]).
Qed.

Lemma msg_effect w st c req clid m args st' r : step w st (Msg c req clid m args) = (st', r) ->
  (r_sent r = [] /\ (st' = st \/ st' = set_conn st c (drop_conn (get_conn st c)) \/
                     exists k n, st' = set_conn st c (decref (get_conn st c) k n))) \/
  (exists n o st0, clid = broker_clid /\ m = MStr "getReferenceByName" /\ args = [ABytes (MStr n)] /\
     found_name w st n = Some (o, st0) /\
     if req =? 0 then st' = st0 /\ r_sent r = [] else grant w st0 c o "" = (st', r_sent r)).
Proof.
  intros S. revert S.
  destruct (step_msg_cases w st c req clid m args) as [AL|out fx AL BC B|inst out AL NB O]; intros [= <- <-]; cbn [r_sent res0].
  - left. auto.
  - destruct fx as [| |n|k n]; cbn [run_effect fst snd]; try (left; eauto 6; fail).
    destruct (found_name w st n) as [[o st0]|] eqn:FN; [|left; auto].
    destruct (broker_call_lookup _ _ _ _ B) as [M A]. right. exists n, o, st0. repeat (split; [assumption|]).
    destruct (req =? 0); [split; reflexivity | apply surjective_pairing].
  - left. split; [reflexivity|]. destruct out; auto.
Qed.

Lemma get_set_same st c x : get_conn (set_conn st c x) c = x.
Proof. destruct c; reflexivity. Qed.
Lemma get_set_other st c c' x : c <> c' -> get_conn (set_conn st c x) c' = get_conn st c'.
Proof. destruct c, c'; intros H; try reflexivity; contradiction. Qed.
Lemma set_get_id st c : set_conn st c (get_conn st c) = st.
Proof. destruct st, c; reflexivity. Qed.
Lemma set_conn_comm st c c' x y : c <> c' -> set_conn (set_conn st c x) c' y = set_conn (set_conn st c' y) c x.
Proof. destruct c, c'; intros H; try reflexivity; contradiction. Qed.
Lemma get_assign st o p sw c : get_conn (assign_name st o p sw) c = get_conn st c.
Proof. unfold assign_name. destruct (zget o (s_r2n st)); destruct c; reflexivity. Qed.
Lemma assign_set_conn st c x o p sw : assign_name (set_conn st c x) o p sw = set_conn (assign_name st o p sw) c x.
Proof. unfold assign_name. destruct c; cbn [set_conn s_r2n]; destruct (zget o (s_r2n st)); reflexivity. Qed.
Lemma cid_dec (a b : cid) : {a = b} + {a <> b}.
Proof. decide equality. Qed.
Lemma cid_eqb_eq a b : cid_eqb a b = true <-> a = b.
Proof. destruct a, b; cbn; split; intros; congruence. Qed.

Definition grant_slot (w : world) (cn : conn) (o : Z) : Z * Z * Z :=
  match find_obj o (c_exports cn) with
  | Some (k, rc) => (k, rc, c_next cn)
  | None => (match o_kind (w_obj w o) with KObj => c_next cn | KCallable => - c_next cn end, 0, c_next cn + 1)
  end.

Lemma grant_eq w st c o sw :
  grant w st c o sw =
  if c_alive (get_conn st c) then
    let '(clid, rc, nxt) := grant_slot w (get_conn st c) o in
    let st1 := set_conn st c {| c_alive := true; c_exports := zset clid (o, rc + 1) (c_exports (get_conn st c)); c_next := nxt |} in
    (if rc + 1 =? 1 then assign_name st1 o "" sw else st1, [(c, clid, o)])
  else (st, []).
Proof. unfold grant. destruct (c_alive (get_conn st c)); reflexivity. Qed.

Lemma step_grant w st c o sw :
  step w st (Grant c o sw) = (fst (grant w st c o sw), {| r_inst := []; r_out := Local; r_sent := snd (grant w st c o sw) |}).
Proof. cbn [step]. destruct (grant w st c o sw); reflexivity. Qed.

Lemma grant_sent w st c o sw c' k o' : In (c', k, o') (snd (grant w st c o sw)) -> c' = c /\ o' = o.
Proof.
  rewrite grant_eq. destruct (c_alive (get_conn st c)); [|intros []].
  destruct (grant_slot w (get_conn st c) o) as [[clid rc] nxt]. intros [[= <- _ <-]|[]]. auto.
Qed.

Lemma grant_local w s1 s2 c o sw : get_conn s1 c = get_conn s2 c ->
  snd (grant w s1 c o sw) = snd (grant w s2 c o sw) /\
  get_conn (fst (grant w s1 c o sw)) c = get_conn (fst (grant w s2 c o sw)) c.
Proof.
  intros E. rewrite !grant_eq, E. destruct (c_alive (get_conn s2 c)); [|auto].
  destruct (grant_slot w (get_conn s2 c) o) as [[clid rc] nxt].
  destruct (rc + 1 =? 1); cbn [fst snd]; rewrite ?get_assign, !get_set_same; auto.
Qed.

Definition via_setters (e : event) : Prop :=
  match e with
  | Register _ _ _ | Unregister _ | Grant _ _ _ | Msg _ _ _ _ _ | TopMsg _ _ | Drop _ => True
  | _ => False
  end.

Section Kept.
  Context {T : Type} (f : state -> T).
  Hypothesis f_names : forall st a b, f (set_names st a b) = f st.
  Hypothesis f_conn : forall st c x, f (set_conn st c x) = f st.

  Lemma assign_keeps st o p sw : f (assign_name st o p sw) = f st.
  Proof. unfold assign_name. destruct (zget o (s_r2n st)); [reflexivity | apply f_names]. Qed.

  Lemma grant_keeps w st c o sw : f (fst (grant w st c o sw)) = f st.
  Proof.
    rewrite grant_eq. destruct (c_alive (get_conn st c)); [|reflexivity].
    destruct (grant_slot w (get_conn st c) o) as [[clid rc] nxt].
    destruct (rc + 1 =? 1); cbn [fst]; rewrite ?assign_keeps, f_conn; reflexivity.
  Qed.

  Lemma found_keeps w st n o s0 : found_name w st n = Some (o, s0) -> f s0 = f st.
  Proof.
    unfold found_name. destruct (sget n (s_n2r st)); [intros [= _ <-]; reflexivity|].
    destruct (sget n (s_h st)); [|discriminate]. destruct (is_some _); intros [= _ <-]; [reflexivity | apply f_names].
  Qed.

  Lemma step_keeps w st e : via_setters e -> f (fst (step w st e)) = f st.
  Proof.
    destruct e as [n o sw|o|n cls|n cls em|o d|n o|n| |c o sw|c req clid m args|c t|c]; intros [].
    - apply assign_keeps.
    - cbn [step fst]. destruct (zget o (s_r2n st)); [destruct (is_some _); [apply f_names|]|]; reflexivity.
    - rewrite step_grant. apply grant_keeps.
    - destruct (step w st (Msg c req clid m args)) as [st' r] eqn:S. cbn [fst]. apply msg_effect in S.
      destruct S as [[_ [->|[->|[k [n ->]]]]]|[n [o [s0 [_ [_ [_ [F G]]]]]]]]; rewrite ?f_conn; try reflexivity.
      apply found_keeps in F. rewrite <- F. destruct (req =? 0); [destruct G as [-> _]; reflexivity|].
      rewrite <- (grant_keeps w s0 c o ""), G. reflexivity.
    - reflexivity.
    - apply f_conn.
  Qed.
End Kept.

Lemma copy_set_conn st c x : s_copy (set_conn st c x) = s_copy st.
Proof. destruct c; reflexivity. Qed.
Lemma decl_set_conn st c x : s_decl (set_conn st c x) = s_decl st.
Proof. destruct c; reflexivity. Qed.

Lemma step_copy w st e : (forall n cls, e <> RegisterCopy n cls) -> s_copy (fst (step w st e)) = s_copy st.
Proof.
  (* a registration into a private registry never reaches the registry peers can name: for RegisterCopyPriv, `reflexivity`
     evaluates the translated default-registry test (`registry == None`) *)
  intros NR. destruct e; try (apply (step_keeps s_copy (fun _ _ _ => eq_refl) copy_set_conn); exact I); try reflexivity.
  exfalso. eapply NR; reflexivity.
Qed.

Lemma step_decl w st e : (forall o d, e <> Declare o d) -> s_decl (fst (step w st e)) = s_decl st.
Proof.
  intros ND. destruct e; try (apply (step_keeps s_decl (fun _ _ _ => eq_refl) decl_set_conn); exact I); try reflexivity.
  - cbn [step fst]. destruct (is_some _); reflexivity.
  - exfalso. eapply ND; reflexivity.
Qed.

Lemma grant_frame w st c c' x o sw : c <> c' ->
  grant w (set_conn st c' x) c o sw = (set_conn (fst (grant w st c o sw)) c' x, snd (grant w st c o sw)).
Proof.
  intros NC. rewrite !grant_eq, (get_set_other _ _ _ _ (not_eq_sym NC)).
  destruct (c_alive (get_conn st c)); [|reflexivity]. destruct (grant_slot w (get_conn st c) o) as [[clid rc] nxt].
  cbn [fst snd]. rewrite (set_conn_comm _ _ _ _ _ (not_eq_sym NC)). destruct (rc + 1 =? 1); [rewrite assign_set_conn|]; reflexivity.
Qed.

Lemma found_frame w st c' x n :
  found_name w (set_conn st c' x) n =
  match found_name w st n with Some (o, s0) => Some (o, set_conn s0 c' x) | None => None end.
Proof.
  unfold found_name. destruct c'; cbn [set_conn s_n2r s_h s_r2n]; destruct (sget n (s_n2r st)); try reflexivity;
    destruct (sget n (s_h st)); try reflexivity; destruct (is_some _); reflexivity.
Qed.

(* the other connection's table is a frame for everything that does not happen on it: it is neither read nor written *)
Theorem step_frame : forall w st e c' x,
  on_conn e <> Some c' ->
  step w (set_conn st c' x) e = (set_conn (fst (step w st e)) c' x, snd (step w st e)).
Proof.
  intros w st e c' x NC.
  destruct e as [n o sw|o|n cls|n cls em|o d|n o|n| |c o sw|c req clid m args|c t|c]; cbn [on_conn] in NC;
    try assert (NE : c' <> c) by congruence.
  4-8: destruct c'; reflexivity.
  - cbn [step fst snd]. rewrite assign_set_conn. reflexivity.
  - destruct c'; cbn [step set_conn s_r2n s_n2r]; (destruct (zget o (s_r2n st)); [destruct (is_some _)|]); reflexivity.
  - destruct c'; cbn [step set_conn s_copy]; destruct (is_some _); reflexivity.
  - rewrite !step_grant, grant_frame by auto. reflexivity.
  - cbn [step]. rewrite (get_set_other _ _ _ _ NE), copy_set_conn, decl_set_conn.
    destruct (negb (c_alive (get_conn st c))); [reflexivity|]. destruct (clid =? broker_clid).
    + destruct (broker_call m args) as [out [| |n|k n]]; cbn [fst snd]; rewrite ?(set_conn_comm _ _ _ _ _ NE); try reflexivity.
      rewrite found_frame. destruct (found_name w st n) as [[o s0]|]; [|reflexivity].
      destruct (req =? 0); [reflexivity|]. rewrite grant_frame by auto. destruct (grant w s0 c o ""); reflexivity.
    + destruct (obj_call (eff w (s_decl st)) (s_copy st) (get_conn st c) clid m args) as [inst []]; cbn [fst snd];
        rewrite ?(set_conn_comm _ _ _ _ _ NE); reflexivity.
  - cbn [step]. rewrite (get_set_other _ _ _ _ NE). reflexivity.
  - cbn [step fst snd]. rewrite (get_set_other _ _ _ _ NE), (set_conn_comm _ _ _ _ _ NE). reflexivity.
Qed.

Lemma run_cons w st e h :
  run w st (e :: h) = (fst (run w (fst (step w st e)) h), snd (step w st e) :: snd (run w (fst (step w st e)) h)).
Proof. cbn [run]. destruct (step w st e) as [st1 x]. cbn [fst snd]. destruct (run w st1 h); reflexivity. Qed.

(* ... for whole histories: whatever the other connection's table holds, a history of events elsewhere behaves the same *)
Theorem run_frame : forall w h st c' x,
  (forall e, In e h -> on_conn e <> Some c') ->
  run w (set_conn st c' x) h = (set_conn (fst (run w st h)) c' x, snd (run w st h)).
Proof.
  induction h as [|e h IH]; intros st c' x NC; [reflexivity|].
  rewrite !run_cons, step_frame by (apply NC; left; reflexivity). cbn [fst snd].
  rewrite IH by (intros e' He'; apply NC; right; exact He'). reflexivity.
Qed.

Lemma step_other_conn w st e c : on_conn e <> Some c -> get_conn (fst (step w st e)) c = get_conn st c.
Proof.
  intros NC. pose proof (step_frame w st e c (get_conn st c) NC) as F. rewrite set_get_id in F.
  rewrite F at 1. apply get_set_same.
Qed.

Lemma tub_event_result w st e : on_conn e = None -> snd (step w st e) = res0 Local.
Proof. destruct e; try discriminate; reflexivity. Qed.

(* log: the my-references emitted so far *)
Definition conn_ok (cn : conn) : Prop :=
  0 < c_next cn /\
  forall k o rc, In (k, (o, rc)) (c_exports cn) -> 0 < rc /\ k <> 0 /\ Z.abs k < c_next cn.
Definition logged (c : cid) (cn : conn) (log : list (cid * Z * Z)) : Prop :=
  forall k o rc, In (k, (o, rc)) (c_exports cn) -> In (c, k, o) log.
Definition inv (st : state) (log : list (cid * Z * Z)) : Prop :=
  forall c, conn_ok (get_conn st c) /\ logged c (get_conn st c) log.

Lemma logged_mono c cn log more : logged c cn log -> logged c cn (log ++ more).
Proof. intros H k o rc Hin. apply in_or_app. left. eapply H; eauto. Qed.

Lemma inv_same_conns st st' log more :
  (forall c, get_conn st' c = get_conn st c) -> inv st log -> inv st' (log ++ more).
Proof.
  intros E H c. rewrite E. destruct (H c) as [A B]. split; [exact A | apply logged_mono; exact B].
Qed.

Lemma inv_one_conn st log c cn' more :
  inv st log -> conn_ok cn' -> logged c cn' (log ++ more) -> inv (set_conn st c cn') (log ++ more).
Proof.
  intros H A B c'. destruct (cid_dec c c') as [E|E].
  - subst c'. rewrite get_set_same. split; assumption.
  - rewrite (get_set_other _ _ _ _ E). destruct (H c') as [A' B']. split; [exact A' | apply logged_mono; exact B'].
Qed.

Lemma inv_drop st log c more : inv st log -> inv (set_conn st c (drop_conn (get_conn st c))) (log ++ more).
Proof. intros H. apply inv_one_conn; [exact H | split; [apply H | intros ? ? ? []] | intros ? ? ? []]. Qed.

Lemma grant_slot_ok w cn o clid rc nxt : conn_ok cn -> grant_slot w cn o = (clid, rc, nxt) ->
  0 <= rc /\ clid <> 0 /\ Z.abs clid < nxt /\ c_next cn <= nxt.
Proof.
  intros [Nx Ok]. unfold grant_slot. destruct (find_obj o (c_exports cn)) as [[k rc0]|] eqn:FO.
  - intros [= <- <- <-]. apply find_obj_In in FO. apply Ok in FO. lia.
  - destruct (o_kind (w_obj w o)); intros [= <- <- <-]; lia.
Qed.

Lemma grant_inv w st c o sw st' sent log :
  inv st log -> grant w st c o sw = (st', sent) -> inv st' (log ++ sent).
Proof.
  intros H. rewrite grant_eq. destruct (c_alive (get_conn st c)).
  2:{ intros [= <- <-]. rewrite app_nil_r. exact H. }
  destruct (H c) as [Ok Lg]. destruct (grant_slot w (get_conn st c) o) as [[clid rc] nxt] eqn:F.
  destruct (grant_slot_ok _ _ _ _ _ _ Ok F) as [R0 [C0 [C1 N1]]]. destruct Ok as [Nx Ok].
  set (st1 := set_conn st c _). intros [= <- <-].
  assert (I' : inv st1 (log ++ [(c, clid, o)])).
  { apply inv_one_conn; [exact H| |].
    - split; [cbn; lia|]. intros k o' rc' [[= -> -> ->]|Hin]%In_zset; [|apply Ok in Hin]; cbn [c_next]; lia.
    - intros k o' rc' [[= -> -> ->]|Hin]%In_zset; apply in_or_app; [right; left; reflexivity | left; eapply Lg; eauto]. }
  destruct (rc + 1 =? 1); [|exact I']. intros c'. rewrite get_assign. apply I'.
Qed.

Lemma decref_ok cn k n : conn_ok cn -> conn_ok (decref cn k n) /\
  (forall k' o rc, In (k', (o, rc)) (c_exports (decref cn k n)) -> exists rc0, In (k', (o, rc0)) (c_exports cn)).
Proof.
  intros [Nx Ok].
  assert (Same : conn_ok cn /\ forall k' o rc, In (k', (o, rc)) (c_exports cn) -> exists rc0, In (k', (o, rc0)) (c_exports cn))
    by (split; [split; assumption | eauto]).
  unfold decref. destruct (k =? 0); [exact Same|].
  destruct (zget k (c_exports cn)) as [[o rc]|] eqn:G; [|exact Same].
  destruct (tracker_decref n rc) as [[done rc']|] eqn:T; [|exact Same].
  apply tracker_decref_spec in T. destruct T as [T1 [T2 T3]]. apply zget_In in G. pose proof (Ok _ _ _ G) as G'.
  destruct done; cbn [c_exports c_next]; (split; [split; [exact Nx|]|]); intros k' o' rc0 Hin.
  - apply In_zdel in Hin. eauto.
  - apply In_zdel in Hin. eauto.
  - assert (rc' <> 0) by (intros E; apply T3 in E; discriminate).
    apply In_zset in Hin. destruct Hin as [[= -> -> ->]|Hin]; [cbn [c_next]; lia | eauto].
  - apply In_zset in Hin. destruct Hin as [[= -> -> _]|Hin]; eauto.
Qed.

Lemma step_inv w st e st' r log : inv st log -> step w st e = (st', r) -> inv st' (log ++ r_sent r).
Proof.
  intros H S. destruct (on_conn e) as [c|] eqn:ON.
  2:{
      replace r with (snd (step w st e)) by (rewrite S; reflexivity). rewrite (tub_event_result _ _ _ ON).
      apply inv_same_conns with (st := st); [|exact H].
      intros c. replace st' with (fst (step w st e)) by (rewrite S; reflexivity). apply step_other_conn. congruence. }
  destruct e as [| | | | | | | |c0 o sw|c0 req clid m args|c0 t|c0]; try discriminate.
  - rewrite step_grant in S. inversion S. eapply grant_inv; [exact H | apply surjective_pairing].
  - apply msg_effect in S. destruct S as [[-> [->|[->|[k [n ->]]]]]|[n [o [st0 [_ [_ [_ [FN F]]]]]]]].
    + rewrite app_nil_r. exact H.
    + apply inv_drop; exact H.
    + destruct (H c0) as [X Y]. destruct (decref_ok (get_conn st c0) k n X) as [D1 D2].
      apply inv_one_conn; [exact H | exact D1 |].
      intros k' o' rc' Hin. destruct (D2 _ _ _ Hin) as [rc0 Hin0]. apply in_or_app. left. eapply Y; eauto.
    + apply found_name_some in FN. destruct FN as [_ [_ EC]].
      assert (I0 : inv st0 log) by (intros c'; rewrite EC; apply H).
      destruct (req =? 0); [destruct F as [-> ->]; rewrite app_nil_r; exact I0 | eapply grant_inv; eauto].
  - inversion S; subst. rewrite app_nil_r. exact H.
  - inversion S; subst. apply inv_drop; exact H.
Qed.

Lemma run_inv w h : forall st st' rs log, inv st log -> run w st h = (st', rs) -> inv st' (log ++ sent_of rs).
Proof.
  induction h as [|e h IH]; intros st st' rs log H R.
  - injection R as <- <-. rewrite app_nil_r. exact H.
  - rewrite run_cons in R. injection R as <- <-. unfold sent_of. cbn [map List.concat]. rewrite app_assoc.
    eapply IH; [|apply surjective_pairing]. eapply step_inv; [exact H | apply surjective_pairing].
Qed.

Lemma init_inv : inv init [].
Proof. intros c. destruct c; (split; [split; [reflexivity | intros ? ? ? []] | intros ? ? ? []]). Qed.

(* whatever this connection's table holds after any history was sent over this very connection (as a my-reference
   with that id), is referenced a positive number of times, and its id is neither 0 nor one the counter has yet to reach *)
Theorem exports_were_granted : forall w h st rs c clid o rc,
  run w init h = (st, rs) -> zget clid (c_exports (get_conn st c)) = Some (o, rc) ->
  0 < rc /\ clid <> 0 /\ Z.abs clid < c_next (get_conn st c) /\ In (c, clid, o) (sent_of rs).
Proof.
  intros w h st rs c clid o rc R G. destruct (run_inv w h _ _ _ _ init_inv R c) as [[_ Ok] Lg].
  apply zget_In in G. destruct (Ok _ _ _ G) as [? [? ?]]. repeat split; auto. exact (Lg _ _ _ G).
Qed.

(* a my-reference is emitted only when the application sends the object on that connection, or when that connection's
   peer asked for a name the Tub resolves to it *)
Theorem sent_justified : forall w st e st' r c clid o,
  step w st e = (st', r) -> In (c, clid, o) (r_sent r) ->
  (exists sw, e = Grant c o sw) \/
  (exists req n, e = Msg c req broker_clid (MStr "getReferenceByName") [ABytes (MStr n)] /\ req <> 0 /\
                 lookup_name w st n = Some o).
Proof.
  intros w st e st' r c clid o S Hin. destruct (on_conn e) as [c1|] eqn:ON.
  2:{ replace r with (snd (step w st e)) in Hin by (rewrite S; reflexivity). rewrite (tub_event_result _ _ _ ON) in Hin.
      destruct Hin. }
  destruct e as [| | | | | | | |c0 o0 sw|c0 req clid0 m args|c0 t|c0]; try discriminate.
  - rewrite step_grant in S. inversion S; subst r. apply grant_sent in Hin. destruct Hin as [-> ->]. left. eexists; reflexivity.
  - apply msg_effect in S. destruct S as [[E _]|[n [o1 [st0 [-> [-> [-> [FN F]]]]]]]]; [rewrite E in Hin; destruct Hin|].
    destruct (Z.eqb_spec req 0) as [_|RQ]; [destruct F as [_ E]; rewrite E in Hin; destruct Hin|].
    replace (r_sent r) with (snd (grant w st0 c0 o1 "")) in Hin by (rewrite F; reflexivity).
    apply grant_sent in Hin. destruct Hin as [-> ->].
    right. exists req, n. split; [reflexivity|]. split; [exact RQ | apply (found_name_some _ _ _ _ _ FN)].
  - inversion S; subst r. destruct Hin.
  - inversion S; subst r. destruct Hin.
Qed.

(* what the outcome of c's messages, name lookups excepted, depends on *)
Definition same_view (c : cid) (s1 s2 : state) : Prop :=
  get_conn s1 c = get_conn s2 c /\ s_copy s1 = s_copy s2 /\ s_decl s1 = s_decl s2.

Lemma same_view_trans c s1 s2 s3 : same_view c s1 s2 -> same_view c s2 s3 -> same_view c s1 s3.
Proof. intros [A [B B']] [C [D D']]. split; [|split]; congruence. Qed.
Lemma same_view_sym c s1 s2 : same_view c s1 s2 -> same_view c s2 s1.
Proof. intros [A [B B']]. split; [|split]; congruence. Qed.
Lemma same_view_set_conn c s1 s2 x : same_view c s1 s2 -> same_view c (set_conn s1 c x) (set_conn s2 c x).
Proof. intros [_ [EK ED]]. split; [rewrite !get_set_same | rewrite !copy_set_conn, !decl_set_conn]; auto. Qed.

Lemma irrelevant_preserves w c st e : relevant c e = false -> same_view c st (fst (step w st e)).
Proof.
  intros R. split; [|split]; symmetry.
  - apply step_other_conn. intros E.
    destruct e; cbn [on_conn] in E; try discriminate; inversion E; subst;
      cbn [relevant on_conn] in R; rewrite (proj2 (cid_eqb_eq c c) eq_refl) in R; discriminate.
  - apply step_copy. intros n cls E. subst e. discriminate.
  - apply step_decl. intros o d E. subst e. discriminate.
Qed.

Lemma relevant_deterministic w c s1 s2 e :
  same_view c s1 s2 -> relevant c e = true -> is_lookup e = false ->
  same_view c (fst (step w s1 e)) (fst (step w s2 e)) /\ snd (step w s1 e) = snd (step w s2 e).
Proof.
  intros V R NL. pose proof V as [EC [EK ED]].
  destruct e as [n o sw|o|n cls|n cls em|o d|n o|n| |c0 o sw|c0 req clid m args|c0 t|c0]; try discriminate;
    cbn [relevant on_conn] in R; try (apply cid_eqb_eq in R; subst c0).
  - cbn [step fst snd]. rewrite EK. destruct (is_some (sget n (s_copy s2))); (split; [|reflexivity]); [exact V|].
    split; [destruct c; exact EC | split; [reflexivity | exact ED]].
  - split; [exact V | reflexivity].
  - split; [|reflexivity]. split; [destruct c; exact EC | split; [exact EK | cbn [step fst s_decl]; rewrite ED; reflexivity]].
  - rewrite !step_grant. cbn [fst snd]. destruct (grant_local w s1 s2 c o sw EC) as [G1 G2]. rewrite G1.
    split; [|reflexivity]. split; [exact G2|].
    rewrite !(grant_keeps s_copy (fun _ _ _ => eq_refl) copy_set_conn), !(grant_keeps s_decl (fun _ _ _ => eq_refl) decl_set_conn). auto.
  - cbn [step]. rewrite EC, EK, ED. destruct (negb (c_alive (get_conn s2 c))); [split; [exact V | reflexivity]|].
    destruct (clid =? broker_clid) eqn:BC.
    + destruct (broker_call m args) as [out [| |n|k n]] eqn:B; cbn [fst snd].
      * split; [exact V | reflexivity].
      * split; [apply same_view_set_conn; exact V | reflexivity].
      * apply broker_call_lookup in B. destruct B as [-> _]. cbn [is_lookup] in NL. rewrite BC in NL. discriminate.
      * split; [apply same_view_set_conn; exact V | reflexivity].
    + destruct (obj_call (eff w (s_decl s2)) (s_copy s2) (get_conn s2 c) clid m args) as [inst out]. cbn [fst snd].
      split; [|reflexivity]. destruct out; try exact V. apply same_view_set_conn; exact V.
  - cbn [step]. rewrite EC. split; [exact V | reflexivity].
  - cbn [step]. rewrite EC. split; [apply same_view_set_conn; exact V | reflexivity].
Qed.

Definition no_lookup_on (c : cid) (h : list event) : Prop :=
  forall e, In e h -> relevant c e = true -> is_lookup e = false.

Lemma run_vs_projection w c h : forall s1 s2,
  same_view c s1 s2 -> no_lookup_on c h ->
  same_view c (fst (run w s1 h)) (fst (run w s2 (proj c h))) /\
  results_on c h (snd (run w s1 h)) = snd (run w s2 (proj c h)).
Proof.
  induction h as [|e h IH]; intros s1 s2 V NL; [split; [exact V | reflexivity]|].
  assert (NL' : no_lookup_on c h) by (intros e' He' R'; apply NL; [right; exact He' | exact R']).
  change (proj c (e :: h)) with (if relevant c e then e :: proj c h else proj c h).
  rewrite run_cons. cbn [fst snd results_on]. destruct (relevant c e) eqn:R.
  - rewrite run_cons. cbn [fst snd].
    destruct (relevant_deterministic w c s1 s2 e V R (NL e (or_introl eq_refl) R)) as [V1 E1].
    destruct (IH _ _ V1 NL') as [IH1 IH2]. split; [exact IH1 | rewrite E1, IH2; reflexivity].
  - apply IH; [|exact NL']. eapply same_view_trans; [apply same_view_sym, irrelevant_preserves; exact R | exact V].
Qed.

(* Connection-locality of object ids over all interleaved histories: two histories -- with arbitrary, different activity
   on the other connection (grants, releases, inbound messages, drops) and in the Tub's name table -- that agree on c's
   own events give c the same export table and the same outcome for every one of c's messages.  (A name lookup is the one
   message that reads Tub-wide state: the name table is shared by design.) *)
Theorem id_locality : forall w c h1 h2 s1 s2,
  same_view c s1 s2 -> no_lookup_on c h1 -> no_lookup_on c h2 -> proj c h1 = proj c h2 ->
  same_view c (fst (run w s1 h1)) (fst (run w s2 h2)) /\
  results_on c h1 (snd (run w s1 h1)) = results_on c h2 (snd (run w s2 h2)).
Proof.
  intros w c h1 h2 s1 s2 V N1 N2 P.
  destruct (run_vs_projection w c h1 s1 s2 V N1) as [A1 B1].
  destruct (run_vs_projection w c h2 s2 s2 (conj eq_refl (conj eq_refl eq_refl)) N2) as [A2 B2].
  rewrite P in A1, B1. split.
  - eapply same_view_trans; [exact A1 | apply same_view_sym; exact A2].
  - congruence.
Qed.

Lemma run_origin {A} (f : state -> list A) (P : event -> Prop) w x :
  (forall st e, In x (f (fst (step w st e))) -> In x (f st) \/ P e) ->
  forall h st, In x (f (fst (run w st h))) -> In x (f st) \/ exists e, In e h /\ P e.
Proof.
  intros S. induction h as [|e h IH]; intros st H; [left; exact H|].
  rewrite run_cons in H. destruct (IH _ H) as [H1|[e' [He' Pe']]].
  - destruct (S _ _ H1) as [H2|H2]; [left; exact H2 | right; exists e; split; [left; reflexivity | exact H2]].
  - right. exists e'. split; [right; exact He' | exact Pe'].
Qed.

Lemma copy_origin_step w st e : forall n cls,
  In (n, cls) (s_copy (fst (step w st e))) -> In (n, cls) (s_copy st) \/ e = RegisterCopy n cls.
Proof.
  intros n cls Hin. destruct e as [n0 o sw|o|n0 cls0|n0 cls0 em|o d|n0 o|n0| |c o sw|c req clid m args|c t|c];
    try (left; rewrite step_copy in Hin by discriminate; exact Hin).
  cbn [step fst] in Hin. destruct (is_some (sget n0 (s_copy st))); [left; exact Hin|].
  apply In_sset in Hin. destruct Hin as [[= -> ->]|Hin]; [right; reflexivity | left; exact Hin].
Qed.

Theorem copy_origin : forall w h st n cls,
  sget n (s_copy (fst (run w st h))) = Some cls ->
  In (n, cls) (s_copy st) \/ In (RegisterCopy n cls) h.
Proof.
  intros w h st n cls G. apply sget_In in G.
  destruct (run_origin s_copy _ w _ (fun st e => copy_origin_step w st e n cls) h st G) as [H|[e [He ->]]]; auto.
Qed.

Lemma init_copy_names : forall n cls, In (n, cls) (s_copy init) -> In n copyable_names.
Proof.
  intros n cls. cbn [init s_copy]. generalize (-1). induction copyable_names as [|a l IH]; intros k H; cbn [number_from] in H.
  - destruct H.
  - destruct H as [E|H]; [inversion E; left; reflexivity | right; eapply IH; eauto].
Qed.

(* a registered pass-by-copy name was registered when foolscap was imported, or by the application *)
Theorem registry_origin : forall w h n cls,
  sget n (s_copy (fst (run w init h))) = Some cls -> In n copyable_names \/ In (RegisterCopy n cls) h.
Proof.
  intros w h n cls H. destruct (copy_origin w h init n cls H) as [H'|H']; [left; eapply init_copy_names; eauto | right; exact H'].
Qed.

(* class definitions run the metaclass RemoteCopyClass.__init__ (translated: metaclass_registers).
   A class that opts out of being received -- copytype = None, copytype = "" -- or whose definition fails (no copytype) amounts to
   no registration at all, whatever its typeToCopy, whatever registry it names *)
Theorem optout_class_not_registered : forall ttc priv em cls,
  define_class CtNone ttc priv em cls = [] /\ define_class CtAbsent ttc priv em cls = [] /\
  define_class (CtStr ""%string) ttc priv em cls = [].
Proof. intros. split; [|split]; reflexivity. Qed.

(* a class definition registers the class under its (non-empty) copytype and under nothing else -- in particular not under
   its typeToCopy -- and in the registry it names *)
Theorem class_definition_registers_copytype_only : forall ct ttc priv em cls e,
  In e (define_class ct ttc priv em cls) ->
  exists n, ct = CtStr n /\ n <> ""%string /\ e = (if priv then RegisterCopyPriv n cls em else RegisterCopy n cls).
Proof.
  intros ct ttc priv em cls e H. unfold define_class, metaclass_registers in H.
  destruct ct as [| |s]; cbn [In] in H; try contradiction.
  destruct s as [|a s']; cbn [str_truthy In] in H; try contradiction.
  destruct H as [H|H]; [|contradiction].
  exists (String a s'). split; [reflexivity|]. split; [discriminate|]. symmetry. exact H.
Qed.

(* so an opted-out class leaves every state as it is *)
Theorem optout_class_inert : forall w st ttc priv em cls,
  run w st (define_class CtNone ttc priv em cls) = (st, []).
Proof. intros. reflexivity. Qed.

Example ex_define_class_registers :
  define_class (CtStr "my.rc") (Some "my.sent-as"%string) false false 1 = [RegisterCopy "my.rc" 1] /\
  define_class (CtStr "my.rc") None true true 2 = [RegisterCopyPriv "my.rc" 2 true] /\
  define_class CtNone (Some "my.sent-as"%string) false false 1 = [].
Proof. vm_compute. auto. Qed.

(* the declaration table is changed by Declare events on that very object only: using, sending or calling any other
   object -- in particular another instance of the same class -- never changes what an object exposes *)
Lemma decl_origin_step w st e o l :
  In (o, l) (s_decl (fst (step w st e))) -> In (o, l) (s_decl st) \/ e = Declare o (Some l).
Proof.
  intros H. destruct e as [n o0 sw|o0|n cls|n cls em|o0 d|n o0|n| |c o0 sw|c req clid m args|c t|c];
    try (left; rewrite step_decl in H by discriminate; exact H).
  cbn [step fst s_decl] in H. destruct d as [l0|].
  - apply In_zset in H. destruct H as [[= -> ->]|H]; [right; reflexivity | left; exact H].
  - left. eapply In_zdel; eauto.
Qed.

Theorem decl_origin : forall w h st o l,
  zget o (s_decl (fst (run w st h))) = Some l -> In (o, l) (s_decl st) \/ In (Declare o (Some l)) h.
Proof.
  intros w h st o l G. apply zget_In in G.
  destruct (run_origin s_decl _ w _ (fun st e => decl_origin_step w st e o l) h st G) as [H|[e [He ->]]]; auto.
Qed.

Definition names_event (n : string) (o : Z) (e : event) : Prop :=
  match e with
  | Register p o' sw => o' = o /\ n = (if str_empty p then sw else p)     (* registerReference *)
  | Grant _ o' sw => o' = o /\ n = sw                                      (* first send: getOrCreateURLForReference *)
  | Msg _ _ clid (MStr m) _ => n = ""%string /\ clid = broker_clid /\ m = "getReferenceByName"%string
       (* the reference sent back by a lookup: the object already has a name in every run observed; the model's
          placeholder for the swissnum it would otherwise draw is the empty string.
          CONSEQUENCE: as far as names_origin knows, the name "" may enter the table through ANY name
          lookup.  names_origin quantifies over arbitrary start states, and from a start state whose two name tables
          disagree that really happens in the model (empty_name_enters_by_lookup), so the clause cannot be dropped
          there; this is the only reason why revoked_name_refused / unregistered_name_stays_refused carry the guard
          n <> "" (for n = "" their hypothesis "no names_event" would have to exclude every lookup message).
          Nothing is claimed about the name "". *)
  | _ => False
  end.

Lemma n2r_set_conn st c x : s_n2r (set_conn st c x) = s_n2r st.
Proof. destruct c; reflexivity. Qed.

Lemma assign_n2r st o p sw n o' :
  In (n, o') (s_n2r (assign_name st o p sw)) -> In (n, o') (s_n2r st) \/ (o = o' /\ n = (if str_empty p then sw else p)).
Proof. unfold assign_name. destruct (zget o (s_r2n st)); [auto|]. intros [[= -> ->]|H]%In_sset; auto. Qed.

Lemma grant_n2r w st c o sw n o' :
  In (n, o') (s_n2r (fst (grant w st c o sw))) -> In (n, o') (s_n2r st) \/ (o = o' /\ n = sw).
Proof.
  rewrite grant_eq. destruct (c_alive (get_conn st c)); [|auto].
  destruct (grant_slot w (get_conn st c) o) as [[clid rc] nxt].
  destruct (rc + 1 =? 1); cbn [fst]; intros H; [apply assign_n2r in H|]; rewrite n2r_set_conn in H; [exact H | auto].
Qed.

Lemma names_origin_step w st e n o :
  In (n, o) (s_n2r (fst (step w st e))) -> In (n, o) (s_n2r st) \/ names_event n o e.
Proof.
  destruct e as [p o' sw|o'|n0 cls|n0 cls em|o' d|n0 o'|n0| |c o' sw|c req clid m args|c t|c]; cbn [names_event];
    try (cbn [step fst s_n2r]; rewrite ?n2r_set_conn; auto; fail).
  - apply assign_n2r.
  - cbn [step fst]. intros H. left. destruct (zget o' (s_r2n st)); [destruct (is_some _); [eapply In_sdel|]|]; exact H.
  - cbn [step fst]. destruct (is_some _); auto.
  - rewrite step_grant. apply grant_n2r.
  - destruct (step w st (Msg c req clid m args)) as [st' r] eqn:S. cbn [fst]. intros H.
    apply msg_effect in S. destruct S as [[_ [->|[->|[k [n' ->]]]]]|[nm [o1 [st0 [BC [-> [_ [FN F]]]]]]]];
      rewrite ?n2r_set_conn in H; auto.
    apply found_name_some in FN. destruct FN as [_ [EN _]]. rewrite <- EN.
    destruct (req =? 0); [destruct F as [-> _]; auto|].
    replace st' with (fst (grant w st0 c o1 "")) in H by (rewrite F; reflexivity).
    destruct (grant_n2r _ _ _ _ _ _ _ H) as [G1|[_ G2]]; auto.
Qed.

(* every entry of the name table was put there by registerReference or by the first send of the object: in particular a
   name that only a lookup handler ever answered is never in the table, so it stops resolving when the handler stops *)
Theorem names_origin : forall w h st n o,
  In (n, o) (s_n2r (fst (run w st h))) -> In (n, o) (s_n2r st) \/ exists e, In e h /\ names_event n o e.
Proof.
  intros w h st n o. exact (run_origin s_n2r (names_event n o) w (n, o) (fun st e => names_origin_step w st e n o) h st).
Qed.

Theorem revoked_name_refused : forall w h st n,
  st = fst (run w init h) -> n <> ""%string ->
  (forall e, In e h -> forall o, ~ names_event n o e) -> sget n (s_h st) = None ->
  lookup_name w st n = None.
Proof.
  intros w h st n E NE NN HS. unfold lookup_name. destruct (sget n (s_n2r st)) as [o|] eqn:G; [|exact HS].
  exfalso. apply sget_In in G. subst st. destruct (names_origin w h init n o G) as [[]|[e [He Ne]]].
  eapply NN; eauto.
Qed.

(* tub.unregisterReference(o), for an object registered under n (both tables know it): afterwards the name table has no
   entry for n, the object has no name, only the application's lookup handler could still answer n, every other name resolves
   as before.  (A model whose Unregister does nothing violates the first three conjuncts.) *)
Theorem unregister_revokes : forall w st o n,
  zget o (s_r2n st) = Some n -> is_some (sget n (s_n2r st)) = true ->
  let st' := fst (step w st (Unregister o)) in
  sget n (s_n2r st') = None /\ zget o (s_r2n st') = None /\ lookup_name w st' n = sget n (s_h st) /\
  (forall n', n' <> n -> lookup_name w st' n' = lookup_name w st n') /\
  s_a st' = s_a st /\ s_b st' = s_b st.
Proof.
  intros w st o n R N. cbn [step fst]. rewrite R, N. cbn [set_names s_n2r s_r2n s_h s_a s_b]. unfold lookup_name. cbn [set_names s_n2r s_h].
  rewrite sget_sdel_same, zget_zdel_same. repeat split; auto.
  intros n' NE. rewrite (sget_sdel_other n n' _ NE). reflexivity.
Qed.

(* ... and it STAYS revoked, on every connection, whatever happens afterwards, until the application publishes that name again
   (registerReference / a first send that draws it) or its handler serves it.  n <> "": see names_event. *)
Theorem unregistered_name_stays_refused : forall w st o n h,
  zget o (s_r2n st) = Some n -> is_some (sget n (s_n2r st)) = true -> n <> ""%string ->
  (forall e, In e h -> forall o', ~ names_event n o' e) ->
  let st2 := fst (run w (fst (step w st (Unregister o))) h) in
  sget n (s_h st2) = None -> lookup_name w st2 n = None.
Proof.
  intros w st o n h R N NE NN st2 HS. destruct (unregister_revokes w st o n R N) as [G _].
  unfold lookup_name. destruct (sget n (s_n2r st2)) as [o2|] eqn:G2; [|exact HS].
  exfalso. apply sget_In in G2. destruct (names_origin w h _ n o2 G2) as [H|[e [He Ne]]].
  - exact (sget_none_not_in _ _ _ G H).
  - exact (NN e He o2 Ne).
Qed.

Definition ex_world : world :=
  {| w_obj := fun o => if o =? 1 then {| o_kind := KObj; o_attrs := ["remote_hi"; "secret"]%string; o_iface := None |}
                       else if o =? 2 then {| o_kind := KObj; o_attrs := ["remote_hi"; "remote_x"]%string; o_iface := Some ["hi"%string] |}
                       else {| o_kind := KCallable; o_attrs := []; o_iface := None |} |}.
Definition ex_hist : list event :=
  [Register "pub" 2 "sw0"; RegisterCopy "my.rc" 7; Grant CA 1 "sw0"; Grant CB 3 "sw1";
   Msg CA 1 1 (MStr "hi") [ACopyable "my.rc"; AYourRef 0; AOpen "list"];      (* enters remote_hi of 1, instantiates 7 *)
   Msg CA 2 1 (MStr "secret") [];                                            (* refused: no remote_secret *)
   Msg CB 1 1 (MStr "hi") [];                                                (* refused: 1 is A's id; on B it is unknown *)
   Msg CB 2 (-1) (MStr "anything") [];                                       (* enters the callable 3 *)
   Msg CA 3 0 (MStr "getReferenceByName") [ABytes (MStr "pub")];             (* grants 2 on A as clid 2 *)
   Msg CA 4 2 (MStr "x") [];                                                 (* refused: x is not in 2's interface *)
   Msg CA 5 0 (MStr "decref") [AInt 1; AInt 1];                              (* releases clid 1 *)
   Msg CA 6 1 (MStr "hi") [];                                                (* refused: stale *)
   Msg CA 7 2 (MStr "hi") [AYourRef 9];                                      (* unknown your-reference: that request is refused *)
   Msg CA 8 2 (MStr "hi") [AYourRef (-3)]]%string.                           (* a NEG token in a your-reference: protocol error, dropped *)
Definition codes (rs : list result) : list (Z * list Z) :=
  map (fun r => (match r_out r with Enter (EBroker _) => 1 | Enter (EObj o _) => 10 + o | Enter (ECallable o) => 20 + o
                                   | Reject => 4 | Aborted => 5 | Dead => 6 | Local => 7 end, r_inst r)) rs.
Example ex_run :
  codes (snd (run ex_world init ex_hist)) =
  [(7, []); (7, []); (7, []); (7, []); (11, [7]); (4, []); (4, []); (23, []); (1, []); (4, []); (1, []); (4, []); (4, []); (5, [])] /\
  c_exports (s_b (fst (run ex_world init ex_hist))) = [(-1, (3, 1))] /\
  c_alive (s_a (fst (run ex_world init ex_hist))) = false.
Proof. vm_compute. repeat split. Qed.

(* two histories with different traffic on B and in the name table, same events on A: id_locality applies non-trivially *)
Definition ex_h1 : list event :=
  [Grant CA 1 "s0"; Grant CB 2 "s1"; Msg CB 1 1 (MStr "hi") []; Msg CA 1 1 (MStr "hi") []; Msg CA 2 0 (MStr "decref") [AInt 1; AInt 1]]%string.
Definition ex_h2 : list event :=
  [Register "pub" 2 "s9"; Grant CA 1 "s0"; Drop CB; Msg CA 1 1 (MStr "hi") []; Unregister 2; Msg CA 2 0 (MStr "decref") [AInt 1; AInt 1]]%string.
Example ex_locality_hyps :
  proj CA ex_h1 = proj CA ex_h2 /\ List.length (proj CA ex_h1) = 3%nat /\
  forallb (fun e => negb (relevant CA e && is_lookup e)) (ex_h1 ++ ex_h2) = true /\
  codes (results_on CA ex_h1 (snd (run ex_world init ex_h1))) = [(7, []); (11, []); (1, [])].
Proof. vm_compute. repeat split. Qed.

(* the region the guard of unregister_revokes excludes: an object that only the lookup HANDLER ever answered has a name in referenceToName but none in
   nameToReference; unregisterReference then does nothing (in the code: KeyError at `del self.nameToReference[name]`) and
   the name keeps resolving for as long as the handler serves it -- revoking it is the handler's business (revoked_name_refused) *)
Theorem unregister_handler_name_refuted :
  exists w st o n, zget o (s_r2n st) = Some n /\ is_some (sget n (s_n2r st)) = false /\
                   lookup_name w (fst (step w st (Unregister o))) n = Some o.
Proof.
  exists ex_world,
    (fst (run ex_world init [Serve "dyn" 1; Msg CA 1 0 (MStr "getReferenceByName") [ABytes (MStr "dyn")]]%string)), 1, "dyn"%string.
  vm_compute. auto.
Qed.

Example ex_unregister_revokes :
  let st := fst (run ex_world init [Register "pub" 2 "sw0"]%string) in
  zget 2 (s_r2n st) = Some "pub"%string /\ is_some (sget "pub"%string (s_n2r st)) = true /\
  lookup_name ex_world st "pub" = Some 2 /\ lookup_name ex_world (fst (step ex_world st (Unregister 2))) "pub" = None.
Proof. vm_compute. auto. Qed.

(* why names_event needs its third clause (and the theorems above their guard n <> ""): from a start state whose name tables
   disagree -- "pub" -> 1 in nameToReference, nothing in referenceToName -- a lookup of "pub" with an answer wanted sends object 1
   for the first time, and the model's placeholder name "" enters the table.  No such state is reached from init in any run
   observed (the correspondence compares the name table after every history). *)
Example empty_name_enters_by_lookup :
  let st := set_names init [("pub"%string, 1)] [] in
  In (""%string, 1) (s_n2r (fst (step ex_world st (Msg CA 1 0 (MStr "getReferenceByName") [ABytes (MStr "pub")])))).
Proof. vm_compute. auto. Qed.
