(* C13: the negotiation block splitter gives the same blocks, the same verdict and hands the same
   bytes to Banana for every way of splitting the byte stream into packets: feeding x ++ y is feeding x and
   then y, because a terminator found in x is found at the same place in x ++ y and a buffer refused for its
   length stays refused however it is extended; and an empty packet changes nothing in the states the
   splitter rests in between packets. *)
From Coq Require Import ZArith List Bool Lia Arith.
Import ListNotations.
Require Import Verif.lib.PyLite Verif.gen.NegotiateGen Verif.lib.NegSplit Verif.lib.Negotiate Verif.lib.NegotiateProofs.
Local Open Scope nat_scope.

Lemma slack_is_4 : slack = 4.
Proof. reflexivity. Qed.

Lemma starts_term_app l m : starts_term l = true -> starts_term (l ++ m) = true.
Proof. destruct l as [|a [|b [|c [|d r]]]]; cbn [starts_term app]; try discriminate. trivial. Qed.

Lemma starts_term_len l : starts_term l = true -> 4 <= List.length l.
Proof. destruct l as [|a [|b [|c [|d r]]]]; cbn [starts_term List.length]; try discriminate. lia. Qed.

(* with four bytes available the test does not look further *)
Lemma starts_term_app_long l m : 4 <= List.length l -> starts_term (l ++ m) = starts_term l.
Proof. destruct l as [|a [|b [|c [|d r]]]]; cbn [List.length]; try lia. reflexivity. Qed.

Lemma find_term_bound l : forall e, find_term l = Some e -> e + 4 <= List.length l.
Proof.
  induction l as [|x l IH]; intros e H; [cbn in H; discriminate|].
  cbn [find_term] in H. destruct (starts_term (x :: l)) eqn:S.
  - inversion H; subst. apply starts_term_len in S. lia.
  - destruct (find_term l) as [e'|] eqn:F; [|discriminate]. cbn in H. inversion H; subst.
    specialize (IH _ eq_refl). cbn [List.length]. lia.
Qed.

Lemma find_term_some_app l : forall e m, find_term l = Some e -> find_term (l ++ m) = Some e.
Proof.
  induction l as [|x l IH]; intros e m H; [cbn in H; discriminate|].
  cbn [find_term] in H. change ((x :: l) ++ m) with (x :: (l ++ m)). cbn [find_term].
  change (x :: l ++ m) with ((x :: l) ++ m).
  destruct (starts_term (x :: l)) eqn:S.
  - rewrite (starts_term_app _ m S). exact H.
  - destruct (find_term l) as [e'|] eqn:F; [|discriminate]. cbn in H. inversion H; subst.
    pose proof (find_term_bound _ _ F) as B.
    rewrite starts_term_app_long by (cbn [List.length]; lia). rewrite S.
    rewrite (IH e' m eq_refl). reflexivity.
Qed.

(* a terminator found in l ++ m but not in l starts in the last three bytes of l or later *)
Lemma find_term_none_app l : forall m e, find_term l = None -> find_term (l ++ m) = Some e -> List.length l < e + 4.
Proof.
  induction l as [|x l IH]; intros m e N H; [cbn [List.length]; lia|].
  cbn [find_term] in N. destruct (starts_term (x :: l)) eqn:S; [discriminate|].
  destruct (find_term l) as [e'|] eqn:F; [discriminate|].
  change ((x :: l) ++ m) with (x :: (l ++ m)) in H. cbn [find_term] in H.
  change (x :: l ++ m) with ((x :: l) ++ m) in H.
  destruct (starts_term ((x :: l) ++ m)) eqn:S2.
  - inversion H; subst.
    destruct (Nat.le_gt_cases 4 (List.length (x :: l))) as [L|L]; [|lia].
    rewrite (starts_term_app_long _ m L) in S2. congruence.
  - destruct (find_term (l ++ m)) as [e'|] eqn:F2; [|discriminate]. cbn in H. inversion H; subst.
    specialize (IH m e' eq_refl F2). cbn [List.length]. lia.
Qed.

Section Proofs.
Variable ok : list Z -> bool.
Notation drain := (drain ok).
Notation nfeed := (nfeed ok).
Notation nfeed_all := (nfeed_all ok).

Lemma drain_fuel f1 : forall f2 buf k, List.length buf < f1 -> List.length buf < f2 -> drain f1 buf k = drain f2 buf k.
Proof.
  induction f1 as [|f1 IH]; intros f2 buf k H1 H2; [lia|]. destruct f2 as [|f2]; [lia|].
  destruct k as [|k]; [reflexivity|]. cbn [NegSplit.drain].
  destruct (find_term buf) as [e|] eqn:F; [|reflexivity].
  destruct (cap <? e); [reflexivity|]. destruct (ok (firstn e buf)); [|reflexivity].
  pose proof (find_term_bound _ _ F) as B.
  rewrite (IH f2 (skipn (e + 4) buf) k); [reflexivity| |]; rewrite skipn_length; lia.
Qed.

(* combine the outputs of two successive feeds *)
Definition seq2 (r1 : nst * list (list Z) * list Z) (g : nst -> nst * list (list Z) * list Z) :=
  let '(s1, b1, p1) := r1 in let '(s2, b2, p2) := g s1 in (s2, b1 ++ b2, p1 ++ p2).

Lemma drain_app : forall f1 x y k f2, List.length x < f1 -> List.length (x ++ y) < f2 ->
  drain f2 (x ++ y) k = seq2 (drain f1 x k) (fun s => nfeed s y).
Proof.
  induction f1 as [|f1 IH]; intros x y k f2 H1 H2; [lia|]. destruct f2 as [|f2]; [lia|].
  destruct k as [|k]; [reflexivity|].
  cbn [NegSplit.drain]. destruct (find_term x) as [e|] eqn:F.
  - rewrite (find_term_some_app x e y F). pose proof (find_term_bound _ _ F) as B.
    destruct (cap <? e); [reflexivity|].
    rewrite firstn_app. replace (e - List.length x) with 0 by lia. cbn [firstn]. rewrite app_nil_r.
    destruct (ok (firstn e x)); [|reflexivity].
    rewrite skipn_app. replace (e + 4 - List.length x) with 0 by lia. cbn [skipn].
    rewrite app_length in H2.
    rewrite (IH (skipn (e + 4) x) y k f2) by (rewrite ?app_length, skipn_length; lia).
    destruct (drain f1 (skipn (e + 4) x) k) as [[s1 b1] p1]. cbn [seq2].
    destruct (nfeed s1 y) as [[s2 b2] p2]. reflexivity.
  - (* no terminator in x yet *)
    destruct (Nat.leb_spec (cap + slack) (List.length x)) as [Hx|Hx].
    + (* x alone is already too long: the longer buffer is refused too *)
      cbn [seq2 NegSplit.nfeed app]. destruct (find_term (x ++ y)) as [e|] eqn:F2.
      * pose proof (find_term_none_app x y e F F2) as L. rewrite slack_is_4 in Hx.
        destruct (Nat.ltb_spec cap e); [reflexivity|lia].
      * destruct (Nat.leb_spec (cap + slack) (List.length (x ++ y))); [reflexivity|rewrite app_length in *; lia].
    + change (drain (S f2) (x ++ y) (S k) = seq2 (NWait x (S k), [], []) (fun s => nfeed s y)).
      cbn [seq2 NegSplit.nfeed app]. rewrite (drain_fuel (S (List.length (x ++ y))) (S f2) (x ++ y) (S k)) by lia.
      destruct (drain (S f2) (x ++ y) (S k)) as [[s b] p]. reflexivity.
Qed.

Theorem nfeed_app s x y : nfeed s (x ++ y) = seq2 (nfeed s x) (fun s' => nfeed s' y).
Proof.
  destruct s as [buf k| |]; cbn [NegSplit.nfeed seq2]; [|reflexivity|reflexivity].
  rewrite app_assoc.
  apply drain_app; lia.
Qed.

(* states in which the splitter rests between packets *)
Definition stable (s : nst) : Prop :=
  s = NPass \/ s = NDead \/
  exists buf k, s = NWait buf (S k) /\ find_term buf = None /\ List.length buf < cap + slack.

Lemma drain_stable f : forall buf k, List.length buf < f -> stable (fst (fst (drain f buf k))).
Proof.
  induction f as [|f IH]; intros buf k H; [lia|].
  destruct k as [|k]; [left; reflexivity|]. cbn [NegSplit.drain].
  destruct (find_term buf) as [e|] eqn:F.
  - destruct (cap <? e); [right; left; reflexivity|]. destruct (ok (firstn e buf)); [|right; left; reflexivity].
    pose proof (find_term_bound _ _ F) as B.
    specialize (IH (skipn (e + 4) buf) k ltac:(rewrite skipn_length; lia)).
    destruct (drain f (skipn (e + 4) buf) k) as [[s b] p]. exact IH.
  - destruct (Nat.leb_spec (cap + slack) (List.length buf)); [right; left; reflexivity|].
    right; right. exists buf, k. auto.
Qed.

Lemma nfeed_stable s c : stable (fst (fst (nfeed s c))).
Proof.
  destruct s as [buf k| |]; cbn [NegSplit.nfeed]; [apply drain_stable; lia|left; reflexivity|right; left; reflexivity].
Qed.

Lemma nfeed_nil s : stable s -> nfeed s [] = (s, [], []).
Proof.
  intros [->|[->|(buf & k & -> & F & L)]]; [reflexivity|reflexivity|].
  cbn [NegSplit.nfeed]. rewrite app_nil_r. cbn [NegSplit.drain]. rewrite F.
  destruct (Nat.leb_spec (cap + slack) (List.length buf)); [lia|reflexivity].
Qed.

Theorem nfeed_all_concat cs : forall s, stable s -> nfeed_all s cs = nfeed s (concat cs).
Proof.
  induction cs as [|c cs IH]; intros s St; cbn [NegSplit.nfeed_all concat].
  - rewrite nfeed_nil by exact St. reflexivity.
  - rewrite nfeed_app. unfold seq2. pose proof (nfeed_stable s c) as St1.
    destruct (nfeed s c) as [[s1 b1] p1]. cbn [fst] in St1. rewrite (IH s1 St1). reflexivity.
Qed.

Lemma init_stable k : stable (NWait [] (S k)).
Proof.
  right; right. exists [], k. split; [reflexivity|]. split; [reflexivity|]. cbn [List.length]. rewrite slack_is_4. lia.
Qed.

(* C13: every packetisation of the negotiation bytes yields the same header blocks, the same verdict
   and hands the same bytes to the RPC layer *)
Theorem split_chunk_independent k cs cs' : concat cs = concat cs' ->
  nfeed_all (NWait [] (S k)) cs = nfeed_all (NWait [] (S k)) cs'.
Proof. intros E. rewrite !nfeed_all_concat by apply init_stable. rewrite E. reflexivity. Qed.

(* C13: feeding packet by packet from a fresh object equals feeding the whole stream at once *)
Theorem split_incremental_is_whole k cs : nfeed_all (NWait [] (S k)) cs = nfeed (NWait [] (S k)) (concat cs).
Proof. apply nfeed_all_concat. apply init_stable. Qed.

End Proofs.

(* The size guard of the splitter model IS the verdict translated from Negotiation.dataReceived: `drain` refuses, waits or splits
   exactly as header_verdict says for (bytes.find(terminator), len(buffer)).  So the chunk-independence theorems above are about
   the translated guard, not about a restatement of it. *)

(* self.buffer.find(b"\r\n\r\n") *)
Definition eoh_of (buf : list Z) : Z := match find_term buf with Some e => Z.of_nat e | None => (-1)%Z end.

Lemma cap_Z : Z.of_nat cap = 4096%Z.
Proof. apply Z2Nat.id. discriminate. Qed.

Lemma cap_slack_Z : Z.of_nat (cap + slack) = 4100%Z.
Proof. unfold slack. rewrite Nat2Z.inj_add, cap_Z, Z2Nat.id by discriminate. reflexivity. Qed.

Theorem drain_test_is_header_verdict (ok : list Z -> bool) f buf k :
  drain ok (S f) buf (S k) =
    let v := header_verdict (eoh_of buf) (Z.of_nat (List.length buf)) in
    if (v =? 0)%Z then (NDead, [], [])
    else if (v =? 1)%Z then (NWait buf (S k), [], [])
    else let e := Z.to_nat (eoh_of buf) in
         let hdr := firstn e buf in
         if ok hdr then let '(s, bs, p) := drain ok f (skipn (e + 4) buf) k in (s, hdr :: bs, p)
         else (NDead, [hdr], []).
Proof.
  cbn [drain]. unfold eoh_of. cbv zeta. destruct (find_term buf) as [e|].
  - destruct (Nat.ltb_spec cap e) as [H|H]; [apply Nat2Z.inj_lt in H|apply Nat2Z.inj_le in H]; rewrite cap_Z in H.
    + rewrite (header_verdict_beyond_cap _ _ H). reflexivity.
    + rewrite header_verdict_within_cap by (split; [apply Nat2Z.is_nonneg|exact H]). rewrite Nat2Z.id. reflexivity.
  - destruct (Nat.leb_spec (cap + slack) (List.length buf)) as [H|H]; [apply Nat2Z.inj_le in H|apply Nat2Z.inj_lt in H];
      rewrite cap_slack_Z in H.
    + rewrite (proj2 (header_verdict_noterm _) H). reflexivity.
    + rewrite (proj2 (header_verdict_noterm_waits _) H). reflexivity.
Qed.
