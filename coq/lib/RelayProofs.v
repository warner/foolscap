(* C10: proofs about lib/Relay.v.  The relaying slicer rebuilds the type name with requal, which is the identity on a name with a
   dot (SendProofs.type_name_identified), and every name that FailureSlicer sends for a dotted class name has one: so the relayed
   state differs from the received one in the traceback at most, and still fits. *)
From Coq Require Import ZArith List Bool Lia.
Import ListNotations.
Require Import Verif.lib.PyLite Verif.lib.Utf8 Verif.gen.FailureGen Verif.lib.Utf8Proofs Verif.lib.Failure Verif.lib.FailureProofs.
Require Import Verif.gen.SendGen Verif.lib.Send Verif.lib.SendProofs Verif.lib.Relay.
Local Open Scope Z_scope.

(* a name with a dot is relayed unchanged, so a relayed failure that fitted still fits, and type / message / ancestry are the
   ones C sent *)
Theorem relay_fits unsafe s : In type_name_separator (s_type s) -> failure_constraint_ok s = true ->
  failure_constraint_ok (relay_state unsafe s) = true /\
  s_type (relay_state unsafe s) = s_type s /\ s_value (relay_state unsafe s) = s_value s /\
  s_parents (relay_state unsafe s) = s_parents s.
Proof.
  intros D OK. assert (E : requal type_name_separator (s_type s) = s_type s) by (apply type_name_identified; exact D).
  split; [|cbn [relay_state s_type s_value s_parents]; rewrite E; auto].
  unfold failure_constraint_ok in *. cbn [relay_state s_type s_value s_traceback s_parents]. rewrite E. destruct unsafe; [exact OK|].
  apply andb_true_iff in OK as [OK Q]. apply andb_true_iff in OK as [OK P]. apply andb_true_iff in OK as [OK _].
  rewrite OK, P, Q. reflexivity.
Qed.

Lemma in_utf8 c t : 0 <= c < 128 -> In c t -> In c (utf8 t).
Proof.
  intros R I. unfold utf8. apply in_flat_map. exists c. split; [exact I|].
  unfold enc1. destruct (c <? 128) eqn:E; [left; reflexivity|apply Z.ltb_ge in E; lia].
Qed.

Lemma in_escape c t : 0 <= c < 128 -> In c t -> In c (escape t).
Proof.
  intros R I. unfold escape. apply in_flat_map. exists c. split; [exact I|].
  unfold esc1. rewrite (scalarb_ascii c R). left. reflexivity.
Qed.

Lemma field_has_dot orig lim b : In 46 orig -> field_of orig lim b -> In 46 b.
Proof.
  intros I [[E _]|(_ & p & rest & _ & _ & E)]; subst b.
  - apply in_utf8; [lia|exact I].
  - rewrite utf8_app. apply in_or_app. right. left. reflexivity.
Qed.

(* every type name that getStateToCopy sends for a class whose qualified name has a dot (reflect.qual: module + "." + name,
   always) has a dot: the name itself (escaping and UTF-8 keep '.'), or a prefix followed by ".." *)
Theorem sent_type_has_dot unsafe e s ty : get_state unsafe e = Ok s -> e_type e = Ok ty -> In 46 ty -> In type_name_separator (s_type s).
Proof.
  intros G HT I. destruct (nameable_inv e (get_state_ok_nameable _ _ _ G)) as (ty' & pa & HT' & HP).
  rewrite HT in HT'. inversion HT'; subst ty'.
  destruct (failure_fits unsafe e ty pa HT HP) as (s' & G' & _ & _ & FT & _). rewrite G in G'. inversion G'; subst s'.
  apply (field_has_dot _ _ _ (in_escape 46 _ ltac:(lia) I) FT).
Qed.

(* C10_relay_end_to_end: for EVERY exception of a class that can be named and whose name has a dot, both tracebacks settings
   at C and at B and both expose settings at A: the relayed report reaches A's Deferred (B's slicer does not raise, A's
   FailureConstraint accepts), and A sees the type name, the message and the ancestry that C sent *)
Theorem relay_end_to_end unsafe_c unsafe_b expose_a e ty pa : e_type e = Ok ty -> e_parents e = Ok pa -> In 46 ty ->
  exists s, get_state unsafe_c e = Ok s /\
    relayed_report unsafe_c unsafe_b expose_a e = Ok (deliver expose_a (relay_state unsafe_b s)) /\
    s_type (relay_state unsafe_b s) = s_type s /\ s_value (relay_state unsafe_b s) = s_value s /\
    s_parents (relay_state unsafe_b s) = s_parents s.
Proof.
  intros HT HP I. destruct (failure_fits unsafe_c e ty pa HT HP) as (s & G & OK & _). exists s. split; [exact G|].
  destruct (relay_fits unsafe_b s (sent_type_has_dot _ _ _ _ G HT I) OK) as (OK' & T & V & P).
  split; [unfold relayed_report; rewrite G, OK, OK'; reflexivity|]. auto.
Qed.

(* without the dot the statement is false of the model: the stand-in class's qual() prepends "." (its __module__ is ""),
   one byte more than was received -- a 200-byte dotless name no longer fits.  reflect.qual never produces such a name; a
   peer that is not foolscap's FailureSlicer could. *)
Theorem relay_dotless_refuted : exists s, failure_constraint_ok s = true /\ failure_constraint_ok (relay_state true s) = false.
Proof.
  exists {| s_type := repeat 120 200; s_value := [118]; s_traceback := [116]; s_parents := [] |}.
  split; vm_compute; reflexivity.
Qed.

Example ex_relay : In 46 [97; 46; 66] /\
  relay_state false {| s_type := [97; 46; 66]; s_value := [118]; s_traceback := [116]; s_parents := [[97; 46; 66]] |}
  = {| s_type := [97; 46; 66]; s_value := [118]; s_traceback := copied_default_traceback; s_parents := [[97; 46; 66]] |}.
Proof. split; [right; left; reflexivity|reflexivity]. Qed.
