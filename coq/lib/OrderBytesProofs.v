(* C04 x C07: proofs about lib/OrderBytes.v.  Chunk independence itself is C07's theorem (RecvProofs.feed_app /
   feed_all_concat), and "the incremental receiver emits decode's tokens" is ObjChunks.chunks_decode; both are reused.
   HOW MANY objects a byte stream completes: the framing counter only grows and, at depth 0, is offset by what it has counted
   (fscan_mono, fscan_shift); a `framed` serialization adds exactly one.  WHEN: a proper prefix of a cleanly decoding stream
   yields a proper prefix of its tokens (cloop_proper_prefix), and under `framed_strict` everything but the last token completes
   nothing -- so a call is complete exactly with its last byte. *)
From Coq Require Import ZArith List Bool Arith Lia Sorted.
Import ListNotations.
Require Import Verif.lib.PyLite Verif.gen.BananaGen Verif.lib.Token Verif.lib.TokenProofs Verif.lib.Recv Verif.lib.RecvProofs
        Verif.lib.ObjChunks Verif.gen.OrderGen Verif.lib.Order Verif.lib.OrderProofs Verif.lib.OrderBytes.

Lemma fscan_app st a b : fscan st (a ++ b) = fscan (fscan st a) b.
Proof. unfold fscan. apply fold_left_app. Qed.

Lemma fstep_mono st t : f_done st <= f_done (fstep st t).
Proof. destruct t; cbn [fstep f_done]; try lia. destruct (f_depth st) as [|[|d]]; cbn [f_done]; lia. Qed.

Lemma fscan_mono ts : forall st, f_done st <= f_done (fscan st ts).
Proof.
  induction ts as [|t ts IH]; intros st; cbn [fscan fold_left]; [lia|].
  etransitivity; [apply (fstep_mono st t) | apply IH].
Qed.

Lemma fscan_shift ts : forall n o, f_done (fscan (fmk 0 n o) ts) = n + f_done (fscan finit ts) /\
                                   f_depth (fscan (fmk 0 n o) ts) = f_depth (fscan finit ts).
Proof.
  induction ts as [|t ts IH] using rev_ind; intros n o; [cbn; split; lia|].
  rewrite !fscan_app. cbn [fscan fold_left]. destruct (IH n o) as [I1 I2].
  destruct (fscan (fmk 0 n o) ts) as [d1 n1 o1], (fscan finit ts) as [d2 n2 o2]. cbn [f_done f_depth] in *. subst d2 n1.
  destruct t; cbn [fstep f_done f_depth]; try (split; lia). destruct d1 as [|[|d]]; cbn [f_done f_depth]; split; lia.
Qed.

(* a serialization is framed when, read from depth 0, it ends exactly one top-level object and nothing more *)
Definition framed (ts : list token) : Prop :=
  forall n o, exists o', fscan (fmk 0 n o) ts = fmk 0 (S n) o'.

Lemma fscan_framed_calls {A} (ser : A -> list token) : (forall c, framed (ser c)) ->
  forall cs n o, exists o', fscan (fmk 0 n o) (concat (map ser cs)) = fmk 0 (n + List.length cs) o'.
Proof.
  intros F. induction cs as [|c cs IH]; intros n o; cbn [map concat List.length].
  - exists o. rewrite Nat.add_0_r. reflexivity.
  - rewrite fscan_app. destruct (F c n o) as [o1 ->]. destruct (IH (S n) o1) as [o2 ->]. exists o2. f_equal. lia.
Qed.

Definition cstable := stable unit token col_begin col_finish col_nobody [] [] (fun _ => []).

Lemma cfeed_stable r c : cstable r -> cstable (fst (cfeed r c)).
Proof. apply feed_stable. Qed.

Lemma cfeed_app r x y : cstable r ->
  cfeed r (x ++ y) = let '(r1, e1) := cfeed r x in let '(r2, e2) := cfeed r1 y in (r2, e1 ++ e2).
Proof. apply feed_app. Qed.

Lemma cfeed_nil r : cstable r -> cfeed r [] = (r, []).
Proof. apply feed_nil. Qed.

Lemma cfeed_all_app cs1 : forall r cs2,
  cfeed_all r (cs1 ++ cs2) =
  let '(r1, e1) := cfeed_all r cs1 in let '(r2, e2) := cfeed_all r1 cs2 in (r2, e1 ++ e2).
Proof.
  unfold cfeed_all. induction cs1 as [|c cs1 IH]; intros r cs2; cbn [app feed_all].
  - destruct (feed_all _ _ _ _ _ _ _ _ r cs2); reflexivity.
  - destruct (feed _ _ _ _ _ _ _ _ r c) as [r1 e1]. rewrite IH.
    destruct (feed_all _ _ _ _ _ _ _ _ r1 cs1) as [r2 e2]. destruct (feed_all _ _ _ _ _ _ _ _ r2 cs2) as [r3 e3].
    rewrite app_assoc. reflexivity.
Qed.

(* packets that arrive later only ADD tokens: what has been tokenized is never revised *)
Theorem tokens_prefix cs1 cs2 : exists more, tokens_of_chunks (cs1 ++ cs2) = tokens_of_chunks cs1 ++ more.
Proof.
  unfold tokens_of_chunks. rewrite cfeed_all_app.
  destruct (cfeed_all (Recv.init tt) cs1) as [r1 e1]. destruct (cfeed_all r1 cs2) as [r2 e2]. exists e2. reflexivity.
Qed.

(* ... so the number of completed top-level objects (= Deliver steps performed) only grows with further packets *)
Theorem completed_monotone cs1 cs2 : completed cs1 <= completed (cs1 ++ cs2).
Proof.
  unfold completed. destruct (tokens_prefix cs1 cs2) as [more ->]. rewrite fscan_app. apply fscan_mono.
Qed.

(* C07 lifted: the Deliver steps are a function of the byte stream alone, not of its packetisation *)
Theorem completed_chunk_independent cs cs' : concat cs = concat cs' -> completed cs = completed cs'.
Proof.
  intros E. unfold completed, tokens_of_chunks, cfeed_all. rewrite (chunk_independent _ _ _ _ _ _ _ _ tt cs cs' E). reflexivity.
Qed.

(* a stream that consists of serialized calls: however it is cut into packets, the receiver completes exactly one
   top-level object per call -- no packet boundary merges, splits, duplicates or loses a Deliver *)
Theorem one_deliver_per_call {A} (ser : A -> list token) (calls : list A) bs cs :
  (forall c, framed (ser c)) ->
  forallb wf_token (concat (map ser calls)) = true -> forallb no_err (concat (map ser calls)) = true ->
  encode_stream (concat (map ser calls)) = Ok bs -> concat cs = bs ->
  completed cs = List.length calls.
Proof.
  intros F W NE E C. subst bs. unfold completed.
  rewrite (chunks_decode cs (concat (map ser calls))); [|apply stream_roundtrip; assumption|exact NE].
  destruct (fscan_framed_calls ser F calls 0 0) as [o' H]. unfold finit. rewrite H. reflexivity.
Qed.

(* ... and after the packets that end with the last byte of call j (the first j calls), exactly j; later packets only add *)
Corollary delivers_in_stream_order {A} (ser : A -> list token) (calls : list A) j bs1 cs1 cs2 :
  (forall c, framed (ser c)) ->
  forallb wf_token (concat (map ser (firstn j calls))) = true -> forallb no_err (concat (map ser (firstn j calls))) = true ->
  encode_stream (concat (map ser (firstn j calls))) = Ok bs1 -> concat cs1 = bs1 ->
  completed cs1 = List.length (firstn j calls) /\ List.length (firstn j calls) <= completed (cs1 ++ cs2).
Proof.
  intros F W NE E C. pose proof (one_deliver_per_call ser (firstn j calls) bs1 cs1 F W NE E C) as H.
  split; [exact H|]. rewrite <- H. apply completed_monotone.
Qed.

Lemma delivers_add a b s : delivers b (delivers a s) = delivers (a + b) s.
Proof. unfold delivers. rewrite repeat_app, fold_left_app. reflexivity. Qed.

(* a packet-driven history IS a history of the ordering model: every packet amounts to some number of Deliver steps *)
Theorem packets_refine_model bops : exists ops, b_model (brun bops) = run ops.
Proof.
  unfold brun. assert (G : forall bops b ops0, b_model b = run ops0 -> exists ops, b_model (fold_left bstep bops b) = run ops).
  { clear bops. induction bops as [|o bops IH]; intros b ops0 H; cbn [fold_left]; [exists ops0; exact H|].
    destruct o as [o|c]; cbn [bstep].
    - apply (IH _ (ops0 ++ [o])). cbn [b_model]. rewrite run_app, H. reflexivity.
    - destruct (cfeed (b_recv b) c) as [r' toks].
      apply (IH _ (ops0 ++ repeat Deliver (f_done (fscan (b_frame b) toks) - f_done (b_frame b)))).
      cbn [b_model]. rewrite run_app, H. reflexivity. }
  apply (G bops binit []). reflexivity.
Qed.

Theorem order_any_chunking bops :
  sublist (entered (b_model (brun bops))) (issued (b_model (brun bops))) /\ NoDup (entered (b_model (brun bops))).
Proof.
  destruct (packets_refine_model bops) as [ops ->]. split; [apply entered_in_issue_order | apply entered_at_most_once].
Qed.

(* two consecutive packets behave exactly like their concatenation, on the whole state (tokenizer, framing, ordering model) *)
Lemma bstep_app b x y : cstable (b_recv b) ->
  bstep (bstep b (BChunk x)) (BChunk y) = bstep b (BChunk (x ++ y)).
Proof.
  intros St. cbn [bstep]. rewrite (cfeed_app _ x y St).
  destruct (cfeed (b_recv b) x) as [r1 e1]. cbn [b_recv b_frame b_model].
  destruct (cfeed r1 y) as [r2 e2]. rewrite fscan_app.
  pose proof (fscan_mono e1 (b_frame b)) as M1. pose proof (fscan_mono e2 (fscan (b_frame b) e1)) as M2.
  rewrite delivers_add. f_equal. f_equal. lia.
Qed.

Lemma bstep_stable b o : cstable (b_recv b) -> cstable (b_recv (bstep b o)).
Proof.
  intros St. destruct o as [o|c]; cbn [bstep b_recv]; [exact St|].
  pose proof (cfeed_stable (b_recv b) c St) as H. destruct (cfeed (b_recv b) c) as [r' toks]. exact H.
Qed.

Lemma rechunk_from cs : forall b, cstable (b_recv b) ->
  fold_left bstep (map BChunk cs) b = bstep b (BChunk (concat cs)).
Proof.
  induction cs as [|c cs IH]; intros b St; cbn [map fold_left concat].
  - cbn [bstep]. rewrite (cfeed_nil _ St). cbn [fscan fold_left]. rewrite Nat.sub_diag. destruct b; reflexivity.
  - rewrite IH by (apply bstep_stable, St). apply bstep_app, St.
Qed.

(* "regardless of packetisation": anywhere in a history, a run of consecutive packets may be re-cut arbitrarily (same
   bytes) without changing anything -- the tokenizer, the framing state, the whole ordering model, hence what is entered *)
Theorem rechunking_changes_nothing pre cs cs' post : concat cs = concat cs' ->
  brun (pre ++ map BChunk cs ++ post) = brun (pre ++ map BChunk cs' ++ post).
Proof.
  intros E. unfold brun. rewrite !fold_left_app.
  assert (St : cstable (b_recv (fold_left bstep pre binit))) by (apply (fold_left_invariant bstep (fun b => cstable (b_recv b)) bstep_stable), init_stable).
  rewrite !rechunk_from by exact St. rewrite E. reflexivity.
Qed.

(* NOT BEFORE THE LAST BYTE.  The theorems above say how many objects a COMPLETE stream completes; these say when: the
   tokenizer hands a token upward only once its last byte has arrived, the framing counts an object only at its closing CLOSE,
   so a call is delivered exactly when its last byte has arrived -- and the packets that carry the bytes of the model's `wire`
   amount to exactly the Deliver steps of the calls they carry completely. *)

Lemma ctok_step_no_skip b c' es n : ctok_step tt b <> TSkip unit token c' es n.
Proof.
  unfold ctok_step, tok_step, col_begin. destruct (scan_header 64 [] b) as [| |ds ty rest]; try discriminate.
  destruct (ty =? tok_ERROR)%Z.
  { destruct (SIZE_LIMIT <? le128 ds)%Z; [discriminate|]. destruct (lenZ rest <? le128 ds)%Z; discriminate. }
  destruct (has_body ty).
  - destruct (lenZ rest <? blen ty (le128 ds))%Z; [discriminate|]. destruct (col_finish _ _ _ _); discriminate.
  - destruct (col_nobody _ _ _); discriminate.
Qed.

(* a proper prefix p of a stream that decodes cleanly into ts yields a proper prefix of ts: at least the last token is missing *)
Lemma cloop_proper_prefix : forall fuel bs ts, decode_all fuel bs = (ts, EndClean) -> forallb no_err ts = true ->
  forall p q f2, bs = p ++ q -> q <> [] -> (List.length p < f2)%nat ->
  exists ts1 ts2, ts = ts1 ++ ts2 /\ ts2 <> [] /\ snd (cloop f2 tt p) = ts1.
Proof.
  induction fuel as [|f IH]; intros bs ts D NE p q f2 E Q L; [discriminate|]. cbn [decode_all] in D.
  destruct bs as [|b0 bs']. { destruct p; [|discriminate]. destruct q; [contradiction Q; reflexivity|discriminate]. }
  destruct (scan_token (b0 :: bs')) as [| |t rest] eqn:S; try discriminate.
  destruct (interp t) as [tk|] eqn:I; [|discriminate].
  destruct (decode_all f rest) as [ts' e] eqn:D'. inversion D; subst ts e; clear D.
  cbn [forallb] in NE. apply andb_true_iff in NE as [N1 N2].
  pose proof (tok_step_scan _ _ _ _ S I N1) as T. rewrite E in T.
  destruct f2 as [|f2]; [lia|].
  destruct p as [|p0 p'].
  { exists [], (tk :: ts'). split; [reflexivity|]. split; [discriminate|]. reflexivity. }
  unfold cloop. rewrite loop_cons. fold ctok_step. fold cloop.
  destruct (ctok_step tt (p0 :: p')) as [|c' es n|c' es restp|es] eqn:Tp.
  - exists [], (tk :: ts'). split; [reflexivity|]. split; [discriminate|]. reflexivity.
  - exfalso. exact (ctok_step_no_skip _ _ _ _ Tp).
  - pose proof (tok_step_app_cont _ _ _ _ _ _ _ _ _ (p0 :: p') q c' es restp Tp) as T2. fold ctok_step in T2.
    rewrite T in T2. inversion T2; subst c' es rest.
    pose proof (tok_step_cont_length _ _ _ _ _ _ _ _ _ _ _ _ _ Tp) as Lr.
    destruct (IH (restp ++ q) ts' D' N2 restp q f2 eq_refl Q ltac:(cbn [List.length] in *; lia)) as (ts1 & ts2 & E1 & E2 & E3).
    exists (tk :: ts1), ts2. split; [rewrite E1; reflexivity|]. split; [exact E2|].
    destruct (cloop f2 tt restp) as [s1 es1]. cbn [snd] in *. rewrite E3. reflexivity.
  - exfalso. pose proof (tok_step_app_dead _ _ _ _ _ _ _ _ _ (p0 :: p') q es Tp) as T2. fold ctok_step in T2.
    rewrite T in T2. discriminate.
Qed.

Theorem tokens_before_last_byte cs p q ts : decode (p ++ q) = (ts, EndClean) -> forallb no_err ts = true -> q <> [] -> concat cs = p ->
  exists ts1 ts2, ts = ts1 ++ ts2 /\ ts2 <> [] /\ tokens_of_chunks cs = ts1.
Proof.
  intros D NE Q C. unfold tokens_of_chunks, cfeed_all. rewrite feed_all_is_run, C.
  unfold Recv.run, feed. cbn [Recv.init Recv.mk r_dead r_skip r_buf r_ctx]. cbn [Z.ltb andb Z.to_nat skipn app].
  fold cloop. unfold decode in D.
  apply (cloop_proper_prefix _ _ _ D NE p q (S (List.length p)) eq_refl Q). lia.
Qed.

Lemma encode_stream_app a : forall b x y, encode_stream a = Ok x -> encode_stream b = Ok y -> encode_stream (a ++ b) = Ok (x ++ y).
Proof.
  induction a as [|t a IH]; intros b x y Ea Eb; cbn [app encode_stream] in *.
  - inversion Ea; subst x. exact Eb.
  - unfold bind in *. destruct (encode_token t []) as [bt|]; [|discriminate].
    destruct (encode_stream a) as [ba|] eqn:E; [|discriminate]. inversion Ea; subst x.
    rewrite (IH b ba y eq_refl Eb). rewrite app_assoc. reflexivity.
Qed.

(* what has been tokenized of a stream that starts with the complete bytes bs1: the tokens of bs1, then more *)
Lemma tokens_after_complete cs bs1 p ts1 : decode bs1 = (ts1, EndClean) -> forallb no_err ts1 = true -> concat cs = bs1 ++ p ->
  exists more, tokens_of_chunks cs = ts1 ++ more.
Proof.
  intros D NE C.
  assert (E : tokens_of_chunks cs = tokens_of_chunks ([bs1] ++ [p])).
  { unfold tokens_of_chunks, cfeed_all. rewrite (chunk_independent _ _ _ _ _ _ _ _ tt cs ([bs1] ++ [p])); [reflexivity|].
    cbn [app concat]. rewrite app_nil_r. exact C. }
  rewrite E. destruct (tokens_prefix [bs1] [p]) as [more ->]. exists more. f_equal.
  apply chunks_decode; [cbn [concat]; rewrite app_nil_r; exact D | exact NE].
Qed.

(* strict framing: the object is complete at the LAST token of its serialization and at no earlier one *)
Definition framed_strict (ts : list token) : Prop :=
  framed ts /\ forall ts1 ts2, ts = ts1 ++ ts2 -> ts2 <> [] -> forall n o, f_done (fscan (fmk 0 n o) ts1) = n.

(* the count never decreases, so it is enough that everything but the last token completes nothing *)
Lemma framed_strict_last ts : framed ts -> (forall n o, f_done (fscan (fmk 0 n o) (removelast ts)) = n) ->
  framed_strict ts.
Proof.
  intros F H. split; [exact F|]. intros ts1 ts2 E Q n o.
  destruct (exists_last Q) as (ts2' & y & ->). rewrite app_assoc in E.
  rewrite E, removelast_last in H. specialize (H n o). rewrite fscan_app in H.
  pose proof (fscan_mono ts1 (fmk 0 n o)) as M1. pose proof (fscan_mono ts2' (fscan (fmk 0 n o) ts1)) as M2.
  cbn [f_done] in M1. lia.
Qed.

(* the bytes of `calls`, complete, followed by the bytes of call c cut into p ++ q, of which p has arrived -- in any packets:
   c is delivered iff q = [], i.e. exactly when its last byte has arrived; the calls before it are *)
Theorem delivered_exactly_at_last_byte {A} (ser : A -> list token) (calls : list A) (c : A) bs1 p q cs :
  (forall c, framed_strict (ser c)) ->
  forallb wf_token (concat (map ser (calls ++ [c]))) = true -> forallb no_err (concat (map ser (calls ++ [c]))) = true ->
  encode_stream (concat (map ser calls)) = Ok bs1 -> encode_stream (ser c) = Ok (p ++ q) -> concat cs = bs1 ++ p ->
  completed cs = match q with [] => S (List.length calls) | _ => List.length calls end.
Proof.
  intros F W NE E1 Ec C.
  assert (Eall : encode_stream (concat (map ser (calls ++ [c]))) = Ok (bs1 ++ p ++ q)).
  { rewrite map_app, concat_app. cbn [map concat]. rewrite app_nil_r. apply encode_stream_app; assumption. }
  destruct q as [|q0 q'].
  - rewrite app_nil_r in *.
    rewrite (one_deliver_per_call ser (calls ++ [c]) (bs1 ++ p) cs (fun x => proj1 (F x)) W NE Eall C).
    rewrite app_length. cbn [List.length]. lia.
  - pose proof (stream_roundtrip _ _ W Eall) as D.
    assert (Q : q0 :: q' <> []) by discriminate.
    destruct (tokens_before_last_byte cs (bs1 ++ p) (q0 :: q') _ ltac:(rewrite <- app_assoc; exact D) NE Q C) as (ts1 & ts2 & T1 & T2 & T3).
    rewrite map_app, concat_app, forallb_app in W, NE. cbn [map concat] in W, NE. rewrite app_nil_r in W, NE.
    apply andb_true_iff in W as [W1 W2]. apply andb_true_iff in NE as [NE1 NE2].
    destruct (tokens_after_complete cs bs1 p _ (stream_roundtrip _ _ W1 E1) NE1 C) as [more M].
    subst ts1. rewrite map_app, concat_app in T1. cbn [map concat] in T1. rewrite app_nil_r, M, <- app_assoc in T1.
    apply app_inv_head in T1.
    unfold completed. rewrite M, fscan_app.
    destruct (fscan_framed_calls ser (fun x => proj1 (F x)) calls 0 0) as [o' H]. unfold finit. rewrite H. cbn [Nat.add].
    exact (proj2 (F c) more ts2 T1 T2 (List.length calls) o').
Qed.

(* the same about the MODEL's wire: Deliver steps take the calls off the wire in order ... *)
Lemma delivers_wire k : forall s, lost s = false -> cut s = None ->
  wire (delivers k s) = skipn k (wire s) /\ lost (delivers k s) = false /\ cut (delivers k s) = None.
Proof.
  unfold delivers. induction k as [|k IH]; intros s L C; cbn [repeat fold_left skipn]; [auto|].
  cbn [step]. destruct (deliver_live s L C) as (_ & _ & H1 & H2 & H3). destruct (IH (deliver s) H2 H3) as (I1 & I2 & I3).
  rewrite I1, H1. split; [|auto]. destruct (wire s); cbn [tl]; [apply skipn_nil|reflexivity].
Qed.

(* ... and the packets that carry the bytes of the wire -- the calls `calls` completely, then p of call c's p ++ q -- are, on the
   whole state, exactly the Deliver steps of the calls whose last byte they carry: those leave the wire, c stays unless q = [].
   (The receiver is between two top-level objects when the first of these bytes arrives.) *)
Theorem wire_bytes_are_delivers (ser : call -> list token) b calls c later bs1 p q cs :
  (forall c, framed_strict (ser c)) ->
  b_recv b = Recv.init tt -> f_depth (b_frame b) = 0 ->
  lost (b_model b) = false -> cut (b_model b) = None -> wire (b_model b) = calls ++ c :: later ->
  forallb wf_token (concat (map ser (calls ++ [c]))) = true -> forallb no_err (concat (map ser (calls ++ [c]))) = true ->
  encode_stream (concat (map ser calls)) = Ok bs1 -> encode_stream (ser c) = Ok (p ++ q) -> concat cs = bs1 ++ p ->
  let b' := fold_left bstep (map BChunk cs) b in
  let k := match q with [] => S (List.length calls) | _ => List.length calls end in
  b_model b' = delivers k (b_model b) /\
  wire (b_model b') = match q with [] => later | _ => c :: later end.
Proof.
  intros F R0 D0 L C Wi W NE E1 Ec Cc b' k.
  assert (St : cstable (b_recv b)) by (rewrite R0; apply init_stable).
  assert (K : completed cs = k) by (apply (delivered_exactly_at_last_byte ser calls c bs1 p q cs F W NE E1 Ec Cc)).
  assert (M : b_model b' = delivers k (b_model b)).
  { subst b'. rewrite (rechunk_from cs b St). cbn [bstep]. rewrite R0.
    unfold completed, tokens_of_chunks, cfeed_all in K. rewrite feed_all_is_run in K. unfold Recv.run in K. fold cfeed in K.
    destruct (cfeed (Recv.init tt) (concat cs)) as [r' toks]. cbn [snd] in K. cbn [b_model].
    destruct (b_frame b) as [d n o]. cbn [f_depth] in D0. subst d. cbn [f_done].
    rewrite (proj1 (fscan_shift toks n o)), K. f_equal. lia. }
  split; [exact M|]. rewrite M. destruct (delivers_wire k (b_model b) L C) as [Hw _]. rewrite Hw, Wi. subst k.
  destruct q; clear; induction calls as [|x r IH]; cbn [List.length app skipn]; auto.
Qed.

Lemma ser_call_framed k : framed (ser_call k).
Proof. intros n o. eexists. reflexivity. Qed.

(* three calls, bytes delivered one at a time / in two odd pieces / at once: three Delivers each time, and the
   packet-driven model enters 0,1,2 *)
Example three_calls_bytewise :
  match encode_stream (concat (map ser_call [0; 1; 2])) with
  | Ok bs =>
    completed (map (fun b => [b]) bs) = 3 /\ completed [firstn 17 bs; []; skipn 17 bs] = 3 /\ completed [bs] = 3 /\
    entered (b_model (brun ([BModel (Issue 0 FPlain); BModel (Issue 0 FPlain); BModel (Issue 0 FPlain)] ++
                            map (fun b => BChunk [b]) bs ++ [BModel Turn; BModel Turn; BModel Turn]))) = [0; 1; 2]
  | Exc _ => False
  end.
Proof. vm_compute. repeat split; reflexivity. Qed.

Lemma ser_call_framed_strict k : framed_strict (ser_call k).
Proof. apply framed_strict_last; [apply ser_call_framed | reflexivity]. Qed.

(* the bytes of calls 0 and 1 and all but the last byte of call 2: two Delivers, in any packets; the last byte brings the third;
   inside call 0 (its OPEN has long arrived): none *)
Example not_before_the_last_byte :
  match encode_stream (concat (map ser_call [0; 1; 2])) with
  | Ok bs =>
    completed [removelast bs] = 2 /\ completed (map (fun b => [b]) (removelast bs)) = 2 /\ completed [removelast bs; [last bs 0%Z]] = 3 /\
    completed [firstn 20 bs] = 0 /\ completed [firstn 1 bs] = 0
  | Exc _ => False
  end.
Proof. vm_compute. repeat split; reflexivity. Qed.

(* and on the model: two calls on the wire, their bytes arrive without the very last one: call 0 leaves the wire, call 1 stays *)
Example wire_bytes_example :
  let s := run [Issue 0 FPlain; Issue 0 FPlain] in
  match encode_stream (concat (map (fun c => ser_call (cid c)) (wire s))) with
  | Ok bs =>
    ids (wire (b_model (fold_left bstep (map BChunk [firstn 9 bs; skipn 9 (removelast bs)]) (bmk s (Recv.init tt) finit)))) = [1] /\
    ids (wire (b_model (fold_left bstep (map BChunk [firstn 9 bs; skipn 9 bs]) (bmk s (Recv.init tt) finit)))) = []
  | Exc _ => False
  end.
Proof. vm_compute. split; reflexivity. Qed.
