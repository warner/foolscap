(* Chunk independence of the generic receive tokenizer of lib/Recv.v:
   feeding c1 then c2 is the same as feeding c1 ++ c2 -- for every handler semantics. *)
From Coq Require Import ZArith List Bool Lia.
Import ListNotations.
Require Import Verif.lib.PyLite Verif.gen.BananaGen Verif.lib.Token Verif.lib.Recv.
Local Open Scope Z_scope.

Lemma scan_ok_app l : forall room acc m ds ty r,
  scan_header room acc l = HOk ds ty r -> scan_header room acc (l ++ m) = HOk ds ty (r ++ m).
Proof.
  induction l as [|b l IH]; intros room acc m ds ty r; cbn [scan_header app]; [discriminate|].
  destruct (128 <=? b); [intros H; inversion H; subst; reflexivity|].
  destruct room; [discriminate|]. apply IH.
Qed.

Lemma scan_bad_app l : forall room acc m, scan_header room acc l = HBad -> scan_header room acc (l ++ m) = HBad.
Proof.
  induction l as [|b l IH]; intros room acc m; cbn [scan_header app]; [discriminate|].
  destruct (128 <=? b); [discriminate|]. destruct room; [reflexivity|]. apply IH.
Qed.

Lemma scan_ok_length l : forall room acc ds ty r,
  scan_header room acc l = HOk ds ty r -> (List.length r < List.length l)%nat.
Proof.
  induction l as [|b l IH]; intros room acc ds ty r; cbn [scan_header]; [discriminate|].
  destruct (128 <=? b); [intros H; inversion H; subst; cbn [List.length]; lia|].
  destruct room; [discriminate|]. intros H; apply IH in H; cbn [List.length]; lia.
Qed.

Lemma scan_need_length l : forall room acc, scan_header room acc l = HNeed -> (List.length l <= room)%nat.
Proof.
  induction l as [|b l IH]; intros room acc; cbn [scan_header List.length]; [lia|].
  destruct (128 <=? b); [discriminate|]. destruct room; [discriminate|]. intros H; apply IH in H; lia.
Qed.

Lemma scan_ok_total_length l : forall room acc ds ty r,
  scan_header room acc l = HOk ds ty r -> (List.length l <= room + 1 + List.length r)%nat.
Proof.
  induction l as [|b l IH]; intros room acc ds ty r; cbn [scan_header]; [discriminate|].
  destruct (128 <=? b); [intros H; inversion H; subst; cbn [List.length]; lia|].
  destruct room; [discriminate|]. intros H; apply IH in H; cbn [List.length]; lia.
Qed.

Lemma lenZ_app {A} (x y : list A) : lenZ (x ++ y) = lenZ x + lenZ y.
Proof. unfold lenZ. rewrite app_length. lia. Qed.

Lemma lenZ_nonneg {A} (x : list A) : 0 <= lenZ x.
Proof. unfold lenZ. lia. Qed.

Lemma firstn_app_enough {A} (x y : list A) n : n <= lenZ x -> firstn (Z.to_nat n) (x ++ y) = firstn (Z.to_nat n) x.
Proof.
  unfold lenZ. intros H. rewrite firstn_app.
  replace (Z.to_nat n - List.length x)%nat with 0%nat by lia. apply app_nil_r.
Qed.

Lemma skipn_app_enough {A} (x y : list A) n : n <= lenZ x -> skipn (Z.to_nat n) (x ++ y) = skipn (Z.to_nat n) x ++ y.
Proof.
  unfold lenZ. intros H. rewrite skipn_app.
  replace (Z.to_nat n - List.length x)%nat with 0%nat by lia. reflexivity.
Qed.

Lemma skipn_app_beyond {A} (x y : list A) n : lenZ x <= n ->
  skipn (Z.to_nat n) (x ++ y) = skipn (Z.to_nat (n - lenZ x)) y.
Proof.
  unfold lenZ. intros H. rewrite skipn_app. rewrite skipn_all2 by lia. cbn [app].
  f_equal. lia.
Qed.

Section Proofs.
Variables ctx ev : Type.
Variable begin_body : ctx -> Z -> Z -> bres ctx ev.
Variable finish_body : ctx -> Z -> Z -> list Z -> hres2 ctx ev.
Variable step_nobody : ctx -> Z -> Z -> hres2 ctx ev.
Variables ev_hdr_too_long ev_error_oversize : list ev.
Variable ev_error_token : list Z -> list ev.

Notation tok_step := (tok_step ctx ev begin_body finish_body step_nobody ev_hdr_too_long ev_error_oversize ev_error_token).
Notation loop := (loop ctx ev begin_body finish_body step_nobody ev_hdr_too_long ev_error_oversize ev_error_token).
Notation feed := (feed ctx ev begin_body finish_body step_nobody ev_hdr_too_long ev_error_oversize ev_error_token).
Notation feed_all := (feed_all ctx ev begin_body finish_body step_nobody ev_hdr_too_long ev_error_oversize ev_error_token).
Notation run := (run ctx ev begin_body finish_body step_nobody ev_hdr_too_long ev_error_oversize ev_error_token).

(* header values are non-negative when the digits are (always true for bytes < 128) *)
Definition nonneg_bytes (l : list Z) : Prop := Forall (fun b => 0 <= b) l.

(* Once the header is scanned, tok_step decides on the type byte and the header value alone -- abandon, wait for
   n body bytes and hand them to k, or drop n body bytes -- and then carries the decision out on what follows. *)
Inductive plan := PDead (es : list ev) | PWait (n : Z) (k : list Z -> hres2 ctx ev) | PSkip (n : Z) (c' : ctx) (es : list ev).

Definition plan_of (c : ctx) (ty hdr : Z) : plan :=
  if ty =? tok_ERROR then
    if SIZE_LIMIT <? hdr then PDead ev_error_oversize else PWait hdr (fun body => HFatal (ev_error_token body))
  else if has_body ty then
    match begin_body c ty hdr with
    | BFatal es => PDead es
    | BAccept => PWait (blen ty hdr) (finish_body c ty hdr)
    | BReject c' es => PSkip (blen ty hdr) c' es
    end
  else PWait 0 (fun _ => step_nobody c ty hdr).

Definition exec (p : plan) (rest : list Z) : tres ctx ev :=
  match p with
  | PDead es => TDead ctx ev es
  | PWait n k => if lenZ rest <? n then TNeed ctx ev
                 else match k (firstn (Z.to_nat n) rest) with
                      | HCont c' es => TCont ctx ev c' es (skipn (Z.to_nat n) rest)
                      | HFatal es => TDead ctx ev es
                      end
  | PSkip n c' es => if lenZ rest <? n then TSkip ctx ev c' es (n - lenZ rest) else TCont ctx ev c' es (skipn (Z.to_nat n) rest)
  end.

Lemma tok_step_exec c b : tok_step c b =
  match scan_header 64 [] b with
  | HNeed => TNeed ctx ev
  | HBad => TDead ctx ev ev_hdr_too_long
  | HOk ds ty rest => exec (plan_of c ty (le128 ds)) rest
  end.
Proof.
  unfold tok_step, plan_of. destruct (scan_header 64 [] b) as [| |ds ty rest]; try reflexivity.
  destruct (ty =? tok_ERROR); [destruct (SIZE_LIMIT <? le128 ds); reflexivity|].
  destruct (has_body ty); [destruct (begin_body c ty (le128 ds)); reflexivity|].
  cbn [exec Z.to_nat firstn skipn]. pose proof (lenZ_nonneg rest). destruct (Z.ltb_spec (lenZ rest) 0); [lia|reflexivity].
Qed.

Lemma exec_app p x y : exec p (x ++ y) =
  match exec p x with
  | TNeed _ _ => exec p (x ++ y)
  | TSkip _ _ c' es n => if lenZ y <? n then TSkip ctx ev c' es (n - lenZ y) else TCont ctx ev c' es (skipn (Z.to_nat n) y)
  | TCont _ _ c' es rest => TCont ctx ev c' es (rest ++ y)
  | TDead _ _ es => TDead ctx ev es
  end.
Proof.
  pose proof (lenZ_nonneg y). destruct p as [es|n k|n c' es]; cbn [exec]; [reflexivity| |]; rewrite lenZ_app;
    destruct (Z.ltb_spec (lenZ x) n) as [Hlt|Hge]; try reflexivity.
  - destruct (Z.ltb_spec (lenZ x + lenZ y) n); [lia|]. rewrite firstn_app_enough, skipn_app_enough by exact Hge.
    destruct (k (firstn (Z.to_nat n) x)); reflexivity.
  - destruct (Z.ltb_spec (lenZ x + lenZ y) n), (Z.ltb_spec (lenZ y) (n - lenZ x)); try lia; f_equal; [lia|].
    apply skipn_app_beyond. lia.
  - destruct (Z.ltb_spec (lenZ x + lenZ y) n); [lia|]. rewrite skipn_app_enough by exact Hge. reflexivity.
Qed.

Lemma exec_cont_length p rest c' es rest' : exec p rest = TCont ctx ev c' es rest' -> (List.length rest' <= List.length rest)%nat.
Proof.
  destruct p as [es0|n k|n c0 es0]; cbn [exec]; [discriminate| |]; destruct (lenZ rest <? n); try discriminate.
  - destruct (k _); [|discriminate]. intros E; inversion E; subst. rewrite skipn_length. lia.
  - intros E; inversion E; subst. rewrite skipn_length. lia.
Qed.

Lemma exec_skip_pos p rest c' es n : exec p rest = TSkip ctx ev c' es n -> 0 < n.
Proof.
  destruct p as [es0|n0 k|n0 c0 es0]; cbn [exec]; [discriminate|destruct (lenZ rest <? n0); [|destruct (k _)]; discriminate|].
  destruct (Z.ltb_spec (lenZ rest) n0); [|discriminate]. intros E; inversion E; subst. lia.
Qed.

Lemma exec_need p rest : exec p rest = TNeed ctx ev -> exists n k, p = PWait n k /\ lenZ rest < n.
Proof.
  destruct p as [es0|n k|n c0 es0]; cbn [exec]; [discriminate| |destruct (lenZ rest <? n); discriminate].
  destruct (Z.ltb_spec (lenZ rest) n); [eauto|destruct (k _); discriminate].
Qed.

Lemma tok_step_cont_length c b c' es rest : tok_step c b = TCont ctx ev c' es rest -> (List.length rest < List.length b)%nat.
Proof.
  rewrite tok_step_exec. destruct (scan_header 64 [] b) as [| |ds ty r] eqn:S; try discriminate.
  intros E. apply exec_cont_length in E. apply scan_ok_length in S. lia.
Qed.

Lemma tok_step_skip_pos c b c' es n : tok_step c b = TSkip ctx ev c' es n -> 0 < n.
Proof. rewrite tok_step_exec. destruct (scan_header 64 [] b); try discriminate. apply exec_skip_pos. Qed.

(* fuel only has to exceed the buffer length *)
Lemma loop_fuel f1 : forall f2 c b, (List.length b < f1)%nat -> (List.length b < f2)%nat -> loop f1 c b = loop f2 c b.
Proof.
  induction f1 as [|f1 IH]; intros f2 c b H1 H2; [lia|].
  destruct f2 as [|f2]; [lia|]. cbn [Recv.loop].
  destruct b as [|x b]; [reflexivity|].
  destruct (tok_step c (x :: b)) as [|c' es n|c' es rest|es] eqn:T; try reflexivity.
  pose proof (tok_step_cont_length _ _ _ _ _ T) as L.
  rewrite (IH f2 c' rest); [reflexivity| |]; cbn [List.length] in *; lia.
Qed.

Lemma tok_step_app c x y : tok_step c (x ++ y) =
  match tok_step c x with
  | TNeed _ _ => tok_step c (x ++ y)
  | TSkip _ _ c' es n => if lenZ y <? n then TSkip ctx ev c' es (n - lenZ y) else TCont ctx ev c' es (skipn (Z.to_nat n) y)
  | TCont _ _ c' es rest => TCont ctx ev c' es (rest ++ y)
  | TDead _ _ es => TDead ctx ev es
  end.
Proof.
  rewrite (tok_step_exec c x). destruct (scan_header 64 [] x) as [| |ds ty r] eqn:S; [reflexivity| |]; rewrite tok_step_exec.
  - rewrite (scan_bad_app _ _ _ y S). reflexivity.
  - rewrite (scan_ok_app _ _ _ y _ _ _ S). apply exec_app.
Qed.

Lemma tok_step_app_cont c x y c' es rest :
  tok_step c x = TCont ctx ev c' es rest -> tok_step c (x ++ y) = TCont ctx ev c' es (rest ++ y).
Proof. intros T. rewrite tok_step_app, T. reflexivity. Qed.

Lemma tok_step_app_dead c x y es : tok_step c x = TDead ctx ev es -> tok_step c (x ++ y) = TDead ctx ev es.
Proof. intros T. rewrite tok_step_app, T. reflexivity. Qed.

Definition snd_app {A} (p : rstate ctx * list A) (es : list A) := (fst p, es ++ snd p).

Lemma feed_dead s y : r_dead s = true -> feed s y = (s, []).
Proof. intros H. unfold Recv.feed. rewrite H. reflexivity. Qed.

Lemma loop_cons f c b x :
  loop (S f) c (b :: x) =
  match tok_step c (b :: x) with
  | TNeed _ _ => (mk c (b :: x) 0 false, [])
  | TSkip _ _ c' es n => (mk c' [] n false, es)
  | TCont _ _ c' es rest => let '(s, es') := loop f c' rest in (s, es ++ es')
  | TDead _ _ es => (mk c [] 0 true, es)
  end.
Proof. reflexivity. Qed.

Lemma feed_fresh c b y : (* feeding y to the state "buffer b kept, nothing skipped" *)
  feed (mk c b 0 false) y = loop (S (List.length (b ++ y))) c (b ++ y).
Proof. unfold Recv.feed, mk. cbn [r_dead r_skip r_buf r_ctx]. reflexivity. Qed.

(* feeding y while bytes are being skipped (or nothing is held): the comparison may be taken strict, because a
   chunk that exactly ends the skip leaves the empty buffer either way *)
Lemma feed_skipping s y : r_dead s = false -> r_buf s = [] -> 0 <= r_skip s ->
  feed s y = if lenZ y <? r_skip s then (mk (r_ctx s) [] (r_skip s - lenZ y) false, [])
             else let b := skipn (Z.to_nat (r_skip s)) y in loop (S (List.length b)) (r_ctx s) b.
Proof.
  intros D B K. unfold Recv.feed. rewrite D, B. cbn [app]. pose proof (lenZ_nonneg y).
  destruct (Z.ltb_spec (lenZ y) (r_skip s)), (Z.ltb_spec 0 (r_skip s)), (Z.leb_spec (lenZ y) (r_skip s)); try lia; try reflexivity.
  rewrite skipn_all2 by (unfold lenZ in *; lia). cbn. unfold mk. f_equal. f_equal. lia.
Qed.

Lemma loop_app : forall n x y c f1 f2, (List.length x <= n)%nat ->
  (List.length x < f1)%nat -> (List.length (x ++ y) < f2)%nat ->
  loop f2 c (x ++ y) = let '(s1, e1) := loop f1 c x in let '(s2, e2) := feed s1 y in (s2, e1 ++ e2).
Proof.
  induction n as [|n IH]; intros x y c f1 f2 Hn H1 H2.
  - destruct x; [|cbn in Hn; lia]. destruct f1; [lia|]. cbn [Recv.loop]. rewrite feed_fresh. cbn [app] in *.
    rewrite (loop_fuel f2 (S (List.length y)) c y) by lia.
    destruct (loop (S (List.length y)) c y). reflexivity.
  - destruct x as [|b x]; [apply (IH [] y c f1 f2); cbn in *; lia|].
    destruct f1 as [|f1]; [lia|]. destruct f2 as [|f2]; [lia|].
    rewrite app_length in H2. cbn [List.length] in Hn, H1, H2.
    rewrite (loop_cons f1 c b x), (loop_cons f2 c b (x ++ y) : loop (S f2) c ((b :: x) ++ y) = _),
      (tok_step_app c (b :: x) y : tok_step c (b :: x ++ y) = _).
    destruct (tok_step c (b :: x)) as [|c' es k|c' es rest|es] eqn:T.
    + (* need more: the buffer is kept and the next feed re-scans it *)
      rewrite feed_fresh. cbn [app]. rewrite <- loop_cons.
      rewrite (loop_fuel (S f2) (S (List.length (b :: x ++ y))) c (b :: x ++ y)); [|cbn [List.length]; rewrite app_length; lia|lia].
      destruct (loop (S (List.length (b :: x ++ y))) c (b :: x ++ y)). reflexivity.
    + (* rejected body, incomplete in x *)
      pose proof (tok_step_skip_pos _ _ _ _ _ T). rewrite feed_skipping by (cbn; lia || reflexivity). cbn [mk r_skip r_ctx].
      destruct (lenZ y <? k); [rewrite app_nil_r; reflexivity|]. cbv zeta.
      rewrite (loop_fuel f2 (S (List.length (skipn (Z.to_nat k) y))) c' (skipn (Z.to_nat k) y)); [|rewrite skipn_length; lia|lia].
      destruct (loop (S (List.length (skipn (Z.to_nat k) y))) c' (skipn (Z.to_nat k) y)). reflexivity.
    + (* token complete in x: continue with the rest *)
      pose proof (tok_step_cont_length _ _ _ _ _ T) as L. cbn [List.length] in L.
      rewrite (IH rest y c' f1 f2); [| lia | lia | rewrite app_length; lia].
      destruct (loop f1 c' rest) as [s1 e1]. destruct (feed s1 y) as [s2 e2]. rewrite app_assoc. reflexivity.
    + rewrite feed_dead by reflexivity. rewrite app_nil_r. reflexivity.
Qed.

(* states that the loop leaves behind are stable: re-scanning the kept buffer changes nothing *)
Definition stable (s : rstate ctx) : Prop :=
  r_dead s = true \/
  (r_dead s = false /\ 0 < r_skip s /\ r_buf s = []) \/
  (r_dead s = false /\ r_skip s = 0 /\ (r_buf s = [] \/ tok_step (r_ctx s) (r_buf s) = TNeed ctx ev)).

Lemma loop_stable f : forall c b, (List.length b < f)%nat -> stable (fst (loop f c b)).
Proof.
  induction f as [|f IH]; intros c b H; [lia|]. cbn [Recv.loop].
  destruct b as [|x b]; [right; right; cbn; auto|].
  destruct (tok_step c (x :: b)) as [|c' es k|c' es rest|es] eqn:T.
  - right; right. cbn. auto.
  - pose proof (tok_step_skip_pos _ _ _ _ _ T). right; left. cbn. auto.
  - pose proof (tok_step_cont_length _ _ _ _ _ T) as L.
    specialize (IH c' rest ltac:(cbn [List.length] in *; lia)). destruct (loop f c' rest). exact IH.
  - left. reflexivity.
Qed.

Lemma feed_stable s y : stable s -> stable (fst (feed s y)).
Proof.
  intros [D|[(D & K & B)|(D & K & _)]]; [left; rewrite feed_dead; assumption| |].
  - rewrite feed_skipping by (assumption || lia). destruct (Z.ltb_spec (lenZ y) (r_skip s)); [|apply loop_stable; lia].
    right; left. cbn. repeat split. lia.
  - unfold Recv.feed. rewrite D, K. apply loop_stable. lia.
Qed.

(* re-feeding nothing to a stable state changes nothing *)
Lemma feed_nil s : stable s -> feed s [] = (s, []).
Proof.
  destruct s as [c b k d]. intros [D|[(D & K & B)|(D & K & B)]]; cbn [r_dead r_skip r_buf r_ctx] in *; subst.
  - reflexivity.
  - rewrite feed_skipping by (cbn; lia || reflexivity). cbn [mk r_skip r_ctx lenZ List.length Z.of_nat].
    destruct (Z.ltb_spec 0 k); [|lia]. rewrite Z.sub_0_r. reflexivity.
  - change (feed (mk c b 0 false) [] = (mk c b 0 false, [])). rewrite feed_fresh, app_nil_r.
    destruct B as [->|B]; [reflexivity|]. destruct b; [reflexivity|]. rewrite loop_cons, B. reflexivity.
Qed.

Theorem feed_app s x y : stable s ->
  feed s (x ++ y) = let '(s1, e1) := feed s x in let '(s2, e2) := feed s1 y in (s2, e1 ++ e2).
Proof.
  intros [D|[(D & K & B)|(D & K & _)]].
  - rewrite !(feed_dead s) by exact D. reflexivity.
  - (* skipping *)
    pose proof (lenZ_nonneg x). pose proof (lenZ_nonneg y).
    rewrite !(feed_skipping s) by (assumption || lia). rewrite lenZ_app.
    destruct (Z.ltb_spec (lenZ x) (r_skip s)) as [Hx|Hx].
    + (* x entirely skipped *)
      rewrite feed_skipping by (cbn; lia || reflexivity). cbn [mk r_skip r_ctx].
      destruct (Z.ltb_spec (lenZ x + lenZ y) (r_skip s)), (Z.ltb_spec (lenZ y) (r_skip s - lenZ x)); try lia.
      * rewrite Z.sub_add_distr. reflexivity.
      * cbv zeta. rewrite skipn_app_beyond by lia. destruct (loop _ _ _). reflexivity.
    + destruct (Z.ltb_spec (lenZ x + lenZ y) (r_skip s)); [lia|]. cbv zeta. rewrite skipn_app_enough by lia.
      apply (loop_app (List.length (skipn (Z.to_nat (r_skip s)) x))); lia.
  - unfold Recv.feed at 1 2. rewrite D, K. cbn [Z.ltb Z.compare andb Z.to_nat skipn]. rewrite app_assoc.
    apply (loop_app (List.length (r_buf s ++ x))); lia.
Qed.

(* any partition into chunks is equivalent to the whole byte string *)
Theorem feed_all_concat cs : forall s, stable s -> feed_all s cs = feed s (concat cs).
Proof.
  induction cs as [|c cs IH]; intros s St; cbn [Recv.feed_all concat].
  - rewrite feed_nil by exact St. reflexivity.
  - rewrite feed_app by exact St. destruct (feed s c) as [s1 e1] eqn:F.
    assert (St1 : stable s1) by (pose proof (feed_stable s c St) as X; rewrite F in X; exact X).
    rewrite (IH s1 St1). reflexivity.
Qed.

Lemma init_stable c : stable (init c).
Proof. right; right. cbn. auto. Qed.

(* C07: the behaviour is a function of the byte sequence alone *)
Theorem chunk_independent c cs cs' : concat cs = concat cs' -> feed_all (init c) cs = feed_all (init c) cs'.
Proof.
  intros E. rewrite !feed_all_concat by apply init_stable. rewrite E. reflexivity.
Qed.

Theorem feed_all_is_run c cs : feed_all (init c) cs = run c (concat cs).
Proof. unfold Recv.run. apply feed_all_concat. apply init_stable. Qed.

(* once abandoned, all further input is ignored *)
Theorem dead_is_final s cs : r_dead s = true -> feed_all s cs = (s, []).
Proof.
  revert s; induction cs as [|c cs IH]; intros s D; cbn [Recv.feed_all]; [reflexivity|].
  rewrite feed_dead by exact D. rewrite IH by exact D. reflexivity.
Qed.

(* An invariant of tok_step is an invariant of loop, feed and feed_all: Inv of the context, N of a buffer that is kept
   until more bytes arrive, E of the events. *)
Section Invariant.
Variable Inv : ctx -> Prop.
Variable N : list Z -> Prop.
Variable E : list ev -> Prop.
Hypothesis N_nil : N [].
Hypothesis E_nil : E [].
Hypothesis E_app : forall a b, E a -> E b -> E (a ++ b).
Hypothesis step_inv : forall c b, Inv c ->
  match tok_step c b with
  | TNeed _ _ => N b
  | TSkip _ _ c' es _ | TCont _ _ c' es _ => Inv c' /\ E es
  | TDead _ _ es => E es
  end.

Definition kept (s : rstate ctx) : Prop := Inv (r_ctx s) /\ N (r_buf s).

Lemma loop_inv f : forall c b, (List.length b < f)%nat -> Inv c -> kept (fst (loop f c b)) /\ E (snd (loop f c b)).
Proof.
  induction f as [|f IH]; intros c b Hl Hc; [lia|]. destruct b as [|x b]; [repeat split; assumption|].
  rewrite loop_cons. pose proof (step_inv c (x :: b) Hc) as K.
  destruct (tok_step c (x :: b)) as [|c' es n|c' es rest|es] eqn:T; cbn [fst snd].
  - repeat split; assumption.
  - destruct K as (Hc' & He). repeat split; assumption.
  - destruct K as (Hc' & He). pose proof (tok_step_cont_length _ _ _ _ _ T) as L.
    destruct (IH c' rest ltac:(cbn [List.length] in *; lia) Hc') as (Hk & He'). destruct (loop f c' rest) as [s es'].
    split; [exact Hk|apply E_app; assumption].
  - repeat split; assumption.
Qed.

Lemma feed_inv s y : kept s -> kept (fst (feed s y)) /\ E (snd (feed s y)).
Proof.
  intros Hk. unfold Recv.feed. destruct (r_dead s); [split; [exact Hk|exact E_nil]|].
  destruct (_ && _); [split; [exact Hk|exact E_nil]|]. apply loop_inv; [lia|apply Hk].
Qed.

Theorem feed_all_inv cs : forall s, kept s -> kept (fst (feed_all s cs)) /\ E (snd (feed_all s cs)).
Proof.
  induction cs as [|c cs IH]; intros s Hk; cbn [Recv.feed_all]; [split; [exact Hk|exact E_nil]|].
  destruct (feed_inv s c Hk) as (H1 & E1). destruct (feed s c) as [s1 e1].
  destruct (IH s1 H1) as (H2 & E2). destruct (feed_all s1 cs) as [s2 e2]. split; [exact H2|apply E_app; assumption].
Qed.
End Invariant.

(* C11: what is held in memory *)

(* a rejected body is never buffered: what has arrived is dropped and the rest is skipped *)
Theorem rejected_never_buffered f c b c' es n s' evs :
  tok_step c b = TSkip ctx ev c' es n -> b <> [] -> loop (S f) c b = (s', evs) ->
  r_buf s' = [] /\ r_skip s' = n /\ 0 < n /\ evs = es.
Proof.
  intros T Hb L. destruct b as [|x b]; [congruence|]. rewrite loop_cons, T in L. inversion L; subst.
  pose proof (tok_step_skip_pos _ _ _ _ _ T). cbn. auto.
Qed.

(* skipped bytes are discarded without being looked at or stored *)
Theorem skipping_stores_nothing s chunk : r_dead s = false -> 0 < r_skip s -> lenZ chunk <= r_skip s ->
  feed s chunk = (mk (r_ctx s) (r_buf s) (r_skip s - lenZ chunk) false, []).
Proof.
  intros D K L. unfold Recv.feed. rewrite D.
  destruct (Z.ltb_spec 0 (r_skip s)); [|lia]. destruct (Z.leb_spec (lenZ chunk) (r_skip s)); [|lia]. reflexivity.
Qed.

Section Bound.
Variable B : Z.

(* a context in which a token with a body is accepted only if the announced body fits B waits for fewer than
   65 (header + type byte) + max B SIZE_LIMIT bytes *)
Section OneContext.
Variable c : ctx.
Hypothesis accept_bound : forall ty hdr, has_body ty = true -> begin_body c ty hdr = BAccept -> blen ty hdr <= B.

Lemma plan_wait_bound ty hdr n k : plan_of c ty hdr = PWait n k -> n <= Z.max B SIZE_LIMIT.
Proof.
  unfold plan_of. destruct (ty =? tok_ERROR).
  { destruct (Z.ltb_spec SIZE_LIMIT hdr); [discriminate|]. intros E; inversion E; subst. lia. }
  destruct (has_body ty) eqn:HB; [|intros E; inversion E; subst; unfold SIZE_LIMIT; lia].
  destruct (begin_body c ty hdr) eqn:BB; try discriminate. intros E; inversion E; subst.
  pose proof (accept_bound _ _ HB BB). lia.
Qed.

Lemma need_bound b : tok_step c b = TNeed ctx ev -> lenZ b < 65 + Z.max B SIZE_LIMIT.
Proof.
  rewrite tok_step_exec. destruct (scan_header 64 [] b) as [| |ds ty r] eqn:S; try discriminate.
  - intros _. apply scan_need_length in S. unfold lenZ, SIZE_LIMIT. lia.
  - intros E. apply exec_need in E as (n & k & P & L). apply plan_wait_bound in P. apply scan_ok_total_length in S.
    unfold lenZ in *. lia.
Qed.
End OneContext.

(* the schema in force accepts a token with a body only if the announced body fits B *)
Hypothesis accept_bound : forall c ty hdr, has_body ty = true -> begin_body c ty hdr = BAccept -> blen ty hdr <= B.

Definition held_ok (s : rstate ctx) : Prop := lenZ (r_buf s) < 65 + Z.max B SIZE_LIMIT.

(* C11: however the stream is chunked and whatever it claims, the bytes held never exceed
   65 (header + type byte) + the largest body the schema accepts (or an ERROR message) *)
Theorem buffer_bounded cs s : held_ok s -> held_ok (fst (feed_all s cs)).
Proof.
  intros Hh.
  refine (proj2 (proj1 (feed_all_inv (fun _ => True) (fun b => lenZ b < 65 + Z.max B SIZE_LIMIT) (fun _ => True) _ I (fun _ _ _ _ => I) _ cs s (conj I Hh)))).
  - unfold lenZ, SIZE_LIMIT. cbn [List.length Z.of_nat]. lia.
  - intros c b _. destruct (tok_step c b) eqn:T; auto. apply (need_bound c (accept_bound c) b T).
Qed.
End Bound.

(* C11: the accept/reject decision is taken on the header and type byte alone: at most 65 bytes *)
Definition verdict (c : ctx) (b : list Z) : option (option (bres ctx ev)) :=
  match scan_header 64 [] b with
  | HNeed => None
  | HBad => Some None
  | HOk ds ty _ => Some (Some (begin_body c ty (le128 ds)))
  end.

Lemma scan_header_firstn l : forall room acc,
  scan_header room acc l <> HNeed ->
  match scan_header room acc l, scan_header room acc (firstn (S room) l) with
  | HOk ds ty _, HOk ds' ty' _ => ds = ds' /\ ty = ty'
  | HBad, HBad => True
  | _, _ => False
  end.
Proof.
  induction l as [|b l IH]; intros room acc; cbn [scan_header firstn]; [congruence|].
  destruct (128 <=? b); [intros _; auto|].
  destruct room; [auto|]. intros H. apply (IH room (b :: acc)) in H. exact H.
Qed.

Theorem decided_by_65_bytes c b : verdict c b <> None -> verdict c b = verdict c (firstn 65 b).
Proof.
  unfold verdict. intros H.
  assert (N : scan_header 64 [] b <> HNeed) by (destruct (scan_header 64 [] b); congruence).
  pose proof (scan_header_firstn b 64 [] N) as Sc. change (firstn 65 b) with (firstn (S 64) b).
  destruct (scan_header 64 [] b), (scan_header 64 [] (firstn (S 64) b)); try contradiction; try reflexivity.
  destruct Sc as [-> ->]. reflexivity.
Qed.

(* C11/C07: 65 bytes without a type byte end the connection *)
Theorem header_cap c b m : List.length b = 65%nat -> Forall (fun x => x < 128) b ->
  tok_step c (b ++ m) = TDead ctx ev ev_hdr_too_long.
Proof.
  intros L F. unfold tok_step.
  assert (HS : forall l room acc, Forall (fun x => x < 128) l -> List.length l = S room -> scan_header room acc l = HBad).
  { induction l as [|x l IH]; intros room acc Fl Ll; [discriminate|]. cbn [scan_header].
    inversion Fl; subst. destruct (Z.leb_spec 128 x); [lia|].
    destruct room; [reflexivity|]. apply IH; [assumption|cbn in Ll; lia]. }
  rewrite (scan_bad_app _ _ _ m (HS b 64%nat [] F L)). reflexivity.
Qed.

End Proofs.
