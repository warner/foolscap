(* The fragments of banana.py translated into gen/RecvGen.v agree, for ALL arguments, with the hand-written tokenizer
   lib/Recv.v and the receive logic lib/BananaRecv.v / lib/Unsl.v.  An edit of dataReceived / sendError / handleData that
   changes a generated definition makes one of these proofs fail (or, where the definition is used by the model directly,
   changes the model). *)
From Coq Require Import ZArith List Bool Lia.
Import ListNotations.
Require Import Verif.lib.PyLite Verif.gen.BananaGen Verif.gen.RecvGen Verif.lib.Token Verif.lib.Recv Verif.lib.RecvProofs Verif.lib.BananaRecv.
Local Open Scope Z_scope.

(* the translated clauses are nests of tests `ty =? <type byte>`: decide them one at a time; once ty is a constant both sides compute *)
Ltac by_type_byte ty :=
  repeat (match goal with |- context [ty =? ?k] => destruct (Z.eqb_spec ty k) as [->|] end; [reflexivity|]).

(* the skip prologue of handleData (translated by symbolic execution into hd_prologue) is the model's:
   while skipBytes > 0 a chunk that fits is swallowed whole, otherwise skipBytes bytes are cut off and skipping ends *)
Theorem tie_prologue : forall n s, 0 <= n -> 0 <= s ->
  hd_prologue n s = if (0 <? s) && (n <=? s) then (s - n, None) else (0, Some s).
Proof.
  intros n s Hn Hs. unfold hd_prologue. destruct (Z.eqb_spec s 0) as [->|]; [reflexivity|].
  destruct (Z.ltb_spec 0 s); [reflexivity|lia].
Qed.

Theorem tie_feed_prologue : forall (ctx ev : Type) bb fb sn e1 e2 e3 (s : rstate ctx) chunk,
  r_dead s = false -> 0 <= r_skip s ->
  feed ctx ev bb fb sn e1 e2 e3 s chunk =
  match hd_prologue (lenZ chunk) (r_skip s) with
  | (k, None) => (mk (r_ctx s) (r_buf s) k false, [])
  | (_, Some d) => let b := r_buf s ++ skipn (Z.to_nat d) chunk in loop ctx ev bb fb sn e1 e2 e3 (S (List.length b)) (r_ctx s) b
  end.
Proof.
  intros ctx ev bb fb sn e1 e2 e3 s chunk D K. rewrite tie_prologue by (unfold lenZ; lia). unfold feed. rewrite D.
  destruct ((0 <? r_skip s) && (lenZ chunk <=? r_skip s)); reflexivity.
Qed.

(* the header scan: 65 bytes are looked at, more than 64 digits are fatal, a byte >= 0x80 is the type byte *)
Theorem tie_header_window : hd_window = 65 /\ hd_max_header = 64 /\ hd_hibit = 128.
Proof. unfold hd_window, hd_max_header, hd_hibit. repeat split; reflexivity. Qed.

Theorem tie_scan_typebyte : forall b l acc room, hd_hibit <= b -> scan_header room acc (b :: l) = HOk (rev acc) b l.
Proof. intros b l acc room H. unfold hd_hibit in H. cbn [scan_header]. destruct (Z.leb_spec 128 b); [reflexivity|lia]. Qed.

(* which clauses of the dispatch read a body, and how long it is *)
Theorem tie_body_len : forall ty hdr, ty <> tok_ERROR ->
  hd_body_len ty hdr = if has_body ty then Some (blen ty hdr) else None.
Proof.
  intros ty hdr NE. unfold hd_body_len, has_body, blen. destruct (Z.eqb_spec ty tok_ERROR); [contradiction|].
  by_type_byte ty. reflexivity.
Qed.

Theorem tie_error_body : forall hdr, hd_body_len tok_ERROR hdr = Some hdr.
Proof. reflexivity. Qed.

(* "rejected bodies are skipped as they arrive": for EVERY token kind that has a body, an incomplete body of a rejected
   token is dropped and exactly the missing bytes are skipped -- what the tokenizer model does (TSkip (n - have)) *)
Theorem tie_rejected_incomplete : forall ty hdr have, has_body ty = true ->
  hd_rejected_incomplete ty hdr have = Some (blen ty hdr - have).
Proof.
  intros ty hdr have. unfold hd_rejected_incomplete, has_body, blen. destruct (Z.eqb_spec ty tok_ERROR) as [->|]; [discriminate|].
  by_type_byte ty. discriminate.
Qed.

(* ... and an incomplete body of an ACCEPTED token, or of an ERROR token, leaves the header in the buffer (TNeed) *)
Theorem tie_accepted_incomplete : forall ty hdr have, hd_accepted_incomplete ty hdr have = None.
Proof. intros ty hdr have. unfold hd_accepted_incomplete. by_type_byte ty. reflexivity. Qed.

Theorem tie_error_incomplete : forall hdr have, hd_rejected_incomplete tok_ERROR hdr have = None.
Proof. reflexivity. Qed.

(* the oversize-ERROR test is the model's *)
Theorem tie_error_oversize : forall hdr, hd_error_oversize hdr = (SIZE_LIMIT <? hdr).
Proof. intros. unfold hd_error_oversize. rewrite Z.gtb_ltb. reflexivity. Qed.

(* the token kinds that are never tasted are exactly PING, PONG, ABORT, CLOSE (and ERROR, which has its own clause) *)
Theorem tie_exempt : forall ty, existsb (Z.eqb ty) hd_exempt =
  ((ty =? tok_PING) || (ty =? tok_PONG) || (ty =? tok_ABORT) || (ty =? tok_CLOSE) || (ty =? tok_ERROR)).
Proof. intros ty. unfold hd_exempt. cbn [existsb]. rewrite orb_false_r, !orb_assoc. reflexivity. Qed.

(* every type byte of the token vocabulary is dispatched, with or without a body *)
Theorem tie_dispatch_complete : forall ty,
  In ty [tok_LIST; tok_INT; tok_STRING; tok_NEG; tok_FLOAT; tok_VOCAB; tok_OPEN; tok_CLOSE; tok_ABORT; tok_LONGINT; tok_LONGNEG; tok_ERROR; tok_PING; tok_PONG] ->
  In ty hd_nobody_clauses \/ hd_body_len ty 0 <> None.
Proof.
  intros ty H. unfold hd_nobody_clauses, hd_body_len. cbn [In] in *.
  repeat (destruct H as [<-|H]; [cbn; auto 20; right; discriminate|]). contradiction.
Qed.

(* sendError: the ERROR token that is written never announces more than SIZE_LIMIT bytes (the peer would refuse it),
   short messages are sent unchanged, and the four writes come in wire order *)
Theorem tie_send_error_len : forall n, 0 <= n -> se_len n <= SIZE_LIMIT /\ (n <= SIZE_LIMIT -> se_len n = n).
Proof. intros n H. unfold se_len, SIZE_LIMIT. destruct (Z.gtb_spec n 1000); lia. Qed.

Theorem tie_send_error_order : se_ops = [SeHeader; SeType; SeBody; SeLose].
Proof. reflexivity. Qed.

(* dataReceived: the handler sends the error, abandons the connection and reports, in that order *)
Theorem tie_handler_ops : dr_handler_ops = [HSendError; HSetAbandoned; HReport].
Proof. reflexivity. Qed.

(* buffer_bounded of lib/RecvProofs.v started from the initial state *)
Theorem buffer_bounded_from_init : forall (ctx ev : Type) (bb : ctx -> Z -> Z -> bres ctx ev) fb sn e1 e2 e3 B, 0 <= B ->
  (forall c ty hdr, has_body ty = true -> bb c ty hdr = BAccept -> blen ty hdr <= B) ->
  forall cs c, lenZ (r_buf (fst (feed_all ctx ev bb fb sn e1 e2 e3 (init c) cs))) < 65 + Z.max B SIZE_LIMIT.
Proof.
  intros ctx ev bb fb sn e1 e2 e3 B HB HA cs c.
  apply (buffer_bounded ctx ev bb fb sn e1 e2 e3 B HA cs (init c)).
  unfold held_ok, init, mk, lenZ. cbn [r_buf List.length Z.of_nat]. unfold SIZE_LIMIT. lia.
Qed.

Theorem header_cap_any : forall (ctx ev : Type) bb fb sn e1 e2 e3 (c : ctx) b m, List.length b = 65%nat -> Forall (fun x => x < 128) b ->
  tok_step ctx ev bb fb sn e1 e2 e3 c (b ++ m) = TDead ctx ev e1.
Proof. intros. apply header_cap; assumption. Qed.

(* the CLOSE clause: a CLOSE that arrives while the index phase of an OPEN is pending (and nothing is being discarded) is a protocol
   error -- what lib/BananaRecv.v's CLOSE clause does *)
Theorem tie_close_in_index_phase : forall io d, hd_close_fatal io d = io && (d =? 0).
Proof. reflexivity. Qed.

(* the ABORT clause: an ABORT in the index phase of an OPEN counts that OPEN as discarded and ends the index phase -- what
   lib/BananaRecv.v's ABORT clause does (handle_violation c (inOpen c) false, then inOpen := false) *)
Theorem tie_abort_in_index_phase : hd_abort_in_index = true.
Proof. reflexivity. Qed.
