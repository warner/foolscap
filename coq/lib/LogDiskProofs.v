(* C18: what of an incident file is on disk when the triggering msg() returns (lib/LogDisk.v: the disk holds what was
   written before the last flush).  For any order of writes and flushes the disk holds a prefix of what was written, and
   everything if the order ends with a flush; the translated order of incident_declared does. *)
From Coq Require Import ZArith List Bool Lia.
Import ListNotations.
Require Import Verif.lib.PyLite Verif.gen.LogBufGen Verif.lib.LogBuf Verif.lib.LogBufProofs Verif.lib.LogDisk.

(* for ANY order of writes and flushes: what is on disk is a prefix of what was written *)
Lemma f1_fold_prefix (A : Type) (trig : A) (snap : list A) : forall ops s,
  (exists rest, f1_written s = f1_durable s ++ rest) ->
  exists rest, f1_written (fold_left (f1_step trig snap) ops s) = f1_durable (fold_left (f1_step trig snap) ops s) ++ rest.
Proof.
  induction ops as [|op ops IH]; intros s H; cbn [fold_left]; [exact H|].
  apply IH. destruct H as (rest & H). destruct op; cbn [f1_step f1_written f1_durable].
  1-3: rewrite H, <- app_assoc; eexists; reflexivity.
  exists []. symmetry. apply app_nil_r.
Qed.

Lemma f1_durable_prefix (A : Type) (ops : list f1_op) (trig : A) (snap : list A) :
  exists rest, f1_written (f1_run ops trig snap) = f1_durable (f1_run ops trig snap) ++ rest.
Proof. unfold f1_run. apply f1_fold_prefix. exists []. reflexivity. Qed.

(* for ANY order that ENDS with a flush: everything written is on disk *)
Lemma f1_flush_last (A : Type) (ops : list f1_op) (trig : A) (snap : list A) :
  f1_durable (f1_run (ops ++ [F1Flush]) trig snap) = f1_written (f1_run (ops ++ [F1Flush]) trig snap).
Proof. unfold f1_run. rewrite fold_left_app. cbn [fold_left f1_step f1_written f1_durable]. reflexivity. Qed.

(* a flush that comes BEFORE the snapshot loop leaves the whole snapshot (trigger included) off the disk: the
   seeded change C18-r7s2, as the model sees it *)
Lemma f1_early_flush_loses_snapshot (A : Type) (trig : A) (snap : list A) :
  f1_durable (f1_run [F1Magic; F1Header; F1Flush; F1Snapshot] trig snap) = [LMagic; LHeader trig] /\
  f1_written (f1_run [F1Magic; F1Header; F1Flush; F1Snapshot] trig snap) = full_report trig snap.
Proof. split; reflexivity. Qed.

(* ... and no flush at all guarantees nothing *)
Lemma f1_no_flush_nothing (A : Type) (trig : A) (snap : list A) :
  f1_durable (f1_run [F1Magic; F1Header; F1Snapshot] trig snap) = [].
Proof. reflexivity. Qed.

(* the translated order: the whole report is on disk when incident_declared returns *)
Lemma translated_order_complete (A : Type) (trig : A) (snap : list A) :
  f1_durable (f1_run incident_f1_ops trig snap) = full_report trig snap /\
  f1_written (f1_run incident_f1_ops trig snap) = full_report trig snap.
Proof. split; reflexivity. Qed.

(* the property's sentence at the moment msg() returns: incident_declared does not raise, and the file on disk is the
   header with the trigger followed by everything that was buffered (in the order of C18_incident_complete) -- for
   both reporters; for the trailing one these are exactly the lines the reporter holds (r_lines), later published *)
Lemma incident_on_disk_at_return c b i trig : nohost b ->
  snd (incident_declared c b i trig) = false /\
  on_disk_at_return b trig = full_report trig (sort_by_num (all_buffered b)) /\
  (forall x, In x (all_buffered b) -> In (LEvent x) (on_disk_at_return b trig)) /\
  In (LHeader trig) (on_disk_at_return b trig) /\
  (c_trailing c = true -> exists r, i_rep (fst (incident_declared c b i trig)) = Some r /\
                                    on_disk_at_return b trig = full_report (r_trigger r) (r_lines r)).
Proof.
  intros Hh.
  assert (E : on_disk_at_return b trig = full_report trig (sort_by_num (all_buffered b))).
  { unfold on_disk_at_return. apply (translated_order_complete event). }
  split; [apply (incident_declared_never_fails c b i trig Hh)|].
  split; [exact E|]. rewrite E. split; [|split].
  - intros x Hx. right. right. apply in_map, sort_with_in, Hx.
  - right. left. reflexivity.
  - intros Ht. rewrite (incident_declared_ok c b i trig Hh (enc_total _) (forallb_enc_total _)), Ht.
    eexists. split; reflexivity.
Qed.
