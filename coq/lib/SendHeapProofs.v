(* C01: the sender machine of SendHeap.v emits exactly `slice` of the canonical term of the heap it is given
   (`machine_follows_descent`, by SendHeapSharing.bcanon_ind: each case of the descent is a stretch of rounds of the loop), and
   a call scope pushed on a Broker is serialized with a table of its own (`machine_scope_is_local`, from `tables_bound`). *)
From Coq Require Import ZArith List String Bool Lia.
Import ListNotations.
Require Import Verif.lib.PyLite Verif.gen.BananaGen Verif.gen.SlicersGen Verif.lib.Token Verif.lib.TokenProofs
        Verif.lib.Obj Verif.lib.ObjProofs Verif.lib.SendHeap Verif.lib.SendHeapSharing.
Local Open Scope Z_scope.

Fixpoint ssteps (k : nat) (h : sheap) (st : sstate) : option sstate :=
  match k with
  | O => Some st
  | S k' => match sstep h st with SStep st' => ssteps k' h st' | _ => None end
  end.

Definition mkst (s : list sframe) (scs : list stable) (n : Z) (out : list token) : sstate :=
  {| ss_stack := s; ss_scopes := scs; ss_count := n; ss_out := out |}.
Definition fr (o : Z) (rest : list sval) (sc : bool) : sframe := {| sf_open := o; sf_rest := rest; sf_scope := sc |}.

Definition simple (v : sval) : bool := match v with SInt _ | SFloat _ | SBytes _ => true | _ => false end.
Definition tok_of (v : sval) : token := match v with SInt z => TInt z | SFloat b => TFloat b | SBytes b => TString b | _ => TInt 0 end.

Lemma tok_of_sstrs l : map tok_of (sstrs l) = strs l.
Proof. unfold sstrs, strs. rewrite map_map. reflexivity. Qed.
Lemma simple_sstrs l : forallb simple (sstrs l) = true.
Proof. induction l; [reflexivity|exact IHl]. Qed.

Lemma sstep_simple h v o rest sc r scs n out : simple v = true ->
  sstep h (mkst (fr o (v :: rest) sc :: r) scs n out) = SStep (mkst (fr o rest sc :: r) scs n (out ++ [tok_of v])).
Proof. destruct v; try discriminate; reflexivity. Qed.

Lemma sstep_push h v ys track scope o rest sc r scs n out : simple v = false -> slicer_for h scs v = Some (Chosen ys track scope) ->
  sstep h (mkst (fr o (v :: rest) sc :: r) scs n out) =
  SStep (mkst (fr n ys scope :: fr o rest sc :: r)
              (let scs1 := match track with Some oid => scopes_register scs oid n | None => scs end in
               if scope then [] :: scs1 else scs1)
              (n + 1) (out ++ [TOpen n])).
Proof. intros NS SF. destruct v; try discriminate; cbn [sstep mkst fr ss_stack sf_rest ss_scopes]; rewrite SF; reflexivity. Qed.

Lemma sstep_push_obj h oid nd o rest sc r scs n out : scopes_lookup scs oid = None -> sfind oid h = Some nd ->
  sstep h (mkst (fr o (SObj oid :: rest) sc :: r) scs n out) =
  SStep (mkst (fr n (sstrs (opentype_of (sn_kind nd)) ++ sn_items nd) (is_scope (sn_kind nd)) :: fr o rest sc :: r)
              (enter (sn_kind nd) scs oid n) (n + 1) (out ++ [TOpen n])).
Proof.
  intros Lk F. rewrite (sstep_push h (SObj oid) _ _ _ o rest sc r scs n out eq_refl ltac:(cbn [slicer_for]; rewrite Lk, F; reflexivity)).
  unfold enter. destruct (tracked (sn_kind nd)); reflexivity.
Qed.

Lemma sstep_pop h o sc f r scs n out :
  sstep h (mkst (fr o [] sc :: f :: r) scs n out) = SStep (mkst (f :: r) (if sc then tl scs else scs) n (out ++ [TClose o])).
Proof. reflexivity. Qed.

Definition reaches (h : sheap) (st st' : sstate) : Prop := exists k, ssteps k h st = Some st'.

Lemma reaches_refl h st : reaches h st st.
Proof. exists O. reflexivity. Qed.

Lemma reaches_step h st st1 st2 : sstep h st = SStep st1 -> reaches h st1 st2 -> reaches h st st2.
Proof. intros E [k K]. exists (S k). cbn [ssteps]. rewrite E. exact K. Qed.

Lemma reaches_trans h st1 st2 st3 : reaches h st1 st2 -> reaches h st2 st3 -> reaches h st1 st3.
Proof.
  intros [k K]. revert st1 K. induction k as [|k IH]; intros st1 K R; cbn [ssteps] in K.
  - inversion K; subst. exact R.
  - destruct (sstep h st1) as [s| |] eqn:E; try discriminate. exact (reaches_step h _ _ _ E (IH s K R)).
Qed.

(* SIMPLE_TOKENS yielded by the top slicer go straight out *)
Lemma steps_simple h : forall ys, forallb simple ys = true -> forall o rest sc r scs n out,
  reaches h (mkst (fr o (ys ++ rest) sc :: r) scs n out) (mkst (fr o rest sc :: r) scs n (out ++ map tok_of ys)).
Proof.
  induction ys as [|y ys IH]; intros S o rest sc r scs n out.
  - cbn [app map]. rewrite app_nil_r. apply reaches_refl.
  - cbn [forallb] in S. apply andb_true_iff in S as [S1 S2].
    apply (reaches_step h _ _ _ (sstep_simple h y o (ys ++ rest) sc r scs n out S1)).
    cbn [map]. change (out ++ tok_of y :: map tok_of ys) with (out ++ [tok_of y] ++ map tok_of ys). rewrite app_assoc. apply (IH S2).
Qed.

Lemma steps_leaf h v ot ys o rest sc r scs n out :
  simple v = false -> slicer_for h scs v = Some (Chosen (sstrs ot ++ ys) None false) -> forallb simple ys = true ->
  reaches h (mkst (fr o (v :: rest) sc :: r) scs n out)
            (mkst (fr o rest sc :: r) scs (n + 1) (out ++ TOpen n :: strs ot ++ map tok_of ys ++ [TClose n])).
Proof.
  intros NS SF SY. apply (reaches_step h _ _ _ (sstep_push h v _ _ _ o rest sc r scs n out NS SF)). cbv zeta.
  eapply reaches_trans.
  - rewrite <- (app_nil_r (sstrs ot ++ ys)). apply steps_simple. rewrite forallb_app, simple_sstrs. exact SY.
  - eapply reaches_step; [apply sstep_pop|]. rewrite map_app, tok_of_sstrs, <- !app_assoc. apply reaches_refl.
Qed.

Lemma machine_follows_descent h fuel :
  (forall v scs n t n' scs', bcanon fuel h scs n v = Some (t, n', scs') -> forall o rest sc r out,
     reaches h (mkst (fr o (v :: rest) sc :: r) scs n out) (mkst (fr o rest sc :: r) scs' n' (out ++ slice n t))) /\
  (forall l scs n os n' scs', bcanon_list fuel h scs n l = Some (os, n', scs') -> forall o rest sc r out,
     reaches h (mkst (fr o (l ++ rest) sc :: r) scs n out) (mkst (fr o rest sc :: r) scs' n' (out ++ slice_list n os))).
Proof.
  apply (bcanon_ind h
    (fun scs n v t n' scs' => forall o rest sc r out,
       reaches h (mkst (fr o (v :: rest) sc :: r) scs n out) (mkst (fr o rest sc :: r) scs' n' (out ++ slice n t)))
    (fun scs n l os n' scs' => forall o rest sc r out,
       reaches h (mkst (fr o (l ++ rest) sc :: r) scs n out) (mkst (fr o rest sc :: r) scs' n' (out ++ slice_list n os)))).
  - intros scs n v t Lf o rest sc r out. destruct v; inversion Lf; subst t.
    1-3: rewrite Z.add_0_r; eapply reaches_step; [apply sstep_simple; reflexivity|apply reaches_refl].
    + exact (steps_leaf h (SText u) ot_unicode [SBytes u] o rest sc r scs n out eq_refl eq_refl eq_refl).
    + exact (steps_leaf h (SBool b) ot_boolean [SInt (if b then bool_true_tok else bool_false_tok)] o rest sc r scs n out eq_refl eq_refl eq_refl).
    + exact (steps_leaf h SNone ot_none [] o rest sc r scs n out eq_refl eq_refl eq_refl).
    + exact (steps_leaf h (SDecimal s) ot_decimal [SBytes s] o rest sc r scs n out eq_refl eq_refl eq_refl).
  - (* already sent in a visible scope: ReferenceSlicer *)
    intros scs n oid k Lk o rest sc r out.
    apply (steps_leaf h (SObj oid) ot_reference [SInt k]); [reflexivity|cbn [slicer_for]; rewrite Lk; reflexivity|reflexivity].
  - (* pushSlicer, the opentype strings, the items, popSlicer *)
    intros scs n oid nd os scs3 Lk F Items o rest sc r out.
    apply (reaches_step h _ _ _ (sstep_push_obj h oid nd o rest sc r scs n out Lk F)).
    eapply reaches_trans; [apply steps_simple, simple_sstrs|]. rewrite tok_of_sstrs.
    eapply reaches_trans; [rewrite <- (app_nil_r (sn_items nd)); apply Items|].
    eapply reaches_step; [apply sstep_pop|].
    rewrite slice_cont, <- !app_assoc. apply reaches_refl.
  - intros scs n o rest sc r out. cbn [app slice_list]. rewrite app_nil_r. apply reaches_refl.
  - intros scs n x l t os scs1 scs2 Px Ql o rest sc r out. rewrite slice_list_cons, app_assoc.
    exact (reaches_trans h _ _ _ (Px o (l ++ rest) sc r out) (Ql o rest sc r _)).
Qed.

Lemma srun_of_reaches h st st' : reaches h st st' -> sstep h st' = SIdle -> exists fuel, srun fuel h st = Some st'.
Proof.
  intros [k K] I. exists (S k). revert st K. induction k as [|k IH]; intros st K; cbn [ssteps] in K.
  - inversion K; subst. cbn [srun]. rewrite I. reflexivity.
  - destruct (sstep h st) as [s1| |] eqn:E; try discriminate. cbn [srun]. rewrite E. exact (IH s1 K).
Qed.

Lemma srun_det h : forall f1 f2 st a b, srun f1 h st = Some a -> srun f2 h st = Some b -> a = b.
Proof.
  induction f1 as [|f1 IH]; intros f2 st a b A B; [discriminate|]. destruct f2 as [|f2]; [discriminate|].
  cbn [srun] in A, B. destruct (sstep h st) as [s1| |]; try discriminate.
  - exact (IH _ _ _ _ A B).
  - inversion A; inversion B; subst; reflexivity.
Qed.

(* the sender machine, given ANY heap (sharing, cycles, nested call scopes) and any queue of top-level objects whose
   canonical descent terminates, emits exactly `slice_list` of the canonical terms: `slice` on canonical terms is a
   sound abstraction of the slicer stack with its reference tables *)
Theorem send_heap_is_slice_canon h scoped n q fuel os :
  canon_of fuel h scoped n q = Some os -> exists fuel', send_heap fuel' h scoped n q = Some (slice_list n os).
Proof.
  unfold canon_of. destruct (bcanon_list fuel h (if scoped then [[]] else []) n q) as [[[os' m] scs']|] eqn:B; [|discriminate].
  intros E; inversion E; subst os'; clear E.
  pose proof (proj2 (machine_follows_descent h fuel) q _ n os m scs' B (-1) [] scoped [] []) as R. rewrite app_nil_r in R.
  destruct (srun_of_reaches h (sinit scoped n q) _ R eq_refl) as [fuel' E].
  exists fuel'. unfold send_heap. rewrite E. reflexivity.
Qed.

Corollary send_heap_unique h scoped n q fuel fuel' toks os :
  send_heap fuel h scoped n q = Some toks -> canon_of fuel' h scoped n q = Some os -> toks = slice_list n os.
Proof.
  intros S C. destruct (send_heap_is_slice_canon _ _ _ _ _ _ C) as [f2 S2]. unfold send_heap in *.
  destruct (srun fuel h (sinit scoped n q)) as [a|] eqn:A; [|discriminate].
  destruct (srun f2 h (sinit scoped n q)) as [b|] eqn:B; [|discriminate].
  rewrite (srun_det h _ _ _ _ _ A B) in S. inversion S; inversion S2; subst. reflexivity.
Qed.

Definition tge (lo : Z) (scs : list stable) : Prop := Forall (Forall (fun p : Z * Z => lo <= snd p)) scs.

Lemma dict_get_ge lo d : Forall (fun p : Z * Z => lo <= snd p) d -> forall k e, gen_dict_get d k = Some e -> lo <= e.
Proof.
  induction 1 as [|[a b] d Hp _ IH]; intros k e H; cbn [gen_dict_get] in H; [discriminate|].
  destruct (a =? k); [inversion H; subst; exact Hp|eapply IH; exact H].
Qed.

Lemma lookup_ge lo scs : tge lo scs -> forall oid k, scopes_lookup scs oid = Some k -> lo <= k.
Proof.
  induction 1 as [|t r Ht _ IH]; intros oid k H; cbn [scopes_lookup] in H; [discriminate|].
  unfold gen_scoped_lookup in H. destruct (gen_dict_get t oid) as [e|] eqn:E.
  - inversion H; subst. eapply dict_get_ge; eassumption.
  - eapply IH; exact H.
Qed.

Lemma register_ge lo scs oid n : tge lo scs -> lo <= n -> tge lo (scopes_register scs oid n).
Proof.
  intros T L. destruct scs as [|t r]; [exact T|]. inversion T; subst. cbn [scopes_register]. unfold gen_scoped_register.
  constructor; [constructor; [exact L|assumption]|assumption].
Qed.

Lemma register_length scs oid n : List.length (scopes_register scs oid n) = List.length scs.
Proof. destruct scs; reflexivity. Qed.

Lemma enter_ge lo c scs oid n : tge lo scs -> lo <= n -> tge lo (enter c scs oid n).
Proof.
  intros T L. unfold enter.
  assert (tge lo (if tracked c then scopes_register scs oid n else scs)) by (destruct (tracked c); [apply register_ge|]; assumption).
  destruct (is_scope c); [constructor; [constructor|]|]; assumption.
Qed.

Lemma enter_length c scs oid n : List.length (enter c scs oid n) = if is_scope c then S (List.length scs) else List.length scs.
Proof. unfold enter. destruct (tracked c), (is_scope c); cbn [List.length]; rewrite ?register_length; reflexivity. Qed.

Lemma tables_bound h fuel :
  (forall v scs n t n' scs', bcanon fuel h scs n v = Some (t, n', scs') -> forall lo, tge lo scs -> lo <= n ->
     refs_ge lo t = true /\ tge lo scs' /\ List.length scs' = List.length scs) /\
  (forall l scs n os n' scs', bcanon_list fuel h scs n l = Some (os, n', scs') -> forall lo, tge lo scs -> lo <= n ->
     refs_ge_list lo os = true /\ tge lo scs' /\ List.length scs' = List.length scs).
Proof.
  apply (bcanon_ind h
    (fun scs n _ t _ scs' => forall lo, tge lo scs -> lo <= n -> refs_ge lo t = true /\ tge lo scs' /\ List.length scs' = List.length scs)
    (fun scs n _ os _ scs' => forall lo, tge lo scs -> lo <= n -> refs_ge_list lo os = true /\ tge lo scs' /\ List.length scs' = List.length scs)).
  - intros scs n v t Lf lo T _. split; [|split; [exact T|reflexivity]]. destruct v; inversion Lf; reflexivity.
  - intros scs n oid k Lk lo T _. split; [|split; [exact T|reflexivity]]. apply Z.leb_le. exact (lookup_ge lo scs T oid k Lk).
  - intros scs n oid nd os scs3 _ _ Items lo T Ln.
    destruct (Items lo (enter_ge lo _ scs oid n T Ln) ltac:(lia)) as (R & T3 & L3). rewrite enter_length in L3.
    split; [exact R|]. destruct (is_scope (sn_kind nd)); [|split; [exact T3|exact L3]].
    destruct scs3 as [|t3 scs3]; [discriminate|]. inversion T3; subst. split; [assumption|]. injection L3 as L3. exact L3.
  - intros scs n lo T _. split; [reflexivity|split; [exact T|reflexivity]].
  - intros scs n x r t os scs1 scs2 Px Ql lo T Ln. destruct (Px lo T Ln) as (R1 & T1 & L1).
    destruct (Ql lo T1 ltac:(pose proof (opens_nonneg t); lia)) as (R2 & T2 & L2).
    split; [cbn [refs_ge_list]; rewrite R1; exact R2|]. split; [exact T2|lia].
Qed.

(* A call / arguments / answer scope pushed when no enclosing slicer has a table (a Broker: PBRootSlicer.registerRefID is a
   no-op): the machine serializes it with a table of its own that starts empty and is dropped at its CLOSE -- every
   reference emitted inside points at an object opened inside this very scope, and no table is left behind. *)
Theorem machine_scope_is_local h fuel oid nd n t n' scs' :
  sfind oid h = Some nd -> is_scope (sn_kind nd) = true ->
  bcanon fuel h [] n (SObj oid) = Some (t, n', scs') ->
  scs' = [] /\ refs_ge (n + 1) t = true /\
  forall o rest sc r out, exists k,
    ssteps k h (mkst (fr o (SObj oid :: rest) sc :: r) [] n out) = Some (mkst (fr o rest sc :: r) [] n' (out ++ slice n t)).
Proof.
  intros F S B.
  assert (E : scs' = []).
  { destruct (proj1 (tables_bound h fuel) _ _ _ _ _ _ B n (Forall_nil _) ltac:(lia)) as (_ & _ & L). destruct scs'; [reflexivity|discriminate]. }
  subst scs'. split; [reflexivity|]. split; [|exact (proj1 (machine_follows_descent h fuel) _ _ _ _ _ _ B)].
  (* the items are sliced under the scope's own empty table, from number n + 1 on *)
  destruct fuel as [|fu]; [discriminate|].
  destruct (bcanon_obj_inv fu h [] n oid nd t n' [] eq_refl F B) as (os & scs3 & BL & -> & _). rewrite (enter_scope _ _ _ _ S) in BL.
  exact (proj1 (proj2 (tables_bound h fu) _ _ _ _ _ _ BL (n + 1) (Forall_cons _ (Forall_nil _) (Forall_nil _)) (Z.le_refl _))).
Qed.
