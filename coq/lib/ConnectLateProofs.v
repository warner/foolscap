(* When connect() returns, validHints holds exactly the hints that gave an endpoint, and a waiting hint (get_endpoint's Deferred
   has not fired: a Tor handler whose Tor is starting) is held outside it.  Then the late phase of ConnectAll.v: whatever happens
   after connect() has returned -- waiting hints resolve, pending connects fail, the connect timer fires, in any order and
   number -- the connector reports (failed() = Tub.connectionFailed) at most once, exactly once when the timer has fired, and is
   otherwise still waiting for something with the timer armed. *)
From Coq Require Import ZArith List String Bool.
Import ListNotations.
Require Import Verif.lib.PyLite Verif.lib.ConnectAll Verif.lib.ConnectAllProofs.
Local Open Scope Z_scope.

Lemma list_eqb_neq h h' : h <> h' -> list_eqb h h' = false.
Proof. intros H. destruct (list_eqb h h') eqn:E; [apply list_eqb_eq in E; contradiction | reflexivity]. Qed.

Lemma hmem_false h l : hmem h l = false <-> ~ In h l.
Proof. rewrite <- hmem_In. destruct (hmem h l); split; intros; congruence. Qed.

Definition gives_endpoint (o : houtcome) : bool := match o with HPending | HConnectFails _ => true | _ => false end.

Lemma consider_valid beh h s :
  valid (consider beh h s) = if gives_endpoint (beh h) then h :: valid s else valid s.
Proof.
  unfold consider. destruct (beh h) as [| |e|e]; cbn [gives_endpoint]; try reflexivity.
  - apply (connfail_fields e h (good_hint h s)).
  - apply connfail_fields.
Qed.

Definition V1 (beh : hstr -> houtcome) (s : cas) : Prop := forall h, In h (valid s) -> gives_endpoint (beh h) = true.
Definition V2 (beh : hstr -> houtcome) (s : cas) : Prop :=
  forall h, In h (attempted s) -> gives_endpoint (beh h) = true -> In h (valid s).

Lemma loop_valid beh : forall l s, V1 beh s -> V2 beh s ->
  V1 beh (connect_loop beh l s) /\ V2 beh (connect_loop beh l s).
Proof.
  induction l as [|x rest IH]; intros s H1 H2.
  - cbn [connect_loop]. destruct (cff_fields s) as (A & V & _). unfold V1, V2. rewrite A, V. split; assumption.
  - rewrite connect_loop_cons. destruct (hmem x (attempted s)); [exact (IH (popped rest s) H1 H2)|].
    apply IH; intros h; rewrite consider_valid, ?consider_attempted; cbn [tried popped attempted valid].
    + destruct (gives_endpoint (beh x)) eqn:G; [intros [<-|H]; [exact G | exact (H1 h H)] | apply H1].
    + intros [<-|H] G; [rewrite G; left; reflexivity|]. destruct (gives_endpoint (beh x)); [right|]; apply H2; assumption.
Qed.

Lemma loop_remaining beh : forall l s, remaining s = l -> remaining (connect_loop beh l s) = [].
Proof.
  induction l as [|x rest IH]; intros s R.
  - cbn [connect_loop]. destruct (cff_fields s) as (_ & _ & _ & _ & ->). exact R.
  - rewrite connect_loop_cons. apply IH. destruct (hmem x (attempted s)); [reflexivity | apply consider_remaining].
Qed.

(* a hint is in validHints only when get_endpoint gave an endpoint for it, and every hint that did is *)
Theorem valid_only_endpoints : forall beh hints h, In h (valid (connect_all beh hints)) -> gives_endpoint (beh h) = true.
Proof.
  intros beh hints h. unfold connect_all.
  destruct (loop_valid beh hints (init hints)) as [W1 _]; [intros x [] | intros x [] |]. apply W1.
Qed.

Theorem endpoints_are_valid : forall beh hints h, In h hints -> gives_endpoint (beh h) = true -> In h (valid (connect_all beh hints)).
Proof.
  intros beh hints h H G.
  destruct (loop_valid beh hints (init hints)) as [_ W2]; [intros x [] | intros x [] |].
  apply W2; [apply every_hint_tried; exact H | exact G].
Qed.

Theorem connect_all_remaining : forall beh hints, remaining (connect_all beh hints) = [].
Proof. intros. apply loop_remaining. reflexivity. Qed.

(* a hint whose Deferred has not fired: held in pendingConnections, not in validHints, status "resolving",
   and (connect_all_outcome, usable) the connector is active and has reported nothing *)
Theorem waiting_hint_held : forall beh hints h, In h hints -> beh h = HWaiting ->
  let r := connect_all beh hints in
  In h (pending r) /\ ~ In h (valid r) /\ status_of h (statuses r) = Some SResolving /\
  active r = true /\ failed_calls r = 0%nat.
Proof.
  intros beh hints h H B r.
  assert (P : In h (pending r)) by (apply usable_hint_dialled; [exact H | rewrite B; reflexivity]).
  split; [exact P|]. split.
  - intros V. apply valid_only_endpoints in V. rewrite B in V. discriminate.
  - split; [unfold r; rewrite status_is_own by exact H; rewrite B; reflexivity|].
    destruct (connect_all_outcome beh hints) as [(_ & _ & A & F)|(_ & E & _)]; [auto|].
    fold r in E. rewrite E in P. destruct P.
Qed.

Lemma remove_pending_In h s x : In x (pending (remove_pending h s)) <-> In x (pending s) /\ x <> h.
Proof.
  cbn [remove_pending pending]. rewrite filter_In. split; intros [P N]; (split; [exact P|]).
  - intros ->. rewrite list_eqb_refl in N. discriminate.
  - rewrite list_eqb_neq; [reflexivity | congruence].
Qed.

(* invariant of the late phase: nothing is left to pop, and the connector is either running with something pending or has
   reported once with nothing pending *)
Definition Linv (s : cas) : Prop :=
  remaining s = [] /\
  ((active s = true /\ failed_calls s = 0%nat /\ pending s <> []) \/
   (active s = false /\ failed_calls s = 1%nat /\ pending s = [])).

Lemma cff_pending_nonempty s : pending s <> [] -> check_for_failure s = s.
Proof.
  intros H. destruct (cff_cases s) as [[E _]|(_ & _ & P & _)]; [exact E | contradiction].
Qed.

Lemma connfail_Linv e h s : remaining s = [] -> active s = true -> failed_calls s = 0%nat -> Linv (connection_failed e h s).
Proof.
  intros R A F. destruct (connfail_fields e h s) as (_ & _ & Pp & _ & Rr). split; [rewrite Rr; exact R|].
  destruct (connfail_running e h s (conj A F)) as [[[A' F'] [N|N]]|(A' & F' & P' & _)];
    [contradiction | left; rewrite Pp | right]; auto.
Qed.

(* _connectionFailed on a connector that is no longer active: status and (first) reason only *)
Lemma connfail_inactive e h s : active s = false ->
  connection_failed e h s =
    {| remaining := remaining s; attempted := attempted s; valid := valid s; pending := pending s;
       statuses := (h, classify e) :: statuses s;
       reason := match reason s with Some r => Some r | None => Some e end;
       active := active s; failed_calls := failed_calls s |}.
Proof. intros A. unfold connection_failed. apply cff_inactive. exact A. Qed.

Lemma connfail_dead e h s : active s = false ->
  active (connection_failed e h s) = false /\ failed_calls (connection_failed e h s) = failed_calls s /\
  forall x, reason s = Some x -> reason (connection_failed e h s) = Some x.
Proof.
  intros A. rewrite connfail_inactive by exact A. cbn [active failed_calls reason].
  split; [exact A|]. split; [reflexivity|]. intros x ->. reflexivity.
Qed.

Lemma cancel_all_cons cx a l s : cancel_all cx (a :: l) s = cancel_all cx l (connection_failed (cx a) a (remove_pending a s)).
Proof. reflexivity. Qed.

Lemma cancel_all_spec cx : forall l s, active s = false ->
  let r := cancel_all cx l s in
  active r = false /\ failed_calls r = failed_calls s /\ remaining r = remaining s /\ valid r = valid s /\
  attempted r = attempted s /\
  (forall x, In x (pending r) <-> (In x (pending s) /\ ~ In x l)) /\
  (forall x, reason s = Some x -> reason r = Some x) /\
  (forall h, status_of h (statuses r) = if hmem h l then Some (classify (cx h)) else status_of h (statuses s)).
Proof.
  induction l as [|a l IH]; intros s A; cbv zeta.
  - cbn [cancel_all]. split; [exact A|]. do 4 (split; [reflexivity|]). split; [intros x; split; [auto | intros [H _]; exact H]|]. split; [auto|]. intros h. reflexivity.
  - rewrite cancel_all_cons. destruct (connfail_dead (cx a) a (remove_pending a s) A) as (A1 & F1 & R1).
    destruct (connfail_fields (cx a) a (remove_pending a s)) as (Fa & Fv & Fp & Fs & Fr).
    specialize (IH _ A1). cbv zeta in IH. destruct IH as (I1 & I2 & I3 & I4 & I5 & I6 & I7 & I8).
    split; [exact I1|]. split; [rewrite I2; exact F1|]. split; [rewrite I3; exact Fr|]. split; [rewrite I4; exact Fv|].
    split; [rewrite I5; exact Fa|]. split; [|split].
    + intros x. rewrite I6, Fp, remove_pending_In. cbn [In]. split.
      * intros [[P N] Nl]. split; [exact P|]. intros [<-|H]; [apply N; reflexivity | exact (Nl H)].
      * intros [P N]. split; [split; [exact P | intros ->; apply N; left; reflexivity] | intros H; apply N; right; exact H].
    + intros x Hx. apply I7, R1, Hx.
    + intros h. rewrite I8, Fs. cbn [hmem statuses remove_pending status_of].
      destruct (list_eqb h a) eqn:Eh; [|reflexivity].
      apply list_eqb_eq in Eh. rewrite <- Eh. destruct (hmem h l); reflexivity.
Qed.

Lemma nil_of_no_In {A} (l : list A) : (forall x, ~ In x l) -> l = [].
Proof. destruct l as [|a l]; [reflexivity|]. intros H. exfalso. apply (H a). left. reflexivity. Qed.

Lemma timed_out_spec cx s :
  let r := timed_out cx s in
  active r = false /\ failed_calls r = S (failed_calls s) /\ remaining r = [] /\ pending r = [] /\ valid r = valid s /\
  reason r = Some "NegotiationError"%string /\
  (forall h, status_of h (statuses r) = if hmem h (pending s) then Some (classify (cx h)) else status_of h (statuses s)).
Proof.
  unfold timed_out. cbv zeta. cbn [pending]. generalize "NegotiationError"%string. intros nm.
  match goal with |- context [cancel_all cx _ ?y] => set (s1 := y) end.
  destruct (cancel_all_spec cx (pending s) s1 eq_refl) as (I1 & I2 & I3 & I4 & I5 & I6 & I7 & I8). cbv zeta in *.
  unfold failed. cbn [active failed_calls remaining pending valid reason statuses].
  split; [reflexivity|]. split; [rewrite I2; reflexivity|]. split; [exact I3|]. split.
  - apply nil_of_no_In. intros p Hp. destruct (proj1 (I6 p) Hp) as [P N]. apply N. exact P.
  - split; [exact I4|]. split; [apply I7; reflexivity | exact I8].
Qed.

Lemma waiting_in_pending h s : is_waiting h s = true -> In h (pending s) /\ ~ In h (valid s).
Proof.
  unfold is_waiting. intros H. apply andb_true_iff in H as [P V]. split; [apply hmem_In; exact P|].
  apply hmem_false. destruct (hmem h (valid s)); [discriminate|reflexivity].
Qed.

Lemma dialled_in_pending h s : is_dialled h s = true -> In h (pending s) /\ In h (valid s).
Proof. unfold is_dialled. intros H. apply andb_true_iff in H as [P V]. split; apply hmem_In; assumption. Qed.

Lemma Linv_active_of_pending s h : Linv s -> In h (pending s) -> remaining s = [] /\ active s = true /\ failed_calls s = 0%nat.
Proof. intros [R [(A & F & _)|(_ & _ & P)]] H; [auto|]. rewrite P in H. destruct H. Qed.

Lemma late_step_Linv cx s ev : Linv s -> Linv (late_step cx s ev).
Proof.
  intros L. destruct ev as [h o|h e|]; cbn [late_step].
  - destruct (is_waiting h s) eqn:W; [|exact L]. apply waiting_in_pending in W as [P _].
    destruct (Linv_active_of_pending s h L P) as (R & A & F).
    destruct o as [| |e|e]; [exact L | exact L | apply connfail_Linv; assumption | apply connfail_Linv; assumption].
  - destruct (is_dialled h s) eqn:W; [|exact L]. apply dialled_in_pending in W as [P _].
    destruct (Linv_active_of_pending s h L P) as (R & A & F). apply connfail_Linv; assumption.
  - destruct (active s) eqn:A; [|exact L].
    destruct (timed_out_spec cx s) as (T1 & T2 & T3 & T4 & _). cbv zeta in *.
    destruct L as [R [(_ & F & _)|(A' & _)]]; [|congruence].
    split; [exact T3|]. right. rewrite T2, F. auto.
Qed.

Lemma run_late_Linv cx : forall evs s, Linv s -> Linv (run_late cx evs s).
Proof.
  unfold run_late. induction evs as [|ev evs IH]; intros s L; cbn [fold_left]; [exact L|].
  apply IH. apply late_step_Linv. exact L.
Qed.

Lemma connect_all_Linv beh hints : Linv (connect_all beh hints).
Proof.
  split; [apply connect_all_remaining|].
  destruct (connect_all_outcome beh hints) as [(_ & P & A & F)|(_ & P & A & F)]; [left|right]; auto.
Qed.

(* whatever happens after connect() has returned, in any order and number: either nothing has been reported, the connector
   is active (its timer armed) and something is still pending, or failed() ran EXACTLY once and nothing is pending *)
Theorem late_outcome : forall cx beh hints evs,
  let r := run_late cx evs (connect_all beh hints) in
  (active r = true /\ failed_calls r = 0%nat /\ pending r <> []) \/
  (active r = false /\ failed_calls r = 1%nat /\ pending r = []).
Proof. intros cx beh hints evs. cbv zeta. apply run_late_Linv. apply connect_all_Linv. Qed.

Lemma run_late_app cx evs1 evs2 s : run_late cx (evs1 ++ evs2) s = run_late cx evs2 (run_late cx evs1 s).
Proof. unfold run_late. apply fold_left_app. Qed.

(* once the connect timer has had its time, the failure HAS been reported exactly once, whatever the hints did and do *)
Theorem timeout_reports : forall cx beh hints evs,
  let r := run_late cx (evs ++ [LTimeout]) (connect_all beh hints) in
  active r = false /\ failed_calls r = 1%nat /\ pending r = [].
Proof.
  intros cx beh hints evs. cbv zeta. rewrite run_late_app.
  pose proof (run_late_Linv cx evs _ (connect_all_Linv beh hints)) as L.
  set (s := run_late cx evs (connect_all beh hints)) in *.
  pose proof (late_step_Linv cx s LTimeout L) as [_ L'].
  unfold run_late. cbn [fold_left]. destruct L' as [(A & _ & _)|L']; [|exact L'].
  exfalso. cbn [late_step] in A. destruct (active s) eqn:As; [|congruence].
  destruct (timed_out_spec cx s) as (T1 & _). cbv zeta in T1. congruence.
Qed.

(* the two states of a waiting hint h that is never answered: held while the connector runs (WA), cancelled by the timer (WB) *)
Definition WA (h : hstr) (s : cas) : Prop :=
  active s = true /\ failed_calls s = 0%nat /\ remaining s = [] /\ In h (pending s) /\ ~ In h (valid s) /\
  status_of h (statuses s) = Some SResolving.
Definition WB (cx : hstr -> string) (h : hstr) (s : cas) : Prop :=
  active s = false /\ failed_calls s = 1%nat /\ pending s = [] /\
  status_of h (statuses s) = Some (classify (cx h)) /\ reason s = Some "NegotiationError"%string.

Lemma late_dead cx s ev : active s = false -> pending s = [] -> late_step cx s ev = s.
Proof.
  intros A P. destruct ev as [h o|h e|]; cbn [late_step]; unfold is_waiting, is_dialled; rewrite ?P, ?A; reflexivity.
Qed.

Lemma run_late_dead cx : forall evs s, active s = false -> pending s = [] -> run_late cx evs s = s.
Proof.
  unfold run_late. induction evs as [|ev evs IH]; intros s A P; cbn [fold_left]; [reflexivity|].
  rewrite late_dead by assumption. apply IH; assumption.
Qed.

(* _connectionFailed for ANOTHER hint h' while h is held: h stays held, nothing is reported *)
Lemma connfail_other e h h' s : h' <> h -> WA h s ->
  forall s', remaining s' = remaining s -> attempted s' = attempted s -> valid s' = valid s \/ valid s' = h' :: valid s ->
    pending s' = pending s -> active s' = active s -> failed_calls s' = failed_calls s ->
    status_of h (statuses s') = status_of h (statuses s) ->
  WA h (connection_failed e h' (remove_pending h' s')).
Proof.
  intros N (A & F & R & P & V & S) s' R' _ V' P' A' F' S'.
  unfold connection_failed.
  match goal with |- context [check_for_failure ?x] => set (y := x) end.
  assert (Py : In h (pending y)).
  { cbn [pending y remove_pending]. apply filter_In. rewrite P'. split; [exact P|]. rewrite list_eqb_neq by exact N. reflexivity. }
  rewrite cff_pending_nonempty by (intros E; rewrite E in Py; destruct Py).
  unfold WA. cbn [active failed_calls remaining pending valid statuses y remove_pending status_of].
  rewrite A', F', R'. split; [exact A|]. split; [exact F|]. split; [exact R|]. split; [exact Py|]. split.
  - destruct V' as [->| ->]; [exact V|]. intros [E|H]; [apply N; exact E | apply V; exact H].
  - rewrite list_eqb_neq by (intros E; apply N; symmetry; exact E). rewrite S'. exact S.
Qed.

Lemma late_WA_step cx h s ev : WA h s -> (forall o, ev <> LResolve h o) ->
  WA h (late_step cx s ev) \/ (WB cx h (late_step cx s ev) /\ ev = LTimeout).
Proof.
  intros W NR. pose proof W as (A & F & R & P & V & S).
  destruct ev as [h' o|h' e|]; cbn [late_step].
  - left. destruct (is_waiting h' s) eqn:Wh; [|exact W].
    assert (N : h' <> h) by (intros ->; apply (NR o); reflexivity).
    destruct o as [| |e|e]; [|exact W| |].
    + unfold WA. cbn [good_hint active failed_calls remaining pending valid statuses status_of].
      rewrite list_eqb_neq by (intros E; apply N; symmetry; exact E).
      repeat (split; [assumption|]). split; [|exact S]. intros [E|H]; [apply N; exact E | apply V; exact H].
    + apply (connfail_other e h h' s N W (good_hint h' s)); try reflexivity; [right; reflexivity|].
      cbn [good_hint statuses status_of]. rewrite list_eqb_neq by (intros E; apply N; symmetry; exact E). reflexivity.
    + apply (connfail_other e h h' s N W s); try reflexivity. left; reflexivity.
  - left. destruct (is_dialled h' s) eqn:Wh; [|exact W]. apply dialled_in_pending in Wh as [_ Vh].
    assert (N : h' <> h) by (intros ->; apply V; exact Vh).
    apply (connfail_other e h h' s N W s); try reflexivity. left; reflexivity.
  - right. split; [|reflexivity]. rewrite A.
    destruct (timed_out_spec cx s) as (T1 & T2 & T3 & T4 & T5 & T6 & T7). cbv zeta in *.
    split; [exact T1|]. split; [rewrite T2, F; reflexivity|]. split; [exact T4|]. split; [|exact T6].
    rewrite T7, (proj2 (hmem_In h (pending s)) P). reflexivity.
Qed.

Lemma run_late_WA cx h : forall evs s, WA h s -> (forall o, ~ In (LResolve h o) evs) ->
  WA h (run_late cx evs s) \/ (WB cx h (run_late cx evs s) /\ In LTimeout evs).
Proof.
  induction evs as [|ev evs IH]; intros s W NR; [left; exact W|].
  unfold run_late. cbn [fold_left]. fold (run_late cx evs (late_step cx s ev)).
  destruct (late_WA_step cx h s ev W) as [W'|[B E]].
  - intros o E. apply (NR o). left. exact E.
  - destruct (IH _ W') as [W''|[B I]]; [intros o H; apply (NR o); right; exact H | left; exact W'' | right; split; [exact B | right; exact I]].
  - right. destruct B as (B1 & B2 & B3 & B4 & B5). rewrite run_late_dead by assumption.
    split; [repeat split; assumption | left; exact E].
Qed.

(* a hint whose handler is waiting and never answers (a Tor that never comes up): until the timer fires it is held and
   nothing is reported -- whatever the other hints do meanwhile; when the timer has fired the hint is cancelled (status of
   its cancellation error: "abandoned" for CancelledError), the failure is NegotiationError and was reported exactly once *)
Theorem waiting_forever : forall cx beh hints h evs,
  In h hints -> beh h = HWaiting -> (forall o, ~ In (LResolve h o) evs) ->
  let r := run_late cx evs (connect_all beh hints) in
  (active r = true /\ failed_calls r = 0%nat /\ In h (pending r) /\ ~ In h (valid r) /\
   status_of h (statuses r) = Some SResolving) \/
  (In LTimeout evs /\ active r = false /\ failed_calls r = 1%nat /\ pending r = [] /\
   status_of h (statuses r) = Some (classify (cx h)) /\ reason r = Some "NegotiationError"%string).
Proof.
  intros cx beh hints h evs H B NR. cbv zeta.
  destruct (waiting_hint_held beh hints h H B) as (P & V & S & A & F). cbv zeta in *.
  pose proof (conj A (conj F (conj (connect_all_remaining beh hints) (conj P (conj V S))))) as W.
  destruct (run_late_WA cx h evs _ W NR) as [(A' & F' & _ & W')|[W' I]]; [left; auto | right; exact (conj I W')].
Qed.

Lemma connfail_status e h' s h : h <> h' ->
  status_of h (statuses (connection_failed e h' s)) = status_of h (statuses s) /\
  pending (connection_failed e h' s) = pending s.
Proof.
  intros N. destruct (connfail_fields e h' s) as (_ & _ & -> & -> & _). cbn [status_of]. rewrite list_eqb_neq by exact N. auto.
Qed.

Lemma late_settled cx h s ev : ~ In h (pending s) ->
  status_of h (statuses (late_step cx s ev)) = status_of h (statuses s) /\ ~ In h (pending (late_step cx s ev)).
Proof.
  intros NP.
  assert (F : forall h' s', pending s' = pending s -> ~ In h (pending (remove_pending h' s'))).
  { intros h' s' E H. apply remove_pending_In in H as [H _]. rewrite E in H. exact (NP H). }
  assert (G : forall e h' s', h <> h' -> pending s' = pending s -> status_of h (statuses s') = status_of h (statuses s) ->
            status_of h (statuses (connection_failed e h' (remove_pending h' s'))) = status_of h (statuses s) /\
            ~ In h (pending (connection_failed e h' (remove_pending h' s')))).
  { intros e h' s' N E S. destruct (connfail_status e h' (remove_pending h' s') h N) as [-> ->]. split; [exact S | exact (F h' s' E)]. }
  destruct ev as [h' o|h' e|]; cbn [late_step].
  - destruct (is_waiting h' s) eqn:W; [|auto]. apply waiting_in_pending in W as [P _].
    assert (N : h <> h') by (intros ->; exact (NP P)).
    assert (S : status_of h (statuses (good_hint h' s)) = status_of h (statuses s))
      by (cbn [good_hint statuses status_of]; rewrite list_eqb_neq by exact N; reflexivity).
    destruct o as [| |e|e]; [auto | auto | apply G; auto | apply G; auto].
  - destruct (is_dialled h' s) eqn:W; [|auto]. apply dialled_in_pending in W as [P _].
    apply G; [intros ->; exact (NP P) | reflexivity | reflexivity].
  - destruct (active s); [|auto].
    destruct (timed_out_spec cx s) as (_ & _ & _ & T4 & _ & _ & T7). cbv zeta in *.
    rewrite T4, T7. rewrite (proj2 (hmem_false h (pending s)) NP). split; [reflexivity | intros []].
Qed.

Lemma run_late_settled cx h : forall evs s, ~ In h (pending s) ->
  status_of h (statuses (run_late cx evs s)) = status_of h (statuses s).
Proof.
  unfold run_late. induction evs as [|ev evs IH]; intros s NP; cbn [fold_left]; [reflexivity|].
  destruct (late_settled cx h s ev NP) as [S NP']. rewrite IH by exact NP'. exact S.
Qed.

(* a hint that was settled when connect() returned (bad hint, handler's exception, connect() failed at once) keeps the
   status of its OWN outcome whatever happens later to the other hints, timer included *)
Theorem settled_status_is_final : forall cx beh hints h evs, In h hints -> is_pending (beh h) = false ->
  status_of h (statuses (run_late cx evs (connect_all beh hints))) = Some (expected_status (beh h)).
Proof.
  intros cx beh hints h evs H B. rewrite run_late_settled; [exact (status_is_own beh hints h H)|].
  intros P. apply pending_iff in P as [_ P]. congruence.
Qed.

Lemma resolve_step cx h s o : WA h s -> is_pending o = false ->
  status_of h (statuses (late_step cx s (LResolve h o))) = Some (expected_status o) /\
  ~ In h (pending (late_step cx s (LResolve h o))).
Proof.
  intros (A & F & R & P & V & S) O. cbn [late_step].
  assert (W : is_waiting h s = true).
  { unfold is_waiting. rewrite (proj2 (hmem_In h (pending s)) P), (proj2 (hmem_false h (valid s)) V). reflexivity. }
  rewrite W.
  assert (G : forall e s', status_of h (statuses (connection_failed e h (remove_pending h s'))) = Some (classify e) /\
                           ~ In h (pending (connection_failed e h (remove_pending h s')))).
  { intros e s'. destruct (connfail_fields e h (remove_pending h s')) as (_ & _ & -> & -> & _).
    cbn [status_of]. rewrite list_eqb_refl. split; [reflexivity|]. intros H. apply remove_pending_In in H as [_ H]. exact (H eq_refl). }
  destruct o as [| |e|e]; try discriminate; apply G.
Qed.

(* a hint whose handler answers LATE with a failure (the Tor gives up after connect() has returned; or an endpoint whose
   connect() fails at once): whatever happened before (anything but the timer and an answer for h) and whatever happens
   after, the hint ends with the status of that answer *)
Theorem late_resolution : forall cx beh hints h evs1 o evs2,
  In h hints -> beh h = HWaiting -> (forall o', ~ In (LResolve h o') evs1) -> ~ In LTimeout evs1 -> is_pending o = false ->
  status_of h (statuses (run_late cx (evs1 ++ LResolve h o :: evs2) (connect_all beh hints))) = Some (expected_status o).
Proof.
  intros cx beh hints h evs1 o evs2 H B NR NT O.
  destruct (waiting_hint_held beh hints h H B) as (P & V & S & A & F). cbv zeta in *.
  pose proof (conj A (conj F (conj (connect_all_remaining beh hints) (conj P (conj V S))))) as W.
  rewrite run_late_app.
  set (s1 := run_late cx evs1 (connect_all beh hints)).
  assert (W' : WA h s1) by (destruct (run_late_WA cx h evs1 _ W NR) as [W'|[_ I]]; [exact W' | contradiction]).
  destruct (resolve_step cx h s1 o W' O) as [St NP].
  change (run_late cx (LResolve h o :: evs2) s1) with (run_late cx evs2 (late_step cx s1 (LResolve h o))).
  rewrite run_late_settled by exact NP. exact St.
Qed.

(* [1] endpoint never answers, [2] KeyError, [5] waits (Tor starting), [6] waits and is resolved later, [7] refuses later *)
Definition ex_beh : hstr -> houtcome :=
  fun h => match h with [1] => HPending | [2] => HRaises "KeyError" | [5] => HWaiting | [6] => HWaiting | [7] => HPending
                   | _ => HRaises "InvalidHintError" end.

Example waiting_examples :
  (* only a waiting hint: held, not valid, nothing reported; at the timeout: abandoned, NegotiationError, failed() once *)
  obs (connect_all ex_beh [[5]]) = ([[5]], [], 1, [([5], 5)], None, true, 0) /\
  obs (run_late cx_default [LTimeout] (connect_all ex_beh [[5]])) =
    ([[5]], [], 0, [([5], 4)], Some "NegotiationError"%string, false, 1) /\
  (* a second timeout / late events after the report change nothing *)
  run_late cx_default [LTimeout; LTimeout; LResolve [5] HPending; LConnFail [5] "X"] (connect_all ex_beh [[5]]) =
    run_late cx_default [LTimeout] (connect_all ex_beh [[5]]) /\
  (* the Tor gives up later: the only hint fails, NoLocationHintsError (no hint ever gave an endpoint), failed() once, and
     the timer (cancelled by failed()) adds nothing *)
  obs (run_late cx_default [LResolve [5] (HRaises "TorDown"); LTimeout] (connect_all ex_beh [[5]])) =
    ([[5]], [], 0, [([5], 2)], Some "NoLocationHintsError"%string, false, 1) /\
  (* mixed: [2] raises, [6] resolves late to an endpoint whose connect is refused, [7] is refused later, [5] waits for ever *)
  obs (run_late cx_default [LResolve [6] (HConnectFails "ConnectionRefusedError"); LConnFail [7] "ConnectionRefusedError"]
         (connect_all ex_beh [[2]; [5]; [6]; [7]])) =
    ([[2]; [5]; [6]; [7]], [[7]; [6]], 1, [([2], 2); ([5], 5); ([6], 3); ([7], 3)], Some "KeyError"%string, true, 0) /\
  obs (run_late cx_default [LResolve [6] (HConnectFails "ConnectionRefusedError"); LConnFail [7] "ConnectionRefusedError"; LTimeout]
         (connect_all ex_beh [[2]; [5]; [6]; [7]])) =
    ([[2]; [5]; [6]; [7]], [[7]; [6]], 0, [([2], 2); ([5], 4); ([6], 3); ([7], 3)], Some "NegotiationError"%string, false, 1).
Proof. vm_compute. exact (conj eq_refl (conj eq_refl (conj eq_refl (conj eq_refl (conj eq_refl eq_refl))))). Qed.

(* regression witnesses: what the theorems exclude.
   (a) a connector that did not count a waiting hint among its pending Deferreds (checkForFailure looking at validHints /
       at dialled endpoints only) would report NoLocationHintsError at once while the Tor is still starting: in the model
       that is `usable` without HWaiting -- refuted by connect_all_outcome on [[5]]:  *)
Example waiting_counts_as_usable : usable ex_beh [[5]] = true /\ failed_calls (connect_all ex_beh [[5]]) = 0%nat.
Proof. vm_compute. auto. Qed.

(* (b) without the timer path nothing ever reports a hint that waits for ever: the state is unchanged by every other event *)
Example no_timer_no_report :
  let s := connect_all ex_beh [[5]] in
  run_late cx_default [LResolve [1] HPending; LConnFail [5] "X"; LResolve [5] HWaiting; LConnFail [7] "X"] s = s /\ failed_calls s = 0%nat.
Proof. vm_compute. auto. Qed.
