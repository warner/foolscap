(* C19 -- invariants of the file-system model under EVERY operation, and what they give for histories of service
   calls: crash / fault at any point, restart on the leftover directory, symlinks planted between incarnations.
   Then the paths that do not go through FilePath.child (directory listing, `latest`), the gatherer's writes and the
   publisher's reads at names that are symbolic links, and a failing system call of an upload. *)
From Coq Require Import NArith List Bool Arith Lia.
Import ListNotations.
Require Import Verif.lib.UploadShape Verif.gen.UploadGen Verif.lib.Paths Verif.lib.PathsProofs
               Verif.lib.Upload Verif.lib.UploadProofs Verif.lib.UploadHist.

(* the invariant: inode numbers below `next`, no two names for one inode *)
Definition winv (n : str -> option ent) (nx : nat) : Prop :=
  (forall p i, n p = Some (F i) -> (i < nx)%nat) /\
  (forall p q i, n p = Some (F i) -> n q = Some (F i) -> p = q).
Definition Inv (s : st) : Prop := winv (names s) (next s).

(* the WEAKER invariant: only the names in T (the temporaries) must not share their inode.
   `Inv` forbids every hard link in the directory.  What the write-then-rename protocols need is less: the TEMPORARY they
   truncate and write must not be a second name of some other entry's inode (else writing it changes that entry).  Hard
   links among the other entries are harmless and allowed by InvT.  It is kept by every operation whose renames do not move
   an entry from outside T to a name in T (the services rename their temporary -- in T -- to the final name).
   Inv is the case where T holds of every name, and its lemmas are read off those of InvT. *)
Definition winvT (T : str -> Prop) (n : str -> option ent) (nx : nat) : Prop :=
  (forall p i, n p = Some (F i) -> (i < nx)%nat) /\
  (forall p q i, T p -> n p = Some (F i) -> n q = Some (F i) -> p = q).
Definition InvT (T : str -> Prop) (s : st) : Prop := winvT T (names s) (next s).

Lemma Inv_InvT : forall T s, Inv s -> InvT T s.
Proof. intros T s [H1 H2]. split; [exact H1|]. intros p q i _ Hp Hq. exact (H2 p q i Hp Hq). Qed.
Lemma Inv_lift : forall s s', (InvT (fun _ => True) s -> InvT (fun _ => True) s') -> Inv s -> Inv s'.
Proof.
  intros s s' H HI. destruct (H (Inv_InvT _ s HI)) as [H1 H2]. split; [exact H1|]. intros p q i. exact (H2 p q i I).
Qed.

Lemma InvT_wf : forall T s, InvT T s -> wf_st s.
Proof. intros T s [H _]. exact H. Qed.
Lemma InvT_unshared : forall (T : str -> Prop) s tmp, T tmp -> InvT T s -> unshared s tmp.
Proof. intros T s tmp Ht [_ H] q i Hq Hn Hc. apply Hq. symmetry. exact (H tmp q i Ht Hn Hc). Qed.
Lemma Inv_wf : forall s, Inv s -> wf_st s.
Proof. intros s H. exact (InvT_wf _ s (Inv_InvT (fun _ => True) s H)). Qed.
Lemma Inv_unshared : forall s tmp, Inv s -> unshared s tmp.
Proof. intros s tmp H. exact (InvT_unshared (fun _ => True) s tmp I (Inv_InvT _ s H)). Qed.
Lemma Inv_empty : Inv (mk_st [] []).
Proof. split; intros p; intros; discriminate. Qed.

Lemma move_F {n : str -> option ent} {a b e q i} : upd (upd n b (Some e)) a None q = Some (F i) ->
  q <> a /\ ((q = b /\ e = F i) \/ (q <> b /\ n q = Some (F i))).
Proof.
  intros H. destruct (upd_in H) as [[_ E]|[Hq E]]; [discriminate E|]. split; [exact Hq|].
  destruct (upd_in E) as [[Hb E']|[Hb E']]; [left; split; [exact Hb|injection E' as ->; reflexivity]|right; auto].
Qed.

Lemma winvT_set : forall T n nx p v, (forall i, v <> Some (F i)) -> winvT T n nx -> winvT T (upd n p v) nx.
Proof.
  intros T n nx p v Hv [H1 H2]. split.
  - intros q i Hq. destruct (upd_in Hq) as [[_ E]|[_ E]]; [destruct (Hv i E)|exact (H1 q i E)].
  - intros a b i Ta Ha Hb.
    destruct (upd_in Ha) as [[_ E]|[_ Ea]]; [destruct (Hv i E)|].
    destruct (upd_in Hb) as [[_ E]|[_ Eb]]; [destruct (Hv i E)|]. exact (H2 a b i Ta Ea Eb).
Qed.

Lemma winvT_create : forall T n nx p, winvT T n nx -> winvT T (upd n p (Some (F nx))) (S nx).
Proof.
  intros T n nx p [H1 H2]. split.
  - intros q i Hq. destruct (upd_in Hq) as [[_ E]|[_ E]]; [injection E as <-|apply H1 in E]; lia.
  - intros a b i Ta Ha Hb.
    destruct (upd_in Ha) as [[-> Ea]|[_ Ea]], (upd_in Hb) as [[-> Eb]|[_ Eb]].
    + reflexivity.
    + injection Ea as <-. apply H1 in Eb. lia.
    + injection Eb as <-. apply H1 in Ea. lia.
    + exact (H2 a b i Ta Ea Eb).
Qed.

Lemma winvT_move : forall (T : str -> Prop) n nx a b e, (T b -> T a) ->
  winvT T n nx -> n a = Some e -> a <> b -> winvT T (upd (upd n b (Some e)) a None) nx.
Proof.
  intros T n nx a b e Tba [H1 H2] Hae Hab. split.
  - intros q i Hq. destruct (move_F Hq) as [_ [[_ ->]|[_ E]]]; [exact (H1 a i Hae)|exact (H1 q i E)].
  - intros x y i Tx Hx Hy.
    destruct (move_F Hx) as [Hxa [[-> Ex]|[_ Ex]]], (move_F Hy) as [Hya [[-> Ey]|[_ Ey]]].
    + reflexivity.
    + subst e. destruct Hya. symmetry. exact (H2 a y i (Tba Tx) Hae Ey).
    + subst e. destruct Hxa. exact (H2 x a i Tx Ex Hae).
    + exact (H2 x y i Tx Ex Ey).
Qed.

(* directories stay where they are *)
Definition dn (n n' : str -> option ent) : Prop := forall p, n' p = Some D <-> n p = Some D.
Definition dsame (s s' : st) : Prop := dn (names s) (names s').

Lemma dn_refl : forall n, dn n n.
Proof. intros n p. tauto. Qed.
Lemma dn_trans : forall a b c, dn a b -> dn b c -> dn a c.
Proof. intros a b c H1 H2 p. rewrite (H2 p). apply H1. Qed.
Lemma dn_set : forall n p v, n p <> Some D -> v <> Some D -> dn n (upd n p v).
Proof.
  intros n p v Hn Hv q. destruct (upd_cases _ n p v q) as [[-> E]|[_ E]]; rewrite E; [|tauto].
  split; intros H; contradiction.
Qed.

Lemma nl_set : forall (n : str -> option ent) p q v, (p = q -> forall t, v <> Some (L t)) ->
  (forall t, n p <> Some (L t)) -> forall t, upd n q v p <> Some (L t).
Proof.
  intros n p q v Hv Hn t. destruct (upd_cases _ n q v p) as [[Hpq E]|[_ E]]; rewrite E; [apply Hv; exact Hpq|apply Hn].
Qed.

(* Whatever else it does, an operation changes (names, next) by creating a file under a free name, removing an entry, or
   renaming an entry onto a name that is not a directory, a few times over.  R holds of the pairs (source, destination) it
   may rename, M of the names at which it may remove or move away a directory.  `step`, `step_fault` and `run` are shown
   to be such changes once; the invariants are proved for the changes. *)
Inductive edit (R : str -> str -> Prop) (M : str -> Prop) :
  (str -> option ent) -> nat -> (str -> option ent) -> nat -> Prop :=
| ed_refl : forall n nx, edit R M n nx n nx
| ed_create : forall n nx p, n p = None -> edit R M n nx (upd n p (Some (F nx))) (S nx)
| ed_remove : forall n nx p, (n p = Some D -> M p) -> edit R M n nx (upd n p None) nx
| ed_move : forall n nx a b e, R a b -> (n a = Some D -> M a) -> n a = Some e -> n b <> Some D -> a <> b ->
    edit R M n nx (upd (upd n b (Some e)) a None) nx
| ed_trans : forall n nx n1 nx1 n2 nx2, edit R M n nx n1 nx1 -> edit R M n1 nx1 n2 nx2 -> edit R M n nx n2 nx2.

Lemma edit_mono {R R' : str -> str -> Prop} {M M' : str -> Prop} {n nx n' nx'} :
  edit R M n nx n' nx' -> (forall a b, R a b -> R' a b) -> (forall p, M p -> M' p) -> edit R' M' n nx n' nx'.
Proof.
  intros H HR HM.
  induction H; [apply ed_refl|apply ed_create; assumption|apply ed_remove; auto|apply ed_move; auto|eapply ed_trans; eassumption].
Qed.

Lemma edit_winvT {T : str -> Prop} {R M n nx n' nx'} :
  edit R M n nx n' nx' -> (forall a b, R a b -> T b -> T a) -> winvT T n nx -> winvT T n' nx'.
Proof.
  intros H HR.
  induction H as [n nx|n nx p Hp|n nx p Hp|n nx a b e Hr Hm Ha Hb Hab|n nx n1 nx1 n2 nx2 _ IH1 _ IH2]; intros HI.
  - exact HI.
  - apply winvT_create. exact HI.
  - apply winvT_set; [discriminate|exact HI].
  - apply winvT_move; [exact (HR a b Hr)|exact HI|exact Ha|exact Hab].
  - exact (IH2 (IH1 HI)).
Qed.

Lemma edit_dn {R M n nx n' nx'} : edit R M n nx n' nx' -> (forall p, M p -> n p <> Some D) -> dn n n'.
Proof.
  intros H.
  induction H as [n nx|n nx p Hp|n nx p Hp|n nx a b e Hr Hm Ha Hb Hab|n nx n1 nx1 n2 nx2 _ IH1 _ IH2]; intros HM.
  - apply dn_refl.
  - apply dn_set; [rewrite Hp|]; discriminate.
  - apply dn_set; [intros E; exact (HM p (Hp E) E)|discriminate].
  - assert (Hd : n a <> Some D) by (intros E; exact (HM a (Hm E) E)). rewrite Ha in Hd.
    apply (dn_trans _ (upd n b (Some e))); apply dn_set; [exact Hb|exact Hd| |discriminate].
    rewrite upd_other, Ha by exact Hab. exact Hd.
  - apply (dn_trans _ n1); [exact (IH1 HM)|]. apply IH2. intros p Hp E. apply (HM p Hp). apply (IH1 HM p). exact E.
Qed.

Lemma edit_nolink {R M n nx n' nx'} p : edit R M n nx n' nx' -> (forall a, ~ R a p) ->
  (forall t, n p <> Some (L t)) -> forall t, n' p <> Some (L t).
Proof.
  intros H HR.
  induction H as [n nx|n nx q Hq|n nx q Hq|n nx a b e Hr Hm Ha Hb Hab|n nx n1 nx1 n2 nx2 _ IH1 _ IH2]; intros Hn.
  - exact Hn.
  - apply nl_set; [discriminate|exact Hn].
  - apply nl_set; [discriminate|exact Hn].
  - apply nl_set; [discriminate|]. apply nl_set; [intros ->; destruct (HR a Hr)|exact Hn].
  - exact (IH2 (IH1 Hn)).
Qed.

(* the renames an operation performs: (source, destination) *)
Definition renames (o : op) : list (str * str) :=
  match o with Rename a b | RenameElseUnlink a b _ | RenameRetry a b => [(a, b)] | _ => [] end.
Definition keepsT (T : str -> Prop) (o : op) : Prop := forall a b, In (a, b) (renames o) -> T b -> T a.

Lemma renames_movable : forall o a b, In (a, b) (renames o) -> In a (movable o).
Proof. intros o a b H. destruct o; cbn [renames] in H; try (destruct H; fail); destruct H as [H|[]]; injection H as <- _; cbn; auto. Qed.
Lemma renames_dests : forall o a b, In (a, b) (renames o) -> In b (dests o).
Proof. intros o a b H. destruct o; cbn [renames] in H; try (destruct H; fail); destruct H as [H|[]]; injection H as _ <-; cbn; auto. Qed.

Lemma step_rename_edit : forall (R : str -> str -> Prop) (M : str -> Prop) s a b, R a b -> M a ->
  edit R M (names s) (next s) (names (step_rename s a b)) (next (step_rename s a b)).
Proof.
  intros R M s a b Hr Hm. rewrite step_rename_eq.
  destruct (rename_fails (look s a) (look s b)) eqn:Ef; [apply ed_refl|].
  apply rename_fails_false in Ef. destruct Ef as [[e Ea] Hb].
  destruct (str_eqb a b) eqn:Eab; [apply ed_refl|]. cbn [names next]. rewrite Ea.
  apply ed_move; [exact Hr|intros _; exact Hm|exact Ea|exact Hb|apply str_eqb_false_neq; exact Eab].
Qed.

Lemma unlink_quiet_edit : forall R M s p, edit R M (names s) (next s) (names (unlink_quiet s p)) (next (unlink_quiet s p)).
Proof.
  intros R M s p. unfold unlink_quiet. destruct (names s p) as [[i|t|]|] eqn:E; try apply ed_refl;
    cbn [names next]; apply ed_remove; rewrite E; discriminate.
Qed.

Lemma step_edit : forall s o, edit (fun a b => In (a, b) (renames o)) (fun p => In p (movable o))
                                   (names s) (next s) (names (step s o)) (next (step s o)).
Proof.
  intros s o. unfold step. destruct (failed s); [apply ed_refl|].
  destruct o; cbn [renames movable].
  - destruct (names s p) as [[i|t|]|] eqn:E; try apply ed_refl. cbn [names next]. apply ed_create. exact E.
  - destruct (handle s) as [[i pend]|]; apply ed_refl.
  - destruct (handle s) as [[i pend]|]; apply ed_refl.
  - apply step_rename_edit; left; reflexivity.
  - destruct (failed (step_rename s a b)); [|apply step_rename_edit; left; reflexivity].
    destruct (names s c) as [[i|t|]|] eqn:E; try apply ed_refl; cbn [names next]; apply ed_remove; rewrite E; discriminate.
  - destruct (failed (step_rename s a b)); [|apply step_rename_edit; left; reflexivity].
    eapply ed_trans; [apply unlink_quiet_edit|apply step_rename_edit; left; reflexivity].
  - destruct (names s p) as [[i|t|]|]; apply ed_refl.
  - destruct (names s p) as [e|]; [|apply ed_refl]. cbn [names next]. apply ed_remove. intros _. left. reflexivity.
  - destruct (names s p) as [[i|t|]|] eqn:E; try apply ed_refl. cbn [names next]. apply ed_remove. rewrite E. discriminate.
  - destruct (exists_at exists_fuel s p); [|apply ed_refl]. cbn [names next]. apply ed_remove. intros _. left. reflexivity.
Qed.

Lemma run_edit : forall ops s,
  edit (fun a b => exists o, In o ops /\ In (a, b) (renames o)) (fun p => exists o, In o ops /\ In p (movable o))
       (names s) (next s) (names (run s ops)) (next (run s ops)).
Proof.
  induction ops as [|o ops IH]; intros s; [apply ed_refl|]. rewrite run_cons.
  eapply ed_trans; [refine (edit_mono (step_edit s o) _ _)|refine (edit_mono (IH _) _ _)].
  - intros a b H. exists o. split; [left; reflexivity|exact H].
  - intros p H. exists o. split; [left; reflexivity|exact H].
  - intros a b (o' & Ho' & H). exists o'. split; [right; exact Ho'|exact H].
  - intros p (o' & Ho' & H). exists o'. split; [right; exact Ho'|exact H].
Qed.

Lemma step_fault_edit : forall s o,
  edit (fun _ _ => False) (fun _ => False) (names s) (next s) (names (step_fault s o)) (next (step_fault s o)).
Proof.
  intros s o. unfold step_fault. destruct (failed s); [apply ed_refl|].
  destruct o; try apply ed_refl; apply unlink_quiet_edit.
Qed.

Lemma step_invT : forall T s o, keepsT T o -> InvT T s -> InvT T (step s o).
Proof. intros T s o K. exact (edit_winvT (step_edit s o) K). Qed.

Lemma run_invT : forall T ops s, (forall o, In o ops -> keepsT T o) -> InvT T s -> InvT T (run s ops).
Proof.
  intros T ops s K. refine (edit_winvT (run_edit ops s) _).
  intros a b (o & Ho & Hab). exact (K o Ho a b Hab).
Qed.

Lemma step_fault_invT : forall T s o, InvT T s -> InvT T (step_fault s o).
Proof. intros T s o. refine (edit_winvT (step_fault_edit s o) _). intros a b []. Qed.

Lemma run_fault_invT : forall T k ops s, (forall o, In o ops -> keepsT T o) -> InvT T s -> InvT T (run_fault k s ops).
Proof.
  intros T k ops s K H. unfold run_fault. destruct (nth_error ops k) as [o|]; [apply step_fault_invT|]; (apply run_invT; [|exact H]).
  - intros o' Ho. exact (K o' (In_firstn _ _ _ _ Ho)).
  - exact K.
Qed.

Lemma plant_cases : forall s p t,
  plant s p t = s \/
  (names s p <> Some D /\
   plant s p t = mkst (upd (names s) p (Some (L t))) (data s) (next s) (handle s) (failed s) (followed s)).
Proof.
  intros s p t. unfold plant. destruct (names s p) as [[i|t'|]|]; [right|right|left; reflexivity|right];
    (split; [discriminate|reflexivity]).
Qed.

Lemma plant_invT : forall T s p t, InvT T s -> InvT T (plant s p t).
Proof.
  intros T s p t H. destruct (plant_cases s p t) as [->|[_ ->]]; [exact H|]. apply winvT_set; [discriminate|exact H].
Qed.

(* kept by every operation that does not rename INTO T from outside T, performed or failing, and by a restart *)
Theorem fs_invariant_T : forall T s o, InvT T s ->
  (keepsT T o -> InvT T (step s o)) /\ InvT T (step_fault s o) /\ InvT T (reboot s).
Proof. intros T s o H. split; [intros K; apply step_invT; assumption|split; [apply step_fault_invT; exact H|exact H]]. Qed.

Lemma step_inv : forall s o, Inv s -> Inv (step s o).
Proof. intros s o. apply Inv_lift, step_invT. intros a b _ _. exact I. Qed.
Lemma run_inv : forall ops s, Inv s -> Inv (run s ops).
Proof. intros ops s. apply Inv_lift, run_invT. intros o _ a b _ _. exact I. Qed.
Lemma step_fault_inv : forall s o, Inv s -> Inv (step_fault s o).
Proof. intros s o. apply Inv_lift, step_fault_invT. Qed.
Lemma plant_inv : forall s p t, Inv s -> Inv (plant s p t).
Proof. intros s p t. apply Inv_lift, plant_invT. Qed.

Lemma run_fault_inv : forall k ops s, Inv s -> Inv (run_fault k s ops).
Proof. intros k ops s. apply Inv_lift, run_fault_invT. intros o _ a b _ _. exact I. Qed.

Theorem fs_invariant : forall s o, Inv s -> Inv (step s o) /\ Inv (step_fault s o) /\ Inv (reboot s).
Proof. intros s o H. split; [apply step_inv; exact H|split; [apply step_fault_inv; exact H|exact H]]. Qed.

Lemma run_dsame : forall ops s, (forall o a, In o ops -> In a (movable o) -> names s a <> Some D) -> dsame s (run s ops).
Proof. intros ops s H. refine (edit_dn (run_edit ops s) _). intros a (o & Ho & Ha). exact (H o a Ho Ha). Qed.

Lemma plant_dsame : forall s p t, dsame s (plant s p t).
Proof.
  intros s p t. destruct (plant_cases s p t) as [->|[Hd ->]]; [apply dn_refl|]. apply dn_set; [exact Hd|discriminate].
Qed.

Lemma step_fault_followed : forall s o, followed (step_fault s o) = followed s.
Proof.
  intros s o. unfold step_fault. destruct (failed s); [reflexivity|].
  destruct o; try reflexivity; unfold unlink_quiet; (destruct (names s _) as [[i|t|]|]; reflexivity).
Qed.

Lemma plant_look : forall s p t q, look (plant s p t) q = look s q \/ (q = p /\ look (plant s p t) q = VLink t).
Proof.
  intros s p t q. destruct (plant_cases s p t) as [->|[_ ->]]; [left; reflexivity|]. unfold look. cbn [names data].
  destruct (upd_cases _ (names s) p (Some (L t)) q) as [[Hq E]|[_ E]]; rewrite E;
    [right; split; [exact Hq|reflexivity]|left; reflexivity].
Qed.
Lemma plant_flags : forall s p t, failed (plant s p t) = failed s /\ followed (plant s p t) = followed s.
Proof. intros s p t. destruct (plant_cases s p t) as [->|[_ ->]]; split; reflexivity. Qed.
Lemma plant_nolink : forall s p t q, q <> p -> no_link_at s q -> no_link_at (plant s p t) q.
Proof.
  intros s p t q Hq H. destruct (plant_cases s p t) as [->|[_ ->]]; [exact H|].
  unfold no_link_at. cbn [names]. apply nl_set; [intros E; contradiction|exact H].
Qed.

Definition upload_end (final : str) (oc : outcome) : list op :=
  match oc with
  | Done => [Close (final ++ putfile_tmp_ext); RenameElseUnlink (final ++ putfile_tmp_ext) final (final ++ putfile_tmp_ext);
             Chmod final]
  | _ => [Close (final ++ putfile_tmp_ext); Unlink (final ++ putfile_tmp_ext)]
  end.

Lemma upload_ops_eq : forall final blocks oc,
  upload_ops final blocks oc =
    UnlinkIfLink (final ++ putfile_tmp_ext) :: Open (final ++ putfile_tmp_ext) ::
    map (Write (final ++ putfile_tmp_ext)) blocks ++ upload_end final oc.
Proof.
  intros final blocks oc. destruct oc; [rewrite upload_ops_done|rewrite upload_ops_err|rewrite upload_ops_badblock, upload_ops_err];
    reflexivity.
Qed.

(* every operation of an upload is one of these seven *)
Lemma upload_ops_forall : forall (P : op -> Prop) final blocks oc,
  P (UnlinkIfLink (final ++ putfile_tmp_ext)) -> P (Open (final ++ putfile_tmp_ext)) ->
  (forall b, P (Write (final ++ putfile_tmp_ext) b)) -> P (Close (final ++ putfile_tmp_ext)) ->
  P (RenameElseUnlink (final ++ putfile_tmp_ext) final (final ++ putfile_tmp_ext)) -> P (Chmod final) ->
  P (Unlink (final ++ putfile_tmp_ext)) ->
  forall o, In o (upload_ops final blocks oc) -> P o.
Proof.
  intros P final blocks oc P1 P2 P3 P4 P5 P6 P7 o Ho. rewrite upload_ops_eq in Ho.
  destruct Ho as [<-|[<-|Ho]]; [exact P1|exact P2|]. apply in_app_or in Ho. destruct Ho as [Ho|Ho].
  - apply in_map_iff in Ho. destruct Ho as (b & <- & _). apply P3.
  - destruct oc; cbn [upload_end] in Ho;
      [destruct Ho as [<-|[<-|[<-|[]]]]|destruct Ho as [<-|[<-|[]]]|destruct Ho as [<-|[<-|[]]]]; assumption.
Qed.

Lemma upload_ops_movable : forall final blocks oc o a,
  In o (upload_ops final blocks oc) -> In a (movable o) -> a = final ++ putfile_tmp_ext.
Proof.
  intros final blocks oc o a Ho. revert a.
  apply (upload_ops_forall (fun o => forall a, In a (movable o) -> a = final ++ putfile_tmp_ext) final blocks oc);
    [intros a []|intros a []|intros b a []|intros a []|intros a [<-|[<-|[]]]; reflexivity|intros a []
    |intros a [<-|[]]; reflexivity|exact Ho].
Qed.

(* the temporaries of the upload service: every name that ends in the temporary extension *)
Definition is_utmp (p : str) : Prop := exists f, p = f ++ putfile_tmp_ext.

Lemma upload_ops_keepsT : forall final blocks oc o, In o (upload_ops final blocks oc) -> keepsT is_utmp o.
Proof.
  intros final blocks oc.
  apply (upload_ops_forall (keepsT is_utmp) final blocks oc);
    [intros a b []|intros a b []|intros d a b []|intros a b []| |intros a b []|intros a b []].
  intros a b [H|[]] _. injection H as <- _. exists final. reflexivity.
Qed.

(* the temporary name is an existing DIRECTORY: open() raises, nothing is ever touched *)
Theorem upload_tmp_is_directory : forall s0 final blocks oc k,
  failed s0 = false -> names s0 (final ++ putfile_tmp_ext) = Some D ->
  (run s0 (firstn k (upload_ops final blocks oc)) = s0 \/ run s0 (firstn k (upload_ops final blocks oc)) = fail s0) /\
  ((2 <= k)%nat -> failed (run s0 (firstn k (upload_ops final blocks oc))) = true).
Proof.
  intros s0 final blocks oc k Hf E. rewrite upload_ops_eq.
  assert (E1 : step s0 (UnlinkIfLink (final ++ putfile_tmp_ext)) = s0) by (unfold step; rewrite Hf, E; reflexivity).
  assert (E2 : step s0 (Open (final ++ putfile_tmp_ext)) = fail s0) by (unfold step; rewrite Hf, E; reflexivity).
  destruct k as [|[|k]]; cbn [firstn].
  - split; [left; reflexivity|intros; lia].
  - rewrite run_cons, E1. split; [left; reflexivity|intros; lia].
  - rewrite run_cons, E1, run_cons, E2, run_failed by reflexivity. split; [right; reflexivity|reflexivity].
Qed.

Lemma look_reboot : forall s q, look (reboot s) q = look s q.
Proof. reflexivity. Qed.

Lemma dir_or_not : forall s p, names s p = Some D \/ names s p <> Some D.
Proof. intros s p. destruct (names s p) as [[i|t|]|]; [right|right|left|right]; (reflexivity || discriminate). Qed.

Definition upload_effect (s : st) (final : str) (blocks : list (list N)) (oc : outcome) (s' : st) : Prop :=
  followed s' = false /\
  (forall q, q <> final ++ putfile_tmp_ext -> q <> final -> look s' q = look s q) /\
  (look s' final = look s final \/ (oc = Done /\ look s' final = VFile (concat blocks))).

Lemma upload_effect_tmp_only {s final blocks oc s'} :
  (forall q, q <> final ++ putfile_tmp_ext -> look s' q = look s q) -> followed s' = false -> upload_effect s final blocks oc s'.
Proof.
  intros Ha Hb. split; [exact Hb|]. split; [intros q Hq _; exact (Ha q Hq)|].
  left. apply Ha. apply not_eq_sym, tmp_ext_neq.
Qed.

(* no hypothesis on what is at the two names beforehand: a directory is covered *)
Lemma usession : forall s final blocks oc k,
  wf_st s -> unshared s (final ++ putfile_tmp_ext) -> failed s = false -> followed s = false ->
  dsame s (run s (firstn k (upload_ops final blocks oc))) /\
  upload_effect s final blocks oc (run s (firstn k (upload_ops final blocks oc))).
Proof.
  intros s final blocks oc k Hwf Hun Hf Hfl.
  destruct (dir_or_not s (final ++ putfile_tmp_ext)) as [Etmp|Hnd].
  { destruct (upload_tmp_is_directory s final blocks oc k Hf Etmp) as [[R|R] _]; rewrite R;
      (split; [apply dn_refl|apply upload_effect_tmp_only; [reflexivity|exact Hfl]]). }
  split.
  { apply run_dsame. intros o a Ho Ha. apply In_firstn in Ho.
    rewrite (upload_ops_movable final blocks oc o a Ho Ha). exact Hnd. }
  assert (Hcl : clean s) by (split; assumption).
  assert (Hoc : oc = Done \/ oc <> Done) by (destruct oc; [left; reflexivity|right; discriminate|right; discriminate]).
  destruct Hoc as [->|Hoc].
  - destruct (dir_or_not s final) as [Ef|Hndf].
    + destruct (upload_publish_failure s final blocks k Ef Hwf Hun Hcl Hnd) as (Ha & Hb & _).
      exact (upload_effect_tmp_only Ha Hb).
    + destruct (upload_atomic s final blocks k Hndf Hwf Hun Hcl Hnd) as (Ha & Hb & _ & Hd).
      split; [exact Hb|]. split; [exact Hd|]. destruct Ha as [Ha|Ha]; [left; exact Ha|right; split; [reflexivity|exact Ha]].
  - destruct (upload_interrupted oc s final blocks k Hoc Hwf Hun Hcl Hnd) as (Ha & Hb & _).
    exact (upload_effect_tmp_only Ha Hb).
Qed.

(* what the history theorems need of an invariant: Inv has it, and so has the weaker InvT is_utmp *)
Definition good_inv (P : st -> Prop) : Prop :=
  (forall s, P s -> wf_st s) /\
  (forall s final, P s -> unshared s (final ++ putfile_tmp_ext)) /\
  (forall s final blocks oc k, P s -> P (reboot (run s (firstn k (upload_ops final blocks oc))))) /\
  (forall s p t, P s -> P (plant s p t)).

Lemma good_inv_Inv : good_inv Inv.
Proof.
  split; [exact Inv_wf|]. split; [intros s final H; apply Inv_unshared; exact H|].
  split; [intros s final blocks oc k H; exact (run_inv _ _ H)|exact plant_inv].
Qed.

Lemma good_inv_InvT : good_inv (InvT is_utmp).
Proof.
  split; [exact (InvT_wf is_utmp)|].
  split; [intros s final H; apply (InvT_unshared is_utmp); [exists final; reflexivity|exact H]|].
  split; [|exact (plant_invT is_utmp)].
  intros s final blocks oc k H. change (InvT is_utmp (run s (firstn k (upload_ops final blocks oc)))).
  apply run_invT; [|exact H]. intros o Ho. apply In_firstn in Ho. exact (upload_ops_keepsT final blocks oc o Ho).
Qed.

(* ONE event, from any state that satisfies the invariant: the invariant and the flags are kept, directories stay, and a name
   that is not THIS upload's temporary keeps its entry, or is where the link was planted, or is the upload's final name and
   now shows the complete content.  The guard `q is not the temporary of this upload` is exact: see
   upload_name_is_temporary_refuted. *)
Lemma uevent_safe : forall P, good_inv P -> forall s e,
  P s -> failed s = false -> followed s = false ->
  P (do_uevent s e) /\ failed (do_uevent s e) = false /\ followed (do_uevent s e) = false /\ dsame s (do_uevent s e) /\
  forall q, ~ In q (utmps [e]) ->
    look (do_uevent s e) q = look s q \/
    (exists t, e = UPlant q t /\ look (do_uevent s e) q = VLink t) \/
    (exists blocks k, e = UUpload q blocks Done k /\ look (do_uevent s e) q = VFile (concat blocks)).
Proof.
  intros P (G1 & G2 & G3 & G4) s e HI Hf Hfl. destruct e as [final blocks oc k|p t]; cbn [do_uevent].
  - destruct (usession s final blocks oc k (G1 _ HI) (G2 _ final HI) Hf Hfl) as (J2 & J3 & J4 & J5).
    split; [exact (G3 s final blocks oc k HI)|]. split; [reflexivity|]. split; [exact J3|]. split; [exact J2|].
    intros q Hq. rewrite look_reboot.
    assert (Hq2 : q <> final ++ putfile_tmp_ext) by (intros ->; apply Hq; left; reflexivity).
    destruct (str_eqb q final) eqn:Eq.
    + apply str_eqb_eq in Eq. subst q. destruct J5 as [J5|[-> J5]]; [left; exact J5|].
      right. right. exists blocks, k. split; [reflexivity|exact J5].
    + apply str_eqb_false_neq in Eq. left. apply J4; assumption.
  - destruct (plant_flags s p t) as [E1 E2].
    split; [exact (G4 s p t HI)|]. split; [rewrite E1; exact Hf|]. split; [rewrite E2; exact Hfl|]. split; [apply plant_dsame|].
    intros q _. destruct (plant_look s p t q) as [E|[-> E]]; [left; exact E|right; left; exists t; split; [reflexivity|exact E]].
Qed.

Lemma utmps_app : forall a b, utmps (a ++ b) = utmps a ++ utmps b.
Proof. intros. unfold utmps. apply flat_map_app. Qed.

Lemma ufinals_app : forall a b, ufinals (a ++ b) = ufinals a ++ ufinals b.
Proof. intros. unfold ufinals. apply flat_map_app. Qed.

Lemma uhistory_snoc : forall s0 es e, uhistory s0 (es ++ [e]) = do_uevent (uhistory s0 es) e.
Proof. intros. unfold uhistory. rewrite fold_left_app. reflexivity. Qed.

Lemma uallowed_snoc : forall s0 es e q v v', uallowed s0 es q v ->
  v' = v \/ (exists t, e = UPlant q t /\ v' = VLink t) \/
  (exists blocks k, e = UUpload q blocks Done k /\ v' = VFile (concat blocks)) ->
  uallowed s0 (es ++ [e]) q v'.
Proof.
  intros s0 es e q v v' H [->|[(t & -> & ->)|(bl & k & -> & ->)]].
  - destruct H as [H|[(t & Hi & H)|(bl & k & Hi & H)]]; [left; exact H|right; left; exists t|right; right; exists bl, k];
      (split; [apply in_or_app; left; exact Hi|exact H]).
  - right. left. exists t. split; [apply in_elt|reflexivity].
  - right. right. exists bl, k. split; [apply in_elt|reflexivity].
Qed.

(* EVERY history of uploads (any names, any block lists, each one completed, interrupted or killed at any point),
   restarts on the leftover directory and symlinks planted between incarnations -- nothing ever goes through a
   symlink, directories stay, and every name that is not the temporary of one of the uploads shows its initial entry,
   a planted link, or the complete content of an upload sent under that name *)
Theorem uhistory_safe_gen : forall P, good_inv P -> forall s0 es,
  P s0 -> failed s0 = false -> followed s0 = false ->
  P (uhistory s0 es) /\ failed (uhistory s0 es) = false /\ followed (uhistory s0 es) = false /\
  dsame s0 (uhistory s0 es) /\
  (forall q, ~ In q (utmps es) -> uallowed s0 es q (look (uhistory s0 es) q)).
Proof.
  intros P GP s0 es HI Hf Hfl. induction es as [|e es IH] using rev_ind.
  - split; [exact HI|]. split; [exact Hf|]. split; [exact Hfl|]. split; [apply dn_refl|]. intros q _. left. reflexivity.
  - rewrite uhistory_snoc. destruct IH as (I1 & I2 & I3 & I4 & I5).
    destruct (uevent_safe P GP (uhistory s0 es) e I1 I2 I3) as (J1 & J2 & J3 & J4 & J5).
    split; [exact J1|]. split; [exact J2|]. split; [exact J3|]. split; [exact (dn_trans _ _ _ I4 J4)|].
    intros q Hq. rewrite utmps_app in Hq. apply (uallowed_snoc s0 es e q (look (uhistory s0 es) q)).
    + apply I5. intros X. apply Hq. apply in_or_app. left. exact X.
    + apply J5. intros X. apply Hq. apply in_or_app. right. exact X.
Qed.

Theorem uhistory_safe : forall s0 es,
  Inv s0 -> failed s0 = false -> followed s0 = false ->
  Inv (uhistory s0 es) /\ failed (uhistory s0 es) = false /\ followed (uhistory s0 es) = false /\
  dsame s0 (uhistory s0 es) /\
  (forall q, ~ In q (utmps es) -> uallowed s0 es q (look (uhistory s0 es) q)).
Proof. exact (uhistory_safe_gen Inv good_inv_Inv). Qed.

(* ALL HISTORIES, at the FINAL names, under the exact guard `no final name is another upload's temporary`: each event of the
   history leaves every final name of the history as it was, or plants a link there, or publishes the complete content of an
   upload sent under that very name -- so a published file stays until something is sent (or planted) under its own name;
   and at the end every final name shows its initial entry, a planted link or the complete content of one of its uploads *)
Theorem uhistory_final_names : forall P, good_inv P -> forall s0 es1 e es2,
  P s0 -> failed s0 = false -> followed s0 = false -> no_name_collision (es1 ++ e :: es2) ->
  forall f, In f (ufinals (es1 ++ e :: es2)) ->
    (look (uhistory s0 (es1 ++ [e])) f = look (uhistory s0 es1) f \/
     (exists t, e = UPlant f t /\ look (uhistory s0 (es1 ++ [e])) f = VLink t) \/
     (exists blocks k, e = UUpload f blocks Done k /\ look (uhistory s0 (es1 ++ [e])) f = VFile (concat blocks))) /\
    uallowed s0 (es1 ++ e :: es2) f (look (uhistory s0 (es1 ++ e :: es2)) f).
Proof.
  intros P GP s0 es1 e es2 HI Hf Hfl Hg f Hin.
  pose proof (Hg f Hin) as Hnt. split.
  - destruct (uhistory_safe_gen P GP s0 es1 HI Hf Hfl) as (I1 & I2 & I3 & _). rewrite uhistory_snoc.
    apply (uevent_safe P GP _ e I1 I2 I3).
    intros X. apply Hnt. rewrite utmps_app. apply in_or_app. right.
    change (e :: es2) with ([e] ++ es2). rewrite utmps_app. apply in_or_app. left. exact X.
  - destruct (uhistory_safe_gen P GP s0 (es1 ++ e :: es2) HI Hf Hfl) as (_ & _ & _ & _ & I5). apply I5. exact Hnt.
Qed.

Definition ex_complete : list N := [67; 79; 77; 80; 76; 69; 84; 69]%N.        (* "COMPLETE" *)
(* WITHOUT the guard: `x.partial` is uploaded completely (the call succeeds, the file is published); then `x` is uploaded --
   (a) the source fails after one block: the error path removes `x.partial`, the published file is GONE (directory empty);
   (b) the process is killed after the first write: `x.partial` holds a prefix of ANOTHER upload under a published final name
       (here the empty prefix: what was written is still in the dead process's buffer), which no clause of `uallowed` allows.
   Sequential, names only, no local actor.  Replayed on the code: oracle/upload-name-is-another-uploads-temporary. *)
Theorem upload_name_is_temporary_refuted :
  let xp := ex_final ++ putfile_tmp_ext in
  let s0 := mk_st [] [] in
  let up1 := UUpload xp [ex_complete] Done 99%nat in
  let err := UUpload ex_final [[97; 97]]%N SrcError 99%nat in
  let kill := UUpload ex_final [[97; 97]; [98; 98]]%N Done 3%nat in
  Inv s0 /\ clean s0 /\
  look (uhistory s0 [up1]) xp = VFile ex_complete /\ names (uhistory s0 [up1]) (xp ++ putfile_tmp_ext) = None /\
  In xp (ufinals [up1; err]) /\ In xp (utmps [up1; err]) /\ ~ no_name_collision [up1; err] /\ ~ no_name_collision [up1; kill] /\
  look (uhistory s0 [up1; err]) xp = VNone /\ look (uhistory s0 [up1; err]) ex_final = VNone /\
  look (uhistory s0 [up1; kill]) xp = VFile [] /\
  ~ uallowed s0 [up1; kill] xp (look (uhistory s0 [up1; kill]) xp).
Proof.
  intros xp s0 up1 err kill.
  assert (Hin1 : forall e, In xp (ufinals [up1; e])) by (intros e; left; reflexivity).
  assert (Hin2 : forall b oc k, In xp (utmps [up1; UUpload ex_final b oc k])) by (intros; right; left; reflexivity).
  split; [exact Inv_empty|]. split; [split; reflexivity|].
  split; [vm_compute; reflexivity|]. split; [vm_compute; reflexivity|].
  split; [apply Hin1|]. split; [apply Hin2|].
  split; [intros H; exact (H _ (Hin1 _) (Hin2 _ _ _))|]. split; [intros H; exact (H _ (Hin1 _) (Hin2 _ _ _))|].
  split; [vm_compute; reflexivity|]. split; [vm_compute; reflexivity|].
  assert (E : look (uhistory s0 [up1; kill]) xp = VFile []) by (vm_compute; reflexivity).
  split; [exact E|]. rewrite E. intros [H|[(t & _ & H)|(bl & k & Hin & H)]].
  - vm_compute in H. discriminate.
  - discriminate.
  - destruct Hin as [Hin|[Hin|[]]].
    + injection Hin as <- _. vm_compute in H. discriminate.
    + injection Hin as Hx _. vm_compute in Hx. discriminate Hx.
Qed.

(* recovery: whatever happened before (crashes that left `<name>.partial` behind, planted links), an upload that runs to
   completion publishes the complete file and leaves no temporary *)
Theorem uhistory_recovers : forall P, good_inv P -> forall s0 es final blocks,
  P s0 -> failed s0 = false -> followed s0 = false ->
  names s0 (final ++ putfile_tmp_ext) <> Some D -> names s0 final <> Some D ->
  look (run (uhistory s0 es) (upload_ops final blocks Done)) final = VFile (concat blocks) /\
  names (run (uhistory s0 es) (upload_ops final blocks Done)) (final ++ putfile_tmp_ext) = None /\
  failed (run (uhistory s0 es) (upload_ops final blocks Done)) = false.
Proof.
  intros P GP s0 es final blocks HI Hf Hfl Hnt Hnf.
  destruct (uhistory_safe_gen P GP s0 es HI Hf Hfl) as (I1 & I2 & I3 & I4 & _).
  destruct GP as (G1 & G2 & _ & _).
  apply upload_completes.
  - intros E. apply Hnf. apply (I4 _). exact E.
  - apply G1. exact I1.
  - apply G2. exact I1.
  - split; assumption.
  - intros E. apply Hnt. apply (I4 _). exact E.
Qed.

(* the registry's temporary is the one name that must not be a hard link of another entry (weaker invariant InvT) *)
Definition is_rtmp (basedir : str) (p : str) : Prop := p = registry_final basedir ++ registry_tmp_ext.

Definition rstate_ok (basedir : str) (s : st) : Prop :=
  InvT (is_rtmp basedir) s /\ clean s /\ no_link_at s (registry_final basedir ++ registry_tmp_ext) /\
  no_dir_at s (registry_final basedir ++ registry_tmp_ext) /\ no_dir_at s (registry_final basedir).

Lemma rstate_ok_edit : forall basedir s s', rstate_ok basedir s ->
  edit (fun a b => is_rtmp basedir a /\ b = registry_final basedir) (is_rtmp basedir)
       (names s) (next s) (names s') (next s') ->
  clean s' -> rstate_ok basedir s'.
Proof.
  intros basedir s s' (HI & _ & Hnl & Hnd & Hndf) H Hcl.
  assert (Hds : dsame s s') by (refine (edit_dn H _); intros p ->; exact Hnd).
  split; [|split; [exact Hcl|split; [|split; intros E; [apply Hnd|apply Hndf]; apply (Hds _); exact E]]].
  - refine (edit_winvT H _ HI). intros a b [Ha _] _. exact Ha.
  - refine (edit_nolink _ H _ Hnl). intros a [_ E]. exact (ext_neq _ registry_tmp_ext ltac:(discriminate) E).
Qed.

Lemma registry_ops_shape : forall basedir chunks o,
  In o (registry_ops basedir chunks) ->
  (forall a, In a (movable o) -> a = registry_final basedir ++ registry_tmp_ext) /\
  (forall b, In b (dests o) -> b = registry_final basedir).
Proof.
  intros basedir chunks o Ho. rewrite registry_ops_core in Ho. apply In_firstn in Ho. revert o Ho.
  apply core_ops_forall;
    [split; intros x []|intros b; split; intros x []|split; intros x []|split; intros x [<-|[]]; reflexivity|split; intros x []].
Qed.

Lemma registry_run_edit : forall basedir chunks k s,
  edit (fun a b => is_rtmp basedir a /\ b = registry_final basedir) (is_rtmp basedir) (names s) (next s)
       (names (run s (firstn k (registry_ops basedir chunks)))) (next (run s (firstn k (registry_ops basedir chunks)))).
Proof.
  intros basedir chunks k s. refine (edit_mono (run_edit _ s) _ _).
  - intros a b (o & Ho & Hab). apply In_firstn in Ho. destruct (registry_ops_shape basedir chunks o Ho) as [Hm Hd].
    split; [exact (Hm a (renames_movable o a b Hab))|exact (Hd b (renames_dests o a b Hab))].
  - intros p (o & Ho & Hp). apply In_firstn in Ho. exact (proj1 (registry_ops_shape basedir chunks o Ho) p Hp).
Qed.

Lemma rstate_ok_plant : forall basedir s p t, p <> registry_final basedir ++ registry_tmp_ext ->
  rstate_ok basedir s -> rstate_ok basedir (plant s p t).
Proof.
  intros basedir s p t Hp (HI & Hcl & Hnl & Hnd & Hndf). destruct (plant_flags s p t) as [E1 E2].
  split; [apply plant_invT; exact HI|]. split; [unfold clean; rewrite E1, E2; exact Hcl|].
  split; [apply plant_nolink; [apply not_eq_sym; exact Hp|exact Hnl]|].
  split; intros E; [apply Hnd|apply Hndf]; apply (plant_dsame s p t _); exact E.
Qed.

Definition registry_effect (basedir : str) (s : st) (chunks : list (list N)) (s' : st) : Prop :=
  rstate_ok basedir s' /\
  (forall q, q <> registry_final basedir ++ registry_tmp_ext -> q <> registry_final basedir -> look s' q = look s q) /\
  (look s' (registry_final basedir) = look s (registry_final basedir) \/
   look s' (registry_final basedir) = VFile (concat chunks)).

Lemma registry_effect_fault : forall basedir s chunks s' o, plain o = true ->
  registry_effect basedir s chunks (reboot s') -> registry_effect basedir s chunks (reboot (step_fault s' o)).
Proof.
  intros basedir s chunks s' o Hp (Hok & Hd & Ha). split; [|split].
  - pose proof Hok as (_ & (_ & Hfo) & _). refine (rstate_ok_edit basedir (reboot s') _ Hok _ _).
    + refine (edit_mono (step_fault_edit s' o) _ _); [intros a b []|intros p []].
    + split; [reflexivity|]. cbn [reboot followed]. rewrite step_fault_followed. exact Hfo.
  - intros q Hq Hq2. rewrite look_reboot, step_fault_plain by exact Hp. exact (Hd q Hq Hq2).
  - rewrite look_reboot, step_fault_plain by exact Hp. exact Ha.
Qed.

Lemma rsession : forall basedir s chunks k f, rstate_ok basedir s ->
  registry_effect basedir s chunks (do_revent basedir s (RSave chunks k f)).
Proof.
  intros basedir s chunks k f H0. pose proof H0 as (HI & Hcl & Hnl & Hnd & Hndf).
  pose proof (InvT_wf _ _ HI) as Hwf.
  pose proof (InvT_unshared (is_rtmp basedir) _ (registry_final basedir ++ registry_tmp_ext) eq_refl HI) as Hun.
  assert (Hkill : forall k, registry_effect basedir s chunks (reboot (run s (firstn k (registry_ops basedir chunks))))).
  { intros k'. destruct (registry_prefix s basedir chunks k' Hwf Hun Hcl Hnl Hnd Hndf) as (Ha & Hfo & _ & Hd & _).
    split; [|split; [exact Hd|exact Ha]].
    refine (rstate_ok_edit basedir s (reboot _) H0 (registry_run_edit basedir chunks k' s) _).
    split; [reflexivity|exact Hfo]. }
  destruct f; cbn [do_revent]; [|apply Hkill].
  unfold run_fault. destruct (nth_error (registry_ops basedir chunks) k) as [o|] eqn:E.
  - apply registry_effect_fault; [|apply Hkill].
    pose proof (registry_ops_plain basedir chunks) as Hp. rewrite forallb_forall in Hp. exact (Hp o (nth_error_In _ _ E)).
  - (* k beyond the end: no fault *)
    rewrite <- (firstn_all2 (n := k) (registry_ops basedir chunks)) by (apply nth_error_None; exact E). apply Hkill.
Qed.

Lemma rhistory_snoc : forall basedir s0 es e, rhistory basedir s0 (es ++ [e]) = do_revent basedir (rhistory basedir s0 es) e.
Proof. intros. unfold rhistory. rewrite fold_left_app. reflexivity. Qed.

Lemma rallowed_snoc : forall s0 es e q v v', rallowed s0 es q v ->
  v' = v \/ (exists t, e = RPlant q t /\ v' = VLink t) \/
  (exists chunks k f, e = RSave chunks k f /\ v' = VFile (concat chunks)) ->
  rallowed s0 (es ++ [e]) q v'.
Proof.
  intros s0 es e q v v' H [->|[(t & -> & ->)|(c & k & f & -> & ->)]].
  - destruct H as [H|[(t & Hi & H)|(c & k & f & Hi & H)]]; [left; exact H|right; left; exists t|right; right; exists c, k, f];
      (split; [apply in_or_app; left; exact Hi|exact H]).
  - right. left. exists t. split; [apply in_elt|reflexivity].
  - right. right. exists c, k, f. split; [apply in_elt|reflexivity].
Qed.

(* EVERY history of registry rewrites (each one killed at any point, or with any system call failing, or completing),
   restarts on the leftover directory (a stale services.json.tmp included) and links planted anywhere but at the
   temporary name: services.json always shows its initial version, a planted link, or the COMPLETE text of one of the
   rewrites; nothing else changes *)
Theorem rhistory_safe : forall basedir s0 es, rstate_ok basedir s0 ->
  (forall p t, In (RPlant p t) es -> p <> registry_final basedir ++ registry_tmp_ext) ->
  rstate_ok basedir (rhistory basedir s0 es) /\
  (forall q, q <> registry_final basedir ++ registry_tmp_ext ->
     rallowed s0 es q (look (rhistory basedir s0 es) q)).
Proof.
  intros basedir s0 es H0. induction es as [|e es IH] using rev_ind; intros Hp.
  - split; [exact H0|]. intros q _. left. reflexivity.
  - rewrite rhistory_snoc. destruct IH as (I1 & I2). { intros p t Hi. apply (Hp p t). apply in_or_app. left. exact Hi. }
    destruct e as [chunks k f|p t].
    + destruct (rsession basedir _ chunks k f I1) as (J1 & J2 & J3).
      split; [exact J1|]. intros q Hq. apply (rallowed_snoc s0 es _ q _ _ (I2 q Hq)).
      destruct (str_eqb q (registry_final basedir)) eqn:Eq.
      * apply str_eqb_eq in Eq. subst q. destruct J3 as [J3|J3]; [left; exact J3|].
        right. right. exists chunks, k, f. split; [reflexivity|exact J3].
      * left. apply J2; [exact Hq|apply str_eqb_false_neq; exact Eq].
    + cbn [do_revent]. split; [apply rstate_ok_plant; [apply (Hp p t), in_elt|exact I1]|].
      intros q Hq. apply (rallowed_snoc s0 es _ q _ _ (I2 q Hq)).
      destruct (plant_look (rhistory basedir s0 es) p t q) as [E|[-> E]];
        [left; exact E|right; left; exists t; split; [reflexivity|exact E]].
Qed.

(* load_service_data reads exactly the file save_service_data publishes *)
Lemma registry_load_same_file : registry_load_basename = registry_basename.
Proof. reflexivity. Qed.

(* save / load as a PAIR: whatever prefix of a rewrite was executed, or whichever of its system calls failed, what
   load_service_data reads back is what it read before, or the complete new text *)
Theorem registry_save_load : forall s0 basedir chunks k f, rstate_ok basedir s0 ->
  registry_load (do_revent basedir s0 (RSave chunks k f)) basedir = registry_load s0 basedir \/
  registry_load (do_revent basedir s0 (RSave chunks k f)) basedir = LoadedJson (concat chunks).
Proof.
  intros s0 basedir chunks k f H0. destruct (rsession basedir s0 chunks k f H0) as (_ & _ & J).
  unfold registry_load. rewrite registry_load_same_file. fold (registry_final basedir).
  destruct J as [J|J]; rewrite J; [left; reflexivity|right; reflexivity].
Qed.

(* recovery: after ANY history (a stale services.json.tmp may be lying around), a rewrite that runs to completion is
   what load_service_data reads, and the temporary is gone *)
Theorem rhistory_recovers : forall basedir s0 es chunks, rstate_ok basedir s0 ->
  (forall p t, In (RPlant p t) es -> p <> registry_final basedir ++ registry_tmp_ext) ->
  registry_load (run (rhistory basedir s0 es) (registry_ops basedir chunks)) basedir = LoadedJson (concat chunks) /\
  names (run (rhistory basedir s0 es) (registry_ops basedir chunks)) (registry_final basedir ++ registry_tmp_ext) = None.
Proof.
  intros basedir s0 es chunks H0 Hp. destruct (rhistory_safe basedir s0 es H0 Hp) as ((HI & Hcl & Hnl & Hnd & Hndf) & _).
  pose proof (registry_atomic _ basedir chunks (List.length (registry_ops basedir chunks)) (InvT_wf _ _ HI)
                (InvT_unshared (is_rtmp basedir) _ _ eq_refl HI) Hcl Hnl Hnd Hndf) as (_ & _ & _ & He). cbv zeta in He. rewrite firstn_all in He.
  destruct (He (le_n _)) as [H1 H2]. split; [|exact H2].
  unfold registry_load. rewrite registry_load_same_file. fold (registry_final basedir). rewrite H1. reflexivity.
Qed.

(* a link planted WHILE an upload is running (between the islink() test and open()) is followed: the
   containment sentence does not hold against a concurrent LOCAL actor with write access to the directory.  The
   property speaks of what the REMOTE peer supplies; this is recorded as outside it. *)
Theorem concurrent_symlink_refuted :
  let tmp := ex_final ++ putfile_tmp_ext in
  let s0 := mk_st [] [] in
  Inv s0 /\ clean s0 /\
  followed (run (plant (run s0 [UnlinkIfLink tmp]) tmp [47; 101; 116; 99; 47; 110; 101; 119]%N) [Open tmp]) = true /\
  followed (run (plant s0 tmp [47; 101; 116; 99; 47; 110; 101; 119]%N) [UnlinkIfLink tmp; Open tmp]) = false.
Proof.
  intros tmp s0. split; [exact Inv_empty|]. split; [split; reflexivity|]. split; vm_compute; reflexivity.
Qed.

(* non-vacuity: the invariant and a history with a crash, a planted link and a recovery *)
Lemma mk_st_names : forall ents c p e, names (mk_st ents c) p = Some e -> In (p, e) ents.
Proof.
  intros ents c p e H. unfold mk_st in H. cbn [names] in H.
  destruct (find (fun x => str_eqb (fst x) p) ents) as [[p' e']|] eqn:E; [|discriminate].
  injection H as <-. apply find_some in E. destruct E as [Hin Heq]. apply str_eqb_eq in Heq. cbn [fst] in Heq. subst p'. exact Hin.
Qed.

Lemma mk_st_inv1 : forall p c, Inv (mk_st [(p, F 0%nat)] [c]).
Proof.
  intros p c. split.
  - intros q i H. apply mk_st_names in H. destruct H as [H|[]]. injection H as _ <-. exact (le_n 1).
  - intros a b i Ha Hb. apply mk_st_names in Ha, Hb. destruct Ha as [Ha|[]], Hb as [Hb|[]]. congruence.
Qed.

Definition ex_hist : list uevent :=
  [UUpload ex_final [[97]; [98]]%N Done 4%nat;                         (* killed after the first block: x.partial is left *)
   UPlant (ex_final ++ putfile_tmp_ext) [47; 101; 116; 99]%N;         (* the leftover is replaced by a link to /etc *)
   UUpload ex_final [[99]]%N SrcError 9%nat;                           (* interrupted upload *)
   UUpload ex_final [[100]; [101]]%N Done 9%nat].                      (* complete upload *)

Example ex_hist_runs :
  let s0 := mk_st [(ex_final, F 0%nat)] [[111; 108; 100]%N] in
  map (fun n => code_view (look (uhistory s0 (firstn n ex_hist)) ex_final)) (seq 0%nat 5%nat)
    = [[2; 111; 108; 100]; [2; 111; 108; 100]; [2; 111; 108; 100]; [2; 111; 108; 100]; [2; 100; 101]]%N /\
  map (fun n => code_view (look (uhistory s0 (firstn n ex_hist)) (ex_final ++ putfile_tmp_ext))) (seq 0%nat 5%nat)
    = [[0]; [2]; [1; 47; 101; 116; 99]; [0]; [0]]%N /\
  followed (uhistory s0 ex_hist) = false /\ Inv s0.
Proof.
  intros s0. split; [vm_compute; reflexivity|]. split; [vm_compute; reflexivity|]. split; [vm_compute; reflexivity|].
  apply mk_st_inv1.
Qed.

(* non-vacuity of the weaker invariant: two entries that are hard links of each other (neither is a temporary): InvT holds,
   Inv does not; the history theorems apply to such a directory *)
Lemma not_utmp : forall p, hd 0%N (rev p) <> hd 0%N (rev putfile_tmp_ext) -> ~ is_utmp p.
Proof.
  intros p H [f E]. apply H. rewrite E, rev_app_distr.
  destruct (rev putfile_tmp_ext) eqn:R; [vm_compute in R; discriminate|reflexivity].
Qed.

Definition ex_hardlinks : st := mk_st [(ex_base ++ [47; 97]%N, F 0%nat); (ex_base ++ [47; 98]%N, F 0%nat)] [[111]%N].
Example ex_hardlinks_ok :
  InvT is_utmp ex_hardlinks /\ ~ Inv ex_hardlinks /\ failed ex_hardlinks = false /\ followed ex_hardlinks = false /\
  look (uhistory ex_hardlinks ex_hist) (ex_base ++ [47; 97]%N) = VFile [111]%N /\
  look (uhistory ex_hardlinks ex_hist) ex_final = VFile [100; 101]%N.
Proof.
  assert (Na : ~ is_utmp (ex_base ++ [47; 97]%N)) by (apply not_utmp; vm_compute; discriminate).
  assert (Nb : ~ is_utmp (ex_base ++ [47; 98]%N)) by (apply not_utmp; vm_compute; discriminate).
  split; [|split; [|split; [reflexivity|split; [reflexivity|split; vm_compute; reflexivity]]]].
  - split.
    + intros p i H. apply mk_st_names in H. destruct H as [H|[H|[]]]; injection H as _ <-; exact (le_n 1).
    + intros p q i Tp H _. apply mk_st_names in H. destruct H as [H|[H|[]]]; injection H as <- _; contradiction.
  - intros [_ H]. assert (E : ex_base ++ [47; 97]%N = ex_base ++ [47; 98]%N) by (apply (H _ _ 0%nat); reflexivity).
    apply app_inv_head in E. discriminate.
Qed.

Example ex_hist_no_collision : no_name_collision ex_hist /\ In ex_final (ufinals ex_hist).
Proof.
  split; [|left; reflexivity].
  intros f Hf Ht. unfold ex_hist, ufinals, utmps in Hf, Ht. cbn [flat_map app] in Hf, Ht.
  assert (Ef : f = ex_final) by (destruct Hf as [<-|[<-|[<-|[]]]]; reflexivity).
  assert (Et : f = ex_final ++ putfile_tmp_ext) by (destruct Ht as [<-|[<-|[<-|[]]]]; reflexivity).
  rewrite Ef in Et. exact (tmp_ext_neq ex_final (eq_sym Et)).
Qed.

(* non-vacuity of the registry theorems: an initial state with an old registry, and a history with a kill that leaves
   services.json.tmp behind, a failing rename, and a recovery *)
Definition ex_rs0 : st := mk_st [(registry_final ex_base, F 0%nat)] [[111; 108; 100]%N].
Example ex_rstate_ok : rstate_ok ex_base ex_rs0.
Proof.
  split; [apply Inv_InvT; apply mk_st_inv1|]. split; [split; reflexivity|].
  split; [intros t H; vm_compute in H; discriminate|]. split; intros H; vm_compute in H; discriminate.
Qed.

Definition ex_rhist : list revent :=
  [RSave [[110]; [101]; [119]]%N 3%nat false;      (* killed after two of three chunks: services.json.tmp is left *)
   RSave [[120]]%N 3%nat true;                      (* the rename fails *)
   RPlant (ex_base ++ [47; 122])%N [47; 101]%N;     (* a link planted next to the registry *)
   RSave [[110]; [50]]%N 9%nat false].              (* complete rewrite *)

Example ex_rhist_runs :
  map (fun n => code_view (look (rhistory ex_base ex_rs0 (firstn n ex_rhist)) (registry_final ex_base))) (seq 0%nat 5%nat)
    = [[2; 111; 108; 100]; [2; 111; 108; 100]; [2; 111; 108; 100]; [2; 111; 108; 100]; [2; 110; 50]]%N /\
  map (fun n => kind_of (look (rhistory ex_base ex_rs0 (firstn n ex_rhist)) (registry_final ex_base ++ registry_tmp_ext))) (seq 0%nat 5%nat)
    = [[0]; [2]; [2]; [2]; [0]]%N /\
  (forall p t, In (RPlant p t) ex_rhist -> p <> registry_final ex_base ++ registry_tmp_ext).
Proof.
  split; [vm_compute; reflexivity|]. split; [vm_compute; reflexivity|].
  intros p t H. destruct H as [H|[H|[H|[H|[]]]]]; try discriminate H. injection H as <- _. vm_compute. discriminate.
Qed.

Lemma join_wf_base : forall base c, wf_base base -> goodb c = true -> join base c = base ++ sep :: c.
Proof.
  intros base c (comps & Hwf & ->) Hg. apply join_base; [exact Hwf|]. apply (goodb_parts _ Hg).
Qed.

Lemma in_list_incidents : forall base listing since n p, In (n, p) (list_incidents base listing since) ->
  exists fn, In fn listing /\ prefixb listing_prefix fn = true /\ n = trim fn listing_trim /\ str_ltb since n = true /\
             p = join base fn.
Proof.
  intros base listing since n p Hin. unfold list_incidents in Hin. apply in_flat_map in Hin.
  destruct Hin as (fn & Hfn & Hin). exists fn.
  destruct (prefixb listing_prefix fn); [|destruct Hin]. destruct (negb (suffixb listing_skip_suffix fn)); [|destruct Hin].
  cbn [andb] in Hin. cbv zeta in Hin. destruct (str_ltb since (trim fn listing_trim)) eqn:E; [|destruct Hin].
  destruct Hin as [Hin|[]]. injection Hin as <- <-. auto.
Qed.

(* every file list_incident_names reports (and get_incident_trigger then opens) is an entry of the log directory
   itself, whatever `since` the remote peer sends *)
Theorem listing_contained : forall base listing since n p, wf_base base ->
  (forall fn, In fn listing -> goodb fn = true) ->
  In (n, p) (list_incidents base listing since) ->
  inside base p /\ exists fn, In fn listing /\ p = base ++ sep :: fn /\ prefixb listing_prefix fn = true.
Proof.
  intros base listing since n p Hb Hl Hin. destruct (in_list_incidents _ _ _ _ _ Hin) as (fn & Hfn & Hp & _ & _ & ->).
  rewrite (join_wf_base base fn Hb (Hl fn Hfn)).
  split; [exists fn; split; [apply Hl; exact Hfn|reflexivity]|]. exists fn. auto.
Qed.

(* ... and nothing is reported that `since` excludes *)
Theorem listing_since : forall base listing since n p,
  In (n, p) (list_incidents base listing since) -> str_ltb since n = true.
Proof. intros base listing since n p Hin. destruct (in_list_incidents _ _ _ _ _ Hin) as (fn & _ & _ & _ & H & _). exact H. Qed.

Lemma latest_inside : forall base, wf_base base -> inside base (join base gatherer_latest).
Proof. intros base Hb. rewrite (join_wf_base base gatherer_latest Hb eq_refl). exists gatherer_latest. auto. Qed.

(* both files the gatherer writes for an incident -- the savefile named after the remote-supplied incident name and the
   `latest` marker -- are entries of its own directory *)
Theorem gatherer_writes_contained : forall cwd base name l q, wf_base base ->
  gatherer_writes cwd base name = Some l -> In q l -> inside base q.
Proof.
  intros cwd base name l q Hb H Hq. unfold gatherer_writes in H.
  destruct (gatherer_path cwd base name) as [p|] eqn:Hp; [|discriminate]. injection H as <-.
  destruct Hq as [<-|[<-|[]]].
  - exact (gatherer_contained cwd base name p Hb Hp).
  - apply latest_inside. exact Hb.
Qed.

Example listing_example :
  list_incidents ex_base [[105; 110; 99; 105; 100; 101; 110; 116; 45; 50; 46; 102; 108; 111; 103; 46; 98; 122; 50];   (* incident-2.flog.bz2 *)
                          [105; 110; 99; 105; 100; 101; 110; 116; 45; 49; 46; 102; 108; 111; 103];                     (* incident-1.flog *)
                          [105; 110; 99; 105; 100; 101; 110; 116; 45; 51; 46; 116; 109; 112];                          (* incident-3.tmp *)
                          [120]]%N
                 [105; 110; 99; 105; 100; 101; 110; 116; 45; 49]%N                                                     (* since incident-1 *)
  = [([105; 110; 99; 105; 100; 101; 110; 116; 45; 50],
      ex_base ++ [47; 105; 110; 99; 105; 100; 101; 110; 116; 45; 50; 46; 102; 108; 111; 103; 46; 98; 122; 50])]%N.
Proof. vm_compute. reflexivity. Qed.

Lemma write_ops_prefix_of_err : forall p chunks,
  Open p :: map (Write p) chunks ++ [Close p] = firstn (List.length chunks + 2) (err_ops p chunks).
Proof.
  intros. unfold err_ops. replace (List.length chunks + 2)%nat with (S (List.length chunks + 1)) by lia. cbn [firstn]. f_equal.
  rewrite firstn_app, map_length. rewrite firstn_all2 by (rewrite map_length; lia).
  replace (List.length chunks + 1 - List.length chunks)%nat with 1%nat by lia. reflexivity.
Qed.

Lemma write_ops_movable : forall g p chunks o, In o (file_write_ops g p chunks) -> movable o = [].
Proof.
  intros g p chunks o Ho. unfold file_write_ops in Ho. apply in_app_or in Ho. destruct Ho as [Ho|[<-|Ho]].
  - destruct g; [destruct Ho as [<-|[]]; reflexivity|destruct Ho].
  - reflexivity.
  - apply in_app_or in Ho. destruct Ho as [Ho|[<-|[]]]; [|reflexivity].
    apply in_map_iff in Ho. destruct Ho as (b & <- & _). reflexivity.
Qed.

(* WITH the guard: after any prefix nothing went through a symlink, nothing failed, only p changed *)
Lemma write_guarded_safe : forall (T : str -> Prop) s p chunks k, T p ->
  InvT T s -> failed s = false -> followed s = false -> names s p <> Some D ->
  followed (run s (firstn k (file_write_ops true p chunks))) = false /\
  failed (run s (firstn k (file_write_ops true p chunks))) = false /\
  InvT T (run s (firstn k (file_write_ops true p chunks))) /\
  dsame s (run s (firstn k (file_write_ops true p chunks))) /\
  (forall q, q <> p -> look (run s (firstn k (file_write_ops true p chunks))) q = look s q).
Proof.
  intros T s p chunks k Tp HI Hf Hfl Hnd.
  assert (Hmv : forall o, In o (firstn k (file_write_ops true p chunks)) -> movable o = [])
    by (intros o Ho; exact (write_ops_movable true p chunks o (In_firstn _ _ _ _ Ho))).
  (* file_write_ops is a guard, then a prefix of err_ops *)
  enough (H : followed (run s (firstn k (file_write_ops true p chunks))) = false /\
              failed (run s (firstn k (file_write_ops true p chunks))) = false /\
              forall q, q <> p -> look (run s (firstn k (file_write_ops true p chunks))) q = look s q).
  { destruct H as (A & B & C). split; [exact A|]. split; [exact B|]. split; [|split; [|exact C]].
    - apply run_invT; [|exact HI]. intros o Ho a b Hab. apply renames_movable in Hab. rewrite (Hmv o Ho) in Hab. destruct Hab.
    - apply run_dsame. intros o a Ho Ha. rewrite (Hmv o Ho) in Ha. destruct Ha. }
  clear Hmv. change (file_write_ops true p chunks) with (UnlinkIfLink p :: Open p :: map (Write p) chunks ++ [Close p]).
  destruct k as [|k]; [split; [exact Hfl|split; [exact Hf|reflexivity]]|].
  cbn [firstn]. rewrite run_cons, write_ops_prefix_of_err, firstn_firstn.
  destruct (unlink_if_link_facts s p (InvT_wf _ _ HI) (InvT_unshared T _ _ Tp HI) (conj Hf Hfl) Hnd)
    as (Hwf' & Hun' & Hcl' & Hnl' & Hnd' & Hlk).
  destruct (err_prefix _ p chunks (Nat.min k (List.length chunks + 2)) Hwf' Hun' Hcl' Hnl' Hnd') as (Ha & Hb & Hc & _).
  split; [exact Hb|]. split; [exact Hc|]. intros q Hq. rewrite (Ha q Hq). apply Hlk. exact Hq.
Qed.

(* WITHOUT it: a link at the name is followed *)
Lemma write_unguarded_follows : forall s p t chunks, failed s = false -> names s p = Some (L t) ->
  followed (run s (file_write_ops false p chunks)) = true /\ failed (run s (file_write_ops false p chunks)) = true.
Proof.
  intros s p t chunks Hf E. unfold file_write_ops. cbn [app]. rewrite run_cons.
  assert (E1 : step s (Open p) = follow s) by (unfold step; rewrite Hf, E; reflexivity).
  rewrite E1, run_failed by reflexivity. split; reflexivity.
Qed.

(* the gatherer's two writes for an accepted incident name: contained PHYSICALLY if and only if both opens are guarded.
   Flag-keyed form (the flags are translated from save_incident / update_latest); props/C19.v applies the first conjunct to the
   translated flags with eq_refl, so that it is the unconditional statement about the current source.  Both guards exist since
   fix 34db49e (finding oracle/gatherer-follows-preexisting-symlink before it); the other two conjuncts say what a source
   without one of them does. *)
Theorem gatherer_symlinks :
  (gatherer_save_guarded && gatherer_latest_guarded = true ->
   forall s q latest chunks ltext k, InvT (fun x => x = q \/ x = latest) s -> failed s = false -> followed s = false ->
     names s q <> Some D -> names s latest <> Some D ->
     followed (run s (firstn k (gatherer_ops q latest chunks ltext))) = false) /\
  (gatherer_save_guarded = false ->
   forall s q latest t chunks ltext, failed s = false -> names s q = Some (L t) ->
     followed (run s (gatherer_ops q latest chunks ltext)) = true) /\
  (gatherer_latest_guarded = false ->
   forall s q latest t chunks ltext, InvT (fun x => x = q \/ x = latest) s -> failed s = false -> followed s = false -> gatherer_save_guarded = true ->
     names s q <> Some D -> q <> latest -> names s latest = Some (L t) ->
     followed (run s (gatherer_ops q latest chunks ltext)) = true).
Proof.
  split; [|split].
  - intros Hg s q latest chunks ltext k HI Hf Hfl Hq Hl. apply andb_true_iff in Hg. destruct Hg as [G1 G2].
    unfold gatherer_ops. rewrite G1, G2. rewrite firstn_app, run_app.
    destruct (write_guarded_safe _ s q chunks k (or_introl eq_refl) HI Hf Hfl Hq) as (A1 & A2 & A3 & A4 & _).
    assert (Hl' : names (run s (firstn k (file_write_ops true q chunks))) latest <> Some D).
    { intros E. apply Hl. apply (A4 _). exact E. }
    apply (write_guarded_safe _ _ latest [ltext] _ (or_intror eq_refl) A3 A2 A1 Hl').
  - intros Hg s q latest t chunks ltext Hf E. unfold gatherer_ops. rewrite Hg, run_app.
    destruct (write_unguarded_follows s q t chunks Hf E) as [F1 F2]. rewrite run_failed by exact F2. exact F1.
  - intros Hg s q latest t chunks ltext HI Hf Hfl G1 Hq Hne E. unfold gatherer_ops. rewrite Hg, G1, run_app.
    pose proof (write_guarded_safe _ s q chunks (List.length (file_write_ops true q chunks)) (or_introl eq_refl) HI Hf Hfl Hq) as (A1 & A2 & _ & _ & A5).
    rewrite firstn_all in *.
    assert (El : names (run s (file_write_ops true q chunks)) latest = Some (L t)).
    { pose proof (A5 latest (not_eq_sym Hne)) as Hl. unfold look in Hl. rewrite E in Hl.
      destruct (names (run s (file_write_ops true q chunks)) latest) as [[i|t'|]|]; try discriminate Hl. injection Hl as ->. reflexivity. }
    apply (write_unguarded_follows _ latest t [ltext] A2 El).
Qed.

(* non-vacuity: a savefile name that is a link out of the directory *)
Example gatherer_symlink_witness :
  let q := ex_final ++ gatherer_ext in
  let s := mk_st [(q, L [46; 46; 47; 118]%N)] [] in
  failed s = false /\ names s q = Some (L [46; 46; 47; 118]%N) /\
  gatherer_path [47]%N ex_base [120]%N = Some q.
Proof. intros q s. split; [reflexivity|]. split; vm_compute; reflexivity. Qed.

Lemma rstep_cases : forall s o,
  rstep s o = s \/ rstep s o = fail s \/ exists p, o = ROpen p /\ is_link s p = true /\ rstep s o = mark_followed s.
Proof.
  intros s o. unfold rstep. destruct (failed s); [left; reflexivity|].
  destruct o as [p|p]; destruct (names s p) as [[i|t|]|] eqn:E; try (left; reflexivity); try (right; left; reflexivity).
  right. right. exists p. unfold is_link. rewrite E. repeat split.
Qed.

Lemma rstep_names : forall s o, names (rstep s o) = names s.
Proof. intros s o. destruct (rstep_cases s o) as [->|[->|(p & _ & _ & ->)]]; reflexivity. Qed.

Lemma rstep_is_link : forall s o p, is_link (rstep s o) p = is_link s p.
Proof. intros. unfold is_link. rewrite rstep_names. reflexivity. Qed.

Lemma rrun_cons : forall s o l, rrun s (o :: l) = rrun (rstep s o) l.
Proof. reflexivity. Qed.

Lemma rrun_names : forall ops s, names (rrun s ops) = names s.
Proof. induction ops as [|o ops IH]; intros s; [reflexivity|]. rewrite rrun_cons, IH. apply rstep_names. Qed.

Definition safe_read (s : st) (o : rop) : Prop :=
  match o with ROpen p => is_link s p = false | ROpenUnlessLink _ => True end.

Lemma rstep_safe : forall s o, safe_read s o -> followed (rstep s o) = followed s.
Proof.
  intros s o H. destruct (rstep_cases s o) as [->|[->|(p & -> & E & _)]]; [reflexivity|reflexivity|].
  cbn [safe_read] in H. rewrite H in E. discriminate.
Qed.

Lemma rrun_safe : forall ops s, (forall o, In o ops -> safe_read s o) -> followed (rrun s ops) = followed s.
Proof.
  induction ops as [|o ops IH]; intros s H; [reflexivity|]. rewrite rrun_cons, IH.
  - apply rstep_safe. apply H. left. reflexivity.
  - intros o' Ho'. pose proof (H o' (or_intror Ho')) as G. destruct o'; cbn [safe_read] in *; [|exact I].
    rewrite rstep_is_link. exact G.
Qed.

(* a bare open of a name that is a symbolic link goes through it, the open behind the lstat test does not *)
Theorem read_link_follows : forall s p t, failed s = false -> names s p = Some (L t) ->
  followed (rstep s (ROpen p)) = true /\ followed (rstep s (ROpenUnlessLink p)) = followed s.
Proof. intros s p t Hf E. unfold rstep. rewrite Hf, E. split; reflexivity. Qed.

Lemma rrun_followed_mono : forall ops s, followed s = true -> followed (rrun s ops) = true.
Proof.
  induction ops as [|o ops IH]; intros s H; [exact H|]. rewrite rrun_cons. apply IH.
  destruct (rstep_cases s o) as [->|[->|(p & _ & _ & ->)]]; [exact H|exact H|reflexivity].
Qed.

Lemma rrun_bare_link : forall s p t ops, failed s = false -> names s p = Some (L t) ->
  followed (rrun s (ROpen p :: ops)) = true.
Proof. intros s p t ops Hf E. rewrite rrun_cons. apply rrun_followed_mono. apply (read_link_follows s p t Hf E). Qed.

(* list_incident_names with the islink test: nothing that is reported is a symbolic link (and everything reported is
   reported by the lexical selection, to which listing_contained applies) *)
Theorem listing_reported_not_links : listing_link_skipped = true ->
  forall s base listing since n p, In (n, p) (list_incidents_at s base listing since) ->
    is_link s p = false /\ In (n, p) (list_incidents base listing since).
Proof.
  intros Hg s base listing since n p Hin. unfold list_incidents_at in Hin. apply filter_In in Hin.
  destruct Hin as [Hin Hf]. rewrite Hg in Hf. cbn [andb snd] in Hf. split; [|exact Hin].
  destruct (is_link s p); [discriminate|reflexivity].
Qed.

(* ... so EVERY sequence of reads of reported files (remote_list_incidents: all of them in listing order; catch_up: one per
   basename, sorted) goes through no symbolic link *)
Theorem listing_reads_contained : listing_link_skipped = true ->
  forall s base listing since ops, followed s = false ->
    (forall o, In o ops -> exists n p, o = ROpen p /\ In (n, p) (list_incidents_at s base listing since)) ->
    followed (rrun s ops) = false.
Proof.
  intros Hg s base listing since ops Hfl H. rewrite rrun_safe; [exact Hfl|].
  intros o Ho. destruct (H o Ho) as (n & p & -> & Hin). cbn [safe_read].
  apply (listing_reported_not_links Hg s base listing since n p Hin).
Qed.

(* lexical AND physical: what is reported on a directory state is an entry of the log directory itself that carries the
   prefix and is not a symbolic link *)
Theorem listing_contained_at : listing_link_skipped = true ->
  forall s base listing since n p, wf_base base -> (forall fn, In fn listing -> goodb fn = true) ->
    In (n, p) (list_incidents_at s base listing since) ->
    inside base p /\ is_link s p = false /\
    exists fn, In fn listing /\ p = base ++ sep :: fn /\ prefixb listing_prefix fn = true.
Proof.
  intros Hg s base listing since n p Hb Hl Hin.
  destruct (listing_reported_not_links Hg s base listing since n p Hin) as [H1 H2].
  destruct (listing_contained base listing since n p Hb Hl H2) as [H3 H4]. auto.
Qed.

(* non-vacuity: a log directory with a regular incident and a symlinked one (to a file outside): only the regular one is
   reported, the reads stay un-followed; a bare open of the link would not *)
Example listing_symlink_example :
  let evil := [105; 110; 99; 105; 100; 101; 110; 116; 45; 101; 46; 102; 108; 111; 103]%N in          (* incident-e.flog *)
  let good := [105; 110; 99; 105; 100; 101; 110; 116; 45; 49; 46; 102; 108; 111; 103]%N in           (* incident-1.flog *)
  let s := mk_st [(ex_base ++ [47]%N ++ evil, L [46; 46; 47; 111; 117; 116]%N); (ex_base ++ [47]%N ++ good, F 0%nat)] [[120]%N] in
  map snd (list_incidents ex_base [evil; good] []) = [ex_base ++ [47]%N ++ evil; ex_base ++ [47]%N ++ good] /\
  map snd (list_incidents_at s ex_base [evil; good] []) = [ex_base ++ [47]%N ++ good] /\
  followed (rrun s (listing_read_ops s ex_base [evil; good] [])) = false /\
  followed (rrun s (map (fun np => ROpen (snd np)) (list_incidents ex_base [evil; good] []))) = true /\
  followed (rrun s (connect_read_ops ex_base)) = false /\
  followed (rrun (plant s (join ex_base gatherer_latest) [46; 46; 47; 111]%N) [ROpen (join ex_base gatherer_latest)]) = true /\
  followed (rrun (plant s (join ex_base gatherer_latest) [46; 46; 47; 111]%N) (connect_read_ops ex_base)) = false.
Proof. intros evil good s. repeat (split; [vm_compute; reflexivity|]). vm_compute. reflexivity. Qed.

Lemma listing_read_ops_reported : forall s base listing since o, In o (listing_read_ops s base listing since) ->
  exists n p, o = ROpen p /\ In (n, p) (list_incidents_at s base listing since).
Proof.
  intros s base listing since o Ho. unfold listing_read_ops in Ho. apply in_map_iff in Ho.
  destruct Ho as ([n p] & <- & Hin). exists n, p. split; [reflexivity|exact Hin].
Qed.

(* WITHOUT the test (the code before the fix) every selected entry is reported, links included, and the first one that is a
   link is read through *)
Theorem listing_unguarded_follows : listing_link_skipped = false ->
  forall s base listing since,
    list_incidents_at s base listing since = list_incidents base listing since /\
    (forall n p t rest, list_incidents base listing since = (n, p) :: rest -> failed s = false -> names s p = Some (L t) ->
       followed (rrun s (listing_read_ops s base listing since)) = true).
Proof.
  intros Hg s base listing since.
  assert (E : list_incidents_at s base listing since = list_incidents base listing since).
  { unfold list_incidents_at. rewrite Hg.
    assert (G : forall l : list (str * str), filter (fun np => negb (false && is_link s (snd np))) l = l).
    { intros l. induction l as [|x l IH]; [reflexivity|]. cbn [filter]. rewrite IH. reflexivity. }
    apply G. }
  split; [exact E|].
  intros n p t rest Hl Hf Hn. unfold listing_read_ops. rewrite E, Hl. exact (rrun_bare_link s p t _ Hf Hn).
Qed.

(* IncidentObserver.connect: the one file it reads is `latest` in its own directory; behind the lstat test it is not read
   through a link, without the test it is *)
Theorem connect_read_contained : forall base o, wf_base base -> In o (connect_read_ops base) ->
  exists p, (o = ROpen p \/ o = ROpenUnlessLink p) /\ inside base p.
Proof.
  intros base o Hb Ho. unfold connect_read_ops in Ho. destruct Ho as [<-|[]].
  exists (join base gatherer_latest). split; [|apply latest_inside; exact Hb].
  unfold guarded_read. destruct gatherer_state_read_guarded; [right|left]; reflexivity.
Qed.

Theorem connect_read_safe : gatherer_state_read_guarded = true ->
  forall s base, followed (rrun s (connect_read_ops base)) = followed s.
Proof.
  intros Hg s base. apply rrun_safe. intros o Ho. unfold connect_read_ops in Ho. rewrite Hg in Ho.
  destruct Ho as [<-|[]]. exact I.
Qed.

Theorem connect_read_unguarded_follows : gatherer_state_read_guarded = false ->
  forall s base t, failed s = false -> names s (join base gatherer_latest) = Some (L t) ->
    followed (rrun s (connect_read_ops base)) = true.
Proof.
  intros Hg s base t Hf E. unfold connect_read_ops. rewrite Hg. exact (rrun_bare_link s _ t [] Hf E).
Qed.

Lemma publisher_read_ops_guarded : publisher_link_refused = true ->
  forall s cwd base name o, In o (publisher_read_ops s cwd base name) -> exists p, o = ROpenUnlessLink p.
Proof.
  intros Hg s cwd base name o Ho. unfold publisher_read_ops in Ho. rewrite Hg in Ho.
  destruct (publisher_paths cwd base name) as [paths|]; [|destruct Ho].
  destruct (publisher_opened s paths) as [p|]; [|destruct Ho]. destruct Ho as [<-|[]]. exists p. reflexivity.
Qed.

(* remote_get_incident: the selected file is opened behind `if os.path.islink(fn): raise KeyError`, or bare *)
Theorem publisher_symlinks :
  (publisher_link_refused = true -> forall s cwd base name, publisher_reads_through_link s cwd base name = false) /\
  (publisher_link_refused = false ->
   forall s cwd base name paths p t, publisher_paths cwd base name = Some paths -> publisher_opened s paths = Some p ->
     names s p = Some (L t) -> publisher_reads_through_link s cwd base name = true).
Proof.
  split.
  - intros Hg s cwd base name. unfold publisher_reads_through_link. rewrite rrun_safe; [reflexivity|].
    intros o Ho. destruct (publisher_read_ops_guarded Hg s cwd base name o Ho) as (p & ->). exact I.
  - intros Hg s cwd base name paths p t Hp Ho E. unfold publisher_reads_through_link, publisher_read_ops.
    rewrite Hp, Ho, Hg. exact (rrun_bare_link (calm s) p t [] eq_refl E).
Qed.

Example publisher_symlink_witness :
  let name := [105; 110; 99; 105; 100; 101; 110; 116; 45; 49]%N in                      (* "incident-1" *)
  let p := ex_base ++ [47]%N ++ name ++ publisher_ext in
  let s := mk_st [(p, L [46; 46; 47; 118]%N)] [] in
  exists paths, publisher_paths [47]%N ex_base name = Some paths /\ publisher_opened s paths = Some p /\
                names s p = Some (L [46; 46; 47; 118]%N).
Proof. intros name p s. eexists. split; [vm_compute; reflexivity|]. split; vm_compute; reflexivity. Qed.

(* the names that the exception handler of a failing operation removes *)
Definition fault_removed (o : op) : list str :=
  match o with RenameElseUnlink _ _ c => [c] | RenameRetry _ b => [b] | _ => [] end.

Lemma unlink_quiet_look : forall s p q, q <> p -> look (unlink_quiet s p) q = look s q.
Proof.
  intros s p q Hq. unfold unlink_quiet. destruct (names s p) as [[i|t|]|]; try reflexivity;
    unfold look; cbn [names data]; rewrite upd_other by exact Hq; reflexivity.
Qed.

Lemma step_fault_look : forall s o q, ~ In q (fault_removed o) -> look (step_fault s o) q = look s q.
Proof.
  intros s o q Hq. unfold step_fault. destruct (failed s); [reflexivity|].
  destruct o; try reflexivity; cbn [fault_removed] in Hq;
    refine (unlink_quiet_look s _ q _); intros ->; apply Hq; left; reflexivity.
Qed.

Lemma upload_effect_fault : forall s final blocks oc s' o, In o (upload_ops final blocks oc) ->
  upload_effect s final blocks oc s' -> upload_effect s final blocks oc (step_fault s' o).
Proof.
  intros s final blocks oc s' o Ho (A & B & C).
  assert (Hrm : forall q, q <> final ++ putfile_tmp_ext -> ~ In q (fault_removed o)).
  { intros q Hq. revert o Ho.
    apply upload_ops_forall; [intros []|intros []|intros b []|intros []|intros [E|[]]; exact (Hq (eq_sym E))|intros []|intros []]. }
  split; [rewrite step_fault_followed; exact A|]. split.
  - intros q Hq Hq2. rewrite step_fault_look by exact (Hrm q Hq). exact (B q Hq Hq2).
  - rewrite step_fault_look by exact (Hrm final (not_eq_sym (tmp_ext_neq final))). exact C.
Qed.

(* whichever system call of an upload fails (any k, any ending of the block stream, any initial directory): the final name
   still shows its old entry or the complete file, nothing went through a link, no other entry changed *)
Theorem upload_fault_atomic : forall P, good_inv P -> forall s0 final blocks oc k,
  P s0 -> failed s0 = false -> followed s0 = false ->
  followed (upload_fault k s0 final blocks oc) = false /\
  (forall q, q <> final ++ putfile_tmp_ext -> q <> final -> look (upload_fault k s0 final blocks oc) q = look s0 q) /\
  (look (upload_fault k s0 final blocks oc) final = look s0 final \/
   (oc = Done /\ look (upload_fault k s0 final blocks oc) final = VFile (concat blocks))).
Proof.
  intros P (G1 & G2 & _ & _) s0 final blocks oc k HI Hf Hfl.
  assert (Hrun : forall bl oc' k', upload_effect s0 final bl oc' (run s0 (firstn k' (upload_ops final bl oc'))))
    by (intros; apply usession; [apply G1|apply G2| |]; assumption).
  change (upload_effect s0 final blocks oc (upload_fault k s0 final blocks oc)). unfold upload_fault, run_fault.
  destruct (nth_error (upload_ops final blocks oc) k) as [o|] eqn:E.
  - pose proof (upload_effect_fault _ _ _ _ _ o (nth_error_In _ _ E) (Hrun blocks oc k)) as Hfault.
    destruct o; try exact Hfault.
    (* a failing write ends the upload like a bad block: the final name is not touched *)
    destruct (Hrun (firstn (k - 2) blocks) BadBlock (List.length (upload_ops final (firstn (k - 2) blocks) BadBlock))) as (A & B & C).
    rewrite firstn_all in A, B, C. split; [exact A|]. split; [exact B|]. left. destruct C as [C|[C _]]; [exact C|discriminate].
  - rewrite <- (firstn_all2 (n := k) (upload_ops final blocks oc)) by (apply nth_error_None; exact E). apply Hrun.
Qed.

(* ... but "nor a leftover temporary" does NOT survive a failing f.close(): in _done and in _err the close is not protected,
   the unlink after it is skipped and <name>.partial stays (ENOSPC at flush).  Outside the property's quantifier (source
   error / disconnect / crash); replayed on the code by the harness as an observation. *)
Theorem upload_fault_leftover_refuted :
  let s0 := mk_st [] [] in
  let tmp := ex_final ++ putfile_tmp_ext in
  Inv s0 /\ clean s0 /\
  nth_error (upload_ops ex_final [[97]]%N SrcError) 3 = Some (Close tmp) /\
  names (upload_fault 3 s0 ex_final [[97]]%N SrcError) tmp = Some (F 0%nat) /\
  nth_error (upload_ops ex_final [[97]]%N Done) 3 = Some (Close tmp) /\
  names (upload_fault 3 s0 ex_final [[97]]%N Done) tmp = Some (F 0%nat) /\
  names (run s0 (upload_ops ex_final [[97]]%N SrcError)) tmp = None.
Proof.
  intros s0 tmp. split; [exact Inv_empty|]. split; [split; reflexivity|].
  repeat (split; [vm_compute; reflexivity|]). vm_compute. reflexivity.
Qed.
