(* C01: keepalive tokens (PING / PONG) are invisible to the object layer, wherever they sit in the stream and however the
   bytes that carry them are split into packets. *)
From Coq Require Import ZArith List String Bool Lia.
Import ListNotations.
Require Import Verif.lib.PyLite Verif.gen.BananaGen Verif.gen.SlicersGen Verif.lib.Token Verif.lib.TokenProofs
        Verif.lib.Recv Verif.lib.RecvProofs Verif.lib.Obj Verif.lib.ObjProofs Verif.lib.ObjDefer Verif.lib.ObjDeferProofs
        Verif.lib.ObjChunks Verif.lib.ObjKeepalive.
Local Open Scope Z_scope.

(* one keepalive token, ANY receiver state (any stack of open unslicers, index phase or not): nothing changes *)
Lemma step_ka st t : is_ka t = true -> step st t = Some st.
Proof. destruct t; try discriminate; intros _; unfold step; destruct (s_inopen st) as [[[h c] i]|]; reflexivity. Qed.
Lemma dstep_ka st t : is_ka t = true -> dstep st t = Some st.
Proof. destruct t; try discriminate; intros _; unfold dstep; destruct (d_inopen st) as [[[h c] i]|]; reflexivity. Qed.

Lemma strip_ka_cons t r : strip_ka (t :: r) = if is_ka t then strip_ka r else t :: strip_ka r.
Proof. unfold strip_ka. cbn [filter]. destruct (is_ka t); reflexivity. Qed.
Lemma strip_ka_app a b : strip_ka (a ++ b) = strip_ka a ++ strip_ka b.
Proof. unfold strip_ka. apply filter_app. Qed.

(* a whole stream: the pointer machine ... *)
Theorem run_strip_ka ts : forall st, run ts st = run (strip_ka ts) st.
Proof.
  induction ts as [|t r IH]; intros st; [reflexivity|]. rewrite strip_ka_cons. destruct (is_ka t) eqn:K.
  - cbn [run]. rewrite (step_ka st t K). apply IH.
  - cbn [run]. destruct (step st t); [apply IH|reflexivity].
Qed.
(* ... and the Deferred-level machine *)
Theorem drun_strip_ka ts : forall st, drun ts st = drun (strip_ka ts) st.
Proof.
  induction ts as [|t r IH]; intros st; [reflexivity|]. rewrite strip_ka_cons. destruct (is_ka t) eqn:K.
  - cbn [drun]. rewrite (dstep_ka st t K). apply IH.
  - cbn [drun]. destruct (dstep st t); [apply IH|reflexivity].
Qed.

Theorem unslice_strip_ka scoped n ts : unslice scoped n ts = unslice scoped n (strip_ka ts).
Proof. unfold unslice. rewrite run_strip_ka. reflexivity. Qed.
Theorem dunslice_strip_ka scoped n ts : dunslice scoped n ts = dunslice scoped n (strip_ka ts).
Proof. unfold dunslice. rewrite drun_strip_ka. reflexivity. Qed.

(* while a rejected sequence is being discarded keepalive tokens change neither the discard depth nor the object counter *)
Theorem discard_strip_ka ts : forall d cnt,
  discard (strip_ka ts) d cnt = let '(d', cnt', rest) := discard ts d cnt in (d', cnt', strip_ka rest).
Proof.
  induction ts as [|t r IH]; intros d cnt; [reflexivity|].
  cbn [discard]. destruct (d <=? 0) eqn:D.
  - destruct (strip_ka (t :: r)) eqn:S; [reflexivity|]. cbn [discard]. rewrite D. reflexivity.
  - rewrite strip_ka_cons. destruct t; cbn [is_ka]; try (cbn [discard]; rewrite D; apply IH); apply IH.
Qed.

Lemma strip_all_ka g : forallb is_ka g = true -> strip_ka g = [].
Proof. induction g as [|t g IH]; [reflexivity|]. cbn [forallb]. intros H. apply andb_true_iff in H as [A B]. rewrite strip_ka_cons, A. apply IH. exact B. Qed.
Lemma strip_no_ka ts : forallb (fun t => negb (is_ka t)) ts = true -> strip_ka ts = ts.
Proof. induction ts as [|t r IH]; [reflexivity|]. cbn [forallb]. intros H. apply andb_true_iff in H as [A B]. rewrite strip_ka_cons. destruct (is_ka t); [discriminate|]. rewrite IH by exact B. reflexivity. Qed.
Theorem strip_weave : forall ts kas, all_ka kas = true -> forallb (fun t => negb (is_ka t)) ts = true -> strip_ka (weave kas ts) = ts.
Proof.
  induction ts as [|t r IH]; intros kas A N.
  - cbn [weave]. unfold all_ka in A. induction kas as [|g kr IHk]; [reflexivity|]. cbn [forallb] in A. apply andb_true_iff in A as [A1 A2].
    cbn [List.concat]. rewrite strip_ka_app, (strip_all_ka g A1). apply IHk. exact A2.
  - destruct kas as [|g kr]; [cbn [weave]; apply strip_no_ka; exact N|]. cbn [weave].
    unfold all_ka in A. cbn [forallb] in A, N. apply andb_true_iff in A as [A1 A2]. apply andb_true_iff in N as [N1 N2].
    rewrite strip_ka_app, (strip_all_ka g A1). cbn [app]. rewrite strip_ka_cons. destruct (is_ka t); [discriminate|].
    rewrite (IH kr A2 N2). reflexivity.
Qed.

Lemma slice_no_ka : forall t n, forallb (fun t => negb (is_ka t)) (slice n t) = true.
Proof. apply slice_forallb. intros [] E; try discriminate E; reflexivity. Qed.

Lemma no_err_of_strip w : forallb no_err (strip_ka w) = true -> forallb no_err w = true.
Proof.
  induction w as [|t r IH]; [reflexivity|]. rewrite strip_ka_cons. destruct (is_ka t) eqn:K.
  - intros H. cbn [forallb]. rewrite (IH H). destruct t; try discriminate; reflexivity.
  - cbn [forallb]. intros H. apply andb_true_iff in H as [A B]. rewrite A, (IH B). reflexivity.
Qed.

Lemma keepalive_chunks n t w bs cs :
  strip_ka w = slice n t -> forallb wf_token w = true -> encode_stream w = Ok bs -> List.concat cs = bs -> tokens_of_chunks cs = w.
Proof.
  intros S T E <-. apply chunks_decode; [apply stream_roundtrip; assumption|]. apply no_err_of_strip. rewrite S. apply slice_no_err.
Qed.

(* END TO END with keepalives: w is ANY wire stream whose non-keepalive tokens are the sender's tokens for t (keepalive tokens
   of either kind, any numbers, any positions, any multiplicity); its bytes arrive as ANY packets cs: the delivered graph is
   the graph of t. *)
Theorem keepalive_end_to_end scoped n t w bs cs :
  wf_obj_wide scoped n t = true -> strip_ka w = slice n t -> forallb wf_token w = true -> encode_stream w = Ok bs ->
  List.concat cs = bs ->
  unslice scoped n (tokens_of_chunks cs) = Some (heap_of n t, [val_of n t]).
Proof. intros W S T E C. rewrite (keepalive_chunks _ _ _ _ _ S T E C), unslice_strip_ka, S. apply slice_unslice_wide, W. Qed.
Theorem keepalive_end_to_end_deferred scoped n t w bs cs r :
  wf_obj_wide scoped n t = true -> strip_ka w = slice n t -> forallb wf_token w = true -> encode_stream w = Ok bs ->
  List.concat cs = bs ->
  dunslice scoped n (tokens_of_chunks cs) = Some r -> r = (heap_of n t, [val_of n t]).
Proof. intros W S T E C. rewrite (keepalive_chunks _ _ _ _ _ S T E C), dunslice_strip_ka, S. apply deferred_sound, W. Qed.
(* the same with the keepalive tokens given explicitly: groups kas woven into the sender's tokens *)
Corollary keepalive_weave_end_to_end scoped n t kas bs cs :
  wf_obj_wide scoped n t = true -> all_ka kas = true -> forallb wf_token (weave kas (slice n t)) = true ->
  encode_stream (weave kas (slice n t)) = Ok bs -> List.concat cs = bs ->
  unslice scoped n (tokens_of_chunks cs) = Some (heap_of n t, [val_of n t]).
Proof.
  intros W A T E C. apply (keepalive_end_to_end scoped n t (weave kas (slice n t)) bs cs W); try assumption.
  apply strip_weave; [exact A|apply slice_no_ka].
Qed.

(* several top-level objects / calls on one connection *)
Theorem keepalive_list scoped n ts v w : wf_list_wide scoped [] [] n ts = Some v -> strip_ka w = slice_list n ts ->
  unslice scoped n w = Some (heap_list n ts, vals_list n ts).
Proof. intros W S. rewrite unslice_strip_ka, S. apply (slice_unslice_list_wide scoped n ts v W). Qed.

(* non-vacuity: l = [1, "é", (2,), l] with PING in front, PONG(7) between OPEN and "list", PING(300) PONG in front of the
   tuple's CLOSE, PING behind the last CLOSE; three packetisations, one of them with every keepalive token glued to what follows *)
Example ex_keepalive :
  let t := OList [OInt 1; OText [195; 169]; OTuple [OInt 2]; ORef 0] in
  let kas := [[TPing 0]; [TPong 7]; []; []; []; []; []; []; []; []; [TPing 300; TPong 0]; []; []; []; []; []; [TPing 0]] in
  let w := weave kas (slice 0 t) in
  match encode_stream w with
  | Ok bs => wf_obj_wide true 0 t = true /\ all_ka kas = true /\ forallb wf_token w = true /\ strip_ka w = slice 0 t /\
             (List.length w = List.length (slice 0 t) + 5)%nat /\
             unslice true 0 (tokens_of_chunks [bs]) = Some (heap_of 0 t, [val_of 0 t]) /\
             unslice true 0 (tokens_of_chunks (map (fun b => [b]) bs)) = Some (heap_of 0 t, [val_of 0 t]) /\
             dunslice true 0 (tokens_of_chunks [firstn 1 bs; firstn 9 (skipn 1 bs); skipn 10 bs]) = Some (heap_of 0 t, [val_of 0 t])
  | Exc _ => False
  end.
Proof. vm_compute. repeat split; reflexivity. Qed.
