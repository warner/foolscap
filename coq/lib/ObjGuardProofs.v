(* C01: the delivery theorems under the exact guard of ObjGuard.v (wf_obj_t / wf_list_t).  The wide guard (Obj.wf_obj_wide)
   admits graphs the implementation refuses -- an inline tuple / frozenset that is itself a Deferred in a Copyable attribute
   value / dict key position (g1, g4 below) -- so every theorem that claims delivery is stated with the transitive guard.
   That guard is contained in the wide one, so the statements follow from the lemmas about the wide guard; what they add is
   the REGION they speak about, and the witnesses that the excluded region is refused by the Deferred-level receiver (as by
   the code) although the pointer machine would take it. *)
From Coq Require Import ZArith List String Bool Lia.
Import ListNotations.
Require Import Verif.lib.PyLite Verif.gen.BananaGen Verif.gen.SlicersGen Verif.lib.Token Verif.lib.TokenProofs
        Verif.lib.Obj Verif.lib.ObjProofs Verif.lib.ObjDefer Verif.lib.ObjDeferProofs Verif.lib.ObjGuard
        Verif.lib.ObjChunks Verif.lib.ObjCanon Verif.lib.SendHeap Verif.lib.SendHeapProofs Verif.lib.SendHeapE2E
        Verif.lib.ObjKeepalive Verif.lib.ObjKeepaliveProofs.
Local Open Scope Z_scope.

Lemma wf_obj_t_wide scoped n t : wf_obj_t scoped n t = true -> wf_obj_wide scoped n t = true.
Proof. unfold wf_obj_t. intros H. apply andb_true_iff in H as [H _]. exact H. Qed.
Lemma wf_obj_t_dsafe scoped n t : wf_obj_t scoped n t = true -> dsafe n t = true.
Proof. unfold wf_obj_t. intros H. apply andb_true_iff in H as [_ H]. exact H. Qed.
Lemma wf_list_t_wide scoped n ts : wf_list_t scoped n ts = true -> exists v, wf_list_wide scoped [] [] n ts = Some v.
Proof. unfold wf_list_t. destruct (wf_list_wide scoped [] [] n ts) as [v|]; [exists v; reflexivity|discriminate]. Qed.

Theorem slice_unslice_t scoped n t : wf_obj_t scoped n t = true ->
  unslice scoped n (slice n t) = Some (heap_of n t, [val_of n t]).
Proof. intros W. apply slice_unslice_wide, (wf_obj_t_wide _ _ _ W). Qed.

Theorem slice_unslice_list_t scoped n ts : wf_list_t scoped n ts = true ->
  unslice scoped n (slice_list n ts) = Some (heap_list n ts, vals_list n ts).
Proof. intros W. destruct (wf_list_t_wide _ _ _ W) as [v V]. exact (slice_unslice_list_wide _ _ _ _ V). Qed.

(* any admissible receiver state: its open immutables are among `imm`, no closed immutable is pending (empty wait table),
   and the walk of t in that context meets no refusal and hands a real object (not a Deferred) to the parent *)
Theorem run_slice_t t n sc vis imm vis' w st : wf_wide sc vis imm n t = Some vis' -> dsim imm [] n t = Some (w, None) ->
  okst sc vis imm n st ->
  run (slice n t) st = Some (adv st [val_of n t] (regs_of n t) (heap_of n t) (opens t)).
Proof. intros W _ O. exact (run_slice_wide _ _ _ _ _ _ _ W O). Qed.

Theorem deferred_sound_t scoped n t r : wf_obj_t scoped n t = true ->
  dunslice scoped n (slice n t) = Some r -> r = (heap_of n t, [val_of n t]).
Proof. intros W. apply deferred_sound, (wf_obj_t_wide _ _ _ W). Qed.

Theorem bytes_roundtrip_t scoped n t bs : wf_obj_t scoped n t = true -> forallb wf_token (slice n t) = true ->
  encode_stream (slice n t) = Ok bs ->
  exists toks, decode bs = (toks, EndClean) /\ unslice scoped n toks = Some (heap_of n t, [val_of n t]).
Proof. intros W. apply bytes_roundtrip_wide, (wf_obj_t_wide _ _ _ W). Qed.

Theorem end_to_end_any_chunking_t scoped n t bs cs :
  wf_obj_t scoped n t = true -> forallb wf_token (slice n t) = true -> encode_stream (slice n t) = Ok bs -> List.concat cs = bs ->
  unslice scoped n (tokens_of_chunks cs) = Some (heap_of n t, [val_of n t]).
Proof. intros W. apply end_to_end_any_chunking, (wf_obj_t_wide _ _ _ W). Qed.

Theorem roundtrip_any_vocab_t scoped n t tbl : wf_obj_t scoped n t = true -> NoDup (map snd tbl) ->
  exists toks, devocab tbl (envocab tbl (slice n t)) = Some toks /\ unslice scoped n toks = Some (heap_of n t, [val_of n t]).
Proof. intros W. apply roundtrip_any_vocab_wide, (wf_obj_t_wide _ _ _ W). Qed.

Theorem heap_end_to_end_t h scoped n q fuel os fuel' toks tbl bs cs :
  canon_of fuel h scoped n q = Some os -> wf_list_t scoped n os = true ->
  send_heap fuel' h scoped n q = Some toks ->
  NoDup (map snd tbl) -> forallb wf_token (envocab tbl toks) = true -> encode_stream (envocab tbl toks) = Ok bs ->
  List.concat cs = bs ->
  exists toks' rh rv, devocab tbl (tokens_of_chunks cs) = Some toks' /\ unslice scoped n toks' = Some (rh, rv) /\
                      iso_to_sender os n rh rv.
Proof. intros C W. destruct (wf_list_t_wide _ _ _ W) as [v V]. exact (heap_end_to_end _ _ _ _ _ _ _ _ _ _ _ _ C V). Qed.

Theorem keepalive_end_to_end_t scoped n t w bs cs :
  wf_obj_t scoped n t = true -> strip_ka w = slice n t -> forallb wf_token w = true -> encode_stream w = Ok bs ->
  List.concat cs = bs ->
  unslice scoped n (tokens_of_chunks cs) = Some (heap_of n t, [val_of n t]).
Proof. intros W. apply keepalive_end_to_end, (wf_obj_t_wide _ _ _ W). Qed.

Theorem keepalive_list_t scoped n ts w : wf_list_t scoped n ts = true -> strip_ka w = slice_list n ts ->
  unslice scoped n w = Some (heap_list n ts, vals_list n ts).
Proof. intros W. destruct (wf_list_t_wide _ _ _ W) as [v V]. exact (keepalive_list _ _ _ _ _ V). Qed.

(* g1: c = C(); T = (c,); c.x = (T,)                  -- the attribute value is an inline tuple that holds a reference to T
   g4: L = []; A = (L,); B = (A,); c.x = B; L.extend([B, c])  -- the attribute value is a reference to B, CLOSED and still pending
   g_key: c = C(); T = (c,); c.d = {(T,): 1}          -- the same through a dict key
   All three are Python object graphs; the implementation raises (AssertionError copyable.py RemoteCopyUnslicer.receiveChild /
   BananaError 'incomplete object as dictionary key'): known findings incomplete-tuple-into-copyable / -as-dict-key. *)
Definition g1 : obj := OTuple [OCopy nmA [([120], OTuple [ORef 0])]].
Definition g4 : obj := OTuple [OList [OTuple [ORef 0]; OCopy nmA [([120], ORef 2)]]].
Definition g_key : obj := OTuple [OCopy nmA [([100], ODict [(OTuple [ORef 0], OInt 1)])]].

Theorem old_guard_refuted :
  (wf_obj_wide true 0 g1 = true /\ unslice true 0 (slice 0 g1) = Some (heap_of 0 g1, [val_of 0 g1]) /\
   doutcome true 0 (slice 0 g1) = 1 /\ wf_obj_t true 0 g1 = false) /\
  (wf_obj_wide true 0 g4 = true /\ unslice true 0 (slice 0 g4) = Some (heap_of 0 g4, [val_of 0 g4]) /\
   doutcome true 0 (slice 0 g4) = 1 /\ wf_obj_t true 0 g4 = false) /\
  (wf_obj_wide true 0 g_key = true /\ unslice true 0 (slice 0 g_key) = Some (heap_of 0 g_key, [val_of 0 g_key]) /\
   doutcome true 0 (slice 0 g_key) = 1 /\ wf_obj_t true 0 g_key = false).
Proof. vm_compute. repeat split; reflexivity. Qed.

Theorem direct_hazards_outside : wf_obj_t true 0 witness_copy_attr = false /\ wf_obj_t true 0 witness_dict_key = false.
Proof. vm_compute. split; reflexivity. Qed.

Theorem wait_cycle_outside : wf_obj_wide true 0 wait_cycle = true /\ wf_obj_t true 0 wait_cycle = false /\
  dunslice true 0 (slice 0 wait_cycle) = None /\
  wf_obj_wide true 0 (OList [OTuple [ORef 1]]) = true /\ wf_obj_t true 0 (OList [OTuple [ORef 1]]) = false /\
  doutcome true 0 (slice 0 (OList [OTuple [ORef 1]])) = 2.
Proof. vm_compute. repeat split; reflexivity. Qed.

(* abl: L = []; A = (L,); B = (A,); L.append(B).   amkj: K directly holds a reference to J, closed and still pending.
   tdl: two callbacks on one Deferred.   frozen: frozenset inside a cycle through a Copyable -- the Copyable's attribute is a
   LIST that holds the pending frozensets (a list takes placeholders), so the Copyable itself is never handed a Deferred. *)
Definition frozen_late : obj := OTuple [OCopy nmA [([120], OList [OFrozen [ORef 0; OInt 7]; OSet [OInt 1; OFrozen [ORef 0; OInt 7]]])]].
Example ex_inside_guard :
  (wf_obj_t true 0 abl = true /\ dunslice true 0 (slice 0 abl) = Some (heap_of 0 abl, [val_of 0 abl])) /\
  (wf_obj_t true 0 amkj = true /\ dunslice true 0 (slice 0 amkj) = Some (heap_of 0 amkj, [val_of 0 amkj])) /\
  (wf_obj_t true 0 tdl = true /\ dunslice true 0 (slice 0 tdl) = Some (heap_of 0 tdl, [val_of 0 tdl])) /\
  (wf_obj_t true 0 frozen_late = true /\ dunslice true 0 (slice 0 frozen_late) = Some (heap_of 0 frozen_late, [val_of 0 frozen_late])) /\
  wf_list_t false 0 [OCont (CScope [99; 97; 108; 108]) [OInt 1; OList [ORef 1]]; OCont (CScope [99; 97; 108; 108]) [OInt 2; OTuple [OList [ORef 5]]]] = true.
Proof. vm_compute. repeat split; reflexivity. Qed.

(* All terms of a small grammar: containers list / tuple / frozenset / dict value / dict key / Copyable attribute with one or
   two children, leaves an int or a reference to one of the OPEN numbers 0 .. m-1 (whether it resolves or not), up to a nesting
   depth.  `agree t`: if the wide guard admits t, the transitive guard holds IFF the Deferred-level receiver delivers
   (outcome 0), and then what it delivers reads back as t. *)
Definition mk_conts (refs : list obj) (kids : list obj) : list obj :=
  flat_map (fun a => [OList [a]; OTuple [a]; OFrozen [a]; ODict [(OInt 1, a)]; ODict [(a, OInt 1)]; OCopy nmA [([120], a)]]) kids
  ++ flat_map (fun a => flat_map (fun b => [OList [a; b]; OTuple [a; b]]) (OInt 1 :: refs)) kids.
Definition leaves (maxref : Z) : list obj := OInt 1 :: map ORef (map Z.of_nat (seq 0 (Z.to_nat maxref))).
Fixpoint terms_upto (d : nat) (maxref : Z) : list obj :=
  match d with
  | O => leaves maxref
  | S d' => leaves maxref ++ mk_conts (map ORef (map Z.of_nat (seq 0 (Z.to_nat maxref)))) (terms_upto d' maxref)
  end.
Definition agree (t : obj) : bool :=
  if wf_obj_wide true 0 t then
    if wf_obj_t true 0 t
    then match dunslice true 0 (slice 0 t) with
         | Some r => match canon (S (size t)) (fst r) 0 (hd VNone (snd r)) with Some (o, _) => obj_eqb o t | None => false end
         | None => false end
    else negb (doutcome true 0 (slice 0 t) =? 0)
  else true.
Definition small_family : list obj := filter (fun t => match t with OCont _ _ => true | _ => false end) (terms_upto 3 4).

(* On a term the wide guard admits, `agree` asks one thing: the transitive guard holds iff the Deferred-level receiver delivers.
   That what it delivers is the denoted graph, and reads back as t, holds for every term (deferred_sound, canon_inverts). *)
Definition delivers (t : obj) : bool := match dresult (dwalk 0 t (dinit true 0)) with Some _ => true | None => false end.

Lemma agree_eq t : wf_obj_wide true 0 t = true -> agree t = Bool.eqb (dsafe 0 t) (delivers t).
Proof.
  intros W. assert (N : names_ok t = true).
  { unfold wf_obj_wide in W. destruct (wf_wide true [] [] 0 t) eqn:E; [|discriminate]. exact (wf_names_ok _ _ _ _ _ _ _ E). }
  unfold agree, wf_obj_t, delivers, doutcome. rewrite W, <- (dunslice_walk _ _ _ N). cbn [andb].
  destruct (dsafe 0 t).
  - destruct (dunslice true 0 (slice 0 t)) as [r|] eqn:D; [|reflexivity].
    rewrite (deferred_sound _ _ _ _ W D). cbn [fst snd hd]. rewrite (canon_inverts_fuel _ _ _ _ W (le_S _ _ (le_n _))). apply obj_eqb_refl.
  - destruct (dunslice true 0 (slice 0 t)) eqn:D; destruct (drun (slice 0 t) (dinit true 0)) eqn:R; try reflexivity.
    unfold dunslice in D. rewrite R in D. discriminate.
Qed.

(* `agree` evaluates the wide guard three times per term and the receiver up to three times; `tally` is one pass (the
   receiver as `dwalk`: no opentype string is matched against the unslicer table), None as soon as guard and receiver differ
   on a term.  Result: how many terms the wide guard admits, and how many of those the transitive guard excludes. *)
Fixpoint tally (l : list obj) (adm exc : N) : option (N * N) :=
  match l with
  | [] => Some (adm, exc)
  | t :: r =>
    if wf_obj_wide true 0 t then
      let s := dsafe 0 t in
      if Bool.eqb s (delivers t) then tally r (N.succ adm) (if s then exc else N.succ exc) else None
    else tally r adm exc
  end.

Lemma tally_spec l : forall a e a' e', tally l a e = Some (a', e') ->
  forallb agree l = true /\
  a' = (a + N.of_nat (List.length (filter (wf_obj_wide true 0) l)))%N /\
  e' = (e + N.of_nat (List.length (filter (fun t => wf_obj_wide true 0 t && negb (wf_obj_t true 0 t)) l)))%N.
Proof.
  induction l as [|t r IH]; intros a e a' e' H; cbn [tally forallb filter] in *.
  - inversion H. cbn. rewrite !N.add_0_r. auto.
  - unfold wf_obj_t. destruct (wf_obj_wide true 0 t) eqn:W; cbn [andb].
    + rewrite (agree_eq _ W). cbv zeta in H. destruct (Bool.eqb (dsafe 0 t) (delivers t)); [|discriminate].
      destruct (IH _ _ _ _ H) as (A & B & C). split; [exact A|]. split.
      * rewrite B. cbn [List.length]. lia.
      * rewrite C. unfold wf_obj_t. destruct (dsafe 0 t); cbn [negb List.length]; lia.
    + unfold agree at 1. rewrite W. apply (IH _ _ _ _ H).
Qed.

(* small_family is the 21840 containers of terms_upto 3 4: 5 leaves and 16 containers per term of the level below, so
   5 + 16 * 5 = 85 and 5 + 16 * 85 = 1365 terms of depth <= 2, and 16 * 1365 containers of depth <= 3.  9063 admitted, 3201 of
   them excluded is what the evaluation of the tally returns. *)
Theorem guard_exact_on_small_terms :
  forallb agree small_family = true /\
  (2000 <= Z.of_nat (List.length (filter (wf_obj_wide true 0) small_family))) /\
  (100 <= Z.of_nat (List.length (filter (fun t => wf_obj_wide true 0 t && negb (wf_obj_t true 0 t)) small_family))).
Proof.
  assert (T : tally small_family 0 0 = Some (9063, 3201)%N) by (vm_compute; reflexivity).
  destruct (tally_spec _ _ _ _ _ T) as (A & B & C). split; [exact A|]. lia.
Qed.
