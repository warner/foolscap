(* C01 end to end over HEAPS: sender machine (slicer stack + reference tables) -> vocabulary abbreviation -> bytes ->
   any packetisation -> C07's tokenizer -> expansion -> receiver machine -> graph; the receiver's graph is isomorphic to
   the sender's: both have the same canonical term. *)
From Coq Require Import ZArith List String Bool Lia.
Import ListNotations.
Require Import Verif.lib.PyLite Verif.gen.BananaGen Verif.gen.SlicersGen Verif.lib.Token Verif.lib.TokenProofs
        Verif.lib.Obj Verif.lib.ObjProofs Verif.lib.ObjDefer Verif.lib.ObjDeferProofs Verif.lib.ObjChunks Verif.lib.ObjCanon
        Verif.lib.SendHeap Verif.lib.SendHeapProofs.
Local Open Scope Z_scope.

Lemma forallb_slice_list (p : token -> bool) : (forall t n, forallb p (slice n t) = true) ->
  forall ts n, forallb p (slice_list n ts) = true.
Proof. intros H. induction ts as [|t r IH]; intros n; [reflexivity|]. rewrite slice_list_cons, forallb_app, H, IH. reflexivity. Qed.
Lemma envocab_no_err tbl ts : forallb no_err ts = true -> forallb no_err (envocab tbl ts) = true.
Proof.
  induction ts as [|t r IH]; intros H; [reflexivity|]. cbn [forallb] in H. apply andb_true_iff in H as [H1 H2].
  cbn [envocab map forallb]. fold (envocab tbl r). rewrite (IH H2), andb_true_r.
  destruct t; try exact H1; try reflexivity. cbn [envocab1]. destruct (vfind bs tbl); reflexivity.
Qed.

(* the receiver's graph (rh, rv) and the sender's heap value(s) have the same canonical terms *)
Definition iso_to_sender (os : list obj) (n : Z) (rh : heap) (rv : list value) : Prop :=
  canon_list (size_list os) rh n rv = Some (os, n + opens_list os).

Lemma canon_list_inverts scoped n os v : wf_list_wide scoped [] [] n os = Some v ->
  canon_list (size_list os) (heap_list n os) n (vals_list n os) = Some (os, n + opens_list os).
Proof.
  intros W. apply (canon_list_inv os).
  - apply Forall_forall. intros x _. apply canon_inv.
  - apply (refs_lt_list_wf os (proj2 (Forall_forall _ _) (fun x _ => refs_below x)) false scoped [] [] n v W). intros k H. discriminate.
  - intros k nd E. exact E.
  - lia.
Qed.

Lemma heap_wire h scoped n q fuel os fuel' toks tbl cs :
  canon_of fuel h scoped n q = Some os -> send_heap fuel' h scoped n q = Some toks ->
  NoDup (map snd tbl) -> forallb wf_token (envocab tbl toks) = true -> encode_stream (envocab tbl toks) = Ok (List.concat cs) ->
  devocab tbl (tokens_of_chunks cs) = Some (slice_list n os).
Proof.
  intros C S ND WT E. rewrite (send_heap_unique _ _ _ _ _ _ _ _ S C) in WT, E.
  rewrite (chunks_decode cs (envocab tbl (slice_list n os))).
  - apply vocab_transparent; [exact ND|apply forallb_slice_list, slice_no_vocab].
  - apply stream_roundtrip; assumption.
  - apply envocab_no_err, forallb_slice_list, slice_no_err.
Qed.

(* FOR EVERY heap (any sharing, cycles, nested scopes), queue of top-level objects, vocabulary table with distinct indices
   and packetisation of the bytes: what the sender MACHINE emits is decoded, expanded and rebuilt by the receiver into a
   graph isomorphic to the sender's.  Side conditions: the canonical descent terminates (no cycle through pass-by-copy
   objects only), the canonical terms pass the guard (dict / Copyable shapes; not the known-defective region) and the
   tokens fit the wire format. *)
Theorem heap_end_to_end h scoped n q fuel os v fuel' toks tbl bs cs :
  canon_of fuel h scoped n q = Some os -> wf_list_wide scoped [] [] n os = Some v ->
  send_heap fuel' h scoped n q = Some toks ->
  NoDup (map snd tbl) -> forallb wf_token (envocab tbl toks) = true -> encode_stream (envocab tbl toks) = Ok bs ->
  List.concat cs = bs ->
  exists toks' rh rv, devocab tbl (tokens_of_chunks cs) = Some toks' /\ unslice scoped n toks' = Some (rh, rv) /\
                      iso_to_sender os n rh rv.
Proof.
  intros C W S ND WT E CC. subst bs.
  exists (slice_list n os), (heap_list n os), (vals_list n os).
  split; [exact (heap_wire _ _ _ _ _ _ _ _ _ _ C S ND WT E)|].
  split; [apply (slice_unslice_list_wide _ _ _ _ W)|apply (canon_list_inverts _ _ _ _ W)].
Qed.

(* the same through the Deferred-level receiver (partial correctness) *)
Theorem heap_end_to_end_deferred h scoped n q fuel os v fuel' toks tbl bs cs toks' r :
  canon_of fuel h scoped n q = Some os -> wf_list_wide scoped [] [] n os = Some v ->
  send_heap fuel' h scoped n q = Some toks ->
  NoDup (map snd tbl) -> forallb wf_token (envocab tbl toks) = true -> encode_stream (envocab tbl toks) = Ok bs ->
  List.concat cs = bs ->
  devocab tbl (tokens_of_chunks cs) = Some toks' -> dunslice scoped n toks' = Some r ->
  iso_to_sender os n (fst r) (snd r).
Proof.
  intros C W S ND WT E CC DV D. subst bs.
  rewrite (heap_wire _ _ _ _ _ _ _ _ _ _ C S ND WT E) in DV. injection DV as <-.
  rewrite (deferred_sound_list _ _ _ _ _ W D). apply (canon_list_inverts _ _ _ _ W).
Qed.

(* non-vacuity: L = [1]; T = (L, L); root = [T, L, T] in a storage Banana; heap ids are arbitrary *)
Example ex_heap :
  let h := [(70, {| sn_kind := CList; sn_items := [SObj 50; SObj 60; SObj 50] |});
            (50, {| sn_kind := CTuple; sn_items := [SObj 60; SObj 60] |});
            (60, {| sn_kind := CList; sn_items := [SInt 1; SObj 70] |})] in
  canon_of 10 h true 0 [SObj 70] = Some [OList [OTuple [OList [OInt 1; ORef 0]; ORef 2]; ORef 2; ORef 1]] /\
  send_heap 100 h true 0 [SObj 70] = Some (slice_list 0 [OList [OTuple [OList [OInt 1; ORef 0]; ORef 2]; ORef 2; ORef 1]]) /\
  wf_list_wide true [] [] 0 [OList [OTuple [OList [OInt 1; ORef 0]; ORef 2]; ORef 2; ORef 1]] = Some [2; 1; 0].
Proof. vm_compute. repeat split; reflexivity. Qed.
