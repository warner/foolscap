(* C06: proofs about the parse / deliver machine of lib/ReachPipe.v, all reduced to lib/ReachProofs.v.
   A parse resolves a call exactly when the one-step model would enter it in the same state (resolve_parse), up to the
   attribute lookup that is left to the delivery; so each deliverable entry of a queue carries the statement of calls_sound
   about the state at ITS parse.  Each step changes the tables as one step of lib/Reach.v or not at all, so the reachable
   states are those of lib/Reach.v and the invariants on tables carry over. *)
From Coq Require Import ZArith List String Bool Lia.
Import ListNotations.
Require Import Verif.lib.PyLite Verif.gen.ReachGen Verif.gen.ReachDispGen Verif.lib.Reach Verif.lib.ReachProofs
  Verif.lib.ReachDeep Verif.lib.ReachDeepProofs Verif.lib.ReachPipe.
Local Open Scope Z_scope.

Lemma pq_set_pst ps st c : pq (set_pst ps st) c = pq ps c.
Proof. destruct c; reflexivity. Qed.
Lemma pst_set_pq ps c q : p_st (set_pq ps c q) = p_st ps.
Proof. destruct c; reflexivity. Qed.
Lemma pq_set_same ps c q : pq (set_pq ps c q) c = q.
Proof. destruct c; reflexivity. Qed.
Lemma In_pq_set ps c0 q c d : In d (pq (set_pq ps c0 q) c) -> (c0 = c /\ In d q) \/ In d (pq ps c).
Proof. destruct c0, c; cbn; auto. Qed.

Lemma step_msg_parse w st c req clid m args :
  c_alive (get_conn st c) = true ->
  step w st (Msg c req clid m args) =
  let '(inst, out, fx) := parse w st c clid m args in
  match out with
  | Enter _ => let '(st', sent) := deliver_fx w st c req fx in (st', {| r_inst := inst; r_out := out; r_sent := sent |})
  | Aborted => (set_conn st c (drop_conn (get_conn st c)), {| r_inst := inst; r_out := out; r_sent := [] |})
  | _ => (st, {| r_inst := inst; r_out := out; r_sent := [] |})
  end.
Proof.
  intros AL. cbn [step]. rewrite AL. cbn [negb]. unfold parse. destruct (clid =? broker_clid).
  - destruct (broker_call_cases m args) as [s fx _ _ _ [[nm|]| |]|]; cbn [deliver_fx]; try reflexivity.
    destruct (found_name w st nm) as [[o st0]|]; [|reflexivity].
    destruct (req =? 0); [reflexivity|]. destruct (grant w st0 c o ""); reflexivity.
  - destruct (obj_call (eff w (s_decl st)) (s_copy st) (get_conn st c) clid m args) as [inst out].
    destruct out; reflexivity.
Qed.

Lemma parse_as_step w st c req clid m args inst out fx :
  c_alive (get_conn st c) = true -> parse w st c clid m args = (inst, out, fx) ->
  exists st' sent, step w st (Msg c req clid m args) = (st', {| r_inst := inst; r_out := out; r_sent := sent |}).
Proof.
  intros AL P. rewrite (step_msg_parse _ _ _ _ _ _ _ AL), P. destruct out; [destruct (deliver_fx w st c req fx)|..]; eauto.
Qed.

(* what the parser must have seen to resolve a call to `e`: the statement of calls_sound, about the state AT PARSE TIME *)
Definition call_justified (w : world) (st : state) (c : cid) (clid : Z) (m : mname) (e : entered) : Prop :=
  c_alive (get_conn st c) = true /\
  ((clid = 0 /\ exists s, m = MStr s /\ In s broker_methods /\ e = EBroker (remote_prefix ++ s)) \/
   (clid < 0 /\ exists o, exported st c clid o /\ e = ECallable o) \/
   (0 < clid /\ exists o s, exported st c clid o /\ m = MStr s /\ e = EObj o (remote_prefix ++ s) /\
        In (remote_prefix ++ s)%string (o_attrs (w_obj w o)) /\
        (forall l, iface_of w (s_decl st) o = Some l -> In s l))).

Lemma resolve_parse w st c clid m args :
  let '(inst, out, fx, ok) := resolve w st c clid m args in
  parse w st c clid m args = (inst, if ok then out else Reject, fx) /\ (ok = false -> exists e, out = Enter e).
Proof.
  unfold resolve, resolve_with, parse. destruct (clid =? broker_clid).
  - destruct (broker_call m args) as [o f]. split; [reflexivity | discriminate].
  - destruct (obj_call (eff w (s_decl st)) (s_copy st) (get_conn st c) clid m args) as [i o].
    destruct o as [e| | | |]; try (split; [reflexivity | discriminate]).
    destruct (obj_call (add_attr (eff w (s_decl st)) (attr_of m)) (s_copy st) (get_conn st c) clid m args) as [i2 o2].
    destruct o2 as [e| | | |]; split; try reflexivity; try discriminate. eauto.
Qed.

Definition is_msg (e : event) : bool := match e with Msg _ _ _ _ _ => true | _ => false end.

Lemma pevent_cases (P : pevent -> Prop) :
  (forall e, is_msg e = false -> P (PE e)) -> (forall c req clid m args, P (PE (Msg c req clid m args))) ->
  (forall c, P (PDeliver c)) -> forall pe, P pe.
Proof. intros L M D [[]|c]; try (apply L; reflexivity); [apply M | apply D]. Qed.

Lemma pstep_local w ps e :
  is_msg e = false ->
  pstep w ps (PE e) =
  let '(st', r) := step w (p_st ps) e in
  (match e with Drop c => set_pq (set_pst ps st') c [] | _ => set_pst ps st' end,
   {| pr_inst := r_inst r; pr_out := Out (r_out r); pr_sent := r_sent r |}).
Proof. destruct e; intros NM; try reflexivity; discriminate NM. Qed.

Lemma step_local w st e : is_msg e = false -> r_inst (snd (step w st e)) = [] /\ forall x, r_out (snd (step w st e)) <> Enter x.
Proof.
  destruct e; intros NM; try discriminate NM; cbn [step]; try (split; [reflexivity | discriminate]).
  - destruct (grant w st c o sw). split; [reflexivity | discriminate].
  - split; [reflexivity|]. cbn. destruct (c_alive _); discriminate.
Qed.

Lemma pstep_msg w ps c req clid m args :
  pstep w ps (PE (Msg c req clid m args)) =
  if negb (c_alive (get_conn (p_st ps) c)) then (ps, pres0 (Out Dead))
  else let '(inst, out, fx, ok) := resolve w (p_st ps) c clid m args in
       match out with
       | Enter e => (set_pq ps c (pq ps c ++ [{| d_req := req; d_ent := e; d_fx := fx; d_ok := ok |}]),
                     {| pr_inst := inst; pr_out := Queued; pr_sent := [] |})
       | Aborted => (set_pq (set_pst ps (set_conn (p_st ps) c (drop_conn (get_conn (p_st ps) c)))) c [],
                     {| pr_inst := inst; pr_out := Out Aborted; pr_sent := [] |})
       | _ => (ps, {| pr_inst := inst; pr_out := Out out; pr_sent := [] |})
       end.
Proof. reflexivity. Qed.

Lemma pstep_deliver w ps c :
  pstep w ps (PDeliver c) =
  if negb (c_alive (get_conn (p_st ps) c)) then (ps, pres0 Idle)
  else match pq ps c with
       | [] => (ps, pres0 Idle)
       | d :: q => if d_ok d then
                     let '(st', sent) := deliver_fx w (p_st ps) c (d_req d) (d_fx d) in
                     (set_pq (set_pst ps st') c q, {| pr_inst := []; pr_out := Out (Enter (d_ent d)); pr_sent := sent |})
                   else (set_pq ps c q, pres0 (Out Reject))
       end.
Proof. reflexivity. Qed.

Lemma pstep_queue w ps pe c d :
  In d (pq (fst (pstep w ps pe)) c) ->
  In d (pq ps c) \/
  exists req clid m args, pe = PE (Msg c req clid m args) /\ d_req d = req /\
                          (d_ok d = true -> call_justified w (p_st ps) c clid m (d_ent d)).
Proof.
  destruct pe as [e NM|c0 req clid m args|c0] using pevent_cases.
  - rewrite (pstep_local _ _ _ NM). destruct (step w (p_st ps) e) as [st' r]. cbn [fst]. intros H. left.
    destruct e; try (rewrite pq_set_pst in H; exact H).
    apply In_pq_set in H. destruct H as [[_ []]|H]. rewrite pq_set_pst in H. exact H.
  - rewrite pstep_msg. destruct (c_alive (get_conn (p_st ps) c0)) eqn:AL; cbn [negb]; [|left; assumption].
    pose proof (resolve_parse w (p_st ps) c0 clid m args) as RP.
    destruct (resolve w (p_st ps) c0 clid m args) as [[[inst out] fx] ok].
    destruct out as [e| | | |]; cbn [fst]; intros H; try (left; exact H); apply In_pq_set in H; destruct H as [[<- H]|H].
    + apply in_app_or in H. destruct H as [H|[<-|[]]]; [left; exact H|]. right. exists req, clid, m, args.
      split; [reflexivity|]. split; [reflexivity|]. cbn [d_ok d_ent]. intros ->. destruct (parse_as_step w _ c0 0 _ _ _ _ _ _ AL (proj1 RP)) as [st' [sent S]].
      exact (calls_sound _ _ _ _ _ _ _ _ _ _ S eq_refl).
    + left; exact H.
    + destruct H.
    + left. rewrite pq_set_pst in H. exact H.
  - rewrite pstep_deliver. destruct (negb (c_alive (get_conn (p_st ps) c0))); [left; assumption|].
    destruct (pq ps c0) as [|d0 q] eqn:Q; [left; assumption|].
    destruct (d_ok d0); [destruct (deliver_fx w (p_st ps) c0 (d_req d0) (d_fx d0))|]; cbn [fst]; intros H;
      apply In_pq_set in H; destruct H as [[<- H]|H]; left; rewrite ?Q, ?pq_set_pst in *; auto using in_cons.
Qed.

(* code is entered only by a delivery, and what is entered is what the head of that connection's queue was resolved to *)
Lemma pstep_enter w ps pe ps' r e :
  pstep w ps pe = (ps', r) -> pr_out r = Out (Enter e) ->
  exists c d q, pe = PDeliver c /\ pq ps c = d :: q /\ d_ent d = e /\ c_alive (get_conn (p_st ps) c) = true /\ d_ok d = true.
Proof.
  intros S. apply (f_equal snd) in S. cbn [snd] in S. subst r.
  destruct pe as [ev NM|c0 req clid m args|c0] using pevent_cases.
  - rewrite (pstep_local _ _ _ NM). pose proof (proj2 (step_local w (p_st ps) ev NM) e) as NE.
    destruct (step w (p_st ps) ev) as [st' r]. cbn. intros [= Ho]. contradiction.
  - rewrite pstep_msg. destruct (negb (c_alive (get_conn (p_st ps) c0))); [discriminate|].
    destruct (resolve w (p_st ps) c0 clid m args) as [[[inst out] fx] ok]. destruct out; discriminate.
  - rewrite pstep_deliver. destruct (c_alive (get_conn (p_st ps) c0)) eqn:AL; [|discriminate].
    destruct (pq ps c0) as [|d0 q] eqn:Q; [discriminate|]. destruct (d_ok d0) eqn:OK; [|discriminate].
    destruct (deliver_fx w (p_st ps) c0 (d_req d0) (d_fx d0)). intros [= <-]. exists c0, d0, q. auto 6.
Qed.

Lemma prun_cons w ps e h :
  prun w ps (e :: h) = let '(ps1, x) := pstep w ps e in let '(ps2, xs) := prun w ps1 h in (ps2, x :: xs).
Proof. reflexivity. Qed.

Lemma prun_app w a : forall ps b,
  prun w ps (a ++ b) = let '(p1, r1) := prun w ps a in let '(p2, r2) := prun w p1 b in (p2, r1 ++ r2).
Proof.
  induction a as [|e a IH]; intros ps b.
  - cbn. destruct (prun w ps b); reflexivity.
  - cbn [app]. rewrite !prun_cons. destruct (pstep w ps e) as [ps1 x]. rewrite IH. destruct (prun w ps1 a) as [p1 r1].
    destruct (prun w p1 b) as [p2 r2]. reflexivity.
Qed.

(* Over all schedules: whatever is entered was resolved by the parse of a call that arrived EARLIER on the same connection,
   against the tables as they were THEN (the connection alive, the id in its export table, the attribute "remote_"+name
   present and in the interface the object exposed then), and a delivery turn of that connection followed.
   The invariant (by induction on the history from its END): every deliverable entry of a queue stems from such a parse. *)
Lemma pipe_calls_inv w h :
  (forall c d, In d (pq (fst (prun w pinit h)) c) -> d_ok d = true ->
     exists h1 h2 req clid m args, h = h1 ++ PE (Msg c req clid m args) :: h2 /\
        call_justified w (p_st (fst (prun w pinit h1))) c clid m (d_ent d)) /\
  (forall r e, In r (snd (prun w pinit h)) -> pr_out r = Out (Enter e) ->
     exists h1 h2 c req clid m args, h = h1 ++ PE (Msg c req clid m args) :: h2 /\ In (PDeliver c) h2 /\
        call_justified w (p_st (fst (prun w pinit h1))) c clid m e).
Proof.
  induction h as [|pe h [IQ IE]] using rev_ind.
  - split; [intros [] d [] | intros r e []].
  - rewrite prun_app. destruct (prun w pinit h) as [ps rs] eqn:R. rewrite prun_cons. destruct (pstep w ps pe) as [ps' x] eqn:S.
    change (prun w ps' []) with (ps', @nil presult). cbn [fst snd] in *. split.
    + intros c d Hin OK. change ps' with (fst (ps', x)) in Hin. rewrite <- S in Hin.
      destruct (pstep_queue _ _ _ _ _ Hin) as [H0|[req [clid [m [args [-> [_ J]]]]]]].
      * destruct (IQ c d H0 OK) as [h1 [h2 [req [clid [m [args [-> J]]]]]]].
        exists h1, (h2 ++ [pe]), req, clid, m, args. rewrite <- app_assoc. auto.
      * exists h, [], req, clid, m, args. rewrite R. auto.
    + intros r e Hin Ho. apply in_app_or in Hin. destruct Hin as [Hin|[<-|[]]].
      * destruct (IE r e Hin Ho) as [h1 [h2 [c [req [clid [m [args [-> [Dl J]]]]]]]]].
        exists h1, (h2 ++ [pe]), c, req, clid, m, args. rewrite <- app_assoc. auto using in_or_app.
      * destruct (pstep_enter _ _ _ _ _ _ S Ho) as [c [d [q [-> [Q [<- [_ OK]]]]]]].
        destruct (IQ c d) as [h1 [h2 [req [clid [m [args [-> J]]]]]]]; [rewrite Q; left; reflexivity | exact OK |].
        exists h1, (h2 ++ [PDeliver c]), c, req, clid, m, args. rewrite <- app_assoc. auto using in_or_app, in_eq.
Qed.

Theorem pipe_calls : forall w h ps rs r e,
  prun w pinit h = (ps, rs) -> In r rs -> pr_out r = Out (Enter e) ->
  exists h1 h2 c req clid m args,
    h = h1 ++ PE (Msg c req clid m args) :: h2 /\ In (PDeliver c) h2 /\
    call_justified w (p_st (fst (prun w pinit h1))) c clid m e.
Proof. intros w h ps rs r e R Hr. apply (proj2 (pipe_calls_inv w h)). rewrite R. exact Hr. Qed.

(* instances are created while a call is PARSED, only of classes registered then under the names the message carries *)
Theorem pipe_classes : forall w ps pe ps' r cls,
  pstep w ps pe = (ps', r) -> In cls (pr_inst r) ->
  exists c req clid m args n, pe = PE (Msg c req clid m args) /\ In (ACopyable n) args /\ sget n (s_copy (p_st ps)) = Some cls.
Proof.
  intros w ps pe ps' r cls S. apply (f_equal snd) in S. cbn [snd] in S. subst r.
  destruct pe as [ev NM|c0 req clid m args|c0] using pevent_cases.
  - rewrite (pstep_local _ _ _ NM). pose proof (proj1 (step_local w (p_st ps) ev NM)) as NI.
    destruct (step w (p_st ps) ev) as [st' r]. cbn in *. rewrite NI. intros [].
  - rewrite pstep_msg. destruct (c_alive (get_conn (p_st ps) c0)) eqn:AL; cbn [negb]; [|intros []].
    pose proof (resolve_parse w (p_st ps) c0 clid m args) as RP.
    destruct (resolve w (p_st ps) c0 clid m args) as [[[inst out] fx] ok]. intros Hin.
    assert (Hi : In cls inst) by (destruct out; exact Hin).
    destruct (parse_as_step w _ c0 0 _ _ _ _ _ _ AL (proj1 RP)) as [st' [sent S]].
    destruct (classes_sound _ _ _ _ _ _ _ _ _ _ S Hi) as [n [A B]]. exists c0, req, clid, m, args, n. auto.
  - rewrite pstep_deliver. destruct (negb (c_alive (get_conn (p_st ps) c0))); [intros []|].
    destruct (pq ps c0) as [|d0 q]; [intros []|].
    destruct (d_ok d0); [destruct (deliver_fx w (p_st ps) c0 (d_req d0) (d_fx d0))|]; intros [].
Qed.

Lemma run_app w a : forall st b,
  run w st (a ++ b) = let '(s1, r1) := run w st a in let '(s2, r2) := run w s1 b in (s2, r1 ++ r2).
Proof.
  induction a as [|e a IH]; intros st b.
  - cbn. destruct (run w st b); reflexivity.
  - cbn [app run]. destruct (step w st e) as [st1 x]. rewrite IH. destruct (run w st1 a) as [s1 r1].
    destruct (run w s1 b) as [s2 r2]. reflexivity.
Qed.

(* a delivery changes the tables exactly as ONE step of lib/Reach.v (the broker call it stands for, taken at delivery time) or not at all *)
Lemma deliver_as_step w st c req fx st' sent :
  c_alive (get_conn st c) = true -> deliver_fx w st c req fx = (st', sent) ->
  (st' = st /\ sent = []) \/
  exists m args r, fx_msg fx = Some (m, args) /\ step w st (Msg c req 0 m args) = (st', r) /\ r_sent r = sent.
Proof.
  intros AL D. destruct fx as [| |nm|k n]; [left; injection D; auto..| |]; right; eexists _, _, _;
    (split; [reflexivity|]); rewrite (step_msg_parse w st c req 0 _ _ AL).
  - change (parse w st c 0 _ _) with (@nil Z, Enter (EBroker "remote_getReferenceByName"), FxLookup nm). cbv beta iota. rewrite D. split; reflexivity.
  - change (parse w st c 0 _ _) with (@nil Z, Enter (EBroker "remote_decref"), FxDecref k n). cbv beta iota. rewrite D. split; reflexivity.
Qed.

Lemma pstep_as_steps w ps pe ps' r :
  pstep w ps pe = (ps', r) ->
  (p_st ps' = p_st ps /\ pr_sent r = []) \/
  exists e r0, step w (p_st ps) e = (p_st ps', r0) /\ r_sent r0 = pr_sent r /\
               match pe with
               | PE e' => e = e'
               | PDeliver c => exists d q m args, pq ps c = d :: q /\ d_ok d = true /\ fx_msg (d_fx d) = Some (m, args) /\
                                                  e = Msg c (d_req d) 0 m args
               end.
Proof.
  destruct pe as [ev NM|c0 req clid m args|c0] using pevent_cases.
  - rewrite (pstep_local _ _ _ NM). destruct (step w (p_st ps) ev) as [st' r0] eqn:S1. intros [= <- <-]. right. exists ev, r0.
    split; [destruct ev; rewrite ?pst_set_pq; exact S1 | auto].
  - rewrite pstep_msg. destruct (c_alive (get_conn (p_st ps) c0)) eqn:AL; cbn [negb]; [|intros [= <- <-]; left; auto].
    pose proof (step_msg_parse w (p_st ps) c0 req clid m args AL) as SP.
    pose proof (resolve_parse w (p_st ps) c0 clid m args) as RP.
    destruct (resolve w (p_st ps) c0 clid m args) as [[[inst out] fx] ok].
    destruct out as [e| | | |]; intros [= <- <-]; try (left; split; [apply pst_set_pq || reflexivity | reflexivity]).
    destruct RP as [P OK]. destruct ok; [|destruct (OK eq_refl); discriminate]. rewrite P in SP.
    right. eexists _, _. rewrite pst_set_pq. split; [exact SP | auto].
  - rewrite pstep_deliver. destruct (c_alive (get_conn (p_st ps) c0)) eqn:AL; cbn [negb]; [|intros [= <- <-]; left; auto].
    destruct (pq ps c0) as [|d0 q]; [intros [= <- <-]; left; auto|].
    destruct (d_ok d0) eqn:OK; [|intros [= <- <-]; left; split; [apply pst_set_pq | reflexivity]].
    destruct (deliver_fx w (p_st ps) c0 (d_req d0) (d_fx d0)) as [st' sent] eqn:D. intros [= <- <-]. rewrite pst_set_pq.
    destruct (deliver_as_step _ _ _ _ _ _ _ AL D) as [[-> ->]|[m [args [r0 [F [S1 S2]]]]]]; [left; auto|].
    right. exists (Msg c0 (d_req d0) 0 m args), r0. split; [exact S1|]. split; [exact S2|]. exists d0, q, m, args. auto.
Qed.

Theorem pipe_states_are_states : forall w h ps ps' rs,
  prun w ps h = (ps', rs) ->
  exists es, fst (run w (p_st ps) es) = p_st ps' /\ sent_of (snd (run w (p_st ps) es)) = psent_of rs.
Proof.
  intros w h. induction h as [|pe h IH]; intros ps ps' rs R.
  - injection R as <- <-. exists []. split; reflexivity.
  - rewrite prun_cons in R. destruct (pstep w ps pe) as [ps1 x] eqn:S. destruct (prun w ps1 h) as [ps2 xs] eqn:R1.
    injection R as <- <-. destruct (IH ps1 ps2 xs R1) as [es [E1 E2]].
    change (psent_of (x :: xs)) with (pr_sent x ++ psent_of xs).
    destruct (pstep_as_steps _ _ _ _ _ S) as [[P1 P2]|[e [r0 [S1 [S2 _]]]]].
    + exists es. rewrite <- P1, P2. split; [exact E1|exact E2].
    + exists (e :: es). cbn [run]. rewrite S1. destruct (run w (p_st ps1) es) as [s2 r2].
      split; [exact E1|]. change (r_sent r0 ++ sent_of r2 = pr_sent x ++ psent_of xs). rewrite S2, <- E2. reflexivity.
Qed.

(* "explicitly sent to it over that same connection and not yet released", over all schedules *)
Theorem pipe_exports_were_granted : forall w h ps rs c clid o rc,
  prun w pinit h = (ps, rs) -> zget clid (c_exports (get_conn (p_st ps) c)) = Some (o, rc) ->
  0 < rc /\ clid <> 0 /\ Z.abs clid < c_next (get_conn (p_st ps) c) /\ In (c, clid, o) (psent_of rs).
Proof.
  intros w h ps rs c clid o rc R G. destruct (pipe_states_are_states w h pinit ps rs R) as [es [E1 E2]].
  cbn [p_st pinit] in E1, E2. destruct (run w init es) as [st xs] eqn:RR. cbn [fst snd] in E1, E2. subst st.
  rewrite <- E2. exact (exports_were_granted _ _ _ _ _ _ _ _ RR G).
Qed.

Lemma parse_sends_nothing w ps c req clid m args : pr_sent (snd (pstep w ps (PE (Msg c req clid m args)))) = [].
Proof.
  rewrite pstep_msg. destruct (negb (c_alive (get_conn (p_st ps) c))); [reflexivity|].
  destruct (resolve w (p_st ps) c clid m args) as [[[inst out] fx] ok]. destruct out; reflexivity.
Qed.

(* a my-reference is emitted only by a grant of the application, or when a name lookup is DELIVERED *)
Theorem pipe_sent_justified : forall w ps pe ps' r c clid o,
  pstep w ps pe = (ps', r) -> In (c, clid, o) (pr_sent r) ->
  (exists sw, pe = PE (Grant c o sw)) \/
  (pe = PDeliver c /\ exists d q n, pq ps c = d :: q /\ d_fx d = FxLookup n /\ d_req d <> 0 /\ lookup_name w (p_st ps) n = Some o).
Proof.
  intros w ps pe ps' r c clid o S Hin.
  destruct (pstep_as_steps _ _ _ _ _ S) as [[_ P2]|[e [r0 [S1 [S2 M]]]]]; [rewrite P2 in Hin; destruct Hin|].
  pose proof Hin as Hin0. rewrite <- S2 in Hin. destruct (sent_justified _ _ _ _ _ _ _ _ S1 Hin) as [[sw ->]|[req [n [-> [NZ L]]]]].
  - destruct pe as [e'|c0]; [left; exists sw; rewrite M; reflexivity|].
    destruct M as [d [q [m [args [_ [_ [_ E2]]]]]]]. discriminate E2.
  - destruct pe as [e'|c0].
    + exfalso. subst e'. apply (f_equal snd) in S. cbn [snd] in S. subst r. rewrite parse_sends_nothing in Hin0. destruct Hin0.
    + destruct M as [d [q [m [args [Q [_ [F [= <- Er <- <-]]]]]]]]. rewrite Er in NZ. right. split; [reflexivity|].
      exists d, q, n. split; [exact Q|]. split; [|split; [exact NZ|exact L]].
      destruct (d_fx d); try discriminate F. injection F as ->. reflexivity.
Qed.

Lemma resolve_T_eq w st c clid m args : all_kinds_ok w st -> resolve_T w st c clid m args = resolve w st c clid m args.
Proof.
  intros K. unfold resolve_T, resolve, resolve_with. destruct (clid =? broker_clid) eqn:BC; [reflexivity|].
  apply Z.eqb_neq in BC.
  rewrite (obj_call_T_eq (eff w (s_decl st)) _ _ _ _ _ (K c) BC),
          (obj_call_T_eq (add_attr (eff w (s_decl st)) (attr_of m)) _ _ _ _ _ (K c) BC). reflexivity.
Qed.

Lemma deliver_fx_T_eq w st c req fx : deliver_fx_T w st c req fx = deliver_fx w st c req fx.
Proof. destruct fx; cbn [deliver_fx_T deliver_fx]; rewrite ?decref_T_eq, ?found_name_T_eq; reflexivity. Qed.

Lemma pstep_with_ext (pf pf' : parse_fn) (df df' : deliver_fn) (sf sf' : step_fn) w ps pe :
  (forall c clid m args, pf w (p_st ps) c clid m args = pf' w (p_st ps) c clid m args) ->
  (forall c req fx, df w (p_st ps) c req fx = df' w (p_st ps) c req fx) ->
  (forall e, sf w (p_st ps) e = sf' w (p_st ps) e) ->
  pstep_with pf df sf w ps pe = pstep_with pf' df' sf' w ps pe.
Proof.
  intros P D S. destruct pe as [[]|c]; cbn [pstep_with]; rewrite ?P, ?S; try reflexivity.
  destruct (negb _); [reflexivity|]. destruct (pq ps c); [reflexivity|]. rewrite D. reflexivity.
Qed.

Lemma pstep_invariants w ps pe ps' r log :
  inv (p_st ps) log -> all_kinds_ok w (p_st ps) -> pstep w ps pe = (ps', r) ->
  inv (p_st ps') (log ++ pr_sent r) /\ all_kinds_ok w (p_st ps').
Proof.
  intros I K S. destruct (pstep_as_steps _ _ _ _ _ S) as [[-> ->]|[e [r0 [S1 [<- _]]]]].
  - rewrite app_nil_r. auto.
  - split; [exact (step_inv _ _ _ _ _ _ I S1)|]. intros c. change (p_st ps') with (fst (p_st ps', r0)). rewrite <- S1.
    apply step_kinds; [apply I | apply K].
Qed.

Lemma prun_T_eq_from w h : forall ps log, inv (p_st ps) log -> all_kinds_ok w (p_st ps) -> prun_T w ps h = prun w ps h.
Proof.
  induction h as [|pe h IH]; intros ps log I K; [reflexivity|].
  change (prun_T w ps (pe :: h)) with (let '(ps1, x) := pstep_T w ps pe in let '(ps2, xs) := prun_T w ps1 h in (ps2, x :: xs)).
  unfold pstep_T. rewrite prun_cons, (pstep_with_ext _ resolve _ deliver_fx _ step); fold pstep;
    [|intros; apply resolve_T_eq, K | intros; apply deliver_fx_T_eq | intros; apply step_T_eq, K].
  destruct (pstep w ps pe) as [ps1 x] eqn:S.
  destruct (pstep_invariants _ _ _ _ _ _ I K S) as [I1 K1]. rewrite (IH ps1 _ I1 K1). reflexivity.
Qed.

Theorem prun_T_eq : forall w h, prun_T w pinit h = prun w pinit h.
Proof. intros w h. exact (prun_T_eq_from w h pinit [] init_inv (init_kinds w)). Qed.

Theorem pipe_kinds_reachable : forall w h ps rs c k o rc,
  prun w pinit h = (ps, rs) -> zget k (c_exports (get_conn (p_st ps) c)) = Some (o, rc) ->
  (k < 0 -> o_kind (w_obj w o) = KCallable) /\ (0 < k -> o_kind (w_obj w o) = KObj).
Proof.
  intros w h ps rs c k o rc R G. destruct (pipe_states_are_states w h pinit ps rs R) as [es [E1 _]].
  cbn [p_st pinit] in E1. destruct (run w init es) as [st xs] eqn:RR. cbn [fst] in E1. subst st.
  exact (kinds_reachable _ _ _ _ _ _ _ _ RR G).
Qed.

Theorem atomic_msg : forall w ps c req clid m args ps1 r1 ps2 r2 st' r,
  pq ps c = [] ->
  pstep w ps (PE (Msg c req clid m args)) = (ps1, r1) -> pstep w ps1 (PDeliver c) = (ps2, r2) ->
  step w (p_st ps) (Msg c req clid m args) = (st', r) ->
  p_st ps2 = st' /\ (forall c', pq ps2 c' = pq ps c') /\ r_inst r = pr_inst r1 /\ r_sent r = pr_sent r2 /\ pr_sent r1 = [] /\
  match r_out r with
  | Enter e => pr_out r1 = Queued /\ pr_out r2 = Out (Enter e)
  | Reject => (pr_out r1 = Out Reject /\ pr_out r2 = Idle) \/ (pr_out r1 = Queued /\ pr_out r2 = Out Reject)
  | o => pr_out r1 = Out o /\ pr_out r2 = Idle
  end.
Proof.
  intros w ps c req clid m args ps1 r1 ps2 r2 st' r Q S1 S2 S.
  (* the conclusion stays folded while the three equations are solved for its variables, case by case: it is large, and every
     substitution would copy it *)
  pattern ps2, r1, r2, st', r. set (C := fun _ _ _ _ _ => _).
  rewrite pstep_msg in S1. rewrite pstep_deliver in S2. destruct (c_alive (get_conn (p_st ps) c)) eqn:AL; cbn [negb] in S1.
  2:{ injection S1 as <- <-. rewrite AL in S2. injection S2 as <- <-.
      cbn [step] in S. rewrite AL in S. injection S as <- <-. subst C. cbn. auto 10. }
  rewrite (step_msg_parse _ _ _ _ _ _ _ AL) in S.
  pose proof (resolve_parse w (p_st ps) c clid m args) as RP.
  destruct (resolve w (p_st ps) c clid m args) as [[[inst out] fx] ok]. destruct RP as [P OK]. rewrite P in S.
  (* accepted by the parser: queued and delivered at once, or refused at once and the turn is idle;
     lacking only the attribute: queued, and refused by its turn *)
  destruct ok; [destruct out as [e| | | |] | destruct (OK eq_refl) as [e ->]]; injection S1 as <- <-.
  all: rewrite ?pst_set_pq in S2; cbn [p_st set_pst] in S2; rewrite ?get_set_same, ?AL, ?pq_set_same, ?Q in S2.
  all: cbn [negb app drop_conn c_alive d_ok d_req d_fx d_ent] in S2.
  all: try destruct (deliver_fx w (p_st ps) c req fx) as [s2 sent]; injection S2 as <- <-; injection S as <- <-.
  all: subst C; cbv beta; split; [rewrite ?pst_set_pq; reflexivity|]; split; [intros c'; destruct c, c'; cbn; auto|].
  all: cbn; auto 10.
Qed.

Definition pipe_world : world := rf_world.   (* every object is a Referenceable with the one attribute remote_hi *)
(* the peer is granted an object (id 1), then sends decref(1,1) and call(1,"hi") in one segment: both are parsed before
   either is delivered; the call was resolved while the id was still held, so remote_hi is entered on the RELEASED object.
   Replayed on the real code by the harness (signature oracle/released-id-entered-when-pipelined). *)
Definition pipe_hist_released : list pevent :=
  [PE (Grant CA 1 "sw0")] ++ burst CA [(11, 0, MStr "decref", [AInt 1; AInt 1]); (12, 1, MStr "hi", [])].
Theorem held_at_delivery_refuted :
  exists w h1 ps1 rs1 ps2 r,
    prun w pinit h1 = (ps1, rs1) /\ pstep w ps1 (PDeliver CA) = (ps2, r) /\
    pr_out r = Out (Enter (EObj 1 "remote_hi")) /\
    c_exports (get_conn (p_st ps1) CA) = [] /\ c_alive (get_conn (p_st ps1) CA) = true.
Proof.
  eexists pipe_world, (removelast pipe_hist_released), _, _, _, _.
  split; [apply surjective_pairing|]. split; [apply surjective_pairing|]. vm_compute. auto.
Qed.

(* the same bytes, one call per segment (each delivered before the next arrives): the second call is refused.  The theorems of
   this file hold for both schedules; those of lib/ReachProofs.v about `step (Msg ..)` describe the second one only. *)
Example ex_schedules_differ :
  map pr_out (snd (prun pipe_world pinit pipe_hist_released)) =
    [Out Local; Queued; Queued; Out (Enter (EBroker "remote_decref")); Out (Enter (EObj 1 "remote_hi"))] /\
  map pr_out (snd (prun pipe_world pinit (atomic [Grant CA 1 "sw0"; Msg CA 11 0 (MStr "decref") [AInt 1; AInt 1]; Msg CA 12 1 (MStr "hi") []]))) =
    [Out Local; Queued; Out (Enter (EBroker "remote_decref")); Out Reject; Idle].
Proof. vm_compute. split; reflexivity. Qed.

(* the converse interleaving: a lookup and a call to the id the lookup is ABOUT to grant, in one segment: the call is refused
   (the id was not held when it was parsed) *)
Example ex_lookup_then_call :
  map pr_out (snd (prun pipe_world pinit
     ([PE (Register "pub" 1 "sw0")] ++ burst CA [(11, 0, MStr "getReferenceByName", [ABytes (MStr "pub")]); (12, 1, MStr "hi", [])]))) =
  [Out Local; Queued; Out Reject; Out (Enter (EBroker "remote_getReferenceByName")); Idle].
Proof. vm_compute. reflexivity. Qed.

Example ex_pipe_calls_hyps :
  exists ps rs r, prun pipe_world pinit pipe_hist_released = (ps, rs) /\ In r rs /\ pr_out r = Out (Enter (EObj 1 "remote_hi")) /\
                  p_qa ps = [] /\ c_exports (s_a (p_st ps)) = [].
Proof.
  exists (fst (prun pipe_world pinit pipe_hist_released)), (snd (prun pipe_world pinit pipe_hist_released)),
         (last (snd (prun pipe_world pinit pipe_hist_released)) (pres0 Idle)).
  split; [apply surjective_pairing|]. vm_compute. auto 10.
Qed.

(* the hypotheses of pipe_exports_were_granted / pipe_kinds_reachable are met non-trivially: a pipelined history that leaves
   entries (an object and a bound method) in a table *)
Example ex_pipe_exports_hyps :
  let h := [PE (Grant CA 1 "sw0"); PE (Grant CA 3 "sw1")] ++ burst CA [(1, 1, MStr "hi", []); (2, 0, MStr "decref", [AInt 1; AInt 1]); (3, 1, MStr "hi", [])] in
  c_exports (s_a (p_st (fst (prun ex_world pinit h)))) = [(-2, (3, 1))] /\
  map pr_out (snd (prun ex_world pinit h)) =
    [Out Local; Out Local; Queued; Queued; Queued; Out (Enter (EObj 1 "remote_hi")); Out (Enter (EBroker "remote_decref")); Out (Enter (EObj 1 "remote_hi"))].
Proof. vm_compute. split; reflexivity. Qed.

(* the attribute lookup happens at delivery: a call resolved to an object WITHOUT the attribute is queued; if a protocol error
   later in the same segment drops the connection, it is abandoned like every queued call (the peer gets no error answer);
   otherwise its delivery turn fails the request *)
Example ex_missing_attribute_is_queued :
  map pr_out (snd (prun pipe_world pinit ([PE (Grant CA 1 "sw0")] ++ burst CA [(1, 1, MStr "nosuch", []); (2, 1, MStr "hi", [AYourRef (-3)])]))) =
    [Out Local; Queued; Out Aborted; Idle; Idle] /\
  map pr_out (snd (prun pipe_world pinit ([PE (Grant CA 1 "sw0")] ++ burst CA [(1, 1, MStr "nosuch", []); (2, 1, MStr "hi", [])]))) =
    [Out Local; Queued; Queued; Out Reject; Out (Enter (EObj 1 "remote_hi"))].
Proof. vm_compute. split; reflexivity. Qed.
