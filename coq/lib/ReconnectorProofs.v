(* C16: proofs about lib/Reconnector.v + gen/ReconnectorGen.v (the translated methods).
   The translated methods are unfolded in one place, the equations step_start .. step_stop.  An AttemptOk whose callback
   calls back into the Reconnector is a run of events that do not (ok_reentrant), so a property is proved for those
   through the equations, then holds for every event (Lift) and along every run (run_invariant).  The invariants Inv
   (its states listed by shape), Stopped and RInv go this way. *)
From Coq Require Import ZArith QArith Qminmax Qround List Bool Arith Lia Lqa.
Import ListNotations.
Require Import Verif.lib.ReconnectorBase Verif.gen.ReconnectorGen Verif.lib.Reconnector.
Local Open Scope Q_scope.

Lemma run_cons : forall s e r,
  run s (e :: r) = (fst (run (fst (step s e)) r), snd (step s e) ++ snd (run (fst (step s e)) r)).
Proof. intros. cbn [run]. destruct (step s e) as [s1 o1]. cbn [fst snd]. destruct (run s1 r). reflexivity. Qed.

Lemma run_app : forall a b s,
  run s (a ++ b) = (fst (run (fst (run s a)) b), snd (run s a) ++ snd (run (fst (run s a)) b)).
Proof.
  induction a as [|e a IH]; intros b s; [cbn [run app fst snd]; destruct (run s b); reflexivity|].
  cbn [app]. rewrite !run_cons, IH. cbn [fst snd]. now rewrite app_assoc.
Qed.

Lemma run_snoc : forall s a e, fst (run s (a ++ [e])) = fst (step (fst (run s a)) e).
Proof. intros. rewrite run_app, run_cons. reflexivity. Qed.

Lemma permitted_app : forall a b s, permitted s (a ++ b) <-> permitted s a /\ permitted (fst (run s a)) b.
Proof.
  induction a as [|e a IH]; intros b s; cbn [app permitted]; [cbn [run fst]; tauto|].
  rewrite run_cons, IH. cbn [fst]. tauto.
Qed.

Lemma permittedb_ok : forall evs s, permittedb s evs = true -> permitted s evs.
Proof.
  induction evs as [|e r IH]; intros s H; cbn [permitted permittedb] in *; [exact I|].
  apply andb_true_iff in H. destruct H as [H1 H2]. split; [exact H1 | apply IH, H2].
Qed.

(* what _failed makes of the capped delay mu:
   `if self.jitter: self._delay = random.normalvariate(self._delay, self._delay * self.jitter)` *)
Definition jittered (z mu : Q) : Q := if q_truthy jitter then normalvariate z mu (mu * jitter) else mu.

Section StepEquations.
  Variables (a sp t : bool) (d : Q) (tm : option Q) (i w l : nat) (inf : istate).

  Lemma step_start : step (mkSt a sp t d tm i w l inf) Start =
    if sp then (mkSt a sp true d tm i w l inf, [ORemove])
    else (mkSt true sp true d tm (S i) w l IConnecting, [OGetRef]).
  Proof. destruct sp; reflexivity. Qed.

  Lemma step_ok : step (mkSt a sp t d tm i w l inf) (AttemptOk []) =
    if a then (mkSt true sp t d tm (pred i) (S w) l IConnected, [OWatch; OCallback])
    else (mkSt false sp t d tm (pred i) w l inf, []).
  Proof. destruct a; reflexivity. Qed.

  Lemma step_fail : forall z, step (mkSt a sp t d tm i w l inf) (AttemptFail z) =
    if a then (mkSt true sp t (jittered z (Qmin (d * factor) maxDelay)) (Some (jittered z (Qmin (d * factor) maxDelay)))
                    (pred i) w (match tm with Some _ => S l | None => l end) IWaiting,
               [OSetTimer (jittered z (Qmin (d * factor) maxDelay))])
    else (mkSt false sp t d tm (pred i) w l inf, []).
  Proof. intros z. destruct a; reflexivity. Qed.

  Lemma step_lost : step (mkSt a sp t d tm i w l inf) Lost =
    if a then (mkSt true sp t initialDelay (Some initialDelay) i (pred w) (match tm with Some _ => S l | None => l end) IWaiting,
               [OSetTimer initialDelay])
    else (mkSt false sp t initialDelay tm i (pred w) l inf, []).
  Proof. destruct a; reflexivity. Qed.

  Lemma step_expired : step (mkSt a sp t d tm i w l inf) TimerExpired = (mkSt a sp t d None (S i) w l IConnecting, [OGetRef]).
  Proof. reflexivity. Qed.

  Lemma step_elapse : step (mkSt a sp t d tm i w l inf) Elapse =
    (mkSt a sp t d (match tm with Some q => Some (Qred (q * (1 # 2))) | None => None end) i w l inf, []).
  Proof. reflexivity. Qed.

  Lemma step_reset : step (mkSt a sp t d tm i w l inf) Reset =
    (mkSt a sp t initialDelay (match tm with Some _ => Some (1 # 1) | None => None end) i w l inf,
     match tm with Some _ => [OResetTimer (1 # 1)] | None => [] end).
  Proof. destruct tm; reflexivity. Qed.

  Lemma step_stop : step (mkSt a sp t d tm i w l inf) Stop =
    (mkSt false true t d None i w l inf,
     match tm with Some _ => [OCancelTimer] | None => [] end ++ if t then [ORemove] else []).
  Proof. destruct tm, t; reflexivity. Qed.
End StepEquations.

(* an event whose user callback does not call back into the Reconnector *)
Definition simple (e : event) : Prop := match e with AttemptOk (_ :: _) => False | _ => True end.

(* case analysis on a simple event [e] (by [Hs : simple e]) at a state of the form [mkSt ...], each case rewritten
   with the equation of its event *)
Ltac simple_event e Hs :=
  destruct e as [|[|]|?z| | | | |];
  [> rewrite step_start | rewrite step_ok | destruct Hs | rewrite step_fail | rewrite step_lost
   | rewrite step_expired | rewrite step_elapse | rewrite step_reset | rewrite step_stop].

Lemma uops_run : forall u s, uops_act u s = run s (map uop_event u).
Proof.
  induction u as [|o u IH]; intros s; [reflexivity|].
  destruct o; cbn [uops_act map run uop_event step]; unfold seq.
  - destruct (m_stopConnecting s) as [s1 o1]. rewrite IH. reflexivity.
  - destruct (m_reset s) as [s1 o1]. rewrite IH. reflexivity.
Qed.

(* the callback is the last thing _connected does: whatever it calls behaves as if called right after
   _connected returned; and it only runs if the Reconnector was active *)
Lemma ok_reentrant : forall s u,
  step s (AttemptOk u) = if active s then run s (AttemptOk [] :: map uop_event u) else step s (AttemptOk []).
Proof.
  intros [a sp t d tm i w l inf] u. cbn [run]. rewrite step_ok. cbn [active]. destruct a; [|reflexivity].
  rewrite <- uops_run.
  cbv [step m__connected cond seq user_callback ret set_info watch dec_inflight negb
       active stopped tub delay timer inflight watching leaked info].
  destruct (uops_act u _) as [s2 o2]. rewrite app_nil_r. reflexivity.
Qed.

Lemma enabled_uop : forall s o, enabled s (uop_event o) = true.
Proof. intros s []; reflexivity. Qed.

Section Lift.
  Context (P : st -> Prop) (O : out -> Prop) (guard : st -> event -> Prop).
  Hypothesis g_uop : forall s o, guard s (uop_event o).
  Hypothesis g_ok : forall s u, guard s (AttemptOk u) -> guard s (AttemptOk []).
  Hypothesis step0 : forall s e, simple e -> P s -> guard s e ->
                                P (fst (step s e)) /\ Forall O (snd (step s e)).

  Lemma lift_uops : forall u s, P s ->
    P (fst (run s (map uop_event u))) /\ Forall O (snd (run s (map uop_event u))).
  Proof.
    induction u as [|o u IH]; intros s HP; cbn [map]; [split; [exact HP | constructor]|].
    rewrite run_cons. cbn [fst snd]. rewrite Forall_app.
    destruct (step0 s (uop_event o)) as [H1 H2]; [destruct o; exact I | exact HP | apply g_uop |].
    destruct (IH _ H1). auto.
  Qed.

  Lemma lift_step : forall s e, P s -> guard s e -> P (fst (step s e)) /\ Forall O (snd (step s e)).
  Proof.
    intros s e HP HG. destruct e as [|u| | | | | |]; try (apply step0; [exact I | assumption | assumption]).
    destruct (step0 s (AttemptOk []) I HP (g_ok s u HG)) as [H1 H2].
    rewrite ok_reentrant. destruct (active s); [|split; assumption].
    rewrite run_cons. cbn [fst snd]. rewrite Forall_app. destruct (lift_uops u _ H1). auto.
  Qed.
End Lift.

Section RunInvariant.
  Context (P : st -> Prop) (O : out -> Prop) (guard : st -> event -> Prop).
  Hypothesis step_inv : forall s e, P s -> guard s e -> P (fst (step s e)) /\ Forall O (snd (step s e)).

  (* [guarded (fun s e => enabled s e = true)] is convertible with [permitted] *)
  Fixpoint guarded (s : st) (evs : list event) : Prop :=
    match evs with
    | [] => True
    | e :: r => guard s e /\ guarded (fst (step s e)) r
    end.

  Lemma run_invariant : forall evs s, P s -> guarded s evs -> P (fst (run s evs)) /\ Forall O (snd (run s evs)).
  Proof.
    induction evs as [|e r IH]; intros s HP HG; [split; [exact HP | constructor]|].
    destruct HG as [He HG]. rewrite run_cons. cbn [fst snd]. rewrite Forall_app.
    destruct (step_inv s e HP He) as [H1 H2]. destruct (IH _ H1 HG). auto.
  Qed.
End RunInvariant.

Lemma guarded_Forall : forall (G : event -> Prop) evs s, Forall G evs -> guarded (fun _ => G) s evs.
Proof. intros G evs s H. revert s. induction H; intros s; [exact I | split; auto]. Qed.

Lemma Forall_True : forall A (l : list A), Forall (fun _ => True) l.
Proof. intros A l. apply Forall_forall. intros; exact I. Qed.

Definition info_agrees (s : st) : Prop :=
  match info s with
  | IUnstarted => False
  | IConnecting => inflight s = 1%nat
  | IConnected => watching s = 1%nat
  | IWaiting => timer_count s = 1%nat
  end.

Definition Inv (s : st) : Prop :=
  leaked s = 0%nat /\
  (active s = true ->
     stopped s = false /\ tub s = true /\ (inflight s + watching s + timer_count s = 1)%nat /\ info_agrees s) /\
  (active s = false -> timer s = None /\ (inflight s + watching s <= 1)%nat) /\
  (tub s = false -> inflight s = 0%nat /\ watching s = 0%nat /\ active s = false) /\
  (stopped s = false -> tub s = true -> active s = true).

(* The states that satisfy Inv, listed: not yet started by the Tub; stopped (an attempt or a connection from before
   may still be outstanding); active with an attempt in flight, a connection watched, or the retry timer pending. *)
Inductive shape : st -> Prop :=
| sh_unstarted sp d inf : shape (mkSt false sp false d None 0 0 0 inf)
| sh_stopped d i w inf : (i + w <= 1)%nat -> shape (mkSt false true true d None i w 0 inf)
| sh_connecting d : shape (mkSt true false true d None 1 0 0 IConnecting)
| sh_connected d : shape (mkSt true false true d None 0 1 0 IConnected)
| sh_waiting d q : shape (mkSt true false true d (Some q) 0 0 0 IWaiting).

Lemma shape_inv : forall s, shape s <-> Inv s.
Proof.
  intros s. split.
  - destruct 1; unfold Inv, info_agrees; cbn; intuition (discriminate || lia).
  - destruct s as [a sp t d tm i w l inf]. intros (Hl & Ha & Hna & Ht & Hs).
    unfold info_agrees, timer_count in Ha. cbn [active stopped tub timer inflight watching leaked info] in *. subst l. destruct a.
    + destruct (Ha eq_refl) as (-> & -> & Hc & Hi).
      destruct inf, tm; try (exfalso; lia).
      * subst i. replace w with 0%nat by lia. constructor.
      * subst w. replace i with 0%nat by lia. constructor.
      * replace i with 0%nat by lia. replace w with 0%nat by lia. constructor.
    + destruct (Hna eq_refl) as [-> Hc]. destruct t.
      * destruct sp; [constructor; exact Hc | discriminate (Hs eq_refl eq_refl)].
      * destruct (Ht eq_refl) as (-> & -> & _). constructor.
Qed.

Lemma inv_init : Inv init_state.
Proof. apply shape_inv. constructor. Qed.

Lemma shape_step0 : forall s e, simple e -> shape s -> enabled s e = true -> shape (fst (step s e)).
Proof.
  intros s e Hs H En. destruct H; simple_event e Hs; try discriminate En;
    try destruct sp; cbn [fst pred]; constructor; lia.
Qed.

Lemma inv_step : forall s e, Inv s -> enabled s e = true -> Inv (fst (step s e)).
Proof.
  intros s e HI He.
  apply (lift_step Inv (fun _ => True) (fun s e => enabled s e = true) enabled_uop (fun _ _ H => H)); try assumption.
  intros s0 e0 S0 I0 E0. split; [|apply Forall_True]. apply shape_inv, shape_step0; [|apply shape_inv|]; assumption.
Qed.

Lemma inv_run : forall evs s, Inv s -> permitted s evs -> Inv (fst (run s evs)).
Proof.
  intros evs s HI HP. apply (run_invariant Inv (fun _ => True) (fun s e => enabled s e = true)); [|exact HI | exact HP].
  intros s0 e H0 He. split; [apply inv_step; assumption | apply Forall_True].
Qed.

Lemma shape_reachable : forall evs, permitted init_state evs -> shape (fst (run init_state evs)).
Proof. intros evs HP. apply shape_inv, inv_run; [exact inv_init | exact HP]. Qed.

Theorem one_activity : forall evs,
  permitted init_state evs ->
  let s := fst (run init_state evs) in
  leaked s = 0%nat /\
  (active s = true -> (inflight s + watching s + timer_count s = 1)%nat /\ info_agrees s) /\
  (active s = false -> timer s = None).
Proof.
  intros evs HP s. destruct (inv_run evs init_state inv_init HP) as (Hl & Ha & Hna & _).
  fold s in Hl, Ha, Hna. split; [exact Hl|]. split.
  - intros E. destruct (Ha E) as (_ & _ & H1 & H2). split; assumption.
  - intros E. apply (Hna E).
Qed.

Theorem active_iff_started_not_stopped : forall evs,
  permitted init_state evs ->
  let s := fst (run init_state evs) in
  active s = true <-> (tub s = true /\ stopped s = false).
Proof.
  intros evs HP s. destruct (inv_run evs init_state inv_init HP) as (_ & Ha & _ & _ & Hs). fold s in Ha, Hs.
  split.
  - intros E. destruct (Ha E) as (H1 & H2 & _). split; assumption.
  - intros [H1 H2]. apply Hs; assumption.
Qed.

Definition Stopped (s : st) : Prop := stopped s = true /\ active s = false /\ timer s = None.

Lemma stop_stops : forall s, Stopped (fst (step s Stop)) /\ Forall (fun o => silent o = true) (snd (step s Stop)).
Proof.
  intros [a sp t d tm i w l inf]. rewrite step_stop. split; [repeat split | destruct tm, t; repeat constructor].
Qed.

Lemma inv_stopped : forall s, Inv s -> stopped s = true -> Stopped s.
Proof. intros s HI H. apply shape_inv in HI. destruct HI; try discriminate H; repeat split; exact H. Qed.

(* every event that can happen (a timer cannot expire: there is none) *)
Lemma stopped_step0 : forall s e, simple e -> Stopped s -> enabled s e = true ->
  Stopped (fst (step s e)) /\ Forall (fun o => silent o = true) (snd (step s e)).
Proof.
  intros [a sp t d tm i w l inf] e Hs (H1 & H2 & H3) En. cbn [stopped active timer] in *. subst.
  simple_event e Hs; try discriminate En; try destruct t; repeat split; repeat constructor.
Qed.

Lemma stopped_step : forall s e, Stopped s -> enabled s e = true ->
  Stopped (fst (step s e)) /\ Forall (fun o => silent o = true) (snd (step s e)).
Proof. exact (lift_step _ _ (fun s e => enabled s e = true) enabled_uop (fun _ _ H => H) stopped_step0). Qed.

Lemma stopped_run : forall evs s, Stopped s -> permitted s evs ->
  Stopped (fst (run s evs)) /\ Forall (fun o => silent o = true) (snd (run s evs)).
Proof. exact (run_invariant _ _ _ stopped_step). Qed.

Theorem silent_after_stop : forall evs1 evs2,
  permitted init_state (evs1 ++ Stop :: evs2) ->
  let s1 := fst (run init_state (evs1 ++ [Stop])) in
  let r := run s1 evs2 in
  Forall (fun o => silent o = true) (snd r) /\ active (fst r) = false /\ timer (fst r) = None /\ leaked (fst r) = 0%nat.
Proof.
  intros evs1 evs2 HP s1 r.
  replace (evs1 ++ Stop :: evs2) with ((evs1 ++ [Stop]) ++ evs2) in HP by (rewrite <- app_assoc; reflexivity).
  destruct (proj1 (permitted_app _ _ _) HP) as [_ HP2]. fold s1 in HP2.
  assert (HS : Stopped s1) by (unfold s1; rewrite run_snoc; apply stop_stops).
  destruct (stopped_run evs2 s1 HS HP2) as ((_ & H2 & H3) & H4).
  destruct (inv_run _ init_state inv_init HP) as (HL & _). rewrite run_app in HL.
  repeat split; assumption.
Qed.

Lemma c_initial : 0 <= initialDelay /\ initialDelay <= maxDelay.
Proof. split; apply Qle_bool_imp_le; vm_compute; reflexivity. Qed.
Lemma c_factor : 0 <= factor. Proof. apply Qle_bool_imp_le; vm_compute; reflexivity. Qed.
Lemma c_jitter : 0 <= jitter. Proof. apply Qle_bool_imp_le; vm_compute; reflexivity. Qed.
Lemma c_max : 0 <= maxDelay. Proof. apply Qle_bool_imp_le; vm_compute; reflexivity. Qed.

Lemma in_range_small : forall Zmax q, 0 <= Zmax -> 0 <= q -> q <= maxDelay -> in_range Zmax q.
Proof.
  intros Zmax q HZ H0 H1. split; [exact H0|]. unfold delay_bound. pose proof c_max.
  assert (0 <= jitter * Zmax) by (apply Qmult_le_0_compat; [apply c_jitter | assumption]). nra.
Qed.

Lemma jitter_in_range : forall Zmax z mu,
  0 <= Zmax -> Zmax * jitter <= 1 -> - Zmax <= z -> z <= Zmax -> 0 <= mu -> mu <= maxDelay ->
  in_range Zmax (normalvariate z mu (mu * jitter)).
Proof.
  intros Zmax z mu HZ HJ Hz1 Hz2 Hm0 Hm1. unfold in_range, normalvariate, delay_bound.
  rewrite Qred_correct. pose proof c_jitter as Hj. pose proof c_max as HM.
  (* mu + z * (mu * jitter) = mu * (1 + z * jitter), and 0 <= 1 + z * jitter <= 1 + jitter * Zmax *)
  assert (A : z * jitter <= Zmax * jitter) by (apply Qmult_le_compat_r; assumption).
  assert (B : - Zmax * jitter <= z * jitter) by (apply Qmult_le_compat_r; assumption).
  split; nra.
Qed.

Lemma backoff_in_range : forall Zmax z d,
  0 <= Zmax -> Zmax * jitter <= 1 -> - Zmax <= z -> z <= Zmax -> 0 <= d ->
  in_range Zmax (jittered z (Qmin (d * factor) maxDelay)).
Proof.
  intros Zmax z d HZ HJ Hz1 Hz2 Hd.
  assert (M0 : 0 <= Qmin (d * factor) maxDelay).
  { apply Q.min_glb; [apply Qmult_le_0_compat; [assumption | apply c_factor] | apply c_max]. }
  pose proof (Q.le_min_r (d * factor) maxDelay) as M1.
  unfold jittered. destruct (q_truthy jitter); [apply jitter_in_range | apply in_range_small]; assumption.
Qed.

Lemma initial_in_range : forall Zmax, 0 <= Zmax -> in_range Zmax initialDelay.
Proof. intros Zmax HZ. destruct c_initial. apply in_range_small; assumption. Qed.

Definition RInv (Zmax : Q) (s : st) : Prop :=
  in_range Zmax (delay s) /\ match timer s with Some d => in_range Zmax d | None => True end.

Lemma rinv_step0 : forall Zmax s e,
  0 <= Zmax -> Zmax * jitter <= 1 -> simple e -> RInv Zmax s -> z_bounded Zmax e ->
  RInv Zmax (fst (step s e)) /\ Forall (out_in_range Zmax) (snd (step s e)).
Proof.
  intros Zmax [a sp t d tm i w l inf] e HZ HJ Hs [[D0 D1] Ht] Hz. cbn [delay timer] in D0, D1, Ht.
  destruct (initial_in_range Zmax HZ) as [I0 I1].
  (* the new delay, timer and timer outputs are among: the old ones, initialDelay, 1, the next backoff delay, half the
     old timer; [repeat constructor] takes the goal apart down to their bounds *)
  simple_event e Hs.
  - destruct sp; repeat constructor; assumption.
  - destruct a; repeat constructor; assumption.
  - destruct Hz as [Hz1 Hz2]. destruct (backoff_in_range Zmax z d HZ HJ Hz1 Hz2 D0).
    destruct a; repeat constructor; assumption.
  - destruct a; repeat constructor; assumption.
  - repeat constructor; assumption.
  - destruct tm as [q|]; [destruct Ht as [T0 T1]|]; repeat constructor; try assumption;
      cbn [fst timer]; rewrite Qred_correct; lra.
  - assert (R : in_range Zmax (1 # 1)).
    { apply in_range_small; [assumption | |]; apply Qle_bool_imp_le; vm_compute; reflexivity. }
    destruct R. destruct tm; repeat constructor; assumption.
  - destruct tm, t; repeat constructor; assumption.
Qed.

Lemma rinv_step : forall Zmax s e,
  0 <= Zmax -> Zmax * jitter <= 1 -> RInv Zmax s -> z_bounded Zmax e ->
  RInv Zmax (fst (step s e)) /\ Forall (out_in_range Zmax) (snd (step s e)).
Proof.
  intros Zmax s e HZ HJ. apply (lift_step _ _ (fun _ e => z_bounded Zmax e)); try (intros; exact I).
  - intros s0 []; exact I.
  - intros s0 e0 S0 R0 Z0. apply rinv_step0; assumption.
Qed.

Lemma rinv_run : forall Zmax evs s,
  0 <= Zmax -> Zmax * jitter <= 1 -> RInv Zmax s -> Forall (z_bounded Zmax) evs ->
  RInv Zmax (fst (run s evs)) /\ Forall (out_in_range Zmax) (snd (run s evs)).
Proof.
  intros Zmax evs s HZ HJ HR HB.
  apply (run_invariant _ _ _ (fun s e => rinv_step Zmax s e HZ HJ)); [exact HR | apply guarded_Forall, HB].
Qed.

Theorem delay_range : forall Zmax evs,
  0 <= Zmax -> Zmax * jitter <= 1 -> Forall (z_bounded Zmax) evs ->
  let r := run init_state evs in
  in_range Zmax (delay (fst r)) /\
  (forall d, timer (fst r) = Some d -> in_range Zmax d) /\
  Forall (out_in_range Zmax) (snd r).
Proof.
  intros Zmax evs HZ HJ HB.
  destruct (rinv_run Zmax evs init_state HZ HJ (conj (initial_in_range Zmax HZ) I) HB) as [[H1 H2] H3].
  split; [exact H1|]. split; [|exact H3]. intros d E. rewrite E in H2. exact H2.
Qed.

(* the hypothesis on the draws is necessary: a draw below -1/jitter gives a negative delay *)
Theorem negative_delay_possible :
  exists z d, permitted init_state [Start; AttemptFail z] /\
              timer (fst (run init_state [Start; AttemptFail z])) = Some d /\ d < 0.
Proof.
  exists (-(9)), (Qred (Qmin (initialDelay * factor) maxDelay + -(9) * (Qmin (initialDelay * factor) maxDelay * jitter))).
  split; [apply permittedb_ok; vm_compute; reflexivity|]. split; [vm_compute; reflexivity|].
  vm_compute. reflexivity.
Qed.

Lemma lost_restarts : forall s, active s = true ->
  snd (step s Lost) = [OSetTimer initialDelay] /\
  delay (fst (step s Lost)) = initialDelay /\ timer (fst (step s Lost)) = Some initialDelay.
Proof.
  intros [a sp t d tm i w l inf] H. cbn [active] in H. subst a. rewrite step_lost. repeat split.
Qed.

Lemma loss_then_failure : forall s z, active s = true ->
  let r := run s [Lost; TimerExpired; AttemptFail z] in
  snd r = [OSetTimer initialDelay; OGetRef; OSetTimer (jittered z (Qmin (initialDelay * factor) maxDelay))] /\
  timer (fst r) = Some (jittered z (Qmin (initialDelay * factor) maxDelay)).
Proof.
  intros [a sp t d tm i w l inf] z H. cbn [active] in H. subst a.
  cbn [run]. rewrite step_lost, step_expired, step_fail. split; reflexivity.
Qed.

Theorem backoff_restarts : forall evs z,
  permitted init_state (evs ++ [AttemptOk []]) ->
  let s := fst (run init_state (evs ++ [AttemptOk []])) in
  active s = true ->
  enabled s Lost = true /\
  let r := run s [Lost; TimerExpired; AttemptFail z] in
  permitted s [Lost; TimerExpired; AttemptFail z] /\
  snd r = [OSetTimer initialDelay; OGetRef; OSetTimer (jittered z (Qmin (initialDelay * factor) maxDelay))] /\
  timer (fst r) = Some (jittered z (Qmin (initialDelay * factor) maxDelay)).
Proof.
  intros evs z HP. cbv zeta. rewrite run_snoc.
  destruct (proj1 (permitted_app _ _ _) HP) as [HP1 [He _]]. revert He.
  destruct (shape_reachable _ HP1); intros He; try discriminate He;
    rewrite step_ok; cbn [fst active pred]; intros Ha; try discriminate Ha.
  split; [reflexivity|]. split; [repeat split | apply loss_then_failure; reflexivity].
Qed.

Theorem keeps_retrying : forall evs,
  permitted init_state evs ->
  let s := fst (run init_state evs) in
  active s = true ->
  (* one of the three is pending, and each of them leads to the next attempt: *)
  (enabled s (AttemptOk []) = true \/ enabled s Lost = true \/ enabled s TimerExpired = true) /\
  (forall z, enabled s (AttemptFail z) = true ->
     exists d, snd (step s (AttemptFail z)) = [OSetTimer d] /\ timer (fst (step s (AttemptFail z))) = Some d
               /\ active (fst (step s (AttemptFail z))) = true) /\
  (enabled s Lost = true ->
     snd (step s Lost) = [OSetTimer initialDelay] /\ active (fst (step s Lost)) = true) /\
  (enabled s TimerExpired = true ->
     snd (step s TimerExpired) = [OGetRef] /\ inflight (fst (step s TimerExpired)) = 1%nat
     /\ active (fst (step s TimerExpired)) = true).
Proof.
  intros evs HP. cbv zeta.
  destruct (shape_reachable evs HP); intros Ha; try discriminate Ha;
    (split; [cbn; auto|]); (split; [intros z _; rewrite step_fail; eexists; repeat split|]);
    rewrite step_lost, step_expired; split; intros En; try discriminate En; repeat split.
Qed.

(* The environment, derived from the outputs.
   What the Tub / a RemoteReference / the reactor hold for the Reconnector is determined by what the translated methods
   DID (getReference called, watcher registered, callLater, cancel) and by which of those have fired since -- not by the
   counters of the model state.  The ledger below is computed from the outputs and the events alone; the theorem says
   it always equals the counters, so `enabled` (a Deferred / watcher / timer can only fire if there is one) is exactly
   "the translated methods created it and it has neither fired nor been cancelled". *)
Local Open Scope Z_scope.
Definition ledger := (Z * Z * Z)%type.     (* Deferreds of getReference not yet fired, watchers not yet fired, pending DelayedCalls *)
Definition led_out (v : ledger) (o : out) : ledger :=
  match v with (d, w, t) =>
    match o with
    | OGetRef => (d + 1, w, t)
    | OWatch => (d, w + 1, t)
    | OSetTimer _ => (d, w, t + 1)
    | OCancelTimer => (d, w, t - 1)
    | _ => v
    end end.
Definition led_event (v : ledger) (e : event) : ledger :=
  match v with (d, w, t) =>
    match e with
    | AttemptOk _ | AttemptFail _ => (d - 1, w, t)
    | Lost => (d, w - 1, t)
    | TimerExpired => (d, w, t - 1)
    | _ => v
    end end.
Fixpoint led_run (s : st) (v : ledger) (evs : list event) : ledger :=
  match evs with
  | [] => v
  | e :: r => let (s1, o1) := step s e in led_run s1 (fold_left led_out o1 (led_event v e)) r
  end.
Definition counters (s : st) : ledger :=
  (Z.of_nat (inflight s), Z.of_nat (watching s), Z.of_nat (timer_count s + leaked s)).

Lemma ledger_eq : forall d w t d' w' t' : Z, d = d' -> w = w' -> t = t' -> (d, w, t) = (d', w', t').
Proof. intros. subst. reflexivity. Qed.

Lemma led_step0 : forall s e, simple e -> enabled s e = true ->
  fold_left led_out (snd (step s e)) (led_event (counters s) e) = counters (fst (step s e)).
Proof.
  intros [a sp t d tm i w l inf] e Hs En. unfold counters.
  simple_event e Hs; cbn [enabled inflight watching timer timer_truthy] in En; try apply Nat.ltb_lt in En;
    [destruct sp, tm | destruct a, tm | destruct a, tm | destruct a, tm | destruct tm; [|discriminate En]
    | destruct tm | destruct tm | destruct tm, t];
    cbn [fst snd app fold_left led_out led_event inflight watching leaked timer timer_count]; apply ledger_eq; lia.
Qed.

Lemma led_uops : forall u s,
  fold_left led_out (snd (run s (map uop_event u))) (counters s) = counters (fst (run s (map uop_event u))).
Proof.
  induction u as [|o u IH]; intros s; [reflexivity|]. cbn [map]. rewrite run_cons. cbn [fst snd].
  rewrite fold_left_app, <- IH. f_equal.
  destruct o; [exact (led_step0 s Stop I eq_refl) | exact (led_step0 s Reset I eq_refl)].
Qed.

Lemma led_step : forall s e, enabled s e = true ->
  fold_left led_out (snd (step s e)) (led_event (counters s) e) = counters (fst (step s e)).
Proof.
  intros s e En. destruct e as [|u| | | | | |]; try (apply led_step0; [exact I | assumption]).
  pose proof (led_step0 s (AttemptOk []) I En) as H0. rewrite ok_reentrant. destruct (active s); [|exact H0].
  rewrite run_cons. cbn [fst snd]. rewrite fold_left_app, <- led_uops. f_equal. exact H0.
Qed.

Theorem ledger_agrees : forall evs s, permitted s evs -> led_run s (counters s) evs = counters (fst (run s evs)).
Proof.
  induction evs as [|e r IH]; intros s HP; [reflexivity|]. destruct HP as [He HP].
  rewrite run_cons. cbn [fst led_run]. rewrite <- (IH _ HP), <- (led_step s e He). destruct (step s e); reflexivity.
Qed.

(* an event of the environment is enabled iff the ledger -- what the methods created minus what fired or was cancelled --
   holds such a thing *)
Theorem enabled_is_ledger : forall evs, permitted init_state evs ->
  let s := fst (run init_state evs) in
  match led_run init_state (0, 0, 0) evs with (d, w, t) =>
    (forall u, enabled s (AttemptOk u) = true <-> 0 < d) /\ (forall z, enabled s (AttemptFail z) = true <-> 0 < d) /\
    (enabled s Lost = true <-> 0 < w) /\ (enabled s TimerExpired = true <-> 0 < t) /\
    d = Z.of_nat (inflight s) /\ w = Z.of_nat (watching s) /\ t = Z.of_nat (timer_count s)
  end.
Proof.
  intros evs HP s. rewrite (ledger_agrees evs init_state HP : led_run init_state (0, 0, 0) evs = counters s).
  destruct (one_activity evs HP) as (HL & _). fold s in HL. unfold counters. rewrite HL, Nat.add_0_r.
  assert (G : forall n, (0 <? n)%nat = true <-> 0 < Z.of_nat n) by (intros n; rewrite Nat.ltb_lt; lia).
  cbn [enabled]. split; [intros _; apply G|]. split; [intros _; apply G|]. split; [apply G|]. split; [|repeat split].
  unfold timer_truthy, timer_count. destruct (timer s); split; easy.
Qed.

Example ex_ledger : led_run init_state (0, 0, 0) [Start; AttemptFail (1 # 2); TimerExpired; AttemptOk [UReset]; Lost; Stop] = (0, 0, 0)
  /\ led_run init_state (0, 0, 0) [Start; AttemptFail (1 # 2)] = (0, 0, 1).
Proof. vm_compute. split; reflexivity. Qed.

Local Close Scope Z_scope.
Local Open Scope Q_scope.

Example ex_permitted :
  permitted init_state [Start; AttemptFail (1 # 2); TimerExpired; AttemptFail (-(8)); Elapse; Reset; TimerExpired;
                        AttemptOk [UReset]; Lost; TimerExpired; Stop; AttemptOk [UStop]; Reset].
Proof. apply permittedb_ok. vm_compute. reflexivity. Qed.

Example ex_active :
  active (fst (run init_state [Start; AttemptFail (1 # 2); TimerExpired; AttemptFail (-(8)); Elapse])) = true
  /\ timer_count (fst (run init_state [Start; AttemptFail (1 # 2); TimerExpired; AttemptFail (-(8)); Elapse])) = 1%nat.
Proof. vm_compute. split; reflexivity. Qed.

Example ex_zmax : 0 <= 8 /\ 8 * jitter <= 1 /\ z_bounded 8 (AttemptFail (-(8))) /\ ~ (9 * jitter <= 1).
Proof.
  split; [apply Qle_bool_imp_le; vm_compute; reflexivity|].
  split; [apply Qle_bool_imp_le; vm_compute; reflexivity|].
  split; [split; apply Qle_bool_imp_le; vm_compute; reflexivity|].
  intros H. apply Qle_bool_iff in H. vm_compute in H. discriminate.
Qed.

Example ex_backoff_premise :
  permitted init_state ([Start; AttemptFail 2; TimerExpired; AttemptFail 2; TimerExpired] ++ [AttemptOk []]) /\
  active (fst (run init_state ([Start; AttemptFail 2; TimerExpired; AttemptFail 2; TimerExpired] ++ [AttemptOk []]))) = true.
Proof. split; [apply permittedb_ok; vm_compute; reflexivity | vm_compute; reflexivity]. Qed.

(* stopConnecting while still queued for Tub.startService, then the Tub starts the Reconnector: it unregisters and stays
   inactive with no attempt (before foolscap's commit 6967c1e, which added _stopped, startConnecting re-activated it) *)
Example ex_stop_before_start :
  permitted init_state [Stop; Start; Reset; Stop] /\
  snd (run init_state [Stop; Start; Reset; Stop]) = [ORemove; ORemove] /\
  active (fst (run init_state [Stop; Start])) = false /\ inflight (fst (run init_state [Stop; Start])) = 0%nat.
Proof. split; [apply permittedb_ok; vm_compute; reflexivity | vm_compute; repeat split; reflexivity]. Qed.

(* pb.py calls startConnecting from exactly two places (connectTo on a running Tub, startService for queued ones) *)
Example ex_start_sites : tub_start_sites = 2%nat.
Proof. reflexivity. Qed.
