(* C06, second layer.
   Part T: the dispatcher assembled from the translated source equals the model of lib/Reach.v (obj_call_T_eq), given
   well-kinded tables: for a negative id the translated _doCall asks callable(obj), for the others IRemotelyCallable(obj),
   where the model looks at the sign of the id only.  Every history keeps the tables well-kinded (step_kinds), whence run_T_eq.
   Part X: reference arguments (my-reference, their-reference), delivered values, proxy table, dial requests.  xdo_args_core
   reduces the extended argument pass to the core one on the list without reference arguments (`strip`). *)
From Coq Require Import ZArith List String Bool Lia Ascii NArith.
Import ListNotations.
Require Import Verif.lib.PyLite Verif.gen.ReachGen Verif.gen.ReachDispGen Verif.lib.Reach Verif.lib.ReachProofs Verif.lib.ReachDeep.
Local Open Scope Z_scope.

(* The list functions of the generated file (zget_, zset_, sget_, ...) are those of lib/Reach.v body for body, hence
   convertible with them: `change` suffices. *)
Lemma lookup_T_spec (ex : list (Z * (Z * Z))) k :
  gen_get_my_reference ex k =
  if k =? 0 then XOk TBroker else match @zget (Z * Z) k ex with Some (o, _) => XOk (TObj o) | None => XRaise EKeyError end.
Proof.
  unfold gen_get_my_reference. change (zget_ k ex) with (zget k ex). destruct (k =? 0); [reflexivity|].
  destruct (zget k ex) as [[o rc]|]; reflexivity.
Qed.

Lemma stage1_spec (ex : list (Z * (Z * Z))) gi clid :
  clid <> 0 ->
  gen_stage1 (gen_get_my_reference ex) gi clid =
  match @zget (Z * Z) clid ex with
  | Some (o, _) => XOk (clid, TObj o, if clid <? 0 then None else gi (TObj o), 2)
  | None => XRaise EViolation
  end.
Proof.
  intros NZ. unfold gen_stage1. rewrite lookup_T_spec. destruct (Z.eqb_spec clid 0) as [E|_]; [contradiction|].
  destruct (zget clid ex) as [[o rc]|]; [destruct (clid <? 0)|]; reflexivity.
Qed.

Definition yourref_exn : exn := match yourref_unknown_clid with RejectR => EViolation | AbortR => EKeyError end.
Lemma yourref_close_spec (ex : list (Z * (Z * Z))) k :
  gen_yourref_close (gen_get_my_reference ex) (Some k) =
  if k =? 0 then XOk TBroker else match @zget (Z * Z) k ex with Some (o, _) => XOk (TObj o) | None => XRaise yourref_exn end.
Proof.
  unfold gen_yourref_close. cbn [is_none_]. rewrite lookup_T_spec.
  destruct (k =? 0); [reflexivity|]. destruct (zget k ex) as [[o rc]|]; reflexivity.
Qed.

Lemma do_args_T_eq copy ex args : forall inst, do_args_T copy ex args inst = do_args copy ex args inst.
Proof.
  induction args as [|a args IH]; intros inst; [reflexivity|].
  cbn [do_args_T do_args]. destruct a as [v|s|k|n|t]; try apply IH.
  - destruct ((k <? 0) && negb yourref_accepts_neg); [reflexivity|].
    rewrite yourref_close_spec. unfold broker_clid.
    destruct (k =? 0); cbn [orb]; [apply IH|].
    destruct (zget k ex) as [[o rc]|]; cbn [is_some]; [apply IH|]. reflexivity.
  - destruct (sget n copy); [apply IH | reflexivity].
  - destruct (mem_type [t] open_types); [apply IH | reflexivity].
Qed.

Lemma docall_callable w o sch :
  o_kind (w_obj w o) = KCallable ->
  perform w (gen_docall (TObj o) None sch true (is_callable_T w) (adaptable_T w)) = Enter (ECallable o).
Proof. intros K. unfold gen_docall, perform, is_callable_T. destruct sch; cbn [is_some_ is_none_]; rewrite !K; reflexivity. Qed.
Lemma docall_method w o s sch :
  o_kind (w_obj w o) = KObj ->
  perform w (gen_docall (TObj o) (Some s) sch true (is_callable_T w) (adaptable_T w)) =
  if mem_str (remote_prefix ++ s) (o_attrs (w_obj w o)) then Enter (EObj o (remote_prefix ++ s)) else Reject.
Proof.
  intros K. unfold gen_docall, perform, adaptable_T, gen_doremotecall, remote_prefix. change @mem_str_ with @mem_str.
  destruct sch; cbn [is_some_ is_none_]; rewrite K; destruct (mem_str ("remote_" ++ s) (o_attrs (w_obj w o))); reflexivity.
Qed.

(* the dispatcher assembled from the translated receiveChild / _doCall / doRemoteCall is the hand-written obj_call *)
Theorem obj_call_T_eq : forall w copy cn clid m args,
  kinds_ok w cn -> clid <> 0 -> obj_call_T w copy cn clid m args = obj_call w copy cn clid m args.
Proof.
  intros w copy cn clid m args K NZ. unfold obj_call_T, obj_call. rewrite (stage1_spec _ _ _ NZ), do_args_T_eq.
  destruct (zget clid (c_exports cn)) as [[o rc]|] eqn:G; [|reflexivity].
  destruct (K _ _ _ (zget_In _ _ _ G)) as [Kneg Kpos].
  unfold gen_stage2, negative_clid_ignores_name, broker_require_schema. rewrite andb_true_r.
  destruct (clid <? 0) eqn:S; cbn [andb].
  - apply Z.ltb_lt in S. destruct (do_args copy (c_exports cn) args []) as [i|i r]; [|reflexivity].
    rewrite (docall_callable _ _ _ (Kneg S)). reflexivity.
  - apply Z.ltb_ge in S. destruct m as [s|]; cbn [tok_of ensure_str]; [|reflexivity].
    unfold iface_enforced, target_iface, iface_get. cbn [andb].
    destruct (o_iface (w_obj w o)) as [l|]; cbn [is_some_];
      [change (mem_str_ s l) with (mem_str s l); destruct (mem_str s l); cbn [is_some_ negb parse_refusal]; [|reflexivity]|];
      (destruct (do_args copy (c_exports cn) args []) as [i|i r]; [|reflexivity]);
      rewrite (docall_method _ _ _ _ (Kpos S)); destruct (mem_str _ _); reflexivity.
Qed.

Lemma puid_has ex k o rc : In (k, (o, rc)) ex -> is_some (zget o (puid_table ex)) = true.
Proof.
  induction ex as [|[k' [o' rc']] ex IH]; intros H; [destruct H|]. cbn [puid_table map fst snd zget].
  destruct H as [H|H].
  - inversion H; subst. rewrite Z.eqb_refl. reflexivity.
  - destruct (o =? o'); [reflexivity|]. apply IH; exact H.
Qed.

Lemma remote_decref_spec (ex : list (Z * (Z * Z))) k n :
  gen_remote_decref tracker_decref ex (puid_table ex) k n =
  if k =? 0 then XRaise EAssert
  else match zget k ex with
       | None => XOk (ex, puid_table ex)
       | Some (o, rc) =>
         match tracker_decref n rc with
         | Ok (done, rc') => XOk (if done then (zdel k ex, zdel o (puid_table ex))
                                  else (zset k (o, rc') ex, zset o (o, rc') (puid_table ex)))
         | Exc _ => XRaise EAssert
         end
       end.
Proof.
  unfold gen_remote_decref, tracker, zhas_. change @zget_ with @zget. change @zdel_ with @zdel. change @is_some_ with @is_some.
  destruct (k =? 0); cbn [negb]; [reflexivity|].
  destruct (zget k ex) as [[o rc]|] eqn:G; [|reflexivity].
  cbn [fst snd]. destruct (tracker_decref n rc) as [[done rc']|tag]; [|reflexivity].
  pose proof (puid_has _ _ _ _ (zget_In _ _ _ G)) as PH.
  destruct (zget o (puid_table ex)) as [v|]; [clear PH|discriminate].
  (* shape-independent: whichever way the source orders the test of `done`, the returns and the two deletions *)
  destruct done; cbv zeta; cbn [negb zget zdel]; rewrite ?Z.eqb_refl; cbn [is_some]; rewrite ?zdel_zdel; reflexivity.
Qed.

(* the translated Broker.remote_decref does to myReferenceByCLID what the hand-written decref does *)
Theorem decref_T_eq : forall cn k n, decref_T cn k n = decref cn k n.
Proof.
  intros cn k n. unfold decref_T, decref. rewrite remote_decref_spec. destruct (k =? 0); [reflexivity|].
  destruct (zget k (c_exports cn)) as [[o rc]|]; [|destruct cn; reflexivity].
  destruct (tracker_decref n rc) as [[[] rc']|tag]; reflexivity.
Qed.

(* ... and removes the object from myReferenceByPUID exactly when it removes the id from myReferenceByCLID *)
Theorem decref_both_tables : forall (ex : list (Z * (Z * Z))) k n byclid bypuid o rc,
  gen_remote_decref tracker_decref ex (puid_table ex) k n = XOk (byclid, bypuid) -> zget k ex = Some (o, rc) ->
  (zget k byclid = None <-> zget o bypuid = None).
Proof.
  intros ex k n byclid bypuid o rc H G. rewrite remote_decref_spec, G in H. destruct (k =? 0); [discriminate|].
  destruct (tracker_decref n rc) as [[[] rc']|tag]; [| |discriminate]; injection H as <- <-.
  - rewrite !zget_zdel_same. split; reflexivity.
  - rewrite !zget_zset_same. split; discriminate.
Qed.

Lemma set_names_id st : set_names st (s_n2r st) (s_r2n st) = st.
Proof. destruct st; reflexivity. Qed.
Lemma truthy_str_empty p : truthy_str p = negb (str_empty p).
Proof. destruct p; reflexivity. Qed.

Theorem assign_name_T_eq : forall st o pref sw, assign_name_T st o pref sw = assign_name st o pref sw.
Proof.
  intros st o pref sw. unfold assign_name_T, assign_name, gen_assign_name. cbn [negb].
  unfold zhas_. change @zget_ with @zget. destruct (zget o (s_r2n st)) as [nm|]; cbn [is_some_].
  - apply set_names_id.
  - rewrite truthy_str_empty, negb_involutive. destruct (str_empty pref); reflexivity.
Qed.

Theorem found_name_T_eq : forall w st n, found_name_T w st n = found_name w st n.
Proof.
  intros w st n. unfold found_name_T, found_name, gen_get_reference_for_name, handler_answers_cached.
  unfold shas_, zhas_. change @sget_ with @sget. change @zget_ with @zget.
  destruct (sget n (s_n2r st)) as [o|]; cbn [is_some_].
  - rewrite set_names_id. reflexivity.
  - destruct (sget n (s_h st)) as [o|]; [|reflexivity].
    destruct (zget o (s_r2n st)) as [nm|]; cbn [is_some_ is_some negb]; [rewrite set_names_id|]; reflexivity.
Qed.

Definition all_kinds_ok (w : world) (st : state) : Prop := forall c, kinds_ok w (get_conn st c).

Theorem step_T_eq : forall w st e, all_kinds_ok w st -> step_T w st e = step w st e.
Proof.
  intros w st e K. destruct e as [n o sw|o|n cls|n cls em|o d|n o|n| |c o sw|c req clid m args|c t|c]; try reflexivity.
  { cbn [step_T step]. rewrite assign_name_T_eq. reflexivity. }
  cbn [step_T step]. destruct (negb (c_alive (get_conn st c))) eqn:AL; [reflexivity|].
  destruct (clid =? broker_clid) eqn:BC.
  - destruct (broker_call m args) as [out fx] eqn:B.
    destruct fx; cbn [step]; rewrite ?AL, ?BC, ?B, ?decref_T_eq, ?found_name_T_eq; reflexivity.
  - apply Z.eqb_neq in BC. rewrite (obj_call_T_eq (eff w (s_decl st)) _ _ _ _ _ (K c) BC). reflexivity.
Qed.

Lemma grant_kinds w st c o sw :
  0 < c_next (get_conn st c) -> kinds_ok w (get_conn st c) -> kinds_ok w (get_conn (fst (grant w st c o sw)) c).
Proof.
  intros Nx K. rewrite grant_eq. destruct (c_alive (get_conn st c)); [|exact K].
  destruct (grant_slot w (get_conn st c) o) as [[clid rc] nxt] eqn:F.
  assert (NEW : (clid < 0 -> o_kind (w_obj w o) = KCallable) /\ (0 <= clid -> o_kind (w_obj w o) = KObj)).
  { unfold grant_slot in F. destruct (find_obj o (c_exports (get_conn st c))) as [[k rc0]|] eqn:FO.
    - injection F as <- _ _. exact (K _ _ _ (find_obj_In _ _ _ _ FO)).
    - destruct (o_kind (w_obj w o)); injection F as <- _ _; split; intros; try reflexivity; lia. }
  cbn [fst]. destruct (_ =? 1); rewrite ?get_assign, get_set_same;
    (intros k o' rc' [[= -> -> _]|Hin]%In_zset; [exact NEW | exact (K _ _ _ Hin)]).
Qed.

Lemma step_kinds w st e c :
  conn_ok (get_conn st c) -> kinds_ok w (get_conn st c) -> kinds_ok w (get_conn (fst (step w st e)) c).
Proof.
  intros Ok K.
  assert (D : on_conn e <> Some c \/ on_conn e = Some c).
  { destruct (on_conn e) as [c0|]; [destruct (cid_dec c0 c); [right|left]; congruence | left; discriminate]. }
  destruct D as [D|D]; [rewrite (step_other_conn _ _ _ _ D); exact K|].
  assert (E : kinds_ok w (drop_conn (get_conn st c))) by (intros ? ? ? []).
  destruct e as [| | | | | | | |c0 o sw|c0 req clid m args|c0 t|c0]; try discriminate D; injection D as ->.
  - rewrite step_grant. exact (grant_kinds w st c o sw (proj1 Ok) K).
  - destruct (step w st (Msg c req clid m args)) as [st' r] eqn:S. cbn [fst]. apply msg_effect in S.
    destruct S as [[_ [->|[->|[k [n ->]]]]]|[nm [o [st0 [_ [_ [_ [FN F]]]]]]]]; rewrite ?get_set_same.
    + exact K.
    + exact E.
    + intros k' o' rc' Hin. destruct (proj2 (decref_ok _ k n Ok) _ _ _ Hin) as [rc0 Hin0]. exact (K _ _ _ Hin0).
    + destruct (found_name_some _ _ _ _ _ FN) as [_ [_ E0]].
      destruct (req =? 0); [destruct F as [-> _]; rewrite E0; exact K|].
      pose proof (grant_kinds w st0 c o "") as G. rewrite F, E0 in G. exact (G (proj1 Ok) K).
  - exact K.
  - cbn [step fst]. rewrite get_set_same. exact E.
Qed.

Lemma init_kinds w : all_kinds_ok w init.
Proof. intros c k o rc Hin. destruct c; destruct Hin. Qed.

Lemma run_T_eq_from w h : forall st log,
  inv st log -> all_kinds_ok w st -> run_T w st h = run w st h /\ all_kinds_ok w (fst (run w st h)).
Proof.
  induction h as [|e h IH]; intros st log I K; [split; [reflexivity | exact K]|].
  cbn [run_T run]. rewrite (step_T_eq w st e K).
  assert (K1 : all_kinds_ok w (fst (step w st e))) by (intros c; apply step_kinds; [apply I | apply K]).
  destruct (step w st e) as [st1 x] eqn:S.
  destruct (IH st1 _ (step_inv _ _ _ _ _ _ I S) K1) as [-> K2]. destruct (run w st1 h) as [st2 xs]. split; [reflexivity | exact K2].
Qed.

(* negative ids denote bound methods / functions, positive ids Referenceables, in every state any history leads to *)
Theorem kinds_reachable : forall w h st rs c k o rc,
  run w init h = (st, rs) -> zget k (c_exports (get_conn st c)) = Some (o, rc) ->
  (k < 0 -> o_kind (w_obj w o) = KCallable) /\ (0 < k -> o_kind (w_obj w o) = KObj).
Proof.
  intros w h st rs c k o rc R G. pose proof (proj2 (run_T_eq_from w h init [] init_inv (init_kinds w)) c) as K.
  rewrite R in K. destruct (K _ _ _ (zget_In _ _ _ G)) as [A B]. split; [exact A | intros; apply B; lia].
Qed.

Theorem run_T_eq : forall w h, run_T w init h = run w init h.
Proof. intros w h. exact (proj1 (run_T_eq_from w h init [] init_inv (init_kinds w))). Qed.

Lemma do_args_T_cons copy ex a r inst :
  do_args_T copy ex (a :: r) inst =
  match do_args_T copy ex [a] [] with
  | ArgsOk i => do_args_T copy ex r (inst ++ i)
  | ArgsFail i rf => ArgsFail (inst ++ i) rf
  end.
Proof.
  cbn [do_args_T]. destruct a as [v|s|k|n|t]; cbn [app]; rewrite ?app_nil_r; try reflexivity.
  - destruct ((k <? 0) && negb yourref_accepts_neg); [rewrite app_nil_r; reflexivity|].
    destruct (gen_yourref_close (gen_get_my_reference ex) (Some k)); rewrite app_nil_r; reflexivity.
  - destruct (sget n copy); [reflexivity | rewrite app_nil_r; reflexivity].
  - destruct (mem_type [t] open_types); rewrite app_nil_r; reflexivity.
Qed.

Lemma strip_In a xs : In a (strip xs) -> In (XA a) xs.
Proof.
  intros H. apply in_flat_map in H. destruct H as [[a'|k|g u ok] [Hx H]]; [|destruct H..]. destruct H as [<-|[]]. exact Hx.
Qed.

Definition xacc_of (r : xargres) : xacc := match r with XArgsOk a | XArgsFail a _ => a end.

(* reference arguments never change what the OTHER arguments do: the core of the extended argument pass is the argument
   pass of the core model on the remaining arguments *)
Lemma xdo_args_core ag copy ex xs : forall acc,
  do_args_T copy ex (strip xs) (x_inst acc) =
  match xdo_args ag copy ex xs acc with XArgsOk a => ArgsOk (x_inst a) | XArgsFail a r => ArgsFail (x_inst a) r end.
Proof.
  induction xs as [|[a|k|g u ok] xs IH]; intros acc; cbn [xdo_args]; [reflexivity | | rewrite <- IH; reflexivity..].
  change (strip (XA a :: xs)) with (a :: strip xs). rewrite do_args_T_cons.
  destruct (do_args_T copy ex [a] []) as [i|i rf]; [rewrite <- IH|]; reflexivity.
Qed.

Lemma xdo_args_inst ag copy ex xs cls :
  In cls (x_inst (xacc_of (xdo_args ag copy ex xs xacc0))) -> exists n, In (XA (ACopyable n)) xs /\ sget n copy = Some cls.
Proof.
  intros H.
  assert (D : In cls (argres_inst (do_args copy ex (strip xs) []))).
  { rewrite <- do_args_T_eq, (xdo_args_core ag copy ex xs xacc0 : do_args_T _ _ _ [] = _).
    destruct (xdo_args ag copy ex xs xacc0); exact H. }
  destruct (do_args_inst _ _ _ _ _ D) as [[]|[n [A B]]]. exists n. split; [apply strip_In; exact A | exact B].
Qed.

(* what each accepted argument position delivers to the entered method, and why *)
Definition justified (copy : list (string * Z)) (ex : list (Z * (Z * Z))) (x : xarg) (v : argval) : Prop :=
  match x, v with
  | XMyRef k, VProxy k' => k = k'                                              (* a proxy for the PEER's object: never a local one *)
  | XTheirRef _ _ _, VGift => True
  | XA (AYourRef k), VBrokerSelf => k = 0
  | XA (AYourRef k), VLocal o => k <> 0 /\ exists rc, zget k ex = Some (o, rc)  (* a local object: only through this connection's table *)
  | XA (ACopyable n), VCopy c => sget n copy = Some c
  | XA (AInt _), VData | XA (ABytes _), VData | XA (AOpen _), VData => True
  | _, _ => False
  end.

Lemma single_arg_justified copy ex a i : do_args_T copy ex [a] [] = ArgsOk i -> justified copy ex (XA a) (val_of ex a i).
Proof.
  rewrite do_args_T_eq. cbn [do_args]. destruct a as [v|s|k|n|t]; cbn [justified val_of]; auto.
  - destruct ((k <? 0) && negb yourref_accepts_neg); [discriminate|].
    unfold broker_clid. destruct (Z.eqb_spec k 0) as [Z0|Z0]; cbn [orb]; [intros _; exact Z0|].
    destruct (zget k ex) as [[o rc]|]; cbn [is_some]; [intros _; split; [exact Z0 | exists rc; reflexivity]|].
    destruct clid_lookup; discriminate.
  - destruct (sget n copy) as [c|]; [|discriminate]. intros [= <-]. reflexivity.
Qed.

Lemma xdo_args_argv ag copy ex xs : forall pre acc a,
  Forall2 (justified copy ex) pre (x_argv acc) -> xdo_args ag copy ex xs acc = XArgsOk a ->
  Forall2 (justified copy ex) (pre ++ xs) (x_argv a).
Proof.
  induction xs as [|x xs IH]; intros pre acc a F H; cbn [xdo_args] in H.
  - injection H as <-. rewrite app_nil_r. exact F.
  - change (pre ++ x :: xs) with (pre ++ [x] ++ xs). rewrite app_assoc.
    destruct x as [a0|k|g u ok]; [destruct (do_args_T copy ex [a0] []) as [i|i rf] eqn:D; [|discriminate]| |];
      refine (IH _ _ _ _ H); cbn [x_argv]; (apply Forall2_app; [exact F|]); repeat constructor.
    exact (single_arg_justified _ _ _ _ D).
Qed.

Lemma xdo_args_yours ag copy ex xs : forall acc k,
  In k (x_yours (xacc_of (xdo_args ag copy ex xs acc))) -> In k (x_yours acc) \/ In (XMyRef k) xs.
Proof.
  induction xs as [|x xs IH]; intros acc k H; [left; exact H|]. cbn [xdo_args] in H.
  destruct x as [a|k0|g u ok]; [destruct (do_args_T copy ex [a] []); [|left; exact H]| |];
    apply IH in H; cbn [x_yours] in H; destruct H as [H|H]; try (right; right; exact H); try (left; exact H).
  apply in_app_or in H. destruct H as [H|[->|[]]]; [left; exact H | right; left; reflexivity].
Qed.
Lemma xdo_args_dial ag copy ex xs : forall acc g u,
  In (g, u) (x_dial (xacc_of (xdo_args ag copy ex xs acc))) ->
  In (g, u) (x_dial acc) \/ (ag = true /\ exists ok, In (XTheirRef g u ok) xs).
Proof.
  induction xs as [|x xs IH]; intros acc g u H; [left; exact H|]. cbn [xdo_args] in H.
  assert (W : ag = true /\ (exists ok, In (XTheirRef g u ok) xs) -> ag = true /\ exists ok, In (XTheirRef g u ok) (x :: xs))
    by (intros [A [ok B]]; split; [exact A | exists ok; right; exact B]).
  destruct x as [a|k|g0 u0 ok0]; [destruct (do_args_T copy ex [a] []); [|left; exact H]| |];
    apply IH in H; cbn [x_dial] in H; destruct H as [H|H]; try (right; exact (W H)); try (left; exact H).
  destruct ag; [|left; exact H]. apply in_app_or in H. destruct H as [H|[[= -> ->]|[]]]; [left; exact H|].
  right. split; [reflexivity | exists ok0; left; reflexivity].
Qed.

Definition gift_ok (ag : bool) (x : xarg) : bool := match x with XTheirRef _ _ ok => ag && ok | _ => true end.
Lemma xdo_args_gifts ag copy ex xs : forall acc a,
  xdo_args ag copy ex xs acc = XArgsOk a -> x_gifts_ok a = x_gifts_ok acc && forallb (gift_ok ag) xs.
Proof.
  induction xs as [|x xs IH]; intros acc a H; cbn [xdo_args] in H.
  - injection H as <-. symmetry. apply andb_true_r.
  - destruct x as [a0|k|g u ok]; [destruct (do_args_T copy ex [a0] []); [|discriminate]| |];
      rewrite (IH _ _ H); cbn [x_gifts_ok forallb gift_ok]; rewrite <- ?andb_assoc; reflexivity.
Qed.

Lemma xobj_call_enter ag w copy cn clid m xs e :
  r_out (xr_core (xobj_call ag w copy cn clid m xs)) = Enter e ->
  exists a, xdo_args ag copy (c_exports cn) xs xacc0 = XArgsOk a /\ x_gifts_ok a = true /\
    xobj_call ag w copy cn clid m xs =
      {| xr_core := {| r_inst := x_inst a; r_out := Enter e; r_sent := [] |};
         xr_argv := x_argv a; xr_yours := x_yours a; xr_dial := x_dial a |} /\
    obj_call_T w copy cn clid m (strip xs) = (x_inst a, Enter e).
Proof.
  unfold xobj_call, obj_call_T.
  destruct (gen_stage1 _ _ clid) as [[[[objID obj] interface] stg]|ex1]; [|destruct ex1; discriminate].
  destruct (gen_stage2 objID interface (tok_of m) broker_require_schema None) as [[[stg2 methodname] schema]|ex2];
    [|destruct ex2; discriminate].
  rewrite (xdo_args_core ag copy (c_exports cn) xs xacc0 : do_args_T _ _ _ [] = _).
  destruct (xdo_args ag copy (c_exports cn) xs xacc0) as [a|a r]; [|destruct r; discriminate].
  destruct (x_gifts_ok a) eqn:G; [|discriminate]. cbn [xr_core r_out]. intros H. exists a. rewrite H. auto.
Qed.

Lemma xobj_call_acc ag w copy cn clid m xs :
  let a := xacc_of (xdo_args ag copy (c_exports cn) xs xacc0) in
  incl (r_inst (xr_core (xobj_call ag w copy cn clid m xs))) (x_inst a) /\
  incl (xr_yours (xobj_call ag w copy cn clid m xs)) (x_yours a) /\
  incl (xr_dial (xobj_call ag w copy cn clid m xs)) (x_dial a) /\
  r_sent (xr_core (xobj_call ag w copy cn clid m xs)) = [].
Proof.
  unfold xobj_call. destruct (gen_stage1 _ _ clid) as [[[[objID obj] interface] stg]|ex1].
  2:{ repeat split; apply incl_nil_l. }
  destruct (gen_stage2 objID interface (tok_of m) broker_require_schema None) as [[[stg2 methodname] schema]|ex2].
  2:{ repeat split; apply incl_nil_l. }
  destruct (xdo_args ag copy (c_exports cn) xs xacc0) as [a|a r]; [destruct (x_gifts_ok a)|]; repeat split; apply incl_refl.
Qed.

(* -- classes are instantiated only for (copyable n) arguments with a registered n, whatever else the message carries *)
Theorem xcall_classes : forall ag w copy cn clid m xs cls,
  In cls (r_inst (xr_core (xobj_call ag w copy cn clid m xs))) ->
  exists n, In (XA (ACopyable n)) xs /\ sget n copy = Some cls.
Proof. intros ag w copy cn clid m xs cls H. apply xobj_call_acc in H. exact (xdo_args_inst _ _ _ _ _ H). Qed.

(* -- "my-reference arguments create RemoteReference proxies: they cannot alias a local object"; "a their-reference reaches no
      local object": position by position, the entered method receives a local object only for a your-reference that THIS
      connection's table resolves, a proxy of this connection for a my-reference, the dialled reference for a gift *)
Theorem xcall_argv_justified : forall ag w copy cn clid m xs e,
  r_out (xr_core (xobj_call ag w copy cn clid m xs)) = Enter e ->
  Forall2 (justified copy (c_exports cn)) xs (xr_argv (xobj_call ag w copy cn clid m xs)).
Proof.
  intros ag w copy cn clid m xs e H. destruct (xobj_call_enter _ _ _ _ _ _ _ _ H) as [a [D [_ [-> _]]]].
  exact (xdo_args_argv _ _ _ _ [] xacc0 _ (Forall2_nil _) D).
Qed.

(* -- the proxies a message creates and the dial requests it causes are those of its own reference arguments; the Tub dials
      only when gifts are accepted *)
Theorem xcall_effects_justified : forall ag w copy cn clid m xs,
  (forall k, In k (xr_yours (xobj_call ag w copy cn clid m xs)) -> In (XMyRef k) xs) /\
  (forall g u, In (g, u) (xr_dial (xobj_call ag w copy cn clid m xs)) -> ag = true /\ exists ok, In (XTheirRef g u ok) xs).
Proof.
  intros ag w copy cn clid m xs. split; [intros k H | intros g u H]; apply xobj_call_acc in H.
  - destruct (xdo_args_yours _ _ _ _ _ _ H) as [[]|X]; exact X.
  - destruct (xdo_args_dial _ _ _ _ _ _ _ H) as [[]|X]; exact X.
Qed.

(* -- "every other object id fails that request without side effects": a call to an id this connection's table does not hold is
      refused at the id, before any argument is unsliced: nothing instantiated, no proxy, no dial *)
Theorem xcall_unheld_id_inert : forall ag w copy cn clid m xs,
  clid <> 0 -> zget clid (c_exports cn) = None ->
  xobj_call ag w copy cn clid m xs = {| xr_core := res0 Reject; xr_argv := []; xr_yours := []; xr_dial := [] |}.
Proof. intros ag w copy cn clid m xs NZ G. unfold xobj_call. rewrite (stage1_spec _ _ _ NZ), G. reflexivity. Qed.

(* -- a call that carries a gift enters nothing unless gifts are accepted AND the dial succeeded *)
Theorem xcall_gift_gate : forall ag w copy cn clid m xs e g u ok,
  r_out (xr_core (xobj_call ag w copy cn clid m xs)) = Enter e -> In (XTheirRef g u ok) xs -> ag = true /\ ok = true.
Proof.
  intros ag w copy cn clid m xs e g u ok H Hin. destruct (xobj_call_enter _ _ _ _ _ _ _ _ H) as [a [D [G _]]].
  rewrite (xdo_args_gifts _ _ _ _ _ _ D) in G. apply andb_true_iff. exact (proj1 (forallb_forall _ _) G _ Hin).
Qed.

Lemma core_set_yours x c l : xs_core (set_yours x c l) = xs_core x.
Proof. destruct c; reflexivity. Qed.

(* SIMULATION: a call with arbitrary reference arguments that enters anything is, for the core model (and hence for every
   theorem about it: which object, which attribute, which interface, which classes), the same call without them *)
Theorem xcall_simulates : forall w x c req clid m xs x' r e,
  all_kinds_ok w (xs_core x) -> clid <> 0 ->
  xstep w x (XMsg c req clid m xs) = (x', r) -> r_out (xr_core r) = Enter e ->
  step w (xs_core x) (Msg c req clid m (strip xs)) = (xs_core x', xr_core r).
Proof.
  intros w x c req clid m xs x' r e K NZ H Hout. cbn [xstep step] in *.
  destruct (negb (c_alive (get_conn (xs_core x) c))). { injection H as <- <-. discriminate. }
  destruct (Z.eqb_spec clid broker_clid) as [BC|_]; [contradiction|].
  set (r0 := xobj_call _ _ _ _ clid m xs) in *.
  assert (R : r = r0) by (destruct (r_out (xr_core r0)); injection H; auto). subst r.
  destruct (xobj_call_enter _ _ _ _ _ _ _ _ Hout) as [a [_ [_ [E C]]]].
  rewrite (obj_call_T_eq (eff w (s_decl (xs_core x))) _ _ _ _ _ (K c) NZ) in C.
  rewrite C, Hout in *. injection H as <-. rewrite core_set_yours. unfold r0. rewrite E. reflexivity.
Qed.

(* "without side effects", against the Tub-wide tables: whatever arguments a call to an application object carries -- proxies,
   gifts, copyables -- and whether it is entered or refused, it leaves the name table, the registry, the instance declarations
   and BOTH export tables as they were; only dropping its own connection empties its own table *)
Theorem xcall_tables_unchanged : forall w x c req clid m xs x' r,
  clid <> 0 -> xstep w x (XMsg c req clid m xs) = (x', r) ->
  (r_out (xr_core r) <> Aborted /\ xs_core x' = xs_core x) \/
  (r_out (xr_core r) = Aborted /\ xs_core x' = set_conn (xs_core x) c (drop_conn (get_conn (xs_core x) c))).
Proof.
  intros w x c req clid m xs x' r NZ H. cbn [xstep] in H.
  destruct (negb (c_alive (get_conn (xs_core x) c))). { injection H as <- <-. left. split; [discriminate | reflexivity]. }
  destruct (Z.eqb_spec clid broker_clid) as [BC|_]; [contradiction|].
  set (r0 := xobj_call _ _ _ _ clid m xs) in *.
  destruct (r_out (xr_core r0)) eqn:O; injection H as <- <-; rewrite core_set_yours, O;
    first [ right; split; reflexivity | left; split; [discriminate | reflexivity] ].
Qed.

(* ... and the proxy table of the OTHER connection is never touched *)
Theorem xcall_other_proxies_unchanged : forall w x c req clid m xs x' r c',
  c' <> c -> xstep w x (XMsg c req clid m xs) = (x', r) -> get_yours x' c' = get_yours x c'.
Proof.
  intros w x c req clid m xs x' r c' NE H. cbn [xstep] in H.
  assert (SY : forall y l, get_yours (set_yours y c l) c' = get_yours y c').
  { intros y l. destruct c, c'; try reflexivity; contradiction. }
  destruct (negb (c_alive (get_conn (xs_core x) c))). { injection H as <- _. reflexivity. }
  destruct (clid =? broker_clid).
  - destruct (forallb is_core xs); [|injection H as <- _; reflexivity].
    unfold xstep_core in H. destruct (step_T w (xs_core x) (Msg c req clid m (strip xs))) as [st' r1].
    cbn [on_conn] in H. destruct (c_alive (get_conn st' c)); injection H as <- _; rewrite ?SY; destruct c'; reflexivity.
  - destruct (r_out (xr_core (xobj_call _ _ _ _ clid m xs))); injection H as <- _; rewrite SY; destruct c'; reflexivity.
Qed.

(* The FULL statement "a refused request changes no state of the broker at all" is FALSE of the faithful model: arguments are
   unsliced before the request is known to be deliverable, so a request that is refused because of a LATER argument has already
   created a proxy in yourReferenceByCLID, made the Tub dial the gift's URL, and instantiated a registered class. *)
Definition rf_world : world :=
  {| w_obj := fun o => {| o_kind := KObj; o_attrs := ["remote_hi"%string]; o_iface := None |} |}.
Definition rf_hist : list xevent :=
  [XE (Grant CA 1 "sw0");
   XMsg CA 1 1 (MStr "hi") [XMyRef 5; XTheirRef 1 UForeign true; XA (ACopyable "foolscap.SturdyRef"); XA (AOpen "instance")]].
Theorem refusal_pure_full_refuted :
  exists w x c req clid m xs x' r,
    xstep w x (XMsg c req clid m xs) = (x', r) /\ r_out (xr_core r) = Reject /\
    xs_core x' = xs_core x /\                                         (* the tables of refusal_pure are untouched, but: *)
    get_yours x c = [] /\ get_yours x' c = [5] /\ xr_dial r = [(1, UForeign)] /\ r_inst (xr_core r) = [-1].
Proof.
  exists rf_world, (fst (xrun rf_world (xinit true) [XE (Grant CA 1 "sw0")])), CA, 1, 1, (MStr "hi"),
         [XMyRef 5; XTheirRef 1 UForeign true; XA (ACopyable "foolscap.SturdyRef"); XA (AOpen "instance")].
  eexists. eexists. split; [vm_compute; reflexivity|]. vm_compute. repeat split; reflexivity.
Qed.

(* non-vacuity: a call with a proxy, a resolvable gift, a your-reference and a copyable is entered and delivers exactly those *)
Example ex_xcall_enters :
  let x := fst (xrun rf_world (xinit true) [XE (Grant CA 1 "sw0"); XE (Grant CA 2 "sw1")]) in
  let r := snd (xstep rf_world x (XMsg CA 1 1 (MStr "hi")
                  [XMyRef (-7); XTheirRef 1 (UOwn "sw1") true; XA (AYourRef 2); XA (AYourRef 0); XA (ACopyable "foolscap.SturdyRef")])) in
  r_out (xr_core r) = Enter (EObj 1 "remote_hi") /\ xr_argv r = [VProxy (-7); VGift; VLocal 2; VBrokerSelf; VCopy (-1)] /\
  all_kinds_ok rf_world (xs_core x).
Proof.
  vm_compute. split; [reflexivity|]. split; [reflexivity|].
  intros c k o rc Hin. destruct c; cbn in Hin.
  - destruct Hin as [E|[E|[]]]; inversion E; subst; split; intros X; try reflexivity; discriminate X.
  - destruct Hin.
Qed.

Example ex_gift_gate :
  let x := fst (xrun rf_world (xinit false) [XE (Grant CA 1 "sw0")]) in
  r_out (xr_core (snd (xstep rf_world x (XMsg CA 1 1 (MStr "hi") [XTheirRef 1 UForeign true])))) = Reject /\
  xr_dial (snd (xstep rf_world x (XMsg CA 1 1 (MStr "hi") [XTheirRef 1 UForeign true]))) = [].
Proof. vm_compute. split; reflexivity. Qed.

Definition yr_hist : list event :=
  [Grant CA 1 "sw0"; Grant CA 2 "sw1"; Msg CA 5 1 (MStr "hi") [AYourRef 99]; Msg CA 6 2 (MStr "hi") []].
Example ex_unknown_yourref :
  map r_out (snd (run rf_world init yr_hist)) = [Local; Local; Reject; Enter (EObj 2 "remote_hi")] /\
  List.length (c_exports (get_conn (fst (run rf_world init yr_hist)) CA)) = 2%nat.
Proof. vm_compute. split; reflexivity. Qed.
