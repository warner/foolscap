(* C17: a promise that was resolved with a promise ends with the outcome of that promise -- for every program
   (chains of any length follow by transitivity of equality).
   J relates the EChained events of the log to the links and outcomes in the state; every move keeps it (step_J,
   through PromiseProofs.reach_ind).  Moves that resolve nobody go through Frame (frame_J); a resolution through
   J_resolving. *)
From Coq Require Import ZArith List Bool Arith.
Import ListNotations.
Require Import Verif.gen.EventualGen Verif.lib.Promise Verif.lib.PromiseProofs.
Local Open Scope Z_scope.

(* ne: p has left EVENTUAL.  lw / lq s q p: a link of p waits on q -- `Chain p` is in q's _watchers / is the
   watcher of a scheduled callback of q.  res: p is resolved with o *)
Definition ne (s : ps) (p : nat) : Prop := exists pp, tbl s p = Some pp /\ pstate pp <> SEventual.
Definition lw (s : ps) (q p : nat) : Prop := exists qq, tbl s q = Some qq /\ In (Chain p) (pwatch qq).
Definition lq (s : ps) (q p : nat) : Prop := exists o, In (TCallback q (Chain p) o) (queue s).
Definition res (s : ps) (p : nat) (o : outcome) : Prop := exists pp, tbl s p = Some pp /\ resolved pp o.
Definition nochained (e : list pev) : Prop := forall p q, ~ In (EChained p q) e.

Definition J (s : ps) (log : list pev) : Prop :=
  (forall p q, In (EChained p q) log -> ne s p) /\
  (forall p q, lw s q p \/ lq s q p -> In (EChained p q) log) /\
  (forall p q o, In (EChained p q) log -> res s p o -> res s q o) /\
  (forall p q q', In (EChained p q) log -> In (EChained p q') log -> q = q').

(* a step that resolves nobody, moves no promise back to EVENTUAL and creates no link but those in `new` *)
Definition Frame (new : nat -> nat -> Prop) (s s' : ps) : Prop :=
  (forall p, ne s p -> ne s' p) /\
  (forall q p, lw s' q p \/ lq s' q p -> (lw s q p \/ lq s q p) \/ new q p) /\
  (forall p o, res s' p o -> res s p o) /\
  (forall p o, res s p o -> res s' p o).
Definition no_link (q p : nat) : Prop := False.

Lemma in_app_nochained p q log e : nochained e -> In (EChained p q) (log ++ e) -> In (EChained p q) log.
Proof. intros N H. apply in_app_or in H as [H|H]; [exact H|]. exfalso. eapply N; eauto. Qed.

Lemma frame_J_new new s s' log e :
  Frame new s s' -> nochained e -> (forall q p, new q p -> In (EChained p q) log) -> J s log -> J s' (log ++ e).
Proof.
  intros (F1 & F2 & F3 & F4) N Hn (J1 & J2 & J3 & J4). split; [|split; [|split]].
  - intros p q H. apply in_app_nochained in H; [|exact N]. apply F1. eapply J1; eauto.
  - intros p q H. apply in_or_app. left. destruct (F2 _ _ H) as [H'|H']; [apply J2, H'|apply Hn, H'].
  - intros p q o H R. apply in_app_nochained in H; [|exact N]. apply F4. eapply J3; [exact H|]. apply F3. exact R.
  - intros p q q' H H'. apply in_app_nochained in H; [|exact N]. apply in_app_nochained in H'; [|exact N]. eapply J4; eauto.
Qed.

Lemma frame_J s s' log e : Frame no_link s s' -> nochained e -> J s log -> J s' (log ++ e).
Proof. intros F N. apply (frame_J_new _ _ _ _ _ F N). intros q p []. Qed.

Lemma frame_refl s : Frame no_link s s.
Proof. split; [auto|]. split; [auto|]. split; auto. Qed.

Lemma nochained_nil : nochained [].
Proof. intros p q []. Qed.
Lemma nochained_app a b : nochained a -> nochained b -> nochained (a ++ b).
Proof. intros A B p q H. apply in_app_or in H as [H|H]; [eapply A|eapply B]; eauto. Qed.
Lemma nochained_one e : (forall p q, e <> EChained p q) -> nochained [e].
Proof. intros H p q [E|[]]. eapply H; eauto. Qed.

(* promise q changes, keeping its state class and its resolvedness *)
Lemma frame_setp new s q pr0 pr' :
  tbl s q = Some pr0 ->
  (pstate pr0 <> SEventual -> pstate pr' <> SEventual) ->
  (forall x, In (Chain x) (pwatch pr') -> In (Chain x) (pwatch pr0) \/ new q x) ->
  (forall o, resolved pr' o <-> resolved pr0 o) ->
  Frame new s (setp s q pr').
Proof.
  intros H Hs Hl Hr. split; [|split; [|split]].
  - intros p (pp & A & B). unfold ne. cbn [setp tbl]. destruct (Nat.eq_dec p q) as [->|Hn].
    + rewrite upd_same. rewrite H in A. injection A as <-. eauto.
    + rewrite upd_other by exact Hn. eauto.
  - intros r p [(qq & A & B)|C]; [|left; right; exact C]. cbn [setp tbl] in A. destruct (Nat.eq_dec r q) as [->|Hn].
    + rewrite upd_same in A. injection A as <-. destruct (Hl _ B) as [B'|B']; [left; left; exists pr0; auto|right; exact B'].
    + rewrite upd_other in A by exact Hn. left; left. exists qq. auto.
  - intros p o (pp & A & B). cbn [setp tbl] in A. destruct (Nat.eq_dec p q) as [->|Hn].
    + rewrite upd_same in A. injection A as <-. exists pr0. split; [exact H|apply Hr; exact B].
    + rewrite upd_other in A by exact Hn. exists pp. auto.
  - intros p o (pp & A & B). unfold res. cbn [setp tbl]. destruct (Nat.eq_dec p q) as [->|Hn].
    + rewrite upd_same. rewrite H in A. injection A as <-. exists pr'. split; [reflexivity|apply Hr; exact B].
    + rewrite upd_other by exact Hn. eauto.
Qed.

Lemma frame_queue s s' :
  tbl s' = tbl s -> (forall q p o, In (TCallback q (Chain p) o) (queue s') -> In (TCallback q (Chain p) o) (queue s)) ->
  Frame no_link s s'.
Proof.
  intros T Hq. unfold Frame, ne, lw, lq, res. rewrite T. split; [auto|]. split; [|split; auto].
  intros q p [A|(o & B)]; left; [left; exact A|right; exists o; apply Hq; exact B].
Qed.

Lemma frame_popped s t q : queue s = t :: q -> Frame no_link s (popped s q).
Proof. intros Eq. apply frame_queue; [reflexivity|]. intros a b o H. rewrite Eq. right. exact H. Qed.

Lemma frame_alloc s : WF s -> Frame no_link s (fst (alloc s)).
Proof.
  intros W. pose proof (wf_fresh _ W) as Hnone.
  split; [|split; [|split]].
  - intros p (pp & A & B). exists pp. split; [|exact B]. cbn [alloc fst tbl]. rewrite upd_other; [exact A|]. congruence.
  - intros q p [(qq & A & B)|C]; left; [|right; exact C]. left. cbn [alloc fst tbl] in A.
    destruct (Nat.eq_dec q (next s)) as [->|Hn].
    + rewrite upd_same in A. injection A as <-. destruct B.
    + rewrite upd_other in A by exact Hn. exists qq. auto.
  - intros p o (pp & A & B). cbn [alloc fst tbl] in A. destruct (Nat.eq_dec p (next s)) as [->|Hn].
    + rewrite upd_same in A. injection A as <-. destruct B as (C & _). discriminate.
    + rewrite upd_other in A by exact Hn. exists pp. auto.
  - intros p o (pp & A & B). exists pp. split; [|exact B]. cbn [alloc fst tbl]. rewrite upd_other; [exact A|]. congruence.
Qed.

Lemma resolved_iff_keep pr pr' :
  ptarget pr' = ptarget pr -> unresolved pr -> forall o, resolved pr' o <-> resolved pr o.
Proof. intros A (_ & _ & U3) o. split; intros (R1 & _); congruence. Qed.

Lemma J_eventual_fresh s log p pr q : J s log -> tbl s p = Some pr -> pstate pr = SEventual -> ~ In (EChained p q) log.
Proof. intros (J1 & _) Hp Hs H. destruct (J1 _ _ H) as (pp & A & B). rewrite Hp in A. injection A as <-. contradiction. Qed.

(* _resolve2 on an unresolved promise p keeps J when every promise that p was resolved with already has the outcome *)
Lemma J_resolving s p pr o log :
  tbl s p = Some pr -> unresolved pr -> J s log -> (forall q, In (EChained p q) log -> res s q o) ->
  J (enq (setp s p (done o)) (drain_tasks good_pcfg p pr o)) log.
Proof.
  intros Hp Hu (J1 & J2 & J3 & J4) Hq.
  match goal with |- J ?x _ => set (s' := x) end.
  assert (Tp : tbl s' p = Some (done o)) by apply upd_same.
  assert (To : forall r, r <> p -> tbl s' r = tbl s r) by (intros r Hn; apply upd_other; exact Hn).
  assert (Rk : forall r o', res s r o' -> res s' r o').
  { intros r o' (pp & A & B). destruct (Nat.eq_dec r p) as [->|Hn].
    - rewrite Hp in A. injection A as <-. exfalso. eapply unres_not_res; eauto.
    - exists pp. rewrite To by exact Hn. auto. }
  split; [|split; [|split]].
  - intros a b H. destruct (J1 _ _ H) as (pp & A & B). destruct (Nat.eq_dec a p) as [->|Hn].
    + exists (done o). split; [exact Tp|]. destruct o; discriminate.
    + exists pp. rewrite To by exact Hn. auto.
  - intros x q [(qq & A & B)|(o' & C)].
    + destruct (Nat.eq_dec q p) as [->|Hn].
      * rewrite Tp in A. injection A as <-. destruct B.
      * rewrite To in A by exact Hn. apply J2. left. exists qq. auto.
    + cbn [s' enq queue] in C. apply in_app_or in C as [C|C]; [apply J2; right; exists o'; exact C|].
      apply in_app_or in C as [C|C].
      * apply in_map_iff in C as (m & E & _). discriminate.
      * apply in_map_iff in C as (wt & E & Hin). injection E as E1 E2 E3; subst. apply J2. left. exists pr. auto.
  - intros a b o' H (pp & A & B). destruct (Nat.eq_dec a p) as [->|Hn].
    + rewrite Tp in A. injection A as <-. rewrite <- (resolved_fun _ _ _ (resolved_done o) B).
      apply Rk. apply Hq. exact H.
    + rewrite To in A by exact Hn. apply Rk. eapply J3; [exact H|]. exists pp. auto.
  - exact J4.
Qed.

Lemma J_mark s p pr q log :
  tbl s p = Some pr -> unresolved pr -> pstate pr = SEventual -> J s log ->
  J (setp s p (chained pr)) (log ++ [EChained p q]).
Proof.
  intros Hp Hu Hs Jx.
  pose proof (fun r => J_eventual_fresh s log p pr r Jx Hp Hs) as Hno.
  pose proof (unresolved_chained _ Hu) as Hu1.
  assert (F1 : Frame no_link s (setp s p (chained pr))).
  { apply (frame_setp _ s p pr _ Hp); [intros _; discriminate|auto|]. apply resolved_iff_keep; [reflexivity|exact Hu]. }
  pose proof (frame_J _ _ log [] F1 nochained_nil Jx) as Jy. rewrite app_nil_r in Jy. destruct Jy as (A & B & C & D).
  pose proof (upd_same (tbl s) p (chained pr)) as Tp.
  split; [|split; [|split]].
  - intros a b H. apply in_app_or in H as [H|[H|[]]]; [eapply A; eauto|]. injection H as <- <-.
    exists (chained pr). split; [exact Tp|discriminate].
  - intros a b H. apply in_or_app. left. apply B. exact H.
  - intros a b o H R. apply in_app_or in H as [H|[H|[]]]; [eapply C; eauto|]. injection H as <- <-.
    destruct R as (pp & E & R). cbn [setp tbl] in E. rewrite Tp in E. injection E as <-. exfalso. eapply unres_not_res; eauto.
  - intros a b b' H H'. apply in_app_or in H as [H|[H|[]]]; apply in_app_or in H' as [H'|[H'|[]]].
    + eapply D; eauto.
    + injection H' as <- <-. exfalso. eapply Hno; eauto.
    + injection H as <- <-. exfalso. eapply Hno; eauto.
    + injection H as <- <-. injection H' as <-. reflexivity.
Qed.

(* one new link q <- p, which is accounted for in the log *)
Lemma J_new_link s q qr p log :
  tbl s q = Some qr -> unresolved qr -> In (EChained p q) log -> J s log ->
  J (setp s q (watched qr (Chain p))) log.
Proof.
  intros Hq Hu Hin Jx. rewrite <- (app_nil_r log).
  apply (frame_J_new (fun q' p' => q' = q /\ p' = p) s); [|apply nochained_nil|intros q' p' [-> ->]; exact Hin|exact Jx].
  apply (frame_setp _ s q qr _ Hq); [auto| |apply resolved_iff_keep; [reflexivity|exact Hu]].
  intros x H. apply in_app_or in H as [H|[H|[]]]; [left; exact H|right]. injection H as <-. auto.
Qed.

Lemma step_J s log e s' : Inv s -> J s log -> step s e s' -> J s' (log ++ e).
Proof.
  intros [[W Q] _] Jx H.
  destruct H.
  - apply (frame_J s); [apply frame_alloc; exact W|apply nochained_nil|exact Jx].
  - apply (frame_J s); [apply frame_queue; [reflexivity|auto]|apply nochained_nil|exact Jx].
  - apply (frame_J s); [apply frame_refl|apply nochained_one; discriminate|exact Jx].
  - apply (frame_J s); [|apply nochained_one; discriminate|exact Jx].
    apply (frame_setp _ s p pr _ Hp); [auto|auto|]. apply resolved_iff_keep; [reflexivity|exact Hu].
  - apply (frame_J s); [|apply nochained_one; discriminate|exact Jx]. apply frame_queue; [reflexivity|].
    intros a b o' H. apply in_app_or in H as [H|[H|[]]]; [exact H|discriminate].
  - apply (frame_J s); [|apply nochained_one; discriminate|exact Jx].
    apply (frame_setp _ s p pr _ Hp); [auto| |apply resolved_iff_keep; [reflexivity|exact Hu]].
    intros x H. apply in_app_or in H as [H|[H|[]]]; [left; exact H|discriminate].
  - apply (frame_J s); [apply frame_refl| |exact Jx]. intros a b [E|[E|[]]]; discriminate.
  - rewrite app_nil_r. apply J_resolving; [exact Hp|exact Hu|exact Jx|].
    intros q H. destruct (J_eventual_fresh _ _ _ _ _ Jx Hp Hs H).
  - apply J_new_link; [exact Hq|exact Hqu|apply in_or_app; right; left; reflexivity|]. apply J_mark; assumption.
  - pose proof (J_mark _ _ _ q _ Hp Hu Hs Jx) as Jy.
    apply J_resolving; [apply upd_same|apply unresolved_chained; exact Hu|exact Jy|].
    intros q' H'. destruct Jy as (_ & _ & _ & J4).
    assert (Hin : In (EChained p q) (log ++ [EChained p q])) by (apply in_or_app; right; left; reflexivity).
    rewrite (J4 _ _ _ H' Hin).
    exists qr. split; [|exact R]. cbn [setp tbl]. rewrite upd_other; [exact Hq|].
    intros ->. rewrite Hp in Hq. injection Hq as <-. eapply unres_not_res; eauto.
  - apply (frame_J s); [exact (frame_popped _ _ _ Eq)| |exact Jx].
    destruct He as [-> | ->]; apply nochained_one; discriminate.
  - apply (frame_J s); [exact (frame_popped _ _ _ Eq)|apply nochained_one; discriminate|exact Jx].
  - (* a chain link fires: the log says p was resolved with r, and only with r; r is resolved with o *)
    rewrite app_nil_r. rewrite Eq in Q. apply Forall_inv in Q. destruct Q as (rr & Hr & Rr).
    assert (J0 : J (popped s q) log).
    { rewrite <- (app_nil_r log). exact (frame_J s _ _ _ (frame_popped _ _ _ Eq) nochained_nil Jx). }
    apply J_resolving; [exact Hp|exact Hu|exact J0|].
    intros q' Hc. destruct Jx as (_ & J2 & _ & J4).
    assert (Hin : In (EChained p r) log) by (apply J2; right; exists o; rewrite Eq; left; reflexivity).
    rewrite (J4 _ _ _ Hc Hin). exists rr. auto.
Qed.

Lemma J_ps0 : J ps0 [].
Proof.
  split; [intros p q []|]. split; [|split; [intros p q o []|intros p q q' []]].
  intros p q [(qq & A & _)|(o & [])]. discriminate.
Qed.

(* "... including chains of promises resolved to promises": for every program, a promise p that was (acceptedly)
   resolved with the promise q -- directly, through a method that returned q, or through a Deferred that fired with
   q -- and that is now NEAR / BROKEN has exactly the outcome of q, which is NEAR / BROKEN too; and p is never
   resolved with two different promises.  (Chains of any length: apply it link by link.) *)
Theorem pr_chained_same_outcome : forall ops s t p q pp o,
  prun src_pcfg ps0 ops = (s, t) -> In (EChained p q) t ->
  tbl s p = Some pp -> ptarget pp = Some o -> (pstate pp = SNear \/ pstate pp = SBroken) ->
  (exists qq, tbl s q = Some qq /\ ptarget qq = Some o /\
              pstate qq = match o with Val _ => SNear | Fail _ => SBroken end) /\
  pstate pp = match o with Val _ => SNear | Fail _ => SBroken end /\
  forall q', In (EChained p q') t -> q' = q.
Proof.
  intros ops s t p q pp o H Hin Hp Ht Hs. destruct (prun_good _ _ _ H) as [[[W _] _] _].
  apply (reach_ind J J_ps0 (fun s log e s' I Jx St => step_J s log e s' I Jx St)) in H. destruct H as (_ & _ & J3 & J4).
  assert (Hps : pending_state (pstate pp) = false) by (destruct Hs as [-> | ->]; reflexivity).
  destruct (wf_resolved _ (proj2 (W _ _ Hp)) Hps) as (o' & R).
  assert (o' = o) by (destruct R as (A & _); congruence). subst o'.
  destruct (J3 p q o Hin) as (qq & A & B); [exists pp; auto|].
  split; [exists qq; destruct B as (B1 & _ & _ & _ & B5); auto|].
  split; [destruct R as (_ & _ & _ & _ & R5); exact R5|].
  intros q' H'. eapply J4; eauto.
Qed.

(* non-vacuity: a chain of two hops built back to front and through a method result *)
Example pr_chained_example :
  let ops := [PNew; PNew; PNew; PResolve 1 (RProm 2); PResolve 0 (RProm 1); PSend 0 1 (BRetP 0);
              PResolve 2 (RVal 9); PTurn; PTurn; PTurn; PTurn] in
  let '(s, t) := prun src_pcfg ps0 ops in
  (filter (fun e => match e with EChained _ _ => true | _ => false end) t,
   map (fun i => match tbl s i with Some pr => ptarget pr | None => None end) [0; 1; 2; 3]%nat)
  = ([EChained 1 2; EChained 0 1; EChained 3 0], [Some (Val 9); Some (Val 9); Some (Val 9); Some (Val 9)]).
Proof. vm_compute. reflexivity. Qed.
