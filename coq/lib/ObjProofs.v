(* C01, object layer: proofs about Obj.v.
   Main result `run_slice`: for every well-formed canonical term t (any nesting, back-references, cycles, nested
   scopes), the receiver machine started in any admissible state consumes exactly `slice n t` and ends in the state
   `adv st ..`: the value `val_of n t` handed to the unslicer on top, the heap extended by `heap_of n t`, the
   scope tables extended by `regs_of n t`, the counter advanced by `opens t`. *)
From Coq Require Import ZArith List String Bool Lia.
Import ListNotations.
Require Import Verif.lib.PyLite Verif.gen.BananaGen Verif.gen.SlicersGen Verif.lib.Token Verif.lib.TokenProofs Verif.lib.Obj.
Local Open Scope Z_scope.

Definition is_cont (t : obj) : bool := match t with OCont _ _ => true | _ => false end.

Fixpoint obj_ind' (P : obj -> Prop)
         (Hleaf : forall t, is_cont t = false -> P t)
         (Hcont : forall c xs, Forall P xs -> P (OCont c xs)) (t : obj) {struct t} : P t :=
  match t as t0 return P t0 with
  | OCont c xs =>
    Hcont c xs ((fix go (l : list obj) : Forall P l :=
                   match l with
                   | [] => Forall_nil P
                   | x :: r => Forall_cons x (obj_ind' P Hleaf Hcont x) (go r)
                   end) xs)
  | OInt z => Hleaf (OInt z) eq_refl
  | OFloat b => Hleaf (OFloat b) eq_refl
  | OBytes b => Hleaf (OBytes b) eq_refl
  | OText u => Hleaf (OText u) eq_refl
  | OBool b => Hleaf (OBool b) eq_refl
  | ONone => Hleaf ONone eq_refl
  | ODecimal s => Hleaf (ODecimal s) eq_refl
  | ORef k => Hleaf (ORef k) eq_refl
  end.

Lemma Forall_all {A} (P : A -> Prop) : (forall x, P x) -> forall l, Forall P l.
Proof. intros H l. apply Forall_forall. intros x _. apply H. Qed.

Lemma obj_eqb_refl : forall t, obj_eqb t t = true.
Proof.
  apply obj_ind'.
  - intros t L. destruct t; try discriminate L; cbn [obj_eqb]; try reflexivity; try (apply list_eqb_eq; reflexivity);
      try apply Z.eqb_refl. apply eqb_reflx.
  - intros c xs F. cbn [obj_eqb]. apply andb_true_iff. split.
    + destruct c; try reflexivity; apply list_eqb_eq; reflexivity.
    + induction F as [|x r Hx _ IH]; [reflexivity|]. rewrite Hx. exact IH.
Qed.

Lemma slice_cont n c xs : slice n (OCont c xs) = TOpen n :: strs (opentype_of c) ++ slice_list (n + 1) xs ++ [TClose n].
Proof. reflexivity. Qed.
Lemma opens_cont c xs : opens (OCont c xs) = 1 + opens_list xs.
Proof. reflexivity. Qed.
Lemma heap_of_cont n c xs :
  heap_of n (OCont c xs) = heap_list (n + 1) xs ++ [(n, {| n_kind := c; n_items := vals_list (n + 1) xs |})].
Proof. reflexivity. Qed.
Lemma regs_of_cont n c xs : regs_of n (OCont c xs) = (if registers c then [n] else []) ++ regs_list (n + 1) xs.
Proof. reflexivity. Qed.
Lemma wf_gen_cont s sc vis imm n c xs :
  wf_gen s sc vis imm n (OCont c xs) =
  let imm' := if is_imm_c c then n :: imm else imm in
  if shape_ok c xs && negb (hazard_pos c false (vals_list (n + 1) xs) (fun k => mem k imm'))
     && negb (s && match c with CTuple | CFrozen => existsb (ref_into imm') xs | _ => false end) then
    let sc' := sc || is_scope c in
    let vis1 := if sc' && tracked c then n :: vis else vis in
    match wf_list_gen s sc' imm' vis1 (n + 1) xs with
    | Some v => Some (if is_scope c then vis else v)
    | None => None
    end
  else None.
Proof. reflexivity. Qed.
Lemma slice_list_cons n x r : slice_list n (x :: r) = slice n x ++ slice_list (n + opens x) r.
Proof. reflexivity. Qed.
Lemma wf_list_cons s sc imm v m x r :
  wf_list_gen s sc imm v m (x :: r) = match wf_gen s sc v imm m x with Some v' => wf_list_gen s sc imm v' (m + opens x) r | None => None end.
Proof. reflexivity. Qed.

Lemma wf_cont_inv s sc vis imm n c xs v : wf_gen s sc vis imm n (OCont c xs) = Some v ->
  exists w, wf_list_gen s (sc || is_scope c) (if is_imm_c c then n :: imm else imm)
              (if (sc || is_scope c) && tracked c then n :: vis else vis) (n + 1) xs = Some w /\
            v = (if is_scope c then vis else w) /\ shape_ok c xs = true /\
            hazard_pos c false (vals_list (n + 1) xs) (fun k => mem k (if is_imm_c c then n :: imm else imm)) = false.
Proof.
  rewrite wf_gen_cont. cbv zeta. intros W.
  match type of W with (if ?b then _ else _) = _ => destruct b eqn:G; [|discriminate] end.
  match type of W with match ?l with _ => _ end = _ => destruct l as [w|]; [|discriminate] end.
  apply andb_true_iff in G as [G _]. apply andb_true_iff in G as [S Hz]. apply negb_true_iff in Hz. inversion W. exists w. auto.
Qed.

Definition set_items (f : frame) (l : list value) : frame :=
  {| f_kind := f_kind f; f_open := f_open f; f_count := f_count f; f_items := l; f_refs := f_refs f |}.
Definition push_many (vs : list value) (s : list frame) : list frame :=
  match s with [] => [] | f :: r => set_items f (rev vs ++ f_items f) :: r end.

(* the state after a complete object (or several) has gone by *)
Definition adv (st : mstate) (vs : list value) (ids : list Z) (h : heap) (k : Z) : mstate :=
  {| s_stack := push_many vs (reg_many ids (s_stack st)); s_inopen := None; s_counter := s_counter st + k; s_heap := s_heap st ++ h |}.

Definition top_ok (s : list frame) : bool :=
  match s with f :: _ => match f_kind f with KRoot _ | KC _ => true | _ => false end | [] => false end.

Lemma reg1_nil f : reg1 [] f = f.
Proof. unfold reg1. destruct (is_scope_frame f); [|reflexivity]. destruct f; cbn. rewrite app_nil_r. reflexivity. Qed.
Lemma reg_many_nil s : reg_many [] s = s.
Proof. unfold reg_many. induction s as [|f r IH]; cbn; [reflexivity|]. rewrite reg1_nil, IH. reflexivity. Qed.
Lemma is_scope_reg1 a f : is_scope_frame (reg1 a f) = is_scope_frame f.
Proof. unfold reg1. destruct (is_scope_frame f) eqn:E; [|exact E]. unfold is_scope_frame in *. cbn. exact E. Qed.
Lemma reg1_app a b f : reg1 b (reg1 a f) = reg1 (a ++ b) f.
Proof.
  unfold reg1 at 1. rewrite is_scope_reg1. unfold reg1. destruct (is_scope_frame f); [|reflexivity].
  cbn. rewrite app_assoc. reflexivity.
Qed.
Lemma reg_many_app a b s : reg_many b (reg_many a s) = reg_many (a ++ b) s.
Proof. unfold reg_many. rewrite map_map. apply map_ext. intros f. apply reg1_app. Qed.
Lemma reg1_set_items a f l : reg1 a (set_items f l) = set_items (reg1 a f) l.
Proof. unfold reg1, set_items, is_scope_frame. cbn. destruct (match f_kind f with KRoot b => b | KC c => is_scope c | _ => false end); reflexivity. Qed.
Lemma kind_reg1 a f : f_kind (reg1 a f) = f_kind f.
Proof. unfold reg1. destruct (is_scope_frame f); reflexivity. Qed.
Lemma count_reg1 a f : f_count (reg1 a f) = f_count f.
Proof. unfold reg1. destruct (is_scope_frame f); reflexivity. Qed.
Lemma items_reg1 a f : f_items (reg1 a f) = f_items f.
Proof. unfold reg1. destruct (is_scope_frame f); reflexivity. Qed.
Lemma open_reg1 a f : f_open (reg1 a f) = f_open f.
Proof. unfold reg1. destruct (is_scope_frame f); reflexivity. Qed.

Lemma push_reg_comm vs ids s : reg_many ids (push_many vs s) = push_many vs (reg_many ids s).
Proof.
  destruct s as [|f r]; [reflexivity|]. cbn [push_many reg_many map]. rewrite reg1_set_items, items_reg1. reflexivity.
Qed.
Lemma push_many_app a b s : push_many b (push_many a s) = push_many (a ++ b) s.
Proof.
  destruct s as [|f r]; [reflexivity|]. cbn [push_many]. unfold set_items. cbn. rewrite rev_app_distr, app_assoc. reflexivity.
Qed.

Lemma adv_adv st a i h k b j g l : adv (adv st a i h k) b j g l = adv st (a ++ b) (i ++ j) (h ++ g) (k + l).
Proof.
  unfold adv. cbn [s_stack s_counter s_heap]. f_equal.
  - rewrite push_reg_comm, reg_many_app, push_many_app. reflexivity.
  - lia.
  - rewrite app_assoc. reflexivity.
Qed.

Lemma run_app a b st : run (a ++ b) st = match run a st with Some st' => run b st' | None => None end.
Proof. revert st. induction a as [|t a IH]; intros st; cbn [app run]; [reflexivity|]. destruct (step st t); [apply IH|reflexivity]. Qed.

Lemma top_ok_adv st vs ids h k : top_ok (s_stack (adv st vs ids h k)) = top_ok (s_stack st).
Proof. unfold adv. cbn [s_stack]. destruct (s_stack st) as [|f r]; [reflexivity|]. cbn. rewrite kind_reg1. reflexivity. Qed.

Lemma has_scope_push vs s : has_scope (push_many vs s) = has_scope s.
Proof. destruct s as [|f r]; reflexivity. Qed.
Lemma has_scope_reg ids s : has_scope (reg_many ids s) = has_scope s.
Proof. unfold has_scope, reg_many. induction s as [|f r IH]; [reflexivity|]. cbn. rewrite is_scope_reg1, IH. reflexivity. Qed.

Lemma mem_app k a b : mem k (a ++ b) = mem k a || mem k b.
Proof. induction a as [|x a IH]; cbn; [reflexivity|]. rewrite IH, orb_assoc. reflexivity. Qed.

Lemma lookup_push k vs s : lookup k (push_many vs s) = lookup k s.
Proof. destruct s as [|f r]; reflexivity. Qed.
Lemma lookup_reg k ids s : lookup k (reg_many ids s) = lookup k s || (has_scope s && mem k ids).
Proof.
  unfold lookup, has_scope, reg_many. induction s as [|f r IH]; [reflexivity|]. cbn [map existsb].
  rewrite IH, is_scope_reg1. unfold reg1. destruct (is_scope_frame f) eqn:E; cbn [f_refs andb orb].
  - rewrite mem_app. destruct (mem k (f_refs f)), (mem k ids), (existsb _ r), (existsb is_scope_frame r); reflexivity.
  - reflexivity.
Qed.
Lemma open_imm_push vs s k : open_imm (push_many vs s) k = open_imm s k.
Proof. destruct s as [|f r]; reflexivity. Qed.
Lemma open_imm_reg ids s k : open_imm (reg_many ids s) k = open_imm s k.
Proof. unfold open_imm, reg_many. induction s as [|f r IH]; [reflexivity|]. cbn. rewrite kind_reg1, count_reg1, IH. reflexivity. Qed.

(* admissible: the receiver states in which a term that is well-formed under (sc, vis, imm) at counter n may arrive *)
Record okst (sc : bool) (vis imm : list Z) (n : Z) (st : mstate) : Prop := {
  ok_in : s_inopen st = None;
  ok_cnt : s_counter st = n;
  ok_top : top_ok (s_stack st) = true;
  ok_sc : sc = true -> has_scope (s_stack st) = true;
  ok_vis : forall k, mem k vis = true -> lookup k (s_stack st) = true;
  ok_imm : forall k, open_imm (s_stack st) k = true -> mem k imm = true }.

Lemma okst_adv sc vis vis' imm n st vs ids h k :
  okst sc vis imm n st ->
  (forall j, mem j vis' = true -> mem j vis = true \/ (sc = true /\ mem j ids = true)) ->
  okst sc vis' imm (n + k) (adv st vs ids h k).
Proof.
  intros [Hi Hc Ht Hs Hv Hm] Hsub. split.
  - reflexivity.
  - unfold adv; cbn [s_counter]. lia.
  - rewrite top_ok_adv. exact Ht.
  - intros E. unfold adv; cbn [s_stack]. rewrite has_scope_push, has_scope_reg. auto.
  - intros j Hj. unfold adv; cbn [s_stack]. rewrite lookup_push, lookup_reg. destruct (Hsub j Hj) as [H|[H1 H2]].
    + rewrite (Hv j H). reflexivity.
    + rewrite (Hs H1), H2. apply orb_true_r.
  - intros j. unfold adv; cbn [s_stack]. rewrite open_imm_push, open_imm_reg. apply Hm.
Qed.

Lemma adv_one st v k :
  adv st [v] [] [] k =
  {| s_stack := match s_stack st with f :: r => push_item v f :: r | [] => [] end;
     s_inopen := None; s_counter := s_counter st + k; s_heap := s_heap st |}.
Proof.
  unfold adv. rewrite reg_many_nil, app_nil_r. destruct (s_stack st) as [|f r]; reflexivity.
Qed.

Lemma recv_top s v : top_ok s = true -> recv s v = Some (match s with f :: r => push_item v f :: r | [] => [] end).
Proof. destruct s as [|f r]; cbn; [discriminate|]. destruct (f_kind f); try discriminate; reflexivity. Qed.

Definition atom_tok (t : obj) : bool := match t with OInt _ | OFloat _ | OBytes _ => true | _ => false end.

Lemma run_atom t n st : atom_tok t = true -> s_inopen st = None -> top_ok (s_stack st) = true ->
  run (slice n t) st = Some (adv st [val_of n t] [] [] 0).
Proof.
  intros A Hi Ht. rewrite adv_one. destruct t; try discriminate; cbn [slice run val_of]; unfold step; rewrite Hi;
    rewrite (recv_top _ _ Ht); rewrite Z.add_0_r; reflexivity.
Qed.

Lemma step_open st n : s_inopen st = None ->
  step st (TOpen n) = Some {| s_stack := s_stack st; s_inopen := Some (n, s_counter st, []); s_counter := s_counter st + 1; s_heap := s_heap st |}.
Proof. intros H. unfold step. rewrite H. reflexivity. Qed.

Definition newframe (k : kind) (hdr cnt : Z) : frame := {| f_kind := k; f_open := hdr; f_count := cnt; f_items := []; f_refs := [] |}.

Lemma step_index st hdr cnt idx bs k :
  s_inopen st = Some (hdr, cnt, idx) ->
  (forall top, open_kind top (idx ++ [bs]) = Some (Some k)) ->
  step st (TString bs) =
  Some {| s_stack := if kind_registers k then reg_many [cnt] (newframe k hdr cnt :: s_stack st) else newframe k hdr cnt :: s_stack st;
          s_inopen := None; s_counter := s_counter st; s_heap := s_heap st |}.
Proof. intros H O. unfold step. rewrite H, O. reflexivity. Qed.

Lemma step_index_more st hdr cnt idx bs :
  s_inopen st = Some (hdr, cnt, idx) ->
  (forall top, open_kind top (idx ++ [bs]) = Some None) ->
  step st (TString bs) = Some {| s_stack := s_stack st; s_inopen := Some (hdr, cnt, idx ++ [bs]); s_counter := s_counter st; s_heap := s_heap st |}.
Proof. intros H O. unfold step. rewrite H, O. reflexivity. Qed.

(* the opentype strings the slicers send select the matching unslicer (generated constants: by computation) *)
Lemma open_kind_leaf top :
  open_kind top ot_unicode = Some (Some KText) /\ open_kind top ot_boolean = Some (Some KBool) /\
  open_kind top ot_none = Some (Some KNone) /\ open_kind top ot_decimal = Some (Some KDecimal) /\
  open_kind top ot_reference = Some (Some KRef).
Proof. destruct top; vm_compute; repeat split; reflexivity. Qed.

Lemma open_kind_cont top c : shape_ok c [] = true -> (forall nm, c <> CCopy nm) -> open_kind top (opentype_of c) = Some (Some (KC c)).
Proof.
  intros S NC. destruct c as [| | | | |nm|nm]; try (destruct top; vm_compute; reflexivity).
  cbn [shape_ok] in S. unfold scoped_opentypes in S. cbn [existsb] in S.
  repeat (apply orb_true_iff in S; destruct S as [S|S]); try discriminate;
    apply list_eqb_eq in S; subst nm; destruct top; vm_compute; reflexivity.
Qed.

Lemma open_kind_copy1 top : open_kind top [ot_copyable_head] = Some None.
Proof. destruct top; vm_compute; reflexivity. Qed.
Lemma open_kind_copy2 top nm : open_kind top [ot_copyable_head; nm] = Some (Some (KC (CCopy nm))).
Proof. destruct top; vm_compute; reflexivity. Qed.

Lemma shape_ok_nil c xs : shape_ok c xs = true -> shape_ok c [] = true.
Proof. destruct c; cbn; auto. Qed.

Lemma tracked_registers c : tracked c = true -> registers c = true.
Proof. destruct c; vm_compute; intros H; try exact H; try reflexivity; discriminate. Qed.
Lemma registers_not_scope c : registers c = true -> is_scope c = false.
Proof. destruct c; cbn; auto; discriminate. Qed.

(* OPEN n followed by the opentype strings of container kind c: the new unslicer is on the stack, registered *)
Definition opened (c : ckind) (n : Z) (st : mstate) : mstate :=
  {| s_stack := newframe (KC c) n n :: reg_many (if registers c then [n] else []) (s_stack st);
     s_inopen := None; s_counter := n + 1; s_heap := s_heap st |}.

Lemma run_open c xs st n : shape_ok c xs = true -> s_inopen st = None -> s_counter st = n ->
  run (TOpen n :: strs (opentype_of c)) st = Some (opened c n st).
Proof.
  intros S Hi Hc. unfold opened. cbn [run]. rewrite (step_open _ _ Hi), Hc.
  assert (R : forall s, (if kind_registers (KC c) then reg_many [n] (newframe (KC c) n n :: s) else newframe (KC c) n n :: s)
                        = newframe (KC c) n n :: reg_many (if registers c then [n] else []) s).
  { intros s. cbn [kind_registers]. destruct (registers c) eqn:R; [|rewrite reg_many_nil; reflexivity].
    cbn [reg_many map]. unfold reg1 at 1. unfold is_scope_frame. cbn [newframe f_kind]. rewrite (registers_not_scope _ R). reflexivity. }
  destruct c as [| | | | |nm|nm].
  1-5,7: (cbn [opentype_of]; match goal with |- context [strs ?o] => change (strs o) with [TString (hd [] o)] end;
          cbn [run]; erewrite step_index;
          [cbn [s_stack s_counter s_heap]; rewrite R; reflexivity | reflexivity |
           intros top; cbn [app hd]; apply (open_kind_cont top _ (shape_ok_nil _ _ S)); intros nm'; discriminate]).
  cbn [opentype_of strs map run].
  erewrite step_index_more; [|reflexivity|intros top; apply open_kind_copy1].
  erewrite step_index; [|reflexivity|intros top; apply open_kind_copy2].
  cbn [s_stack s_counter s_heap]. rewrite R. reflexivity.
Qed.

Definition boxed (t : obj) : bool := match t with OText _ | OBool _ | ONone | ODecimal _ => true | _ => false end.

Lemma bool_toks : (bool_true_tok =? 0) = false /\ (bool_false_tok =? 0) = true.
Proof. vm_compute. split; reflexivity. Qed.

Lemma run_boxed t n st : boxed t = true -> s_inopen st = None -> s_counter st = n -> top_ok (s_stack st) = true ->
  run (slice n t) st = Some (adv st [val_of n t] [] [] 1).
Proof.
  intros B Hi Hc Ht. rewrite adv_one.
  destruct t; try discriminate; cbn [slice val_of];
    match goal with |- context [strs ?o] => change (strs o) with [TString (hd [] o)] end;
    cbn [app run]; rewrite (step_open _ _ Hi);
    (erewrite step_index; [|reflexivity|intros top; apply (open_kind_leaf top)]);
    cbn; rewrite Z.eqb_refl; cbn; rewrite (recv_top _ _ Ht), Hc; reflexivity.
Qed.

Lemma run_ref k n st : s_inopen st = None -> s_counter st = n -> top_ok (s_stack st) = true -> lookup k (s_stack st) = true ->
  run (slice n (ORef k)) st = Some (adv st [VPtr k] [] [] 1).
Proof.
  intros Hi Hc Ht Hl. rewrite adv_one. cbn [slice].
  change (strs ot_reference) with [TString (hd [] ot_reference)]. cbn [app run]. rewrite (step_open _ _ Hi).
  erewrite step_index; [|reflexivity|intros top; apply (open_kind_leaf top)].
  cbn. unfold lookup in Hl. rewrite Hl. cbn. rewrite Z.eqb_refl. cbn. rewrite (recv_top _ _ Ht). rewrite Hc. reflexivity.
Qed.

(* the statement of run_slice, with what its induction carries along: whatever the sender's tables answer for after t
   they answered for before, or the receiver has registered it while t went by *)
Definition PA (t : obj) : Prop :=
  forall s n sc vis imm vis' st, wf_gen s sc vis imm n t = Some vis' -> okst sc vis imm n st ->
    run (slice n t) st = Some (adv st [val_of n t] (regs_of n t) (heap_of n t) (opens t))
    /\ (forall k, mem k vis' = true -> mem k vis = true \/ (sc = true /\ mem k (regs_of n t) = true)).

Lemma adv_id st : s_inopen st = None -> adv st [] [] [] 0 = st.
Proof.
  intros H. destruct st as [s i c h]. cbn in H. subst i. unfold adv. cbn [s_stack s_counter s_heap].
  rewrite reg_many_nil, app_nil_r, Z.add_0_r. f_equal. destruct s as [|f r]; [reflexivity|]. destruct f; reflexivity.
Qed.

Lemma run_list xs : Forall PA xs -> forall s n sc vis imm vis' st,
  wf_list_gen s sc imm vis n xs = Some vis' -> okst sc vis imm n st ->
  run (slice_list n xs) st = Some (adv st (vals_list n xs) (regs_list n xs) (heap_list n xs) (opens_list xs))
  /\ (forall k, mem k vis' = true -> mem k vis = true \/ (sc = true /\ mem k (regs_list n xs) = true)).
Proof.
  induction 1 as [|x r Hx Hr IH]; intros s n sc vis imm vis' st W O.
  - cbn in W. inversion W; subst vis'. split; [|auto].
    cbn [slice_list run vals_list regs_list heap_list opens_list]. rewrite (adv_id _ (ok_in _ _ _ _ _ O)). reflexivity.
  - rewrite wf_list_cons in W. destruct (wf_gen s sc vis imm n x) as [v1|] eqn:W1; [|discriminate].
    destruct (Hx s n sc vis imm v1 st W1 O) as [R1 S1].
    assert (O2 : okst sc v1 imm (n + opens x) (adv st [val_of n x] (regs_of n x) (heap_of n x) (opens x))).
    { apply okst_adv with (vis := vis); [exact O|exact S1]. }
    destruct (IH s (n + opens x) sc v1 imm vis' _ W O2) as [R2 S2].
    split.
    + rewrite slice_list_cons, run_app, R1, R2, adv_adv. reflexivity.
    + intros k Hk. change (regs_list n (x :: r)) with (regs_of n x ++ regs_list (n + opens x) r). rewrite mem_app.
      destruct (S2 k Hk) as [H1|[H1 H2]].
      * destruct (S1 k H1) as [H3|[H3 H4]]; [left; exact H3|right; split; [exact H3|rewrite H4; reflexivity]].
      * right. split; [exact H1|rewrite H2; apply orb_true_r].
Qed.

Lemma hazard_mono c l (P1 P2 : Z -> bool) : (forall k, P1 k = true -> P2 k = true) ->
  forall o, hazard_pos c o l P2 = false -> hazard_pos c o l P1 = false.
Proof.
  intros M. induction l as [|v r IH]; intros o H; [reflexivity|]. cbn [hazard_pos] in *.
  apply orb_false_iff in H as [H1 H2]. rewrite (IH _ H2), orb_false_r.
  destruct c, o, v; try reflexivity; destruct (P1 k) eqn:E; try reflexivity; rewrite (M _ E) in H1; discriminate.
Qed.

Lemma even_len_length {A} : forall l : list A, even_len l = Nat.even (List.length l).
Proof. fix IH 1. intros [|a [|b l]]; [reflexivity|reflexivity|]. exact (IH l). Qed.

Lemma vals_list_length xs : forall m, List.length (vals_list m xs) = List.length xs.
Proof. induction xs as [|x r IH]; intros m; [reflexivity|]. cbn [vals_list List.length]. rewrite IH. reflexivity. Qed.

Lemma even_len_vals xs m : even_len (vals_list m xs) = even_len xs.
Proof. rewrite !even_len_length, vals_list_length. reflexivity. Qed.
Lemma even_bytes_vals : forall xs m, even_attr xs = true -> even_bytes (vals_list m xs) = true.
Proof.
  fix IH 1. intros [|a [|b l]] m E; [reflexivity|destruct a; discriminate|]. destruct a; try discriminate. exact (IH l _ E).
Qed.

Lemma step_close f r cnt hp n c :
  f_kind f = KC c -> f_open f = n ->
  (match c with CDict => even_len (rev (f_items f)) | CCopy _ => even_bytes (rev (f_items f)) | _ => true end) = true ->
  frame_hazard f r = false -> top_ok r = true ->
  step {| s_stack := f :: r; s_inopen := None; s_counter := cnt; s_heap := hp |} (TClose n) =
  Some {| s_stack := match r with g :: q => push_item (VPtr (f_count f)) g :: q | [] => [] end;
          s_inopen := None; s_counter := cnt;
          s_heap := hp ++ [(f_count f, {| n_kind := c; n_items := rev (f_items f) |})] |}.
Proof.
  intros K Op Sh Hz Tp. unfold step. cbn [s_inopen s_stack s_counter s_heap]. rewrite Op, Z.eqb_refl, K, Hz.
  unfold seal. rewrite K. rewrite Sh. rewrite (recv_top _ _ Tp). reflexivity.
Qed.

Lemma mem_self n l : mem n (n :: l) = true.
Proof. cbn. rewrite Z.eqb_refl. reflexivity. Qed.

Lemma okst_open c sc vis imm n st : okst sc vis imm n st ->
  okst (sc || is_scope c) (if (sc || is_scope c) && tracked c then n :: vis else vis) (if is_imm_c c then n :: imm else imm)
       (n + 1) (opened c n st).
Proof.
  intros [Hi Hc Ht Hs Hv Hm]. split; try reflexivity; cbn [opened s_stack].
  - intros E. unfold has_scope. cbn [existsb]. fold (has_scope (reg_many (if registers c then [n] else []) (s_stack st))).
    rewrite has_scope_reg. unfold is_scope_frame at 1. cbn [newframe f_kind].
    apply orb_true_iff in E as [E|E]; [rewrite (Hs E); apply orb_true_r|rewrite E; reflexivity].
  - intros k Hk. unfold lookup. cbn [existsb]. fold (lookup k (reg_many (if registers c then [n] else []) (s_stack st))).
    rewrite lookup_reg. destruct ((sc || is_scope c) && tracked c) eqn:T; [|rewrite (Hv _ Hk); cbn; apply orb_true_r].
    apply andb_true_iff in T as [T1 T2]. pose proof (tracked_registers _ T2) as Rg. rewrite Rg.
    rewrite (registers_not_scope _ Rg), orb_false_r in T1.
    cbn [mem] in Hk. apply orb_true_iff in Hk as [Hk|Hk].
    + rewrite (Hs T1). cbn [mem]. rewrite Hk. cbn. rewrite !orb_true_r. reflexivity.
    + rewrite (Hv _ Hk). cbn. apply orb_true_r.
  - intros k. unfold open_imm at 1. cbn [existsb newframe f_kind f_count is_imm].
    fold (open_imm (reg_many (if registers c then [n] else []) (s_stack st)) k). rewrite open_imm_reg. intros H.
    apply orb_true_iff in H as [H|H].
    + apply andb_true_iff in H as [H1 H2]. rewrite H1. apply Z.eqb_eq in H2. subst k. apply mem_self.
    + apply Hm in H. destruct (is_imm_c c); [cbn; rewrite H; apply orb_true_r|exact H].
Qed.

Lemma run_cont c xs : Forall PA xs -> PA (OCont c xs).
Proof.
  intros F s n sc vis imm vis' st W O.
  destruct (wf_cont_inv _ _ _ _ _ _ _ _ W) as (v & WL & -> & S & Hz).
  pose proof (okst_open c _ _ _ _ _ O) as O1.
  destruct (run_list xs F _ _ _ _ _ _ _ WL O1) as [R Sub].
  (* the state at CLOSE is admissible too: its open immutables are what the hazard clause of the guard was tested against *)
  pose proof (okst_adv _ _ _ _ _ _ (vals_list (n + 1) xs) _ (heap_list (n + 1) xs) (opens_list xs) O1 Sub) as O2.
  destruct O as [Hi Hc Ht Hs Hv Hm].
  split.
  - rewrite slice_cont, app_comm_cons, run_app, (run_open c xs st n S Hi Hc), run_app, R. cbn [run].
    revert O2. unfold adv at 1 2. cbn [opened s_stack s_counter s_heap reg_many map push_many]. intros O2.
    destruct (s_stack st) as [|g q] eqn:Es; [discriminate|].
    erewrite step_close with (c := c).
    + cbn [set_items f_count f_items]. rewrite count_reg1, items_reg1. cbn [newframe f_count f_items].
      rewrite app_nil_r, rev_involutive.
      rewrite regs_of_cont, heap_of_cont, opens_cont. unfold adv. cbn [s_stack s_counter s_heap]. rewrite Es.
      f_equal. f_equal.
      * fold (reg_many (regs_list (n + 1) xs) (reg_many (if registers c then [n] else []) (g :: q))). rewrite reg_many_app.
        cbn [reg_many map push_many]. unfold push_item, set_items. cbn [rev app]. reflexivity.
      * lia.
      * rewrite app_assoc. reflexivity.
    + cbn [set_items f_kind]. rewrite kind_reg1. reflexivity.
    + cbn [set_items f_open]. rewrite open_reg1. reflexivity.
    + cbn [set_items f_items]. rewrite items_reg1. cbn [newframe f_items]. rewrite app_nil_r, rev_involutive.
      destruct c; try reflexivity; cbn [shape_ok] in S.
      * rewrite even_len_vals. exact S.
      * apply even_bytes_vals. exact S.
    + unfold frame_hazard. cbn [set_items f_kind f_items]. rewrite kind_reg1, items_reg1. cbn [newframe f_kind f_items].
      rewrite app_nil_r, rev_involutive. exact (hazard_mono _ _ _ _ (ok_imm _ _ _ _ _ O2) _ Hz).
    + cbn [reg_many map top_ok]. rewrite !kind_reg1. exact Ht.
  - intros k Hk. rewrite regs_of_cont, mem_app. destruct (is_scope c) eqn:Sc; [left; exact Hk|].
    rewrite orb_false_r in Sub.
    destruct (Sub k Hk) as [H|[H1 H2]].
    + destruct (sc && tracked c) eqn:T; [|left; exact H].
      apply andb_true_iff in T as [T1 T2]. cbn [mem] in H. apply orb_true_iff in H as [H|H]; [|left; exact H].
      right. split; [exact T1|]. rewrite (tracked_registers _ T2). cbn [mem]. rewrite H. reflexivity.
    + right. split; [exact H1|]. rewrite H2. apply orb_true_r.
Qed.

Theorem run_slice : forall t, PA t.
Proof.
  apply obj_ind'.
  - intros t L s n sc vis imm vis' st W O. destruct O as [Hi Hc Ht Hs Hv Hm].
    destruct t; try discriminate.
    1-3: (cbn in W; inversion W; subst vis'; split; [apply run_atom; auto|auto]).
    1-4: (cbn in W; inversion W; subst vis'; split; [apply run_boxed; auto|auto]).
    cbn [wf_gen] in W. destruct (sc && mem k vis) eqn:E; [|discriminate]. inversion W; subst vis'.
    apply andb_true_iff in E as [_ E]. split; [apply run_ref; auto|auto].
  - intros c xs F. apply run_cont. exact F.
Qed.

Lemma okst_init scoped n : okst scoped [] [] n (init scoped n).
Proof.
  split; try reflexivity.
  - intros E. subst scoped. reflexivity.
  - intros k H. discriminate.
  - intros k H. cbn in H. discriminate.
Qed.

Lemma unslice_of_run scoped n ts vs ids h k :
  run ts (init scoped n) = Some (adv (init scoped n) vs ids h k) -> unslice scoped n ts = Some (h, vs).
Proof.
  intros R. unfold unslice. rewrite R. unfold adv, init. cbn [s_stack s_inopen s_heap reg_many map push_many].
  cbn [set_items f_items]. rewrite items_reg1. cbn [root_frame f_items]. rewrite app_nil_r, rev_involutive. reflexivity.
Qed.

Definition PSW (t : obj) : Prop := forall s sc vis imm n v, wf_gen true sc vis imm n t = Some v -> wf_gen s sc vis imm n t = Some v.

Lemma wf_list_strict_wide_of ys : Forall PSW ys -> forall s sc imm vis m w,
  wf_list_gen true sc imm vis m ys = Some w -> wf_list_gen s sc imm vis m ys = Some w.
Proof.
  induction 1 as [|y ys Hy _ IH]; intros s sc imm vis m w H; [exact H|]. rewrite wf_list_cons in *.
  destruct (wf_gen true sc vis imm m y) as [v1|] eqn:E; [|discriminate]. rewrite (Hy _ _ _ _ _ _ E). exact (IH _ _ _ _ _ _ H).
Qed.

Lemma wf_strict_wide : forall t, PSW t.
Proof.
  apply obj_ind'.
  - intros t L s sc vis imm n v H. destruct t; try discriminate; exact H.
  - intros c xs F s sc vis imm n v H. rewrite wf_gen_cont in *. cbv zeta in *.
    destruct (shape_ok c xs && negb (hazard_pos c false (vals_list (n + 1) xs) (fun k => mem k (if is_imm_c c then n :: imm else imm)))) eqn:G;
      [|cbn [andb] in H; discriminate].
    cbn [andb] in *.
    destruct (match c with CTuple | CFrozen => existsb (ref_into (if is_imm_c c then n :: imm else imm)) xs | _ => false end) eqn:X;
      [cbn in H; discriminate|].
    rewrite andb_false_r. cbn [negb] in *.
    destruct (wf_list_gen true (sc || is_scope c) (if is_imm_c c then n :: imm else imm)
                (if (sc || is_scope c) && tracked c then n :: vis else vis) (n + 1) xs) as [w|] eqn:WL; [|discriminate].
    rewrite (wf_list_strict_wide_of _ F _ _ _ _ _ _ WL). exact H.
Qed.

Lemma wf_obj_wide_of_strict scoped n t : wf_obj scoped n t = true -> wf_obj_wide scoped n t = true.
Proof.
  unfold wf_obj, wf_obj_wide, wf_at, wf_wide. destruct (wf_gen true scoped [] [] n t) as [v|] eqn:W; [|discriminate].
  rewrite (wf_strict_wide t false _ _ _ _ _ W). reflexivity.
Qed.

(* the wide guard (wf_gen false: the strict guard without its last clause): tuples / frozensets that directly hold a
   reference to an immutable still being built -- cycles through nested tuples -- are handled by this machine too *)
Theorem slice_unslice_wide scoped n t : wf_obj_wide scoped n t = true ->
  unslice scoped n (slice n t) = Some (heap_of n t, [val_of n t]).
Proof.
  unfold wf_obj_wide, wf_wide. destruct (wf_gen false scoped [] [] n t) as [v|] eqn:W; [|discriminate]. intros _.
  destruct (run_slice t false n scoped [] [] v (init scoped n) W (okst_init scoped n)) as [R _].
  apply unslice_of_run with (ids := regs_of n t) (k := opens t). exact R.
Qed.

(* one object: every well-formed term -- any nesting, bool vs int, bytes vs text, list vs tuple vs set vs
   frozenset, back-references, a container inside itself, nested scopes -- is rebuilt as exactly the graph it denotes *)
Theorem slice_unslice scoped n t : wf_obj scoped n t = true ->
  unslice scoped n (slice n t) = Some (heap_of n t, [val_of n t]).
Proof. intros W. apply slice_unslice_wide, wf_obj_wide_of_strict, W. Qed.

Theorem run_slice_wide t n sc vis imm vis' st : wf_wide sc vis imm n t = Some vis' -> okst sc vis imm n st ->
  run (slice n t) st = Some (adv st [val_of n t] (regs_of n t) (heap_of n t) (opens t)).
Proof. intros W O. exact (proj1 (run_slice t false n sc vis imm vis' st W O)). Qed.

(* several top-level objects in a row (successive calls / answers on a connection; several objects on one storage Banana) *)
Theorem slice_unslice_list_wide scoped n ts v : wf_list_wide scoped [] [] n ts = Some v ->
  unslice scoped n (slice_list n ts) = Some (heap_list n ts, vals_list n ts).
Proof.
  intros W. destruct (run_list ts (Forall_all _ run_slice ts) false n scoped [] [] v (init scoped n) W (okst_init scoped n)) as [R _].
  apply unslice_of_run with (ids := regs_list n ts) (k := opens_list ts). exact R.
Qed.

Theorem slice_unslice_list scoped n ts v : wf_list scoped [] [] n ts = Some v ->
  unslice scoped n (slice_list n ts) = Some (heap_list n ts, vals_list n ts).
Proof. intros W. exact (slice_unslice_list_wide _ _ _ _ (wf_list_strict_wide_of ts (Forall_all _ wf_strict_wide ts) false _ _ _ _ _ W)). Qed.

Theorem bytes_roundtrip_wide scoped n t bs : wf_obj_wide scoped n t = true -> forallb wf_token (slice n t) = true ->
  encode_stream (slice n t) = Ok bs ->
  exists toks, decode bs = (toks, EndClean) /\ unslice scoped n toks = Some (heap_of n t, [val_of n t]).
Proof.
  intros W T E. exists (slice n t). split; [apply stream_roundtrip; assumption|apply slice_unslice_wide; exact W].
Qed.

Theorem bytes_roundtrip scoped n t bs : wf_obj scoped n t = true -> forallb wf_token (slice n t) = true ->
  encode_stream (slice n t) = Ok bs ->
  exists toks, decode bs = (toks, EndClean) /\ unslice scoped n toks = Some (heap_of n t, [val_of n t]).
Proof. intros W. apply bytes_roundtrip_wide, wf_obj_wide_of_strict, W. Qed.

(* all references of a term point at or above lo *)
Fixpoint refs_ge (lo : Z) (t : obj) : bool :=
  match t with
  | ORef k => lo <=? k
  | OCont _ xs => (fix go (l : list obj) : bool := match l with [] => true | x :: r => refs_ge lo x && go r end) xs
  | _ => true
  end.
Definition refs_ge_list (lo : Z) := fix go (l : list obj) : bool := match l with [] => true | x :: r => refs_ge lo x && go r end.

Definition all_ge (lo : Z) (l : list Z) : Prop := forall k, mem k l = true -> lo <= k.

Definition PR (t : obj) : Prop :=
  forall s lo sc vis imm n vis', wf_gen s sc vis imm n t = Some vis' -> all_ge lo vis -> lo <= n ->
    refs_ge lo t = true /\ all_ge lo vis'.

Lemma opens_nonneg : forall t, 0 <= opens t.
Proof.
  apply obj_ind'.
  - intros t L. destruct t; try discriminate; cbn; lia.
  - intros c xs F. rewrite opens_cont. assert (0 <= opens_list xs); [|lia].
    induction F as [|x r Hx _ IH]; cbn; lia.
Qed.

Lemma refs_list xs : Forall PR xs -> forall s lo sc vis imm n vis',
  wf_list_gen s sc imm vis n xs = Some vis' -> all_ge lo vis -> lo <= n -> refs_ge_list lo xs = true /\ all_ge lo vis'.
Proof.
  induction 1 as [|x r Hx _ IH]; intros s lo sc vis imm n vis' W A L.
  - cbn in W. inversion W; subst. split; [reflexivity|exact A].
  - rewrite wf_list_cons in W. destruct (wf_gen s sc vis imm n x) as [v1|] eqn:W1; [|discriminate].
    destruct (Hx s lo sc vis imm n v1 W1 A L) as [R1 A1].
    pose proof (opens_nonneg x).
    destruct (IH s lo sc v1 imm (n + opens x) vis' W A1 ltac:(lia)) as [R2 A2].
    split; [cbn [refs_ge_list]; rewrite R1; exact R2|exact A2].
Qed.

Theorem refs_in_range : forall t, PR t.
Proof.
  apply obj_ind'.
  - intros t L s lo sc vis imm n vis' W A Ln. destruct t; try discriminate; try (cbn in W; inversion W; subst; split; [reflexivity|exact A]).
    cbn [wf_gen] in W. destruct (sc && mem k vis) eqn:E; [|discriminate]. inversion W; subst.
    apply andb_true_iff in E as [_ E]. split; [cbn; apply Z.leb_le; apply A; exact E|exact A].
  - intros c xs F s lo sc vis imm n vis' W A Ln. destruct (wf_cont_inv _ _ _ _ _ _ _ _ W) as (v & WL & -> & _).
    assert (A1 : all_ge lo (if (sc || is_scope c) && tracked c then n :: vis else vis)).
    { destruct ((sc || is_scope c) && tracked c); [|exact A]. intros k H. cbn [mem] in H.
      apply orb_true_iff in H as [H|H]; [apply Z.eqb_eq in H; lia|apply A; exact H]. }
    destruct (refs_list xs F s lo _ _ _ (n + 1) v WL A1 ltac:(lia)) as [R A2].
    split; [exact R|destruct (is_scope c); assumption].
Qed.

(* a scoped sequence that the sender can produce at OPEN number n when nothing is visible from outside
   (successive calls on a Broker: the root slicer keeps no table) refers only to objects opened inside itself *)
Theorem scope_refs_are_local s nm xs imm n vis' :
  wf_gen s false [] imm n (OCont (CScope nm) xs) = Some vis' -> refs_ge_list (n + 1) xs = true /\ vis' = [].
Proof.
  intros W. destruct (wf_cont_inv _ _ _ _ _ _ _ _ W) as (v & WL & -> & _). split; [|reflexivity].
  cbn [is_scope tracked andb orb] in WL.
  destruct (refs_list xs (Forall_all _ refs_in_range xs) s (n + 1) _ _ _ (n + 1) v WL) as [R _]; [intros k H; discriminate|lia|exact R].
Qed.

(* the receiver: once a call has been closed on a connection whose root keeps no table, no number resolves any more:
   a reference arriving in the next call to anything outside that call is a dangling reference, whatever the number *)
Theorem scope_isolation_receiver s nm1 xs1 nm2 n k v :
  wf_list_gen s false [] [] n [OCont (CScope nm1) xs1] = Some v ->
  shape_ok (CScope nm2) [] = true ->
  unslice false n (slice_list n [OCont (CScope nm1) xs1; OCont (CScope nm2) [ORef k]]) = None.
Proof.
  intros W S2.
  destruct (run_list _ (Forall_all _ run_slice _) s n false [] [] v (init false n) W (okst_init false n)) as [R _].
  unfold unslice. rewrite slice_list_cons, run_app.
  change (slice_list n [OCont (CScope nm1) xs1]) with (slice n (OCont (CScope nm1) xs1) ++ []) in R. rewrite app_nil_r in R.
  rewrite R. cbn [slice_list]. rewrite app_nil_r, slice_cont.
  set (st := adv (init false n) _ _ _ _).
  rewrite app_comm_cons.
  rewrite run_app, (run_open (CScope nm2) [] st (n + opens (OCont (CScope nm1) xs1)) S2 eq_refl).
  2: { unfold st, adv. cbn [s_counter init vals_list opens_list]. lia. }
  unfold opened. cbn [registers slice_list slice app]. rewrite reg_many_nil.
  change (strs ot_reference) with [TString (hd [] ot_reference)]. cbn [app run].
  rewrite step_open; [|reflexivity].
  erewrite step_index; [|reflexivity|intros top; apply (open_kind_leaf top)].
  cbn [kind_registers]. unfold step at 1. cbn [s_inopen s_stack recv newframe f_kind f_items].
  unfold st, adv, init. cbn [s_stack reg_many map push_many root_frame].
  unfold lookup. cbn [existsb]. unfold is_scope_frame at 1 2. cbn [newframe set_items f_kind f_refs is_scope mem andb orb].
  unfold is_scope_frame. cbn [set_items f_kind]. rewrite kind_reg1. cbn [f_kind]. reflexivity.
Qed.

Definition no_vocab (t : token) : bool := match t with TVocab _ => false | _ => true end.

Lemma vfind_in bs tbl i : vfind bs tbl = Some i -> In i (map snd tbl).
Proof.
  induction tbl as [|[s j] r IH]; cbn; [discriminate|]. destruct (list_eqb s bs); intros H.
  - inversion H. left. reflexivity.
  - right. apply IH. exact H.
Qed.

Lemma vfind_inv_vfind tbl : NoDup (map snd tbl) -> forall bs i, vfind bs tbl = Some i -> vfind_inv i tbl = Some bs.
Proof.
  induction tbl as [|[s j] r IH]; intros ND bs i H; cbn in *; [discriminate|].
  inversion ND as [|? ? Hn ND']; subst.
  destruct (list_eqb s bs) eqn:E.
  - inversion H; subst. rewrite Z.eqb_refl. apply list_eqb_eq in E. subst. reflexivity.
  - destruct (j =? i) eqn:J.
    + apply Z.eqb_eq in J. subst j. exfalso. apply Hn. eapply vfind_in. exact H.
    + apply IH; assumption.
Qed.

(* whatever table is in force (indices distinct), the receiver's expansion undoes the sender's abbreviation, for
   every token sequence (opentype strings, user byte strings, text bodies alike) *)
Theorem vocab_transparent tbl ts : NoDup (map snd tbl) -> forallb no_vocab ts = true ->
  devocab tbl (envocab tbl ts) = Some ts.
Proof.
  intros ND. induction ts as [|t r IH]; intros NV; [reflexivity|].
  cbn [forallb] in NV. apply andb_true_iff in NV as [N1 N2]. cbn [envocab map devocab]. fold (envocab tbl r). rewrite (IH N2).
  destruct t; try discriminate; cbn [envocab1 devocab1]; try reflexivity.
  destruct (vfind bs tbl) as [i|] eqn:F; cbn [devocab1]; [|reflexivity].
  rewrite (vfind_inv_vfind tbl ND bs i F). reflexivity.
Qed.

Definition plain_tok (t : token) : bool :=
  match t with TInt _ | TFloat _ | TString _ | TOpen _ | TClose _ => true | _ => false end.

Lemma slice_plain : forall t n, forallb plain_tok (slice n t) = true.
Proof.
  apply (obj_ind' (fun t => forall n, forallb plain_tok (slice n t) = true)).
  - intros t L n. destruct t; try discriminate; reflexivity.
  - intros c xs F n. rewrite slice_cont. cbn [forallb plain_tok andb]. rewrite forallb_app. apply andb_true_iff. split.
    + unfold strs. induction (opentype_of c); [reflexivity|cbn; assumption].
    + rewrite forallb_app. apply andb_true_iff. split; [|reflexivity].
      generalize (n + 1). induction F as [|x r Hx _ IH]; intros m; [reflexivity|].
      rewrite slice_list_cons, forallb_app, Hx, IH. reflexivity.
Qed.

Lemma slice_forallb (P : token -> bool) : (forall t, plain_tok t = true -> P t = true) ->
  forall t n, forallb P (slice n t) = true.
Proof. intros H t n. apply forallb_forall. intros x I. exact (H x (proj1 (forallb_forall _ _) (slice_plain t n) x I)). Qed.

Lemma slice_no_vocab : forall t n, forallb no_vocab (slice n t) = true.
Proof. apply slice_forallb. intros [] E; try discriminate E; reflexivity. Qed.

(* the property's "whatever vocabulary table is in force": object -> tokens -> abbreviated -> expanded -> object *)
Theorem roundtrip_any_vocab_wide scoped n t tbl : wf_obj_wide scoped n t = true -> NoDup (map snd tbl) ->
  exists toks, devocab tbl (envocab tbl (slice n t)) = Some toks /\ unslice scoped n toks = Some (heap_of n t, [val_of n t]).
Proof.
  intros W ND. exists (slice n t). split; [apply vocab_transparent; [exact ND|apply slice_no_vocab]|apply slice_unslice_wide; exact W].
Qed.

Theorem roundtrip_any_vocab scoped n t tbl : wf_obj scoped n t = true -> NoDup (map snd tbl) ->
  exists toks, devocab tbl (envocab tbl (slice n t)) = Some toks /\ unslice scoped n toks = Some (heap_of n t, [val_of n t]).
Proof. intros W. apply roundtrip_any_vocab_wide, wf_obj_wide_of_strict, W. Qed.

Definition nmA : list Z := [118;101;114;105;102;46;99;48;49;46;65].    (* "verif.c01.A" *)
(* c = C(); K = (c,); c.x = K *)
Definition witness_copy_attr : obj := OTuple [OCopy nmA [([120], ORef 0)]].
(* c = C(); K = (c,); c.d = {K: 1} *)
Definition witness_dict_key : obj := OTuple [OCopy nmA [([100], ODict [(ORef 0, OInt 1)])]].

(* `sender_ok t`: the RECEIVER's pointer machine consumes `slice 0 t` without refusing (the final state is not looked at).
   It is false on both witnesses (the CLOSE of the Copyable / dict is refused), and no theorem uses it. *)
Definition sender_ok (t : obj) : bool :=
  match run (slice 0 t) (init true 0) with Some _ => true | None => false end.

Theorem refuted_copy_attr : unslice true 0 (slice 0 witness_copy_attr) = None /\ wf_obj true 0 witness_copy_attr = false.
Proof. vm_compute. split; reflexivity. Qed.
Theorem refuted_dict_key : unslice true 0 (slice 0 witness_dict_key) = None /\ wf_obj true 0 witness_dict_key = false.
Proof. vm_compute. split; reflexivity. Qed.

Example ex_self_list : wf_obj true 0 (OList [ORef 0]) = true /\ unslice true 0 (slice 0 (OList [ORef 0])) = Some ([(0, {| n_kind := CList; n_items := [VPtr 0] |})], [VPtr 0]).
Proof. vm_compute. split; reflexivity. Qed.
Example ex_tuple_twice_through_dict :
  wf_obj true 0 (ODict [(OInt 1, OTuple [OInt 1; OInt 2]); (OInt 2, ORef 1)]) = true.
Proof. vm_compute. reflexivity. Qed.
Example ex_cycle_through_tuple_and_list : wf_obj true 0 (OTuple [OList [ORef 0; OFrozen [OInt 1]]]) = true.
Proof. vm_compute. reflexivity. Qed.
Example ex_copy_in_cycle : wf_obj true 0 (OList [OCopy nmA [([120], ORef 0)]]) = true.
Proof. vm_compute. reflexivity. Qed.
Example ex_boundaries : forallb wf_token (slice 0 (OList [OInt (- 2 ^ 31); OInt (2 ^ 31); OInt (2 ^ 64); OInt (- 2 ^ 8192);
                                                        OFloat [127; 240; 0; 0; 0; 0; 0; 1]; OBool true; OInt 1; OText [240; 159; 152; 128]])) = true.
Proof. vm_compute. reflexivity. Qed.
Example ex_two_calls :
  let c1 := OCont (CScope [99; 97; 108; 108]) [OInt 1; OList [ORef 1]] in
  let c2 := OCont (CScope [99; 97; 108; 108]) [OInt 2; OList [ORef 4]] in
  wf_list false [] [] 0 [c1; c2] = Some [] /\
  unslice false 0 (slice_list 0 [c1; OCont (CScope [99; 97; 108; 108]) [OInt 2; OList [ORef 1]]]) = None.
Proof. vm_compute. split; reflexivity. Qed.
Example ex_vocab : NoDup (map snd [([108; 105; 115; 116], 0); ([97], 1)]).
Proof. repeat constructor; cbn; intuition discriminate. Qed.

(* translated from Banana.handleData: objectCounter += 1 at every OPEN, before the rejection / discard test *)
Lemma opens_counted_when_discarded : open_counts_when_discarded = true.
Proof. reflexivity. Qed.

Lemma discard_strs l rest d cnt : 0 < d -> discard (strs l ++ rest) d cnt = discard rest d cnt.
Proof.
  intros D. induction l as [|a l IH]; [reflexivity|]. cbn [strs map app discard].
  destruct (d <=? 0) eqn:E; [apply Z.leb_le in E; lia|]. exact IH.
Qed.

Definition PD (t : obj) : Prop :=
  forall n d cnt rest, 0 < d -> discard (slice n t ++ rest) d cnt = discard rest d (cnt + opens t).

Lemma discard_list xs : Forall PD xs -> forall n d cnt rest, 0 < d ->
  discard (slice_list n xs ++ rest) d cnt = discard rest d (cnt + opens_list xs).
Proof.
  induction 1 as [|x r Hx _ IH]; intros n d cnt rest D.
  - cbn [slice_list app opens_list]. rewrite Z.add_0_r. reflexivity.
  - rewrite slice_list_cons, <- app_assoc, (Hx n d cnt _ D), (IH _ d _ rest D).
    change (opens_list (x :: r)) with (opens x + opens_list r). rewrite Z.add_assoc. reflexivity.
Qed.

Ltac dstep := cbn [app discard]; match goal with |- context [?d <=? 0] =>
  let E := fresh in destruct (d <=? 0) eqn:E; [apply Z.leb_le in E; lia|clear E] end.

(* whatever object lies in the discarded part -- any nesting, references, scopes -- its OPENs are counted and nothing else
   changes: the discard depth is back where it was *)
Theorem discard_slice : forall t, PD t.
Proof.
  apply obj_ind'.
  - intros t L n d cnt rest D. destruct t; try discriminate; cbn [slice opens].
    1-3: (dstep; rewrite Z.add_0_r; reflexivity).
    (* boxed leaves and references: OPEN, opentype strings, at most one body token, CLOSE *)
    all: (dstep; rewrite opens_counted_when_discarded; rewrite <- app_assoc, discard_strs by lia; dstep; try dstep;
          replace (d + 1 - 1) with d by lia; reflexivity).
  - intros c xs F n d cnt rest D. rewrite slice_cont, opens_cont. dstep. rewrite opens_counted_when_discarded.
    rewrite <- !app_assoc, discard_strs by lia. rewrite (discard_list xs F (n + 1) (d + 1) (cnt + 1) _ ltac:(lia)).
    dstep. replace (d + 1 - 1) with d by lia. f_equal. lia.
Qed.

(* a receiver that rejects a container part-way (discardCount = 1) and drops the rest of its children up to its CLOSE ends
   with discardCount 0, the unread input untouched, and its object counter advanced by exactly the OPENs the sender
   spent on the dropped children: the two numberings stay in step, so the references of every later message resolve *)
Theorem discard_rest_of_rejected xs n k cnt rest :
  discard (slice_list n xs ++ TClose k :: rest) 1 cnt = (0, cnt + opens_list xs, rest).
Proof.
  rewrite (discard_list xs (Forall_all _ discard_slice xs) n 1 cnt _ ltac:(lia)). cbn [discard]. cbn. destruct rest; reflexivity.
Qed.

(* `count_opens` is what the harness compares with the real receiver's objectCounter on rejected messages; on a sender's
   stream it is the `opens` the discard theorems count with *)
Lemma slice_count_opens : forall t n, count_opens (slice n t) = opens t.
Proof.
  assert (S : forall l r, count_opens (strs l ++ r) = count_opens r).
  { induction l as [|a l IH]; intros r; [reflexivity|exact (IH r)]. }
  assert (A : forall a b, count_opens (a ++ b) = count_opens a + count_opens b).
  { induction a as [|t a IH]; intros b; [reflexivity|]. cbn [app count_opens]. destruct t; rewrite ?IH; lia. }
  apply (obj_ind' (fun t => forall n, count_opens (slice n t) = opens t)).
  - intros t L n. destruct t; try discriminate; cbn [slice opens count_opens]; rewrite ?S; reflexivity.
  - intros c xs F n. rewrite slice_cont, opens_cont. cbn [count_opens]. rewrite S, A. cbn [count_opens]. f_equal.
    rewrite Z.add_0_r. revert n. generalize 1. induction F as [|x r Hx _ IH]; intros z n; [reflexivity|].
    rewrite slice_list_cons, A, Hx. change (opens_list (x :: r)) with (opens x + opens_list r). f_equal.
    replace (n + z + opens x) with (n + opens x + z) by lia. apply IH.
Qed.
