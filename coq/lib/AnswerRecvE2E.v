(* C03 -- END TO END, bytes to firing: the bytes the (translated) sender encoding produces for
        OPEN n  "answer"  INT rid  <body>  CLOSE n          resp.   OPEN n  "error"  INT rid  <body>  CLOSE n
   fed in ANY chunking to ANY idle receiver of lib/AnswerRecv.v whose table holds rid -> h, with ANY oracle that accepts the
   sequence, make the receiver perform exactly [Complete h] (resp. [Fail h ORemoteError]) and leave it idle again.

   "the oracle accepts the sequence" is the predicate `accepts` below (the opentype token, then `walk` along the body): the
   questions the receiver puts to the oracle (taste of every token, `after` of every index token / child token / inner
   CLOSE, readiness at the final CLOSE of an answer) are all answered with "accept".  The guard is sufficient, not necessary
   (`walk` also refuses the body tokens listed below as not covered); the _refuted lemmas at the end show that it cannot
   simply be dropped.

   Body tokens covered: INT (0 <= z < 2^31), STRING, and nested OPEN k <index STRINGs> ... CLOSE k sequences to any depth
   (as many index tokens as the oracle asks for: DMore).  NEG / LONGINT / LONGNEG / FLOAT / VOCAB children take the same
   path through `deliver` but are not covered by the composed statement. *)
From Coq Require Import ZArith List Bool Lia.
Import ListNotations.
Require Import Verif.lib.PyLite Verif.gen.BananaGen Verif.lib.Token Verif.lib.TokenProofs Verif.lib.Recv Verif.lib.RecvProofs.
Require Import Verif.gen.RequestsGen Verif.lib.Requests Verif.lib.RequestsProofs Verif.lib.AnswerRecv Verif.lib.AnswerRecvProofs.
Local Open Scope Z_scope.

Definition small_int (z : Z) : bool := (0 <=? z) && (z <? 2 ^ 31).
Definition is_nil {A} (l : list A) : bool := match l with [] => true | _ => false end.

Section E2E.
Variable C : Type.
Variable taste : C -> utop -> bool -> Z -> Z -> ck.
Variable after : C -> utop -> bool -> Z -> Z -> list Z -> dres * C.

Notation actx := (actx C).
Notation step_nobody_a := (step_nobody_a C taste after).
Notation begin_body_a := (begin_body_a C taste).
Notation finish_body_a := (finish_body_a C after).
Notation afeed := (afeed C taste after).
Notation jrun := (jrun C taste after).
Notation jinit := (jinit C).
Notation jst := (jst C).
Notation fb := (fun c ty hdr body => to_h C (finish_body_a c ty hdr body)).
Notation sn := (fun c ty hdr => to_h C (step_nobody_a c ty hdr)).
Notation atok := (Recv.tok_step actx op begin_body_a fb sn [] [] (fun _ => [])).
Notation aloop := (Recv.loop actx op begin_body_a fb sn [] [] (fun _ => [])).

Definition is_ok_ck (k : ck) : bool := match k with CkOk => true | _ => false end.

(* the guard: the oracle accepts the body.  err/h/n: the sequence is an error / bound to handle h / opened with count n.
   hv = haveResults / gotFailure, kids = open counts of the unslicers above the Answer/ErrorUnslicer, io = inOpen,
   ib = inboundOpenCount. *)
Definition prim_ok (a : dres * C) : option C := match a with (DViol, _) | (DBanana, _) => None | (_, cs') => Some cs' end.

Fixpoint walk (err : bool) (h : nat) (n : Z) (cs : C) (hv : bool) (kids : list Z) (io : bool) (ib : Z) (ts : list token)
  {struct ts} : bool :=
  let top := UBody err h hv n kids in
  match ts with
  | [] => negb io && hv && is_nil kids &&
          (if err then true else match fst (after cs (UBody err h true n []) false tok_CLOSE n []) with DLate => false | _ => true end)
  | t :: r =>
    if io then
      match t with
      | TString b =>
        hdr_ok (lenZ b) && is_ok_ck (taste cs top true tok_STRING (lenZ b)) &&
        match after cs top true tok_STRING (lenZ b) b with
        | (DMore, cs') => walk err h n cs' hv kids true ib r
        | (DOk, cs') | (DLate, cs') => walk err h n cs' hv (ib :: kids) false ib r
        | _ => false
        end
      | _ => false
      end
    else
      let full := hv && is_nil kids in                                    (* "stop sending me stuff!" *)
      let prim ty hdr body :=
        negb full && is_ok_ck (taste cs top false ty hdr) &&
        match kids with
        | [] => walk err h n cs true [] false ib r
        | _ => match prim_ok (after cs top false ty hdr body) with Some cs' => walk err h n cs' hv kids false ib r | None => false end
        end in
      match t with
      | TOpen k => hdr_ok k && negb full && is_ok_ck (taste cs top false tok_OPEN k) && walk err h n cs hv kids true k r
      | TClose k =>
        hdr_ok k &&
        match kids with
        | [] => false
        | k' :: kids' =>
          (k' =? k) && match prim_ok (after cs top false tok_CLOSE k []) with
                       | Some cs' => walk err h n cs' (match kids' with [] => true | _ => hv end) kids' false ib r
                       | None => false
                       end
        end
      | TInt z => small_int z && prim tok_INT z []
      | TString b => hdr_ok (lenZ b) && prim tok_STRING (lenZ b) b
      | _ => false
      end
  end.

Lemma atok_nobody c ty n ds rest :
  scan_header 64 [] (ds ++ ty :: rest) = HOk ds ty rest -> le128 ds = n ->
  (ty =? tok_ERROR) = false -> has_body ty = false ->
  atok c (ds ++ ty :: rest) = TCont _ _ (fst (step_nobody_a c ty n)) (snd (step_nobody_a c ty n)) rest.
Proof.
  intros S V E B. unfold Recv.tok_step. rewrite S, V, E, B. unfold to_h. reflexivity.
Qed.

Lemma atok_body c ty body ds rest :
  scan_header 64 [] (ds ++ ty :: body ++ rest) = HOk ds ty (body ++ rest) -> le128 ds = lenZ body ->
  (ty =? tok_ERROR) = false -> has_body ty = true -> (ty =? tok_FLOAT) = false ->
  begin_body_a c ty (lenZ body) = BAccept ->
  atok c (ds ++ ty :: body ++ rest) =
  TCont _ _ (fst (finish_body_a c ty (lenZ body) body)) (snd (finish_body_a c ty (lenZ body) body)) rest.
Proof.
  intros S V E B F A. unfold Recv.tok_step. rewrite S, V, E, B, A. unfold blen. rewrite F.
  rewrite lenZ_app. pose proof (lenZ_nonneg rest) as NR.
  destruct (Z.ltb_spec (lenZ body + lenZ rest) (lenZ body)); [lia|].
  unfold lenZ at 1 2 3 4. rewrite Nat2Z.id.
  destruct (firstn_skipn_app_exact body rest) as [F1 F2]. rewrite F1, F2. unfold to_h. reflexivity.
Qed.

Lemma aloop_step c b c' es rest : atok c b = TCont _ _ c' es rest ->
  aloop (S (List.length b)) c b = (fst (aloop (S (List.length rest)) c' rest), es ++ snd (aloop (S (List.length rest)) c' rest)).
Proof.
  intros T. pose proof (tok_step_cont_length _ _ _ _ _ _ _ _ _ _ _ _ _ T) as L.
  destruct b as [|x b]; [cbn in L; lia|].
  rewrite loop_cons, T.
  rewrite (loop_fuel _ _ _ _ _ _ _ _ (List.length (x :: b)) (S (List.length rest)) c' rest); [|exact L|lia].
  destruct (aloop (S (List.length rest)) c' rest). reflexivity.
Qed.

Lemma enc_stream_cons t r bs : encode_stream (t :: r) = Ok bs ->
  exists b bs', encode_token t [] = Ok b /\ encode_stream r = Ok bs' /\ bs = b ++ bs'.
Proof.
  cbn [encode_stream]. unfold bind. destruct (encode_token t []) as [b|]; [|discriminate].
  destruct (encode_stream r) as [bs'|]; [|discriminate]. intros E; inversion E. eauto.
Qed.

(* header-only tokens and STRING: what the encoder writes and what the scanner finds *)
Lemma enc_hdr n ty rest b : hdr_ok n = true -> 128 <= ty -> hdr_tok n ty [] = Ok b ->
  exists ds, b ++ rest = ds ++ ty :: rest /\ scan_header 64 [] (ds ++ ty :: rest) = HOk ds ty rest /\ le128 ds = n.
Proof.
  intros H T E. destruct (hdr_tok_scan n ty [] rest H T) as (ds & E' & S & V). rewrite E in E'. inversion E'; subst b.
  exists ds. cbn [app]. rewrite <- app_assoc. cbn [app]. auto.
Qed.

Lemma enc_string bs rest b : hdr_ok (lenZ bs) = true -> encode_token (TString bs) [] = Ok b ->
  exists ds, b ++ rest = ds ++ tok_STRING :: bs ++ rest /\
             scan_header 64 [] (ds ++ tok_STRING :: bs ++ rest) = HOk ds tok_STRING (bs ++ rest) /\ le128 ds = lenZ bs.
Proof.
  intros H E. cbn [encode_token] in E. unfold bind in E.
  destruct (hdr_tok (Z.of_nat (List.length bs)) tok_STRING []) as [w|] eqn:W; [|discriminate]. inversion E; subst b.
  assert (T : 128 <= tok_STRING) by (unfold tok_STRING; lia).
  destruct (enc_hdr _ _ (bs ++ rest) w H T W) as (ds & E1 & S & V).
  exists ds. rewrite <- app_assoc. auto.
Qed.

Lemma enc_small_int z b : small_int z = true -> encode_token (TInt z) [] = Ok b -> hdr_tok z tok_INT [] = Ok b /\ hdr_ok z = true.
Proof.
  unfold small_int. intros H. apply andb_true_iff in H as [H0 H1]. apply Z.leb_le in H0. apply Z.ltb_lt in H1.
  cbn [encode_token]. unfold send_int.
  destruct (Z.geb_spec z (2 ^ 31)); [lia|]. destruct (Z.geb_spec z 0); [|lia].
  unfold hdr_tok, bind. intros E. split; [exact E|].
  unfold hdr_ok. apply andb_true_iff. split; [apply Z.leb_le; exact H0|apply Z.ltb_lt].
  apply (Z.lt_trans _ _ _ H1), Z.pow_lt_mono_r; lia.
Qed.

Definition bctx (err : bool) (h : nat) (n : Z) (s : st) (io first : bool) (ib : Z) (hv : bool) (kids : list Z) (cs : C)
  (voc : list (Z * list Z)) : actx := mkA C s 0 io first ib (UBody err h hv n kids) cs voc false.

Lemma taste_of_body err h n s first ib hv kids cs voc ty hdr : hv && is_nil kids = false ->
  taste_of C taste (bctx err h n s false first ib hv kids cs voc) false ty hdr = taste cs (UBody err h hv n kids) false ty hdr.
Proof. intros F. destruct hv, kids; try discriminate F; reflexivity. Qed.

Lemma sn_open err h n s first ib hv kids cs voc k :
  hv && is_nil kids = false -> taste cs (UBody err h hv n kids) false tok_OPEN k = CkOk ->
  step_nobody_a (bctx err h n s false first ib hv kids cs voc) tok_OPEN k = (bctx err h n s true true k hv kids cs voc, []).
Proof.
  intros F T. apply (step_nobody_open C taste after); [reflexivity..|]. rewrite taste_of_body; assumption.
Qed.

Lemma bb_index err h n s first ib hv kids cs voc len :
  taste cs (UBody err h hv n kids) true tok_STRING len = CkOk ->
  begin_body_a (bctx err h n s true first ib hv kids cs voc) tok_STRING len = BAccept.
Proof. intros T. apply begin_body_accept. repeat split. exact T. Qed.

Lemma fb_index err h n s first ib hv kids cs voc b :
  finish_body_a (bctx err h n s true first ib hv kids cs voc) tok_STRING (lenZ b) b =
  match after cs (UBody err h hv n kids) true tok_STRING (lenZ b) b with
  | (DMore, cs') => (bctx err h n s true false ib hv kids cs' voc, [])
  | (DOk, cs') | (DLate, cs') => (bctx err h n s false false ib hv (ib :: kids) cs' voc, [])
  | (DViol, cs') => violation C (set_inopen C (set_cs C (bctx err h n s true false ib hv kids cs voc) cs') false) true false
  | (DBanana, cs') => fatal C (set_cs C (bctx err h n s true false ib hv kids cs voc) cs')
  end.
Proof.
  etransitivity;
    [exact (handle_open_body C after (bctx err h n s true first ib hv kids cs voc) err h hv n kids tok_STRING (lenZ b) b (VStr b) eq_refl)|].
  cbn [bctx a_cs a_top].
  destruct (after cs (UBody err h hv n kids) true tok_STRING (lenZ b) b) as [[] cs']; reflexivity.
Qed.

Lemma sn_int err h n s first ib hv kids cs voc z :
  hv && is_nil kids = false -> taste cs (UBody err h hv n kids) false tok_INT z = CkOk ->
  step_nobody_a (bctx err h n s false first ib hv kids cs voc) tok_INT z =
  match kids with
  | [] => (bctx err h n s false first ib true [] cs voc, [])
  | _ => match after cs (UBody err h hv n kids) false tok_INT z [] with
         | (DViol, cs') => violation C (set_cs C (bctx err h n s false first ib hv kids cs voc) cs') false false
         | (DBanana, cs') => fatal C (set_cs C (bctx err h n s false first ib hv kids cs voc) cs')
         | (_, cs') => (bctx err h n s false first ib hv kids cs' voc, [])
         end
  end.
Proof.
  intros F T. rewrite (step_nobody_int C taste after); [|reflexivity..|].
  - eapply (handle_token_body C after). reflexivity.
  - rewrite taste_of_body; assumption.
Qed.

Lemma bb_string err h n s first ib hv kids cs voc len :
  hv && is_nil kids = false -> taste cs (UBody err h hv n kids) false tok_STRING len = CkOk ->
  begin_body_a (bctx err h n s false first ib hv kids cs voc) tok_STRING len = BAccept.
Proof.
  intros F T. apply begin_body_accept. repeat split. rewrite taste_of_body; assumption.
Qed.

Lemma fb_string err h n s first ib hv kids cs voc b :
  finish_body_a (bctx err h n s false first ib hv kids cs voc) tok_STRING (lenZ b) b =
  match kids with
  | [] => (bctx err h n s false first ib true [] cs voc, [])
  | _ => match after cs (UBody err h hv n kids) false tok_STRING (lenZ b) b with
         | (DViol, cs') => violation C (set_cs C (bctx err h n s false first ib hv kids cs voc) cs') false false
         | (DBanana, cs') => fatal C (set_cs C (bctx err h n s false first ib hv kids cs voc) cs')
         | (_, cs') => (bctx err h n s false first ib hv kids cs' voc, [])
         end
  end.
Proof.
  eapply (handle_token_body C after). reflexivity.
Qed.

Lemma sn_close_inner err h n s first ib hv k kids cs voc :
  step_nobody_a (bctx err h n s false first ib hv (k :: kids) cs voc) tok_CLOSE k =
  match after cs (UBody err h hv n (k :: kids)) false tok_CLOSE k [] with
  | (DViol, cs') => violation C (set_cs C (bctx err h n s false first ib hv (k :: kids) cs voc) cs') false true
  | (DBanana, cs') => fatal C (set_cs C (bctx err h n s false first ib hv (k :: kids) cs voc) cs')
  | (_, cs') => (bctx err h n s false first ib (match kids with [] => true | _ => hv end) kids cs' voc, [])
  end.
Proof.
  rewrite (step_nobody_close C taste after) by reflexivity.
  apply (handle_close_child C after). reflexivity.
Qed.

Lemma sn_close_final_error h n s first ib cs voc :
  step_nobody_a (bctx true h n s false first ib true [] cs voc) tok_CLOSE n =
  (mkA C (Requests.step s (Fail h ORemoteError)) 0 false first ib URoot cs voc false, [Fail h ORemoteError]).
Proof.
  rewrite (step_nobody_close C taste after) by reflexivity.
  apply (handle_close_error C after). reflexivity.
Qed.

Lemma sn_close_final_answer h n s first ib cs voc :
  fst (after cs (UBody false h true n []) false tok_CLOSE n []) <> DLate ->
  step_nobody_a (bctx false h n s false first ib true [] cs voc) tok_CLOSE n =
  (mkA C (Requests.step s (Complete h)) 0 false first ib URoot (snd (after cs (UBody false h true n []) false tok_CLOSE n [])) voc false,
   [Complete h]).
Proof.
  intros NL. rewrite (step_nobody_close C taste after) by reflexivity.
  apply (handle_close_answer C after); [reflexivity|exact NL].
Qed.

Definition final_op (err : bool) (h : nat) : op := if err then Fail h ORemoteError else Complete h.

Definition idle_ctx (c : actx) : Prop := a_dead c = false /\ a_disc c = 0 /\ a_inopen c = false /\ a_top c = URoot.

Definition lands (r : rstate actx * list op) (s : st) (voc : list (Z * list Z)) (x : op) : Prop :=
  exists c', r = (mk c' [] 0 false, [x]) /\ idle_ctx c' /\ a_st c' = Requests.step s x /\ a_vocab c' = voc.

Lemma step_then c c1 buf bs' s voc x : atok c buf = TCont _ _ c1 [] bs' ->
  lands (aloop (S (List.length bs')) c1 bs') s voc x -> lands (aloop (S (List.length buf)) c buf) s voc x.
Proof.
  intros T (c' & E & I). rewrite (aloop_step _ _ _ _ _ T), E. exists c'. split; [reflexivity|exact I].
Qed.

Lemma tok_facts :
  128 <= tok_OPEN /\ 128 <= tok_CLOSE /\ 128 <= tok_INT /\
  (tok_OPEN =? tok_ERROR) = false /\ (tok_CLOSE =? tok_ERROR) = false /\ (tok_INT =? tok_ERROR) = false /\
  (tok_STRING =? tok_ERROR) = false /\ (tok_STRING =? tok_FLOAT) = false /\
  has_body tok_OPEN = false /\ has_body tok_CLOSE = false /\ has_body tok_INT = false /\ has_body tok_STRING = true.
Proof. unfold tok_OPEN, tok_CLOSE, tok_INT. repeat split; try lia; reflexivity. Qed.

(* a header-only token, resp. a STRING, that the receiver takes silently *)
Lemma lands_hdr {c c1 n} ty {b bs' s voc x} :
  hdr_ok n = true -> 128 <= ty -> (ty =? tok_ERROR) = false -> has_body ty = false -> hdr_tok n ty [] = Ok b ->
  step_nobody_a c ty n = (c1, []) ->
  lands (aloop (S (List.length bs')) c1 bs') s voc x -> lands (aloop (S (List.length (b ++ bs'))) c (b ++ bs')) s voc x.
Proof.
  intros H G NE NB E Sn. destruct (enc_hdr n ty bs' b H G E) as (ds & -> & S & V).
  apply step_then. rewrite (atok_nobody _ _ _ _ _ S V NE NB), Sn. reflexivity.
Qed.

Lemma lands_string {c c1 bs b bs' s voc x} :
  hdr_ok (lenZ bs) = true -> encode_token (TString bs) [] = Ok b ->
  begin_body_a c tok_STRING (lenZ bs) = BAccept -> finish_body_a c tok_STRING (lenZ bs) bs = (c1, []) ->
  lands (aloop (S (List.length bs')) c1 bs') s voc x -> lands (aloop (S (List.length (b ++ bs'))) c (b ++ bs')) s voc x.
Proof.
  intros H E A F. destruct (enc_string bs bs' b H E) as (ds & -> & S & V).
  apply step_then. destruct tok_facts as (_ & _ & _ & _ & _ & _ & ES & FS & _ & _ & _ & BS).
  rewrite (atok_body _ _ _ _ _ S V ES BS FS A), F. reflexivity.
Qed.

Lemma is_ok_ck_true k : is_ok_ck k = true -> k = CkOk.
Proof. destruct k; [reflexivity|discriminate|discriminate]. Qed.

Lemma prim_ok_some {A} {a : dres * C} {cs'} {v f k : C -> A} : prim_ok a = Some cs' ->
  match a with (DViol, x) => v x | (DBanana, x) => f x | (_, x) => k x end = k cs'.
Proof. destruct a as [[] x]; intros E; inversion E; reflexivity. Qed.

Lemma body_walk err h n (Hn : hdr_ok n = true) : forall ts cs hv kids io ib first bs s voc,
  walk err h n cs hv kids io ib ts = true ->
  encode_stream (ts ++ [TClose n]) = Ok bs ->
  lands (aloop (S (List.length bs)) (bctx err h n s io first ib hv kids cs voc) bs) s voc (final_op err h).
Proof.
  destruct tok_facts as (GO & GC & GI & EO & EC & EI & _ & _ & BO & BC & BI & _).
  induction ts as [|t r IH]; intros cs hv kids io ib first bs s voc W E;
    cbn [app] in E; apply enc_stream_cons in E as (b & bs' & E1 & E2 & ->).
  - (* the CLOSE of the sequence itself *)
    cbn [walk] in W. inversion E2; subst bs'. destruct (enc_hdr n tok_CLOSE [] b Hn GC E1) as (ds & -> & S & V).
    destruct io, hv, kids; try discriminate W. cbn [negb andb is_nil] in W.
    rewrite (aloop_step _ _ _ _ _ (atok_nobody _ _ _ _ _ S V EC BC)). cbn [Recv.loop List.length app].
    destruct err; cbn [final_op].
    + rewrite sn_close_final_error. eexists. split; [reflexivity|]. repeat split; reflexivity.
    + rewrite sn_close_final_answer.
      * eexists. split; [reflexivity|]. repeat split; reflexivity.
      * intros X. rewrite X in W. discriminate.
  - destruct io.
    + (* an index token *)
      destruct t as [z|b8|b0|k|k|k|k|k|k|b0]; cbn [walk] in W; try discriminate W.
      apply andb_true_iff in W as [W W3]. apply andb_true_iff in W as [W1 W2]. apply is_ok_ck_true in W2.
      destruct (after cs (UBody err h hv n kids) true tok_STRING (lenZ b0) b0) as [[] cs'] eqn:A; try discriminate W3;
        (eapply (lands_string W1 E1 (bb_index _ _ _ _ _ _ _ _ _ _ _ W2));
         [rewrite fb_index, A; reflexivity|apply IH; assumption]).
    + destruct t as [z|b8|b0|k|k|k|k|k|k|b0]; cbn [walk] in W; try discriminate W.
      * (* INT child *)
        apply andb_true_iff in W as [W0 W]. apply andb_true_iff in W as [W W3]. apply andb_true_iff in W as [W1 W2].
        apply is_ok_ck_true in W2. apply negb_true_iff in W1.
        destruct (enc_small_int z b W0 E1) as [E1' Hz].
        (* the result itself (no unslicer above the answer), or a child for the oracle *)
        destruct kids as [|k0 kids]; [|destruct (prim_ok _) as [cs'|] eqn:P in W3; [|discriminate]].
        -- apply (lands_hdr tok_INT Hz GI EI BI E1' (sn_int _ _ _ _ _ _ _ _ _ _ _ W1 W2)). apply IH; assumption.
        -- apply (lands_hdr tok_INT Hz GI EI BI E1' (eq_trans (sn_int _ _ _ _ _ _ _ _ _ _ _ W1 W2) (prim_ok_some P))).
           apply IH; assumption.
      * (* STRING child *)
        apply andb_true_iff in W as [W0 W]. apply andb_true_iff in W as [W W3]. apply andb_true_iff in W as [W1 W2].
        apply is_ok_ck_true in W2. apply negb_true_iff in W1.
        destruct kids as [|k0 kids]; [|destruct (prim_ok _) as [cs'|] eqn:P in W3; [|discriminate]].
        -- apply (lands_string W0 E1 (bb_string _ _ _ _ _ _ _ _ _ _ _ W1 W2) (fb_string _ _ _ _ _ _ _ _ _ _ _)). apply IH; assumption.
        -- apply (lands_string W0 E1 (bb_string _ _ _ _ _ _ _ _ _ _ _ W1 W2)
                    (eq_trans (fb_string err h n s first ib hv (k0 :: kids) cs voc b0) (prim_ok_some P))).
           apply IH; assumption.
      * (* OPEN of a child sequence *)
        apply andb_true_iff in W as [W W3]. apply andb_true_iff in W as [W W2]. apply andb_true_iff in W as [W0 W1].
        apply is_ok_ck_true in W2. apply negb_true_iff in W1.
        apply (lands_hdr tok_OPEN W0 GO EO BO E1 (sn_open _ _ _ _ _ _ _ _ _ _ _ W1 W2)).
        apply IH; assumption.
      * (* CLOSE of a child sequence *)
        apply andb_true_iff in W as [W0 W]. destruct kids as [|k' kids]; [discriminate|].
        apply andb_true_iff in W as [W1 W]. apply Z.eqb_eq in W1. subst k'.
        destruct (prim_ok _) as [cs'|] eqn:P in W; [|discriminate].
        apply (lands_hdr tok_CLOSE W0 GC EC BC E1 (eq_trans (sn_close_inner _ _ _ _ _ _ _ _ _ _ _) (prim_ok_some P))).
        apply IH; assumption.
Qed.

Definition opentype_of (err : bool) : list Z := if err then error_opentype else answer_opentype.

Definition rctx (s : st) (io first : bool) (ib : Z) (t : utop) (cs : C) (voc : list (Z * list Z)) : actx :=
  mkA C s 0 io first ib t cs voc false.

Lemma sn_open_root s first ib cs voc n :
  step_nobody_a (rctx s false first ib URoot cs voc) tok_OPEN n = (rctx s true true n URoot cs voc, []).
Proof. apply (step_nobody_open C taste after); reflexivity. Qed.

Lemma bb_root s n cs voc len : taste cs URoot true tok_STRING len = CkOk ->
  begin_body_a (rctx s true true n URoot cs voc) tok_STRING len = BAccept.
Proof. intros T. apply begin_body_accept. repeat split. exact T. Qed.

Lemma fb_root err s n cs voc :
  finish_body_a (rctx s true true n URoot cs voc) tok_STRING (lenZ (opentype_of err)) (opentype_of err) =
  (rctx s false false n (UWantId err n) cs voc, []).
Proof. destruct err; reflexivity. Qed.

Lemma sn_reqid err s n cs voc rid h : tbl_find rid (table s) = Some h ->
  step_nobody_a (rctx s false false n (UWantId err n) cs voc) tok_INT rid = (bctx err h n s false false n false [] cs voc, []).
Proof.
  intros T. rewrite (step_nobody_int C taste after) by reflexivity.
  pose proof (reqid_token_binds_through_table C after (rctx s false false n (UWantId err n) cs voc) tok_INT rid [] rid err n eq_refl) as H.
  cbn [rctx a_st] in H. rewrite T in H. exact H.
Qed.

Definition accepts (err : bool) (h : nat) (n : Z) (cs : C) (body : list token) : Prop :=
  taste cs URoot true tok_STRING (lenZ (opentype_of err)) = CkOk /\ walk err h n cs false [] false n body = true.

Definition seq_tokens (err : bool) (n rid : Z) (body : list token) : list token :=
  TOpen n :: TString (opentype_of err) :: TInt rid :: body ++ [TClose n].

Lemma hdr_ok_opentype err : hdr_ok (lenZ (opentype_of err)) = true.
Proof. destruct err; reflexivity. Qed.

Theorem seq_fires_ctx err c n rid h body bs :
  idle_ctx c -> tbl_find rid (table (a_st c)) = Some h -> small_int rid = true -> hdr_ok n = true ->
  accepts err h n (a_cs c) body -> encode_stream (seq_tokens err n rid body) = Ok bs ->
  lands (aloop (S (List.length bs)) c bs) (a_st c) (a_vocab c) (final_op err h).
Proof.
  destruct tok_facts as (GO & _ & GI & EO & _ & EI & _ & _ & BO & _ & BI & _).
  intros (I1 & I2 & I3 & I4) T R Hn (A1 & A2) E.
  destruct c as [s d io first ib t cs voc dead]. cbn [a_st a_disc a_inopen a_top a_cs a_vocab a_dead] in *. subst d io t dead.
  unfold seq_tokens in E.
  apply enc_stream_cons in E as (b1 & r1 & E1 & E & ->).
  apply (lands_hdr tok_OPEN Hn GO EO BO E1 (sn_open_root s first ib cs voc n)).
  apply enc_stream_cons in E as (b2 & r2 & E2 & E & ->).
  apply (lands_string (hdr_ok_opentype err) E2 (bb_root _ _ _ _ _ A1) (fb_root err s n cs voc)).
  apply enc_stream_cons in E as (b3 & r3 & E3 & E & ->).
  destruct (enc_small_int rid b3 R E3) as [E3' Hr].
  apply (lands_hdr tok_INT Hr GI EI BI E3' (sn_reqid err s n cs voc rid h T)).
  apply (body_walk err h n Hn body); assumption.
Qed.

Definition idle (s : rstate actx) : Prop := r_dead s = false /\ r_skip s = 0 /\ r_buf s = [] /\ idle_ctx (r_ctx s).

Lemma idle_stable s : idle s -> RecvProofs.stable actx op begin_body_a fb sn [] [] (fun _ => []) s.
Proof. intros (D & K & B & _). right; right. auto. Qed.

(* the initial receiver is idle, and (seq_fires) the receiver is idle again after every accepted sequence *)
Lemma jinit_idle cs voc : idle (jinit cs voc).
Proof. repeat split; reflexivity. Qed.

Theorem seq_fires err s n rid h body bs chunks :
  idle s -> tbl_find rid (table (jst s)) = Some h -> small_int rid = true -> hdr_ok n = true ->
  accepts err h n (a_cs (r_ctx s)) body -> encode_stream (seq_tokens err n rid body) = Ok bs -> concat chunks = bs ->
  snd (jrun s (map JData chunks)) = [final_op err h] /\ idle (fst (jrun s (map JData chunks))) /\
  jst (fst (jrun s (map JData chunks))) = Requests.step (jst s) (final_op err h).
Proof.
  intros I T R Hn A E K. rewrite (jrun_data C taste after). unfold AnswerRecv.afeed_all.
  rewrite (RecvProofs.feed_all_concat _ _ _ _ _ _ _ _ chunks s (idle_stable s I)), K.
  destruct I as (D & SK & B & IC). unfold Recv.feed. rewrite D, SK, B. cbn [Z.ltb Z.compare andb Z.to_nat skipn app].
  destruct (seq_fires_ctx err (r_ctx s) n rid h body bs IC T R Hn A E) as (c' & L & IC' & ST & _).
  rewrite L. cbn [fst snd]. split; [reflexivity|]. split; [|exact ST].
  repeat split; try reflexivity; apply IC'.
Qed.

(* ... from any REACHABLE idle receiver (any history of operations and received chunks), stated with `resolves` of
   lib/RequestsProofs.v: the request pending under rid fires with exactly that outcome and leaves the table; every other
   call, table entry, the eventual queue and the connection state are unchanged *)
Lemma bytes_fire err cs voc js n rid h body bs chunks :
  let s := fst (jrun (jinit cs voc) js) in
  idle s -> tbl_find rid (table (jst s)) = Some h -> small_int rid = true -> hdr_ok n = true ->
  accepts err h n (a_cs (r_ctx s)) body -> encode_stream (seq_tokens err n rid body) = Ok bs -> concat chunks = bs ->
  let r := jrun s (map JData chunks) in
  snd r = [final_op err h] /\ idle (fst r) /\ resolves (jst s) (jst (fst r)) h rid (if err then ORemoteError else OResult).
Proof.
  cbv zeta. intros I T R Hn A E K.
  destruct (seq_fires err _ n rid h body bs chunks I T R Hn A E K) as (X1 & X2 & X3).
  split; [exact X1|]. split; [exact X2|]. rewrite X3. rewrite (bytes_refine_operations C taste after) in T |- *.
  destruct (fail_on_pending_fires _ rid h ORemoteError (tbl_find_some _ _ _ T)) as [F Cm].
  destruct err; assumption.
Qed.

Theorem answer_bytes_fire_result cs voc js n rid h body bs chunks :
  let s := fst (jrun (jinit cs voc) js) in
  idle s -> tbl_find rid (table (jst s)) = Some h -> small_int rid = true -> hdr_ok n = true ->
  accepts false h n (a_cs (r_ctx s)) body -> encode_stream (seq_tokens false n rid body) = Ok bs -> concat chunks = bs ->
  let r := jrun s (map JData chunks) in
  snd r = [Complete h] /\ idle (fst r) /\ resolves (jst s) (jst (fst r)) h rid OResult.
Proof. exact (bytes_fire false cs voc js n rid h body bs chunks). Qed.

Theorem error_bytes_fire_remote_failure cs voc js n rid h body bs chunks :
  let s := fst (jrun (jinit cs voc) js) in
  idle s -> tbl_find rid (table (jst s)) = Some h -> small_int rid = true -> hdr_ok n = true ->
  accepts true h n (a_cs (r_ctx s)) body -> encode_stream (seq_tokens true n rid body) = Ok bs -> concat chunks = bs ->
  let r := jrun s (map JData chunks) in
  snd r = [Fail h ORemoteError] /\ idle (fst r) /\ resolves (jst s) (jst (fst r)) h rid ORemoteError.
Proof. exact (bytes_fire true cs voc js n rid h body bs chunks). Qed.

(* The two layers agree.  The wire-level operations of lib/Requests.v (Answer / Error / AnswerViolation
   rid: "the unslicer looked rid up and then ...") and the request-object operations the byte-level receiver emits
   (Complete h / Fail h o on the bound request) are the same state transformers whenever the table maps rid to h.  In
   particular a Violation inside an ERROR sequence is `Fail h OViolation` at the byte level (AnswerRecv.violation for
   UBody true ..) and therefore `AnswerViolation rid` -- not `Error rid` -- at the operation level: the caller gets the
   Violation, not a remote failure (ErrorUnslicer.reportViolation: request.fail(f)). *)
Theorem wire_ops_are_request_ops (s : st) rid h : tbl_find rid (table s) = Some h ->
  Requests.step s (Answer rid) = Requests.step s (Complete h) /\
  Requests.step s (Error rid) = Requests.step s (Fail h ORemoteError) /\
  Requests.step s (AnswerViolation rid) = Requests.step s (Fail h OViolation).
Proof. intros T. cbn [Requests.step]. rewrite T. repeat split; reflexivity. Qed.

Theorem violation_in_either_sequence_is_AnswerViolation (c : actx) err h hv oc kids io ic rid :
  a_top c = UBody err h hv oc kids -> tbl_find rid (table (a_st c)) = Some h ->
  snd (violation C c io ic) = [Fail h OViolation] /\
  a_st (fst (violation C c io ic)) = Requests.step (a_st c) (AnswerViolation rid).
Proof.
  intros T F. destruct (violation_fails_bound_request C c err h hv oc kids io ic T) as (V1 & _ & V3 & _).
  split; [exact V1|]. rewrite V3. symmetry. apply (wire_ops_are_request_ops _ _ _ F).
Qed.

End E2E.

(* Non-vacuity (the concrete oracle of the correspondence, lib/AnswerRecv.v) and the region outside the guard *)
Definition ea (tasters : list (option taster)) (js : list jop) := fst (go0 tasters js).

(* OPEN 0 "answer" INT 1 INT 5 CLOSE 0 is `answer1`; OPEN 0 "error" INT 1 (OPEN 1 "copyable" "F" "value" "x" CLOSE 1) CLOSE 0
   is `error1` (two index tokens: the oracle answers DMore to "copyable") *)
Definition fbody : list token :=
  [TOpen 1; TString [99; 111; 112; 121; 97; 98; 108; 101]; TString [70]; TString [118; 97; 108; 117; 101]; TString [120]; TClose 1].

Example ex_e2e_guards_hold :
  let s := ea [None] [JOp (Call KTwoWay)] in
  idle coracle s /\ tbl_find 1 (table (jst coracle s)) = Some 0%nat /\
  encode_stream (seq_tokens false 0 1 [TInt 5]) = Ok answer1 /\ accepts coracle c_taste c_after false 0 0 (a_cs (r_ctx s)) [TInt 5] /\
  encode_stream (seq_tokens true 0 1 fbody) = Ok error1 /\ accepts coracle c_taste c_after true 0 0 (a_cs (r_ctx s)) fbody.
Proof. vm_compute. repeat split. Qed.

(* a nested answer  OPEN 3 "answer" INT 1 (OPEN 4 "list" INT 7 (OPEN 5 "list" "ab" CLOSE 5) CLOSE 4) CLOSE 3  under a constraint
   that admits an OPEN: accepted *)
Definition lbody : list token :=
  [TOpen 4; TString [108; 105; 115; 116]; TInt 7; TOpen 5; TString [108; 105; 115; 116]; TString [97; 98]; TClose 5; TClose 4].
Example ex_e2e_nested :
  accepts coracle c_taste c_after false 0 3 (o0 [Some [(136, None)]]) lbody /\
  exists bs, encode_stream (seq_tokens false 3 1 lbody) = Ok bs /\
             snd (go0 [Some [(136, None)]] (JOp (Call KTwoWay) :: map (fun b => JData [b]) bs)) = [Call KTwoWay; Complete 0%nat].
Proof. split; [vm_compute; split; reflexivity|]. eexists. split; [vm_compute; reflexivity|]. vm_compute. reflexivity. Qed.

(* OUTSIDE the guard `accepts`: (1) the result constraint rejects the body -> the request fails with the Violation instead;
   (2) the oracle says the result is not ready at the final CLOSE (a gift is still being claimed, DLate) -> nothing fires yet *)
Lemma accepts_is_needed_violation_refuted :
  let s := ea [Some [(130, Some 10)]] [JOp (Call KTwoWay)] in
  idle coracle s /\ tbl_find 1 (table (jst coracle s)) = Some 0%nat /\
  encode_stream (seq_tokens false 0 1 [TInt 5]) = Ok answer1 /\
  ~ accepts coracle c_taste c_after false 0 0 (a_cs (r_ctx s)) [TInt 5] /\
  snd (jrun coracle c_taste c_after s [JData answer1]) = [Fail 0%nat OViolation].
Proof. vm_compute. repeat split. intros [_ X]. discriminate. Qed.

Definition late_after (u : unit) (t : utop) (io : bool) (ty hdr : Z) (body : list Z) : dres * unit :=
  (if ty =? tok_CLOSE then DLate else DOk, tt).
Lemma accepts_is_needed_late_refuted :
  let s := fst (jrun unit (fun _ _ _ _ _ => CkOk) late_after (jinit unit tt []) [JOp (Call KTwoWay)]) in
  idle unit s /\ tbl_find 1 (table (jst unit s)) = Some 0%nat /\
  ~ accepts unit (fun _ _ _ _ _ => CkOk) late_after false 0 0 tt [TInt 5] /\
  snd (jrun unit (fun _ _ _ _ _ => CkOk) late_after s [JData answer1]) = [].
Proof. vm_compute. repeat split. intros [_ X]. discriminate. Qed.

(* OUTSIDE the guard `small_int rid`: a request id of 2^31 or more is sent as a LONGINT, which AnswerUnslicer.checkToken
   rejects ("request ID must be an INT", BananaError): the connection is abandoned and the request is NOT completed by its
   answer (it then fails with the connection).  The state is hand-made, not a reachable one: a reachable state with such
   an id has 2^31 calls behind it. *)
Definition big_rid : Z := 2 ^ 31.
Definition big_state : rstate (actx unit) :=
  Recv.init (ctx0 unit (mkSt [mkCall big_rid true true true []] [(big_rid, 0%nat)] false (big_rid + 1) [] 0 0) tt []).
Lemma small_int_is_needed_refuted :
  idle unit big_state /\ tbl_find big_rid (table (jst unit big_state)) = Some 0%nat /\
  accepts unit (fun _ _ _ _ _ => CkOk) (fun _ _ _ _ _ _ => (DOk, tt)) false 0 0 tt [TInt 5] /\
  exists bs, encode_stream (seq_tokens false 0 big_rid [TInt 5]) = Ok bs /\
             let r := jrun unit (fun _ _ _ _ _ => CkOk) (fun _ _ _ _ _ _ => (DOk, tt)) big_state [JData bs] in
             snd r = [] /\ jdead unit (fst r) = true.
Proof. split; [repeat split; reflexivity|]. split; [reflexivity|]. split; [split; reflexivity|]. eexists. split; [vm_compute; reflexivity|]. vm_compute. split; reflexivity. Qed.
