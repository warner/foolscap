(* Theorems about the FURL / connection-hint model (Furl.v) over the translated patterns (gen/FurlGen.v): the matching cost of
   the hint patterns (linear, by the analysis of RegexProofs.v; the port pattern of before commit 9ce04d4 costs ~n^5) and of the
   FURL pattern under .search() (quadratic on repeated "pb://", linear when anchored); the hint dispatch ends in an endpoint or
   InvalidHintError, any other exception being the registered handler's own; decode_furl / encode_furl round trip and error
   classes; SturdyRef / TubRef identity and order; ConnectorProofs.no_stall / attempt_starts at the translated order and timeout. *)
From Coq Require Import ZArith NArith List String Bool Lia.
Import ListNotations.
Require Import Verif.lib.PyLite Verif.lib.Regex Verif.lib.RegexProofs Verif.lib.FurlPrim Verif.gen.FurlGen Verif.lib.Utf8 Verif.lib.Utf8Proofs Verif.lib.Furl.
Require Import Verif.lib.Connector Verif.lib.ConnectorProofs.
Local Open Scope Z_scope.

Definition hint_regexes : list (pattern * method) :=
  [(OLD_STYLE_HINT_RE, OLD_STYLE_HINT_RE_method); (NEW_STYLE_HINT_RE, NEW_STYLE_HINT_RE_method);
   (TOR_HINT_RE, TOR_HINT_RE_method); (I2P_HINT_RE, I2P_HINT_RE_method)].

Definition bound_or_0 (pm : pattern * method) : N :=
  match linear_bound (fst pm) (snd pm) with Some k => k | None => 0%N end.

(* the constant of the linear bound: the largest of the four constants computed by the analysis *)
Definition hint_K : N := fold_right N.max 0%N (map bound_or_0 hint_regexes).

(* the side condition holds for each translated hint pattern (checked by computation on the
   regenerated patterns: this is what breaks when a nested quantifier is reintroduced) *)
Lemma hint_analysis_ok :
  forallb (fun pm => match linear_bound (fst pm) (snd pm) with Some _ => true | None => false end) hint_regexes = true.
Proof. vm_compute. reflexivity. Qed.

Lemma fold_max_ge (l : list N) x : In x l -> (x <= fold_right N.max 0%N l)%N.
Proof.
  induction l as [|y l IH]; cbn [In fold_right]; intros H; [contradiction|].
  destruct H as [->|H]; [lia|]. specialize (IH H). lia.
Qed.

Theorem hint_linear : forall p meth, In (p, meth) hint_regexes ->
  forall s, (re_steps p meth s <= hint_K * (N.of_nat (List.length s) + 1))%N.
Proof.
  intros p meth Hin s.
  pose proof hint_analysis_ok as Hok. rewrite forallb_forall in Hok. specialize (Hok _ Hin). cbn [fst snd] in Hok.
  destruct (linear_bound p meth) as [k|] eqn:E; [|discriminate].
  pose proof (linear_bound_sound p meth k E s) as H. fold (len s).
  assert (Hk : (k <= hint_K)%N).
  { unfold hint_K. apply fold_max_ge. apply in_map_iff. exists (p, meth). split; [|assumption].
    unfold bound_or_0. cbn [fst snd]. rewrite E. reflexivity. }
  nia.
Qed.

(* the pattern as it was before commit 9ce04d4: port = (\d+){1,5} *)
Fixpoint unfix (r : re) : re :=
  match r with
  | Grp g (Star cs 1%nat (Some 5%nat)) => Rep (Grp g (Star cs 1%nat None)) 1 5
  | Cat a b => Cat (unfix a) (unfix b)
  | Alt a b => Alt (unfix a) (unfix b)
  | Grp g r => Grp g (unfix r)
  | Rep r lo hi => Rep (unfix r) lo hi
  | r => r
  end.
Definition old_pattern (p : pattern) : pattern :=
  {| p_anch := p_anch p; p_body := unfix (p_body p); p_groups := p_groups p |}.

(* the nested quantifier fails the side condition of the analysis ... *)
Example nested_quantifier_rejected :
  map (fun pm => linear_bound (old_pattern (fst pm)) (snd pm)) hint_regexes = [None; None; None; None].
Proof. vm_compute. reflexivity. Qed.

(* ... and really is super-linear: on "a:" ++ "1"^n ++ "x" for n = 6, 12, 24 the steps grow more than
   16-fold per doubling (~n^5), while the repaired pattern takes a thousand times fewer steps at n = 24 *)
Definition digits_x (n : nat) : list Z := [97; 58] ++ repeat 49 n ++ [120].

Definition DIG : cset := CS false digit_ranges.
Definition kacc (s0 : list Z) : K := fun s' c' => accept s' ((0%nat, (s0, s')) :: c').

Lemma m_top_unfold r s : m_top r s = m r s [] (kacc s).
Proof. reflexivity. Qed.

(* Steps of  (\d+){lo,h}$  on n digits followed by 'x'.  Nothing matches, so every way of cutting the digits
   into at most h runs is tried: each level is a `back` over the level below, a polynomial of degree h in n. *)
Fixpoint port_cost (lo h n : nat) : N :=
  match h with
  | O => 1
  | S h' => match n with O => 1 | S n' => back (port_cost (pred lo) h') n' + 2 end
            + match lo with O => 2 | S _ => 1 end
  end%N.

Lemma at_eol_x u : at_eol (u ++ [120]) = false.
Proof. destruct u as [|? [|? ?]]; reflexivity. Qed.

Lemma old_port_fail k h : forall lo u c, forallb (in_cset DIG) u = true ->
  rep (m (Grp 2 (Star DIG 1 None))) lo h (u ++ [120]) c (fun s c => m Eol s c k) = (None, port_cost lo h (List.length u)).
Proof.
  induction h as [|h IH]; intros lo u c Hu; [cbn [rep m]; rewrite at_eol_x; reflexivity|].
  destruct u as [|x u]; [destruct lo; cbn [rep m]; rewrite ?at_eol_x; reflexivity|].
  cbn [forallb] in Hu. apply andb_true_iff in Hu as [Hx Hu].
  assert (H : forall c, star DIG 1 None ((x :: u) ++ [120]) c
                (fun s' c' => rep (m (Grp 2 (Star DIG 1 None))) (pred lo) h s' ((2%nat, ((x :: u) ++ [120], s')) :: c')
                                  (fun s c => m Eol s c k))
              = (None, (back (port_cost (pred lo) h) (List.length u) + 2)%N)).
  { intros c0. apply (star_back1 DIG [120] _ (port_cost (pred lo) h)) with (u := u); [reflexivity | | reflexivity | exact Hx | exact Hu].
    intros w c' Hw. apply IH. exact Hw. }
  destruct lo; cbn [rep m port_cost List.length]; cbn [pred] in H; rewrite H, ?at_eol_x;
    unfold orelse, tick, fail1; cbn [fst snd pred]; f_equal; lia.
Qed.

(* the old pattern on  "a:" ++ digits ++ "x":  six steps to reach the port, then the nested repeat *)
Theorem old_hint_steps u : forallb (in_cset DIG) u = true ->
  re_steps (old_pattern OLD_STYLE_HINT_RE) MSearch ([97; 58] ++ u ++ [120]) = (port_cost 1 5 (List.length u) + 6)%N.
Proof.
  intros Hu. unfold re_steps, re_run, old_pattern, OLD_STYLE_HINT_RE. cbn [p_anch p_body unfix app].
  rewrite m_top_unfold. set (P := Rep _ 1 5). set (E := Eol). cbn [m].    (* P, E: the port part stays folded *)
  rewrite star_first_out by reflexivity. cbn [stop]. change (tick fail1) with (@None caps, 2%N). rewrite orelse_none.
  erewrite star_in_fail; [| reflexivity |].
  2:{ rewrite star_first_out by reflexivity. cbn [stop pred]. rewrite in_cset_lit. subst P E.
      change (m (Rep ?r ?lo ?hi)) with (rep (m r) lo hi). rewrite old_port_fail by exact Hu. reflexivity. }
  cbn [stop]. unfold tick, cost, fail1; cbn [fst snd]. lia.
Qed.

Lemma digits_x_steps n :
  re_steps (old_pattern OLD_STYLE_HINT_RE) MSearch (digits_x n) = (port_cost 1 5 n + 6)%N.
Proof.
  unfold digits_x. rewrite old_hint_steps, repeat_length; [reflexivity|].
  apply forallb_forall. intros x Hx. apply repeat_spec in Hx. subst x. reflexivity.
Qed.

(* the levels obey a Pascal-like rule, so all of them can be tabulated together, one column per n *)
Lemma port_cost_pascal h n : (port_cost 0 (S h) (S n) = port_cost 0 (S h) n + port_cost 0 h n + 2)%N.
Proof. destruct n; cbn [port_cost back pred]; lia. Qed.

Fixpoint bump (prev : N) (col : list N) : list N :=
  match col with [] => [] | r :: col' => (r + prev + 2)%N :: bump r col' end.

Lemma port_cost_col n :
  map (fun h => port_cost 0 h n) [1; 2; 3; 4; 5]%nat = Nat.iter n (bump 1) [3; 3; 3; 3; 3]%N.
Proof.
  induction n as [|n IH]; [reflexivity|].
  change (Nat.iter (S n) (bump 1) [3; 3; 3; 3; 3]%N) with (bump 1 (Nat.iter n (bump 1) [3; 3; 3; 3; 3]%N)).
  rewrite <- IH. cbn [map bump]. rewrite !port_cost_pascal. reflexivity.
Qed.

Lemma port_cost_eval n : (port_cost 1 5 n + 1 = nth 4 (Nat.iter n (bump 1) [3; 3; 3; 3; 3]) 0)%N.
Proof. rewrite <- port_cost_col. cbn [map nth]. destruct n; cbn [port_cost pred]; lia. Qed.

Example superlinear_witness :
  match map (fun n => re_steps (old_pattern OLD_STYLE_HINT_RE) MSearch (digits_x n)) [6; 12; 24]%nat with
  | [a; b; c] => (16 * a < b /\ 16 * b < c /\ 1000 * re_steps OLD_STYLE_HINT_RE MSearch (digits_x 24) < c)%N
  | _ => False
  end.
Proof.
  cbn [map]. rewrite !digits_x_steps.
  generalize (port_cost_eval 6) (port_cost_eval 12) (port_cost_eval 24).
  generalize (port_cost 1 5 6) (port_cost 1 5 12) (port_cost 1 5 24). intros a b c.
  set (t := re_steps _ _ _). vm_compute in t. subst t.
  set (va := nth _ _ _). vm_compute in va. subst va.
  set (vb := nth _ _ _). vm_compute in vb. subst vb.
  set (vc := nth _ _ _). vm_compute in vc. subst vc. lia.
Qed.

(* the FURL pattern: every attempt is linear, but .search() retries at every position *)
Definition furl_K : N := match attempt_bound (p_body AUTH_STURDYREF_RE) with Some k => k | None => 0%N end.

Lemma furl_K_ok : attempt_bound (p_body AUTH_STURDYREF_RE) = Some furl_K.
Proof. vm_compute. reflexivity. Qed.

Theorem furl_steps_bounded : forall s,
  (re_steps AUTH_STURDYREF_RE AUTH_STURDYREF_RE_method s
   <= (N.of_nat (List.length s) + 1) * (furl_K * (N.of_nat (List.length s) + 1) + 1))%N.
Proof. exact (re_steps_bounded _ _ _ furl_K_ok). Qed.

Definition AT_FREE : cset := CS true [(64, 64)].
Definition noat (t : list Z) : Prop := forallb (in_cset AT_FREE) t = true.

Lemma noat_pb k : noat (pb_repeat k).
Proof.
  unfold noat, pb_repeat. induction k as [|k IH]; [reflexivity|].
  cbn [repeat List.concat]. rewrite forallb_app, IH. vm_compute. reflexivity.
Qed.

Lemma len_app a b : len (a ++ b) = (len a + len b)%N.
Proof. unfold len. rewrite app_length. lia. Qed.

Lemma len_pb k : len (pb_repeat k) = (len ENC_PREFIX * N.of_nat k)%N.
Proof.
  unfold pb_repeat. induction k as [|k IH]; [cbn; lia|].
  cbn [repeat List.concat]. rewrite len_app, IH. lia.
Qed.

(* an attempt that starts at a scheme occurrence walks to the end of the '@'-free text behind it and back *)
Lemma furl_attempt_noat t : noat t -> m_top (p_body AUTH_STURDYREF_RE) (ENC_PREFIX ++ t) = (None, 3 * len t + 6)%N.
Proof.
  intros H. unfold AUTH_STURDYREF_RE. cbn [p_body ENC_PREFIX app]. rewrite m_top_unfold, !m_lit.
  destruct t as [|x t]; [reflexivity|].
  unfold noat, AT_FREE in H. cbn [forallb] in H. apply andb_true_iff in H as [Hx Ht]. cbn [m].
  rewrite (star_back1 _ [] _ (fun _ => 1%N)) with (u := t); [| exact I | | symmetry; apply app_nil_r | exact Hx | exact Ht].
  - rewrite back_const, len_cons. unfold len, tick; cbn [fst snd]. f_equal. lia.
  - intros w c Hw. rewrite app_nil_r. destruct w as [|y w]; [reflexivity|].
    cbn [forallb] in Hw. apply andb_true_iff in Hw as [Hy _]. rewrite in_cset_not in Hy.
    rewrite in_cset_lit_eqb. destruct (y =? 64); [discriminate|reflexivity].
Qed.

Lemma furl_attempt_other x s : (x =? 112) = false -> m_top (p_body AUTH_STURDYREF_RE) (x :: s) = fail1.
Proof.
  intros H. unfold AUTH_STURDYREF_RE. cbn [p_body]. rewrite m_top_unfold. cbn [m].
  rewrite in_cset_lit_eqb, H. reflexivity.
Qed.

Theorem furl_search_steps k :
  (2 * re_steps AUTH_STURDYREF_RE AUTH_STURDYREF_RE_method (pb_repeat k) = 15 * N.of_nat k * (N.of_nat k + 1) + 4)%N.
Proof.
  change (re_steps AUTH_STURDYREF_RE AUTH_STURDYREF_RE_method (pb_repeat k))
    with (cost (search_from (p_body AUTH_STURDYREF_RE) (pb_repeat k))).
  induction k as [|k IH]; [reflexivity|].
  change (pb_repeat (S k)) with (ENC_PREFIX ++ pb_repeat k). cbn [ENC_PREFIX app].
  rewrite (search_skip _ _ _ _ (furl_attempt_noat _ (noat_pb k) : m_top _ (112 :: 98 :: 58 :: 47 :: 47 :: pb_repeat k) = _)).
  rewrite !(search_skip _ _ _ 1) by (apply furl_attempt_other; reflexivity).
  rewrite len_pb. change (len ENC_PREFIX) with 5%N. lia.
Qed.

(* THE LOWER BOUND: on "pb://" repeated k times the search takes at least (5/2) k (k-1) steps *)
Theorem furl_search_lower : forall k,
  (5 * N.of_nat k * N.of_nat k <= 2 * re_steps AUTH_STURDYREF_RE AUTH_STURDYREF_RE_method (pb_repeat k) + 5 * N.of_nat k)%N.
Proof. intros k. rewrite furl_search_steps. lia. Qed.

(* known finding oracle/furl-quadratic, in the model: the analysis gives no linear bound, the steps more than triple each
   time the input doubles (k = 20, 40, 80), and at k = 80 they exceed the bound one anchored attempt would obey *)
Example furl_quadratic_witness :
  linear_bound AUTH_STURDYREF_RE AUTH_STURDYREF_RE_method = None /\
  let t := map (fun k => re_steps AUTH_STURDYREF_RE AUTH_STURDYREF_RE_method (pb_repeat k)) [20; 40; 80]%nat in
  match t with
  | [a; b; c] => (3 * a < b /\ 3 * b < c /\ furl_K * (N.of_nat (List.length (pb_repeat 80)) + 1) < c)%N
  | _ => False
  end.
Proof.
  split; [reflexivity|]. cbn [map]. fold (len (pb_repeat 80)). rewrite len_pb.
  generalize (furl_search_steps 20) (furl_search_steps 40) (furl_search_steps 80).
  generalize (re_steps AUTH_STURDYREF_RE AUTH_STURDYREF_RE_method (pb_repeat 20))
             (re_steps AUTH_STURDYREF_RE AUTH_STURDYREF_RE_method (pb_repeat 40))
             (re_steps AUTH_STURDYREF_RE AUTH_STURDYREF_RE_method (pb_repeat 80)).
  change furl_K with 15%N. change (len ENC_PREFIX) with 5%N. cbn [N.of_nat Pos.of_succ_nat Pos.succ]. lia.
Qed.

(* hence NO linear bound holds, whatever the constant (full-strength statement refuted for all K) *)
Theorem furl_linear_refuted : forall K : N, exists s,
  (K * (N.of_nat (List.length s) + 1) < re_steps AUTH_STURDYREF_RE AUTH_STURDYREF_RE_method s)%N.
Proof.
  intros K. exists (pb_repeat (N.to_nat (2 * K + 4))).
  pose proof (furl_search_lower (N.to_nat (2 * K + 4))) as H.
  pose proof (len_pb (N.to_nat (2 * K + 4))) as HL. unfold len in HL.
  change (N.of_nat (List.length ENC_PREFIX)) with 5%N in HL.
  rewrite HL. rewrite N2Nat.id in *. nia.
Qed.

(* the anchored alternative (`^pb://...` or .match()) IS linear, with the same constant *)
Theorem furl_anchored_linear : forall meth s,
  (re_steps (anchored AUTH_STURDYREF_RE) meth s <= furl_K * (N.of_nat (List.length s) + 1))%N.
Proof.
  intros meth s. apply linear_bound_sound. unfold linear_bound, anchored. cbn [p_anch p_body].
  destruct meth; exact furl_K_ok.
Qed.

Theorem furl_match_linear : forall s,
  (re_steps AUTH_STURDYREF_RE MMatch s <= furl_K * (N.of_nat (List.length s) + 1))%N.
Proof. intros s. apply linear_bound_sound. unfold linear_bound. exact furl_K_ok. Qed.

(* ... but it accepts fewer strings (why the finding is not simply repaired): junk before the scheme *)
Example anchoring_changes_language :
  let s := [120; 120] ++ ENC_PREFIX ++ [97] ++ ENC_AT ++ [104] ++ ENC_SLASH ++ [110] in
  (exists c, re_apply AUTH_STURDYREF_RE AUTH_STURDYREF_RE_method s = Some c) /\
  re_apply (anchored AUTH_STURDYREF_RE) AUTH_STURDYREF_RE_method s = None /\ re_apply AUTH_STURDYREF_RE MMatch s = None.
Proof. vm_compute. split; [eexists; reflexivity | split; reflexivity]. Qed.

(* where the quadratic cost comes from: only attempts that start at a scheme occurrence are expensive *)
Fixpoint lits (w : list Z) (r : re) : re :=
  match w with [] => r | a :: w' => Cat (Chr (CS false [(a, a)])) (lits w' r) end.

Lemma lits_mismatch r : forall w t c k, prefixb w t = false -> (cost (m (lits w r) t c k) <= len w)%N.
Proof.
  induction w as [|a w IH]; intros t c k H; [discriminate|]. cbn [lits m]. rewrite len_cons.
  destruct t as [|x t]; [rewrite cost_fail1; lia|]. cbn [prefixb] in H. rewrite in_cset_lit_eqb.
  destruct (x =? a); [|rewrite cost_fail1; lia]. rewrite cost_tick. specialize (IH t c k H). lia.
Qed.

Lemma furl_attempt_cheap t : prefixb ENC_PREFIX t = false -> (cost (m_top (p_body AUTH_STURDYREF_RE) t) <= 5)%N.
Proof. intros H. rewrite m_top_unfold. exact (lits_mismatch _ ENC_PREFIX t [] (kacc t) H). Qed.

Theorem furl_search_occ : forall s,
  (cost (search_from (p_body AUTH_STURDYREF_RE) s)
   <= 6 * (len s + 1) + occ ENC_PREFIX s * (furl_K * (len s + 1)))%N.
Proof.
  pose proof (attempt_bound_sound _ _ furl_K_ok) as HA.
  induction s as [|x s IH].
  - eapply N.le_trans; [apply search_nil_le|]. pose proof (furl_attempt_cheap [] eq_refl). rewrite len_nil. cbn [occ]. lia.
  - eapply N.le_trans; [apply search_step_le|]. cbn [occ]. rewrite len_cons.
    set (L := len s) in *. set (o := occ ENC_PREFIX s) in *.
    assert (Hm : (furl_K * (L + 1) <= furl_K * (L + 1 + 1))%N) by (apply N.mul_le_mono_l; lia).
    assert (Ho : (o * (furl_K * (L + 1)) <= o * (furl_K * (L + 1 + 1)))%N) by (apply N.mul_le_mono_l; exact Hm).
    destruct (prefixb ENC_PREFIX (x :: s)) eqn:E.
    + specialize (HA (x :: s)). rewrite len_cons in HA. fold L in HA.
      replace ((1 + o) * (furl_K * (L + 1 + 1)))%N with (furl_K * (L + 1 + 1) + o * (furl_K * (L + 1 + 1)))%N by ring.
      lia.
    + pose proof (furl_attempt_cheap _ E). replace ((0 + o))%N with o by lia. lia.
Qed.

Theorem furl_steps_by_occurrences : forall s,
  (re_steps AUTH_STURDYREF_RE AUTH_STURDYREF_RE_method s
   <= 6 * (N.of_nat (List.length s) + 1) + occ ENC_PREFIX s * (furl_K * (N.of_nat (List.length s) + 1)))%N.
Proof. exact furl_search_occ. Qed.

(* a FURL in which the scheme occurs at most once -- what Tub.buildURL prints unless a location hint or a registered name
   itself contains "pb://" -- is matched in linear time *)
Corollary furl_single_scheme_linear : forall s, (occ ENC_PREFIX s <= 1)%N ->
  (re_steps AUTH_STURDYREF_RE AUTH_STURDYREF_RE_method s <= (furl_K + 6) * (N.of_nat (List.length s) + 1))%N.
Proof.
  intros s H. pose proof (furl_steps_by_occurrences s) as B.
  nia.
Qed.

Example furl_single_scheme_example :
  let s := ENC_PREFIX ++ [97; 98; 50] ++ ENC_AT ++ [104; 58; 49] ++ ENC_SLASH ++ [110] in
  occ ENC_PREFIX s = 1%N /\ occ ENC_PREFIX (pb_repeat 7) = 7%N.
Proof. vm_compute. split; reflexivity. Qed.

Lemma kacc_inv s0 s c res n : kacc s0 s c = (Some res, n) -> res = (0%nat, (s0, s)) :: c.
Proof. unfold kacc, accept. intros H. inversion H. reflexivity. Qed.

Lemma group_hit g v c : group g ((g, v) :: c) = Some (content v).
Proof. unfold group. cbn [cap_get]. rewrite Nat.eqb_refl. reflexivity. Qed.
Lemma group_skip g j v c : g <> j -> group g ((j, v) :: c) = group g c.
Proof. intros H. unfold group. cbn [cap_get]. apply Nat.eqb_neq in H. rewrite H. reflexivity. Qed.

Lemma grp_eol_inv g D lo hi s c s0 res n :
  m (Cat (Grp g (Star D lo hi)) Eol) s c (kacc s0) = (Some res, n) ->
  exists u s', s = u ++ s' /\ forallb (in_cset D) u = true /\ (lo <= List.length u)%nat /\
               match hi with Some h => (List.length u <= h)%nat | None => True end /\
               res = (0%nat, (s0, s')) :: (g, (u ++ s', s')) :: c.
Proof.
  intros H. apply grp_star_inv in H as (u & s' & -> & Hu & Hlo & Hhi & n' & Hk).
  cbn [m] in Hk. destruct (at_eol s'); [|discriminate]. apply tick_some in Hk as [n'' Hk]. apply kacc_inv in Hk. exists u, s'. auto 6.
Qed.

Lemma digit_val_in_some zs x : in_ranges (map (fun z => (z, z + 9)) zs) x = true -> exists v, digit_val_in zs x = Some v.
Proof.
  induction zs as [|z zs IH]; cbn [map in_ranges existsb digit_val_in]; intros H; [discriminate|].
  unfold in_range in H at 1. cbn [fst snd] in H.
  destruct ((z <=? x) && (x <=? z + 9)); [eauto|]. cbn [orb] in H. apply IH. exact H.
Qed.

Lemma int_acc_total ds : forallb (in_cset DIG) ds = true -> forall acc, exists v, int_acc acc ds = Some v.
Proof.
  induction ds as [|d ds IH]; cbn [forallb int_acc]; intros H acc; [eauto|].
  apply andb_true_iff in H as [Hd Hds].
  unfold DIG, in_cset in Hd. cbn [cs_neg cs_ranges] in Hd. unfold digit_ranges in Hd.
  apply digit_val_in_some in Hd as [v Hv]. unfold digit_val. rewrite Hv. apply IH. exact Hds.
Qed.

(* int() of one to five decimal digits succeeds *)
Lemma py_int_port ds : forallb (in_cset DIG) ds = true -> (1 <= List.length ds)%nat -> (List.length ds <= 5)%nat ->
  exists v, py_int ds = Ok v.
Proof.
  intros Hd H1 H5. unfold py_int. destruct ds as [|d ds']; [cbn in H1; lia|].
  set (ds := d :: ds') in *.
  assert (E : (0 <? INT_MAX_STR_DIGITS) && (INT_MAX_STR_DIGITS <? Z.of_nat (List.length ds)) = false).
  { unfold INT_MAX_STR_DIGITS. apply andb_false_iff. right. apply Z.ltb_ge. lia. }
  rewrite E. destruct (int_acc_total ds Hd 0) as [v Hv]. rewrite Hv. eauto.
Qed.

(* r ends, along the right spine of its concatenations, in t; gs lists the groups of what stands before t *)
Inductive spine : re -> list nat -> re -> Prop :=
| spine_end r : spine r [] r
| spine_cat a b gs t : spine b gs t -> spine (Cat a b) (grps a ++ gs) t.

Lemma m_spine r gs t : spine r gs t -> forall s c k res n, m r s c k = (Some res, n) ->
  exists s' c' n', m t s' c' k = (Some res, n') /\ forall i, ~ In i gs -> cap_get i c' = cap_get i c.
Proof.
  induction 1 as [r|a b gs t _ IH]; intros s c k res n H.
  - exists s, c, n. auto.
  - cbn [m] in H. apply m_success in H as (s1 & c1 & n1 & H & F). apply IH in H as (s2 & c2 & n2 & H & F2).
    exists s2, c2, n2. split; [exact H|]. intros i Hi. rewrite in_app_iff in Hi. rewrite F2, F; tauto.
Qed.

Lemma anchored_match p s c : p_anch p = true -> re_apply p MSearch s = Some c ->
  exists n, m (p_body p) s [] (kacc s) = (Some c, n).
Proof.
  unfold re_apply, re_run. intros ->. rewrite m_top_unfold. destruct (m _ s [] (kacc s)) as [r n].
  cbn [fst]. intros ->. eauto.
Qed.

Lemma port_group p gs g s c :
  p_anch p = true -> spine (p_body p) gs (Cat (Grp g (Star DIG 1 (Some 5%nat))) Eol) -> g <> 0%nat ->
  re_apply p MSearch s = Some c -> exists v, py_int (group_or_nil g c) = Ok v.
Proof.
  intros Ha Hs Hg H. apply (anchored_match _ _ _ Ha) in H as [n H].
  apply (m_spine _ _ _ Hs) in H as (s' & c' & n' & H & _).
  apply grp_eol_inv in H as (u & s'' & -> & Hd & Hlo & Hhi & ->).
  unfold group_or_nil. rewrite group_skip, group_hit, content_app by exact Hg. apply py_int_port; assumption.
Qed.

Lemma old_port s c : re_apply OLD_STYLE_HINT_RE OLD_STYLE_HINT_RE_method s = Some c ->
  exists v, py_int (group_or_nil 2 c) = Ok v.
Proof. eapply (port_group _ _ 2); [reflexivity | repeat constructor | discriminate]. Qed.

Lemma new_port s c : re_apply NEW_STYLE_HINT_RE NEW_STYLE_HINT_RE_method s = Some c ->
  exists v, py_int (group_or_nil 2 c) = Ok v.
Proof. eapply (port_group _ _ 2); [reflexivity | repeat constructor | discriminate]. Qed.

Lemma tor_port s c : re_apply TOR_HINT_RE TOR_HINT_RE_method s = Some c ->
  exists v, py_int (group_or_nil 2 c) = Ok v.
Proof. eapply (port_group _ _ 2); [reflexivity | repeat constructor | discriminate]. Qed.

(* i2p: the port group is optional; when it is set it holds one to five digits *)
Lemma i2p_port s c ds : re_apply I2P_HINT_RE I2P_HINT_RE_method s = Some c -> group 3 c = Some ds ->
  exists v, py_int ds = Ok v.
Proof.
  intros H Hds. apply anchored_match in H as [n H]; [|reflexivity].
  eapply (m_spine _ _ (Cat (Rep _ 0 1) Eol)) in H as (s5 & c5 & n5 & H & F); [|repeat constructor].
  assert (Hc5 : cap_get 3 c5 = None) by (apply F; cbn; intuition discriminate).
  cbn [m rep] in H.
  apply orelse_some in H as [[n' H]|[n' H]].
  - apply tick_some in H as [n'' H]. destruct s5 as [|y s5']; [discriminate|].
    destruct (in_cset _ y); [|discriminate]. apply tick_some in H as [n3 H].
    apply star_inv in H as (u & s' & -> & Hu & Hlo & Hhi & n4 & Hk).
    destruct (at_eol s'); [|discriminate]. apply tick_some in Hk as [n6 Hk].
    apply kacc_inv in Hk. subst c.
    rewrite group_skip in Hds by discriminate. rewrite group_skip in Hds by discriminate.
    rewrite group_hit, content_app in Hds. inversion Hds; subst ds.
    apply py_int_port; assumption.
  - destruct (at_eol s5); [|discriminate].
    apply tick_some in H as [n6 Hk]. apply kacc_inv in Hk. subst c.
    rewrite group_skip in Hds by discriminate. unfold group in Hds. rewrite Hc5 in Hds. discriminate.
Qed.

Lemma convert_legacy_total loc : exists h, convert_legacy_hint loc = Ok h.
Proof.
  unfold convert_legacy_hint.
  destruct (re_apply OLD_STYLE_HINT_RE OLD_STYLE_HINT_RE_method loc) as [c|] eqn:E; [|eauto].
  destruct (old_port loc c E) as [v Hv]. rewrite Hv. eauto.
Qed.

Definition endpoint_or_invalid (r : res endpoint) : Prop := (exists e, r = Ok e) \/ r = Exc "InvalidHintError".

(* what a registered handler must satisfy for the classification to end in an endpoint or InvalidHintError:
   foolscap's tcp and tor handlers always do; the i2p handler does unless it was given a default port= and the
   code leaves it in the keyword arguments (I2P_POPS_PORT = false); a third-party plugin must do so itself *)
Definition handler_ok (pops : bool) (kd : hkind) : Prop :=
  match kd with
  | KI2p (Some _) => pops = true
  | KPlugin f => forall h, endpoint_or_invalid (f h)
  | _ => True
  end.

(* the i2p handler on a hint the pattern accepts: int() cannot fail, so only the choice of the port is left *)
Lemma i2p_matched pops dflt hint :
  i2p_hint_to_endpoint pops dflt hint = invalid \/
  exists host pn, i2p_hint_to_endpoint pops dflt hint =
    let falsy := match pn with None => true | Some v => v =? 0 end in
    if pops then Ok (EpI2p host (if falsy then dflt else pn))
    else match dflt with
         | None => Ok (EpI2p host pn)
         | Some d => if falsy then Ok (EpI2p host (Some d)) else Exc "TypeError"
         end.
Proof.
  unfold i2p_hint_to_endpoint.
  destruct (re_apply I2P_HINT_RE I2P_HINT_RE_method hint) as [c|] eqn:E; [right|left; reflexivity].
  exists (group_or_nil 1 c). destruct (group 3 c) as [[|d ds]|] eqn:G; [exists None; reflexivity| |exists None; reflexivity].
  destruct (i2p_port hint c _ E G) as [v ->]. exists (Some v). reflexivity.
Qed.

(* every outcome of the i2p handler: an endpoint, InvalidHintError, or -- only with a default port that is not
   popped, on a hint that carries its own non-zero port -- TypeError *)
Lemma i2p_outcomes pops dflt hint :
  endpoint_or_invalid (i2p_hint_to_endpoint pops dflt hint) \/
  (pops = false /\ (exists d, dflt = Some d) /\ i2p_hint_to_endpoint pops dflt hint = Exc "TypeError").
Proof.
  unfold endpoint_or_invalid. destruct (i2p_matched pops dflt hint) as [->|(host & pn & ->)]; [auto|]. cbn zeta.
  destruct pops; [eauto|]. destruct dflt as [d|]; [|eauto].
  destruct (match pn with None => true | Some v => v =? 0 end); eauto.
Qed.

(* the repaired form (733f931): whenever the hint is an I2P hint the handler builds an endpoint, for every default-port
   configuration, and the port it uses is the hint's own non-zero port, else the handler's default (None without one) *)
Theorem i2p_port_choice : forall dflt hint,
  i2p_hint_to_endpoint true dflt hint = Exc "InvalidHintError" \/
  exists host pn, i2p_hint_to_endpoint true dflt hint = Ok (EpI2p host pn) /\ (pn = dflt \/ exists v, pn = Some v /\ v <> 0).
Proof.
  intros dflt hint. destruct (i2p_matched true dflt hint) as [->|(host & pn & ->)]; [left; reflexivity|right]. cbn zeta.
  destruct pn as [v|]; [destruct (Z.eqb_spec v 0) as [->|Hv]|].
  - (* the hint's port is 0 *) exists host, dflt. split; [reflexivity | left; reflexivity].
  - (* its own non-zero port *) exists host, (Some v). split; [reflexivity | right; exists v; split; [reflexivity | exact Hv]].
  - (* no port in the hint *) exists host, dflt. split; [reflexivity | left; reflexivity].
Qed.

Lemma handler_total pops nonpublic kd hint : handler_ok pops kd ->
  endpoint_or_invalid (hint_to_endpoint_gen pops nonpublic kd hint).
Proof.
  intros Hok. destruct kd as [| |dflt|f]; cbn [hint_to_endpoint_gen].
  - unfold endpoint_or_invalid, tcp_hint_to_endpoint.
    destruct (re_apply NEW_STYLE_HINT_RE NEW_STYLE_HINT_RE_method hint) as [c|] eqn:E; [|right; reflexivity].
    destruct (new_port hint c E) as [v Hv]. rewrite Hv. left. eauto.
  - unfold endpoint_or_invalid, tor_hint_to_endpoint.
    destruct (re_apply TOR_HINT_RE TOR_HINT_RE_method hint) as [c|] eqn:E; [|right; reflexivity].
    destruct (tor_port hint c E) as [v Hv]. rewrite Hv.
    destruct (nonpublic (group_or_nil 1 c)); [right; reflexivity | left; eauto].
  - destruct (i2p_outcomes pops dflt hint) as [H|(Hp & [d ->] & _)]; [exact H|].
    cbn [handler_ok] in Hok. congruence.
  - apply Hok.
Qed.

Lemma lookup_handler_in ty hs kd : lookup_handler ty hs = Some kd -> exists n, In (n, kd) hs.
Proof.
  induction hs as [|[n k] hs IH]; cbn [lookup_handler]; intros H; [discriminate|].
  destruct (list_eqb ty n).
  - inversion H; subst. exists n. left. reflexivity.
  - destruct (IH H) as [n' Hn]. exists n'. right. exact Hn.
Qed.

(* the dispatch itself -- legacy conversion, the colon test, the lookup -- never raises: it answers InvalidHintError
   or hands the converted hint to the handler registered for its type *)
Lemma get_endpoint_cases pops handlers nonpublic loc :
  get_endpoint_gen pops handlers nonpublic loc = invalid \/
  exists hint kd, convert_legacy_hint loc = Ok hint /\
                  lookup_handler (take_until HINT_TYPE_SEP hint) handlers = Some kd /\
                  get_endpoint_gen pops handlers nonpublic loc = hint_to_endpoint_gen pops nonpublic kd hint.
Proof.
  unfold get_endpoint_gen, get_endpoint_shape. destruct (convert_legacy_total loc) as [h ->].
  destruct (zmem 58 h); [|left; reflexivity].
  destruct (lookup_handler (take_until 58 h) handlers) as [kd|] eqn:L; [right; exists h, kd; auto | left; reflexivity].
Qed.

Theorem hint_total_gen : forall pops handlers nonpublic loc,
  Forall (fun h => handler_ok pops (snd h)) handlers ->
  endpoint_or_invalid (get_endpoint_gen pops handlers nonpublic loc).
Proof.
  intros pops handlers nonpublic loc HF.
  destruct (get_endpoint_cases pops handlers nonpublic loc) as [->|(hint & kd & _ & L & ->)]; [right; reflexivity|].
  apply handler_total. apply lookup_handler_in in L as [n Hn].
  rewrite Forall_forall in HF. apply (HF (n, kd) Hn).
Qed.

Theorem hint_total : forall handlers nonpublic loc,
  Forall (fun h => handler_ok I2P_POPS_PORT (snd h)) handlers ->
  endpoint_or_invalid (get_endpoint handlers nonpublic loc).
Proof. intros. apply hint_total_gen. assumption. Qed.

(* so, for ALL handler sets (any plugin behaviour, any i2p configuration), an exception other than InvalidHintError is the
   one the handler registered for the hint's type raised on that very hint *)
Theorem hint_exception_origin : forall pops handlers nonpublic loc e,
  get_endpoint_gen pops handlers nonpublic loc = Exc e ->
  e = "InvalidHintError"%string \/
  exists hint kd, convert_legacy_hint loc = Ok hint /\
                  lookup_handler (take_until HINT_TYPE_SEP hint) handlers = Some kd /\
                  hint_to_endpoint_gen pops nonpublic kd hint = Exc e.
Proof.
  intros pops handlers nonpublic loc e.
  destruct (get_endpoint_cases pops handlers nonpublic loc) as [->|(hint & kd & C & L & ->)]; intros H.
  - left. inversion H. reflexivity.
  - right. exists hint, kd. auto.
Qed.

Lemma endpoint_or_invalid_exc r e : endpoint_or_invalid r -> r = Exc e -> e = "InvalidHintError"%string.
Proof. intros [[ep ->]| ->] H; [discriminate | injection H as <-; reflexivity]. Qed.

(* ... and of foolscap's own handlers only i2p-with-an-unpopped-default-port can do that, with TypeError *)
Theorem builtin_exceptions : forall pops nonpublic kd hint e,
  (match kd with KPlugin _ => False | _ => True end) ->
  hint_to_endpoint_gen pops nonpublic kd hint = Exc e ->
  e = "InvalidHintError"%string \/ (e = "TypeError"%string /\ pops = false /\ exists d, kd = KI2p (Some d)).
Proof.
  intros pops nonpublic kd hint e Hk H.
  destruct kd as [| |dflt|f]; [| | |contradiction].
  - left. exact (endpoint_or_invalid_exc _ _ (handler_total pops nonpublic KTcp hint I) H).
  - left. exact (endpoint_or_invalid_exc _ _ (handler_total pops nonpublic KTor hint I) H).
  - cbn [hint_to_endpoint_gen] in H.
    destruct (i2p_outcomes pops dflt hint) as [O|(Hp & [d ->] & He)]; [left; exact (endpoint_or_invalid_exc _ _ O H)|].
    right. rewrite He in H. injection H as <-. eauto.
Qed.

(* the form before 733f931 was defective (kept as the model of the regression; corpus/C20/i2p-default-port.json is the
   same witness on the real code): an i2p handler created with a default port answered "i2p:a:80" with TypeError *)
Definition I2P_NAME : str := [105; 50; 112].
Definition i2p_port_witness : str := [105; 50; 112; 58; 97; 58; 56; 48].       (* "i2p:a:80" *)
Example unpopped_default_port_defect :
  get_endpoint_gen false [(I2P_NAME, KI2p (Some 7777))] (fun _ => false) i2p_port_witness = Exc "TypeError" /\
  get_endpoint_gen true [(I2P_NAME, KI2p (Some 7777))] (fun _ => false) i2p_port_witness = Ok (EpI2p [97] (Some 80)) /\
  get_endpoint_gen true [(I2P_NAME, KI2p (Some 7777))] (fun _ => false) [105; 50; 112; 58; 97] = Ok (EpI2p [97] (Some 7777)).
Proof. vm_compute. repeat split; reflexivity. Qed.

(* the translated form is the repaired one: this is the line that breaks if the defect returns *)
Lemma i2p_pops : I2P_POPS_PORT = true.
Proof. reflexivity. Qed.

(* THE FULL STATEMENT for foolscap's own handlers in every configuration; a third-party plugin must itself answer with an
   endpoint or InvalidHintError *)
Definition plugin_ok (kd : hkind) : Prop :=
  match kd with KPlugin f => forall h, endpoint_or_invalid (f h) | _ => True end.

Theorem hint_total_all : forall handlers nonpublic loc,
  Forall (fun h => plugin_ok (snd h)) handlers ->
  endpoint_or_invalid (get_endpoint handlers nonpublic loc).
Proof.
  intros handlers nonpublic loc HF. apply hint_total. eapply Forall_impl; [|exact HF].
  intros [n kd] H. cbn [snd] in *. destruct kd as [| |[d|]|f]; cbn [handler_ok plugin_ok] in *; [exact I | exact I | exact i2p_pops | exact I | exact H].
Qed.

(* handler_ok is satisfiable: tcp, tor, i2p without default port, and a plugin that answers with an
   endpoint or InvalidHintError *)
Example handler_ok_example :
  Forall (fun h => handler_ok I2P_POPS_PORT (snd h))
         [([116; 99; 112], KTcp); ([116; 111; 114], KTor); (I2P_NAME, KI2p None);
          ([120], KPlugin (fun h => match h with [] => invalid | _ => Ok (EpTcp h 1) end))].
Proof.
  constructor; [exact I|]. constructor; [exact I|]. constructor; [exact I|]. constructor; [|constructor].
  cbn [snd handler_ok]. intros h0. unfold endpoint_or_invalid. destruct h0; [right; reflexivity | left; eauto].
Qed.

Lemma int_acc_bound ds : forall acc v, 0 <= acc -> int_acc acc ds = Some v ->
  0 <= v < (acc + 1) * 10 ^ Z.of_nat (List.length ds).
Proof.
  induction ds as [|d ds IH]; cbn [int_acc List.length]; intros acc v Ha H.
  - inversion H; subst. cbn. lia.
  - destruct (digit_val d) as [dv|] eqn:E; [|discriminate].
    assert (Hdv : 0 <= dv <= 9).
    { unfold digit_val in E. clear -E. induction digit_zeros as [|z zs IHz]; cbn [digit_val_in] in E; [discriminate|].
      destruct ((z <=? d) && (d <=? z + 9)) eqn:B; [|auto]. inversion E; subst. lia. }
    apply IH in H; [|lia]. rewrite Nat2Z.inj_succ, Z.pow_succ_r by lia. nia.
Qed.

Example hint_examples :
  map (fun s => ep_code (get_endpoint [([116; 99; 112], KTcp); ([105; 50; 112], KI2p None)] (fun _ => false) s))
      [[97; 58; 48; 56; 48]; [116; 99; 112; 58; 91; 58; 58; 49; 93; 58; 55]; [105; 50; 112; 58; 97]; [120]; [97; 58; 49; 50; 51; 52; 53; 54]]
  = [[[1]; [97]; [80]]; [[1]; [58; 58; 49]; [7]]; [[3]; [97]; []]; [[0]]; [[0]]].
Proof. vm_compute. reflexivity. Qed.

Theorem decode_total : forall s,
  (exists t hs n, decode_furl s = Ok (t, hs, n)) \/ decode_furl s = Exc "BadFURLError" \/ decode_furl s = Exc "ValueError".
Proof.
  intros s. unfold decode_furl.
  generalize (re_apply AUTH_STURDYREF_RE AUTH_STURDYREF_RE_method s) "BadFURLError"%string "ValueError"%string.
  intros [c|] e1 e2; [|right; right; reflexivity].
  destruct (negb (is_base32 (firstn TUBID_CUT (group_or_nil 1 c)))); [right; left; reflexivity|].
  match goal with |- context [existsb str_is_nil ?h] => destruct (existsb str_is_nil h) end.
  - right; left; reflexivity.
  - left. eauto.
Qed.

(* decode_furl has TWO error classes (BadFURLError is not a ValueError): ValueError("unknown FURL prefix") exactly for the
   strings in which the pattern finds no FURL at all, BadFURLError exactly for those in which it finds one whose tub id is
   not base32 or one of whose hints is empty *)
Theorem decode_error_classes : forall s,
  (decode_furl s = Exc "ValueError" <-> re_apply AUTH_STURDYREF_RE AUTH_STURDYREF_RE_method s = None) /\
  (decode_furl s = Exc "BadFURLError" <->
   exists c, re_apply AUTH_STURDYREF_RE AUTH_STURDYREF_RE_method s = Some c /\
     (is_base32 (firstn TUBID_CUT (group_or_nil 1 c)) = false \/
      existsb str_is_nil (let hs := split_on HINT_SEP (group_or_nil 2 c) in match hs with [[]] => [] | _ => hs end) = true)).
Proof.
  intros s. unfold decode_furl.
  assert (N : "BadFURLError"%string <> "ValueError"%string) by discriminate. revert N.
  generalize (re_apply AUTH_STURDYREF_RE AUTH_STURDYREF_RE_method s) "BadFURLError"%string "ValueError"%string.
  intros [c|] e1 e2 N; cbv zeta.
  - destruct (is_base32 _) eqn:B; cbn [negb].
    + destruct (existsb _ _) eqn:X.
      * split; [split; congruence|]. split; [intros _; exists c; auto | reflexivity].
      * split; [split; discriminate|]. split; [discriminate|]. intros (c' & Hc & [H|H]); inversion Hc; subst c'; congruence.
    + split; [split; congruence|]. split; [intros _; exists c; auto | reflexivity].
  - split; [split; reflexivity|]. split; [congruence|]. intros (c & Hc & _). discriminate.
Qed.

(* "or raises the documented bad-FURL error" read strictly (BadFURLError only) is REFUTED: a string in which the pattern
   finds no FURL (the witness has the scheme but no '@') gets ValueError (the behaviour upstream tests: test_sturdyref
   asserts ValueError for 'pb://TUBID/name', and Tub.getConnectionInfoForFURL catches (ValueError, BadFURLError)) *)
Theorem decode_strict_refuted : exists s, decode_furl s = Exc "ValueError".
Proof. exists [112; 98; 58; 47; 47; 97; 47; 110]. vm_compute. reflexivity. Qed.     (* "pb://a/n" *)

Definition hint_wf (h : str) : Prop := h <> [] /\ ~ In HINT_SEP h /\ ~ In 47 h.
(* what decode_furl returns: a non-empty base32 tub id of at most TUBID_CUT characters, hints that
   are non-empty and free of ',' and '/', a non-empty name without newline *)
Definition furl_wf (t : str) (hs : list str) (n : str) : Prop :=
  t <> [] /\ (List.length t <= TUBID_CUT)%nat /\ is_base32 t = true /\ Forall hint_wf hs /\ n <> [] /\ ~ In 10 n.

Lemma forallb_notin x h : forallb (in_cset (CS true [(x, x)])) h = true <-> ~ In x h.
Proof.
  induction h as [|y h IH]; cbn [forallb In]; [tauto|].
  rewrite andb_true_iff, IH, in_cset_not, negb_true_iff, Z.eqb_neq. intuition congruence.
Qed.

Lemma split_on_nosep sep a : ~ In sep a -> split_on sep a = [a].
Proof.
  induction a as [|x a IH]; cbn [split_on In]; intros H; [reflexivity|].
  destruct (Z.eqb_spec x sep); [tauto|]. rewrite IH by tauto. reflexivity.
Qed.

Lemma split_on_app sep a rest : ~ In sep a -> split_on sep (a ++ sep :: rest) = a :: split_on sep rest.
Proof.
  induction a as [|x a IH]; cbn [split_on In app]; intros H.
  - rewrite Z.eqb_refl. reflexivity.
  - destruct (Z.eqb_spec x sep); [tauto|]. rewrite IH by tauto. reflexivity.
Qed.

Lemma split_join sep hs : hs <> [] -> Forall (fun h => ~ In sep h) hs -> split_on sep (join_with sep hs) = hs.
Proof.
  induction hs as [|a hs IH]; intros Hne HF; [congruence|].
  inversion HF as [|? ? Ha HF']; subst. destruct hs as [|b hs'].
  - cbn [join_with]. apply split_on_nosep. assumption.
  - change (join_with sep (a :: b :: hs')) with (a ++ sep :: join_with sep (b :: hs')).
    rewrite split_on_app by assumption. rewrite IH; [reflexivity|discriminate|assumption].
Qed.

Lemma forallb_join (P : Z -> bool) sep hs : P sep = true -> Forall (fun h => forallb P h = true) hs ->
  forallb P (join_with sep hs) = true.
Proof.
  intros Hs. induction hs as [|a hs IH]; intros HF; [reflexivity|].
  inversion HF as [|? ? Ha HF']; subst. destruct hs as [|b hs'].
  - exact Ha.
  - change (join_with sep (a :: b :: hs')) with (a ++ sep :: join_with sep (b :: hs')).
    rewrite forallb_app. cbn [forallb]. rewrite Ha, Hs, (IH HF'). reflexivity.
Qed.

Lemma base32_not_at x : base32_char x = true -> in_cset (CS true [(64, 64)]) x = true.
Proof.
  intros H. rewrite in_cset_not. destruct (Z.eqb_spec x 64) as [->|]; [|reflexivity].
  vm_compute in H. discriminate.
Qed.

Lemma content_nil n : content (n, []) = n.
Proof. unfold content. cbn [fst snd List.length]. rewrite Nat.sub_0_r. apply firstn_all. Qed.

(* the pattern finds the encoded FURL at position 0 and splits it at the first '@' and the next '/' *)
Lemma furl_match t g2 n :
  t <> [] -> forallb (in_cset (CS true [(64, 64)])) t = true ->
  forallb (in_cset (CS true [(47, 47)])) g2 = true ->
  n <> [] -> forallb (in_cset (CS true [(10, 10)])) n = true ->
  exists c, re_apply AUTH_STURDYREF_RE AUTH_STURDYREF_RE_method (ENC_PREFIX ++ t ++ ENC_AT ++ g2 ++ ENC_SLASH ++ n) = Some c
            /\ group 1 c = Some t /\ group 2 c = Some g2 /\ group 3 c = Some n.
Proof.
  intros Ht Ht' Hg Hn Hn'.
  unfold re_apply, re_run, AUTH_STURDYREF_RE_method, AUTH_STURDYREF_RE. cbn [p_anch p_body].
  cbn [ENC_PREFIX ENC_AT ENC_SLASH app].
  eexists. split.
  - cbn [search_from]. apply fst_orelse_tick. rewrite m_top_unfold. do 5 apply m_lit_fst.
    eapply grp_star_greedy; [reflexivity | exact Ht' | reflexivity | destruct t; [congruence | cbn; lia] |].
    apply m_lit_fst. eapply grp_star_greedy; [reflexivity | exact Hg | reflexivity | cbn; lia |].
    apply m_lit_fst.
    eapply grp_star_greedy; [symmetry; apply app_nil_r | exact Hn' | exact I | destruct n; [congruence | cbn; lia] |].
    reflexivity.
  - split; [|split]; [exact (f_equal Some (content_app t _)) | exact (f_equal Some (content_app g2 _))
                      | exact (f_equal Some (content_nil n))].
Qed.

Lemma hints_roundtrip hs : Forall hint_wf hs ->
  (let sp := split_on HINT_SEP (join_with ENC_SEP hs) in match sp with [[]] => [] | _ => sp end) = hs
  /\ existsb str_is_nil hs = false.
Proof.
  intros HF. split.
  - destruct hs as [|h hs']; [reflexivity|].
    change ENC_SEP with HINT_SEP. rewrite split_join.
    + inversion HF as [|? ? [Hne _] _]; subst. destruct h; [congruence|]. reflexivity.
    + discriminate.
    + eapply Forall_impl; [|exact HF]. intros a (_ & H & _). exact H.
  - induction HF as [|h hs' [Hne _] _ IH]; [reflexivity|]. cbn [existsb]. destruct h; [congruence|]. exact IH.
Qed.

Theorem decode_encode_wf : forall t hs n, furl_wf t hs n -> decode_furl (encode_furl t hs n) = Ok (t, hs, n).
Proof.
  intros t hs n (Ht & Hlen & Hb & Hhs & Hn & Hnl).
  assert (Ht' : forallb (in_cset (CS true [(64, 64)])) t = true).
  { unfold is_base32 in Hb. rewrite forallb_forall in *. intros x Hx. apply base32_not_at. apply Hb. assumption. }
  assert (Hg : forallb (in_cset (CS true [(47, 47)])) (join_with ENC_SEP hs) = true).
  { apply forallb_join; [reflexivity|]. eapply Forall_impl; [|exact Hhs]. intros a (_ & _ & H). apply forallb_notin. exact H. }
  destruct (furl_match t (join_with ENC_SEP hs) n Ht Ht' Hg Hn (proj2 (forallb_notin 10 n) Hnl)) as (c & Hc & G1 & G2 & G3).
  unfold decode_furl, encode_furl. rewrite Hc. unfold group_or_nil. rewrite G1, G2, G3.
  rewrite firstn_all2 by assumption. rewrite Hb. cbn [negb].
  destruct (hints_roundtrip hs Hhs) as [E1 E2]. cbn zeta in E1. rewrite E1, E2. reflexivity.
Qed.

Lemma search_inv r : forall s res n, search_from r s = (Some res, n) ->
  exists pre s1 n', s = pre ++ s1 /\ m_top r s1 = (Some res, n').
Proof.
  induction s as [|x s IH]; intros res n H; cbn [search_from] in H; apply orelse_some in H as [[n' H]|[n' H]].
  - apply tick_some in H as [n'' H]. exists [], [], n''. auto.
  - discriminate.
  - apply tick_some in H as [n'' H]. exists [], (x :: s), n''. auto.
  - apply IH in H as (pre & s1 & n1 & -> & H). exists (x :: pre), s1, n1. auto.
Qed.

Lemma furl_match_inv s c : re_apply AUTH_STURDYREF_RE AUTH_STURDYREF_RE_method s = Some c ->
  exists u1 u2 u3, group 1 c = Some u1 /\ group 2 c = Some u2 /\ group 3 c = Some u3 /\
    u1 <> [] /\ ~ In 47 u2 /\ u3 <> [] /\ ~ In 10 u3.
Proof.
  unfold re_apply, re_run, AUTH_STURDYREF_RE_method, AUTH_STURDYREF_RE. cbn [p_anch p_body].
  destruct (search_from _ s) as [r n] eqn:H. cbn [fst]. intros ->.
  apply search_inv in H as (? & s1 & ? & _ & H). rewrite m_top_unfold in H.
  do 5 (apply m_lit_inv in H as (? & ? & _ & H)).
  apply grp_star_inv in H as (u1 & ? & _ & _ & Hlo1 & _ & ? & H).
  apply m_lit_inv in H as (? & ? & _ & H).
  apply grp_star_inv in H as (u2 & ? & _ & Hu2 & _ & _ & ? & H).
  apply m_lit_inv in H as (? & ? & _ & H).
  apply grp_eol_inv in H as (u3 & ? & _ & Hu3 & Hlo3 & _ & ->).
  exists u1, u2, u3. repeat split.
  - exact (f_equal Some (content_app u1 _)).
  - exact (f_equal Some (content_app u2 _)).
  - exact (f_equal Some (content_app u3 _)).
  - destruct u1; [cbn in Hlo1; lia | discriminate].
  - apply forallb_notin. exact Hu2.
  - destruct u3; [cbn in Hlo3; lia | discriminate].
  - apply forallb_notin. exact Hu3.
Qed.

Lemma split_on_pieces sep s : Forall (fun h => ~ In sep h /\ forall x, In x h -> In x s) (split_on sep s).
Proof.
  induction s as [|x s IH]; cbn [split_on].
  - constructor; [|constructor]. split; [tauto | intros x []].
  - destruct (Z.eqb_spec x sep) as [->|Hne].
    + constructor; [split; [tauto | intros y []]|].
      eapply Forall_impl; [|exact IH]. intros a [H1 H2]. split; [assumption|]. intros y Hy. right. auto.
    + destruct (split_on sep s) as [|h t] eqn:E.
      * constructor; [|constructor]. split; [intros [A|[]]; congruence | intros y [<-|[]]; left; reflexivity].
      * inversion IH as [|? ? [H1 H2] Ht]; subst. constructor.
        -- split; [intros [A|A]; [congruence|tauto] | intros y [<-|Hy]; [left; reflexivity | right; auto]].
        -- eapply Forall_impl; [|exact Ht]. intros a [A1 A2]. split; [assumption|]. intros y Hy. right. auto.
Qed.

Theorem decode_wf : forall s t hs n, decode_furl s = Ok (t, hs, n) -> furl_wf t hs n.
Proof.
  intros s t hs n. unfold decode_furl. generalize "BadFURLError"%string "ValueError"%string. intros e1 e2 H.
  destruct (re_apply AUTH_STURDYREF_RE AUTH_STURDYREF_RE_method s) as [c|] eqn:E; [|discriminate].
  destruct (furl_match_inv s c E) as (u1 & u2 & u3 & G1 & G2 & G3 & Hu1 & Hu2 & Hu3 & Hnl).
  unfold group_or_nil in H. rewrite G1, G2, G3 in H.
  destruct (is_base32 (firstn TUBID_CUT u1)) eqn:Hb; cbn [negb] in H; [|discriminate].
  set (sp := split_on HINT_SEP u2) in *.
  set (hs0 := match sp with [[]] => [] | _ => sp end) in *.
  destruct (existsb str_is_nil hs0) eqn:Hex; [discriminate|].
  assert (t = firstn TUBID_CUT u1 /\ hs = hs0 /\ n = u3) as (-> & -> & ->) by (repeat split; congruence). clear H.
  unfold furl_wf. split; [|split; [|split; [|split; [|split]]]]; auto.
  - destruct u1; [congruence|]. unfold TUBID_CUT. cbn. discriminate.
  - apply firstn_le_length.
  - assert (HF : Forall (fun h => ~ In HINT_SEP h /\ forall x, In x h -> In x u2) hs0).
    { pose proof (split_on_pieces HINT_SEP u2) as HP. fold sp in HP. unfold hs0.
      destruct sp as [|[|y h] [|h2 t]]; try exact HP; constructor. }
    rewrite Forall_forall in *. intros h Hh. destruct (HF h Hh) as [H1 H2]. split; [|split].
    + intros ->. assert (existsb str_is_nil hs0 = true) by (apply existsb_exists; exists []; auto). congruence.
    + exact H1.
    + intros H47. apply Hu2. apply H2. exact H47.
Qed.

Theorem decode_encode : forall s t hs n, decode_furl s = Ok (t, hs, n) -> decode_furl (encode_furl t hs n) = Ok (t, hs, n).
Proof. intros s t hs n H. apply decode_encode_wf. eapply decode_wf. exact H. Qed.

Example decode_encode_example :
  let f := ENC_PREFIX ++ [97; 98; 50] ++ ENC_AT ++ [104; 58; 49; 44; 105; 58; 50] ++ ENC_SLASH ++ [110] in
  decode_furl f = Ok ([97; 98; 50], [[104; 58; 49]; [105; 58; 50]], [110]) /\
  furl_wf [97; 98; 50] [[104; 58; 49]; [105; 58; 50]] [110].
Proof.
  split; [vm_compute; reflexivity|].
  unfold furl_wf, hint_wf. repeat split; try discriminate; try (cbn; lia);
    try (repeat constructor; try discriminate; cbn; intuition discriminate); cbn; intuition discriminate.
Qed.

Lemma utf8_dec1 b r : 0 <= b < 128 -> utf8_dec (b :: r) = option_map (cons b) (utf8_dec r).
Proof. intros H. cbn [utf8_dec]. rewrite inb_true by lia. reflexivity. Qed.

Lemma utf8_dec2 b c1 r : 194 <= b < 224 -> is_cont c1 = true ->
  utf8_dec (b :: c1 :: r) = option_map (cons ((b - 192) * 64 + (c1 - 128))) (utf8_dec r).
Proof. intros H H1. cbn [utf8_dec]. rewrite inb_false, inb_true, H1 by lia. reflexivity. Qed.

Lemma utf8_dec3 b c1 c2 r : 224 <= b < 240 -> is_cont c1 = true -> is_cont c2 = true -> second3 b c1 = true ->
  utf8_dec (b :: c1 :: c2 :: r) = option_map (cons ((b - 224) * 4096 + (c1 - 128) * 64 + (c2 - 128))) (utf8_dec r).
Proof. intros H H1 H2 H3. cbn [utf8_dec]. rewrite !inb_false, inb_true, H1, H2, H3 by lia. reflexivity. Qed.

Lemma utf8_dec4 b c1 c2 c3 r : 240 <= b < 245 -> is_cont c1 = true -> is_cont c2 = true -> is_cont c3 = true ->
  second4 b c1 = true ->
  utf8_dec (b :: c1 :: c2 :: c3 :: r)
  = option_map (cons ((b - 240) * 262144 + (c1 - 128) * 4096 + (c2 - 128) * 64 + (c3 - 128))) (utf8_dec r).
Proof. intros H H1 H2 H3 H4. cbn [utf8_dec]. rewrite !inb_false, inb_true, H1, H2, H3, H4 by lia. reflexivity. Qed.

(* the decoder on the form of one code point; second3 / second4 hold because a u8 form is never overlong (leads 224, 240)
   nor above 0x10FFFF (lead 244), and with lead 237 it stands for a surrogate unless c1 < 160 *)
Lemma u8_dec c bs r : u8 c bs -> ~ 55296 <= c <= 57343 -> utf8_dec (bs ++ r) = option_map (cons c) (utf8_dec r).
Proof.
  destruct 1 as [b Hb|b c1 Hb H1|b c1 c2 Hb H1 H2 Hz|b c1 c2 c3 Hb H1 H2 H3 Hz Hy]; intros S; cbn [app].
  - apply utf8_dec1, Hb.
  - apply utf8_dec2; [|apply inb_true]; lia.
  - apply utf8_dec3; [|apply inb_true..|unfold second3]; try lia.
    destruct (Z.eqb_spec b 224); [apply Z.leb_le | destruct (Z.eqb_spec b 237); [apply Z.ltb_lt | reflexivity]]; lia.
  - apply utf8_dec4; [|apply inb_true..|unfold second4]; try lia.
    destruct (Z.eqb_spec b 240); [apply Z.leb_le | destruct (Z.eqb_spec b 244); [apply Z.ltb_lt | reflexivity]]; lia.
Qed.

Lemma utf8_dec_enc1 c r : scalarb c = true -> utf8_dec (enc1 c ++ r) = option_map (cons c) (utf8_dec r).
Proof. intros H. apply u8_dec; [apply u8_of_scalar, H|]. apply scalarb_range in H. lia. Qed.

(* decoding the UTF-8 encoding of a str gives the str back: a bytes FURL is the str FURL *)
Theorem utf8_dec_utf8 : forall s, forallb scalarb s = true -> utf8_dec (utf8 s) = Some s.
Proof.
  induction s as [|c s IH]; cbn [forallb]; intros H; [reflexivity|].
  apply andb_true_iff in H as [Hc Hs]. unfold utf8. cbn [flat_map]. fold (utf8 s).
  rewrite utf8_dec_enc1 by exact Hc. rewrite IH by exact Hs. reflexivity.
Qed.

Theorem decode_bytes_is_decode_str : forall s, forallb scalarb s = true -> decode_furl_bytes (utf8 s) = decode_furl s.
Proof. intros s H. unfold decode_furl_bytes. rewrite utf8_dec_utf8 by exact H. reflexivity. Qed.

Theorem decode_bytes_total : forall b,
  (exists t hs n, decode_furl_bytes b = Ok (t, hs, n)) \/ decode_furl_bytes b = Exc "BadFURLError" \/
  decode_furl_bytes b = Exc "ValueError" \/ decode_furl_bytes b = Exc "UnicodeDecodeError".
Proof.
  intros b. unfold decode_furl_bytes. destruct (utf8_dec b) as [s|]; [|right; right; right; reflexivity].
  destruct (decode_total s) as [H|[H|H]]; [left | right; left | right; right; left]; exact H.
Qed.

(* non-vacuity: a non-ASCII FURL as bytes; ill-formed bytes (overlong, surrogate, truncated, 0xFF) *)
Example decode_bytes_examples :
  decode_furl_bytes (utf8 (ENC_PREFIX ++ [97] ++ ENC_AT ++ [104] ++ ENC_SLASH ++ [233; 8364; 128512]))
    = Ok ([97], [[104]], [233; 8364; 128512]) /\
  map utf8_dec [[192; 175]; [237; 160; 128]; [226; 130]; [255]; [244; 144; 128; 128]; [224; 159; 191]] = [None; None; None; None; None; None].
Proof. vm_compute. split; reflexivity. Qed.

Lemma opt_str_eqb_eq a b : opt_str_eqb a b = true <-> a = b.
Proof.
  destruct a as [x|], b as [y|]; cbn [opt_str_eqb]; split; intros H; try discriminate; try reflexivity.
  - apply list_eqb_eq in H. congruence.
  - inversion H; subst. apply list_eqb_eq. reflexivity.
Qed.

Theorem sturdy_eq : forall a b, sref_eqb a b = true <-> (sr_tub a = sr_tub b /\ sr_name a = sr_name b).
Proof.
  intros a b. unfold sref_eqb, sturdyref_distinguishers. cbn [forallb field_eqb].
  rewrite andb_true_r, andb_true_iff, !opt_str_eqb_eq. reflexivity.
Qed.

(* equal references are hashed alike: the hashed tuple is a function of the distinguishers *)
Theorem sturdy_hash : forall a b, sref_eqb a b = true -> sref_key a = sref_key b.
Proof.
  intros a b H. apply sturdy_eq in H as [H1 H2]. unfold sref_key, sturdyref_distinguishers.
  cbn [map field_val]. rewrite H1, H2. reflexivity.
Qed.

Theorem tubref_eq : forall a b, tubref_eqb a b = true <-> sr_tub a = sr_tub b.
Proof.
  intros a b. unfold tubref_eqb, tubref_distinguishers. cbn [forallb field_eqb].
  rewrite andb_true_r, opt_str_eqb_eq. reflexivity.
Qed.

(* SturdyRef.setCopyableState takes exactly the translated `sturdyref_copied_fields` from the peer's state; every field
   that identity depends on is among them, so a received reference is compared by the tub id and name it was sent with
   (sturdy_eq quantifies over all records, however built) *)
Lemma copy_carries_identity : forall f, In f sturdyref_distinguishers -> In f sturdyref_copied_fields.
Proof.
  unfold sturdyref_distinguishers, sturdyref_copied_fields. intros f H. cbn [In] in *.
  repeat match goal with H : _ \/ _ |- _ => destruct H as [<-|H] end; tauto.
Qed.

Lemma str_ltb_irrefl a : str_ltb a a = false.
Proof. induction a as [|x a IH]; [reflexivity|]. cbn [str_ltb]. rewrite Z.ltb_irrefl, Z.eqb_refl. exact IH. Qed.

Lemma str_ltb_trans : forall a b c, str_ltb a b = true -> str_ltb b c = true -> str_ltb a c = true.
Proof.
  induction a as [|x a IH]; intros b c Hab Hbc.
  - destruct b; [discriminate|]. destruct c; [discriminate|reflexivity].
  - destruct b as [|y b]; [discriminate|]. destruct c as [|z c]; [discriminate|]. cbn [str_ltb] in *.
    destruct (Z.ltb_spec x y).
    + destruct (Z.ltb_spec y z); [|destruct (Z.eqb_spec y z); [|discriminate]];
        rewrite (proj2 (Z.ltb_lt x z)) by lia; reflexivity.
    + destruct (Z.eqb_spec x y) as [->|]; [|discriminate]. destruct (y <? z); [reflexivity|].
      destruct (y =? z); [eapply IH; eassumption | discriminate].
Qed.

Lemma str_total : forall a b, str_ltb a b = true \/ a = b \/ str_ltb b a = true.
Proof.
  induction a as [|x a IH]; intros [|y b]; cbn [str_ltb]; auto.
  destruct (Z.ltb_spec x y), (Z.ltb_spec y x); auto; try lia.
  assert (x = y) by lia. subst y. rewrite Z.eqb_refl. destruct (IH b) as [|[->|]]; auto.
Qed.

Lemma str_ltb_neq a b : str_ltb a b = true -> list_eqb a b = false /\ list_eqb b a = false /\ str_ltb b a = false.
Proof.
  intros H. assert (N : a <> b) by (intros ->; rewrite str_ltb_irrefl in H; discriminate).
  repeat split.
  - destruct (list_eqb a b) eqn:E; [apply list_eqb_eq in E; contradiction | reflexivity].
  - destruct (list_eqb b a) eqn:E; [apply list_eqb_eq in E; congruence | reflexivity].
  - destruct (str_ltb b a) eqn:E; [|reflexivity].
    pose proof (str_ltb_trans _ _ _ H E) as T. rewrite str_ltb_irrefl in T. discriminate.
Qed.

(* references that have a tub id and a name (everything built from a FURL): __lt__ never raises and exactly one of
   a < b, a == b, b < a holds (transitivity of __lt__ is not stated; for strings it is str_ltb_trans) *)
Definition full (a : sref) : Prop := (exists t, sr_tub a = Some t) /\ (exists n, sr_name a = Some n).

Theorem sturdy_lt_trichotomy : forall a b, full a -> full b ->
  exists x y, sref_ltb a b = Ok x /\ sref_ltb b a = Ok y /\
    ((x = true /\ sref_eqb a b = false /\ y = false) \/ (x = false /\ sref_eqb a b = true /\ y = false) \/
     (x = false /\ sref_eqb a b = false /\ y = true)).
Proof.
  intros a b [[ta Ha] [na Hna]] [[tb Hb] [nb Hnb]].
  unfold sref_ltb, sref_eqb, sturdyref_distinguishers. cbn [key_ltb forallb field_eqb field_val].
  rewrite Ha, Hb, Hna, Hnb. cbn [opt_str_eqb]. rewrite !andb_true_r.
  assert (R : forall s, list_eqb s s = true) by (intros s; apply list_eqb_eq; reflexivity).
  destruct (str_total ta tb) as [A|[<-|A]].
  - destruct (str_ltb_neq _ _ A) as (E1 & E2 & E3). rewrite A, E1, E2, E3. exists true, false. auto 7.
  - rewrite R. cbn [andb]. destruct (str_total na nb) as [A|[<-|A]]; [|rewrite R; exists false, false; auto 7|];
      destruct (str_ltb_neq _ _ A) as (E1 & E2 & E3); rewrite A, E1, E2, E3;
      [exists true, false | exists false, true]; auto 7.
  - destruct (str_ltb_neq _ _ A) as (E1 & E2 & E3). rewrite A, E1, E2, E3. exists false, true. auto 8.
Qed.

(* a reference without a tub id (SturdyRef() with no URL, or a received copy whose state lacks it) cannot be ordered
   against a complete one: Python's tuple comparison reaches `None < str` *)
Example sturdy_lt_incomplete :
  let a := {| sr_tub := None; sr_hints := []; sr_name := None; sr_url := None |} in
  let b := {| sr_tub := Some [97]; sr_hints := []; sr_name := Some [110]; sr_url := None |} in
  sref_ltb a b = Exc "TypeError" /\ sref_ltb a a = Ok false /\ sref_ltb b b = Ok false.
Proof. vm_compute. repeat split; reflexivity. Qed.

Theorem no_stall_translated : forall evs,
  waiters (cstep connector_stored_before_connect CONNECTION_TIMEOUT
             (crun connector_stored_before_connect CONNECTION_TIMEOUT evs) (Advance CONNECTION_TIMEOUT)) = [].
Proof. intros evs. apply (no_stall CONNECTION_TIMEOUT evs). discriminate. Qed.

Theorem attempt_starts_translated : forall evs t,
  let s := crun connector_stored_before_connect CONNECTION_TIMEOUT evs in
  ~ (exists dl, In (t, dl) (live s)) ->
  In (next s) (started (cstep connector_stored_before_connect CONNECTION_TIMEOUT s (GetRef t true))).
Proof. intros evs t s H. apply (attempt_starts CONNECTION_TIMEOUT evs t); [discriminate | exact H]. Qed.
