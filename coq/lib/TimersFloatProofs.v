(* C15: the rounding hypotheses of lib/TimersRoundProofs.v hold for IEEE binary64 with delta = 2^-23 s (all times below
   2^31 s), proved on the exact integer model of lib/TimersFloat.v; the robust theorems instantiated with it. *)
From Coq Require Import ZArith List Bool Lia.
Import ListNotations.
Require Import Verif.lib.Timers Verif.lib.TimersProofs Verif.lib.TimersRound Verif.lib.TimersRoundProofs Verif.lib.TimersFloat.
Local Open Scope Z_scope.

(* rounding to the grid 2^e moves a value by at most half a grid step *)
Lemma rnd_to_err e x : 1 <= e -> Z.abs (rnd_to e x - x) <= 2 ^ (e - 1).
Proof.
  intros He. unfold rnd_to.
  assert (P : 2 ^ e = 2 * 2 ^ (e - 1)) by (rewrite <- Z.pow_succ_r by lia; f_equal; lia).
  assert (H0 : 0 < 2 ^ (e - 1)) by (apply Z.pow_pos_nonneg; lia).
  set (h := 2 ^ (e - 1)) in *. set (p := 2 ^ e) in *.
  pose proof (Z.div_mod x p ltac:(lia)) as D. pose proof (Z.mod_pos_bound x p ltac:(lia)) as B.
  set (q := x / p) in *. set (r := x mod p) in *.
  destruct (Z.ltb_spec (2 * r) p); [lia|]. destruct (Z.ltb_spec p (2 * r)); [lia|]. destruct (Z.even q); lia.
Qed.

(* ... and lands on the grid *)
Lemma rnd_to_grid e x : 0 <= e -> exists k, rnd_to e x = 2 ^ e * k.
Proof.
  intros He. unfold rnd_to. set (p := 2 ^ e). set (q := x / p).
  destruct (_ <? _); [exists q; reflexivity|]. destruct (_ <? _); [exists (q + 1); lia|].
  destruct (Z.even q); [exists q; reflexivity|exists (q + 1); lia].
Qed.

(* binary64: a result of magnitude below 2^M is off by at most half an ulp of the binade below 2^M *)
Theorem rnd53_err M x : 54 <= M -> Z.abs x < 2 ^ M -> Z.abs (rnd53 x - x) <= 2 ^ (M - 54).
Proof.
  intros HM Hx. unfold rnd53. destruct (Z.ltb_spec (Z.abs x) (2 ^ 53)) as [|Hbig].
  - replace (x - x) with 0 by lia. cbn [Z.abs]. apply Z.pow_nonneg. lia.
  - assert (Hpos : 0 < Z.abs x) by (pose proof (Z.pow_pos_nonneg 2 53); lia).
    assert (L1 : 53 <= Z.log2 (Z.abs x)) by (apply Z.log2_le_pow2; lia).
    assert (L2 : Z.log2 (Z.abs x) < M) by (apply Z.log2_lt_pow2; lia).
    pose proof (rnd_to_err (Z.log2 (Z.abs x) - 52) x ltac:(lia)) as E.
    assert (Z.pow 2 (Z.log2 (Z.abs x) - 52 - 1) <= 2 ^ (M - 54)) by (apply Z.pow_le_mono_r; lia). lia.
Qed.

(* values that already have at most 53 significant bits are not changed: sums of time stamps, small ages ... are exact *)
Lemma rnd53_exact x : Z.abs x < 2 ^ 53 -> rnd53 x = x.
Proof. intros H. unfold rnd53. destruct (Z.ltb_spec (Z.abs x) (2 ^ 53)); [reflexivity|lia]. Qed.

Lemma fadd_is_binary64 U a b : Z.abs (a + b) < horizon U -> fadd U a b = rnd53 (a + b).
Proof. intros H. unfold fadd. cbv zeta. destruct (Z.ltb_spec (Z.abs (a + b)) (horizon U)); [reflexivity|lia]. Qed.

Lemma fsub_is_binary64 U a b : Z.abs (a - b) < horizon U -> fsub U a b = rnd53 (a - b).
Proof. intros H. unfold fsub. cbv zeta. destruct (Z.ltb_spec (Z.abs (a - b)) (horizon U)); [reflexivity|lia]. Qed.

Lemma delta64_nonneg U : 0 <= delta64 U.
Proof. unfold delta64. apply Z.pow_nonneg. lia. Qed.

(* delta = 2^-23 s: in units of 2^-U s (U >= 23) that is 2^(U-23); below the horizon 2^(31+U) it is half an ulp *)
Lemma horizon_err U x : 23 <= U -> Z.abs ((if Z.abs x <? horizon U then rnd53 x else x) - x) <= delta64 U.
Proof.
  intros HU. destruct (Z.ltb_spec (Z.abs x) (horizon U)) as [H|H].
  - unfold delta64. replace (U - 23) with (31 + U - 54) by lia. apply rnd53_err; [lia|exact H].
  - rewrite Z.sub_diag. apply delta64_nonneg.
Qed.

Theorem fadd_within U : 23 <= U -> within (delta64 U) (fadd U) Z.add.
Proof. intros HU a b. apply horizon_err, HU. Qed.

Theorem fsub_within U : 23 <= U -> within (delta64 U) (fsub U) Z.sub.
Proof. intros HU a b. apply horizon_err, HU. Qed.

(* the robust theorems for binary64 arithmetic: time unit 2^-U s, any U >= 23; eps = the double EPSILON in that unit *)

Lemma binary64_instance (P : (Z -> Z -> Z) -> (Z -> Z -> Z) -> Z -> Z -> Prop) :
  (forall add sub eps delta,
     0 <= delta -> 0 <= eps -> within delta add Z.add -> within delta sub Z.sub -> P add sub eps delta) ->
  forall U eps, 23 <= U -> 0 <= eps -> P (fadd U) (fsub U) eps (delta64 U).
Proof. intros H U eps HU He. apply H; [apply delta64_nonneg|exact He|apply fadd_within, HU|apply fsub_within, HU]. Qed.

Theorem idle_torn_down_binary64 U eps : 23 <= U -> 0 <= eps ->
  forall c tc T d pre post,
  cT c = Some T -> 0 <= T -> 0 <= d ->
  sorted_from tc pre -> no_close pre ->
  let s := runR (fadd U) (fsub U) eps c (initR (fadd U) (fsub U) eps c tc) pre in
  only_ticks post -> sorted_from (now s) post -> punctualR (fadd U) (fsub U) eps c d s post ->
  let s' := runR (fadd U) (fsub U) eps c s post in
  now s + 2 * T + eps + 3 * delta64 U + d < now s' ->
  exists x, In x (torn s') /\ x <= now s + 2 * T + eps + 3 * delta64 U + d.
Proof. exact (binary64_instance _ idle_torn_down_rounded U eps). Qed.

Theorem ping_within_binary64 U eps : 23 <= U -> 0 <= eps ->
  forall c tc K d pre post,
  cK c = Some K -> 0 <= K -> 0 <= d ->
  sorted_from tc pre -> no_close pre ->
  let s := runR (fadd U) (fsub U) eps c (initR (fadd U) (fsub U) eps c tc) pre in
  only_ticks post -> sorted_from (now s) post -> punctualR (fadd U) (fsub U) eps c d s post ->
  let s' := runR (fadd U) (fsub U) eps c s post in
  now s + 2 * K + eps + 3 * delta64 U + d < now s' ->
  exists new p, pings s' = new ++ pings s /\ In p new /\ now s <= p <= now s + 2 * K + eps + 3 * delta64 U + d.
Proof. exact (binary64_instance _ ping_within_rounded U eps). Qed.

Theorem active_kept_binary64 U eps : 23 <= U -> 0 <= eps ->
  forall c tc T evs, cT c = Some T ->
  (forall pre t post, evs = pre ++ Tick t :: post -> t - last_arrival tc false pre <= T - delta64 U) ->
  torn (runR (fadd U) (fsub U) eps c (initR (fadd U) (fsub U) eps c tc) evs) = [].
Proof. exact (binary64_instance _ active_kept_rounded U eps). Qed.

Theorem torn_only_when_idle_binary64 U eps : 23 <= U -> 0 <= eps ->
  forall c tc T evs x, cT c = Some T ->
  In x (torn (runR (fadd U) (fsub U) eps c (initR (fadd U) (fsub U) eps c tc) evs)) ->
  exists pre post, evs = pre ++ Tick x :: post /\ T - delta64 U < x - last_arrival tc false pre.
Proof. exact (binary64_instance _ torn_only_when_idle_rounded U eps). Qed.

(* concrete: unit 2^-60 s.  EPSILON = 0.1 is the double 3602879701896397 * 2^-55; delta = 2^37 units = 2^-23 s *)
Definition U60 : Z := 60.
Definition eps60 : Z := 3602879701896397 * 2 ^ 5.
Definition sec60 (n : Z) : Z := n * 2 ^ 60.

Example ex_binary64 :
  delta64 U60 = 2 ^ 37 /\
  (* 0.1 + 0.2 = 0.30000000000000004 (the doubles nearest 0.1, 0.2: m * 2^-55, m * 2^-54) *)
  fadd U60 (3602879701896397 * 2 ^ 5) (3602879701896397 * 2 ^ 6) = 5404319552844596 * 2 ^ 6 /\
  (* time.time() = 1.7e9 + 2^-22 s, last = 1.7e9 s: the age is exact (Sterbenz) *)
  fsub U60 (sec60 1700000000 + 2 ^ 38) (sec60 1700000000) = 2 ^ 38 /\
  (* now + (T + EPSILON) with now = 1.7e9 s, T = 3 s: rounded to the 2^-22 s grid of the binade of now *)
  fadd U60 (sec60 1700000000) (fadd U60 (sec60 3) eps60) = sec60 1700000003 + 419430 * 2 ^ 38 /\
  Z.abs (fadd U60 (sec60 1700000000) (fadd U60 (sec60 3) eps60) - (sec60 1700000003 + eps60)) <= 2 * delta64 U60.
Proof. vm_compute. repeat split; try reflexivity; discriminate. Qed.
