(* lib/BananaRecv.v (policy instance): while a rejected object is being discarded nothing is delivered or reported; only PINGs
   are answered.  (The same for every unslicer semantics: lib/UnslProofs.v.) *)
From Coq Require Import ZArith List Bool Lia.
Import ListNotations.
Require Import Verif.lib.PyLite Verif.gen.BananaGen Verif.lib.Token Verif.lib.Recv Verif.lib.RecvProofs Verif.lib.BananaRecv Verif.lib.BananaRecvProofs.
Local Open Scope Z_scope.

Definition pongs_only (es : list event) : Prop := forall e, In e es -> exists n, e = EPong n.

Lemma pongs_only_app a b : pongs_only a -> pongs_only b -> pongs_only (a ++ b).
Proof. intros A B e H. apply in_app_or in H as [H|H]; auto. Qed.

Lemma banana_discarding_token c ty hdr body c' es : 0 < discard c -> inOpen c = false -> tok_apply c ty hdr body = Ok' c' es ->
  stack c' = stack c /\ inOpen c' = false /\ discard c' = discard c + tok_delta ty /\ vocab c' = vocab c /\ rootmode c' = rootmode c /\ pongs_only es.
Proof.
  intros Hd IO E. unfold tok_apply in E. destruct (has_body ty) eqn:HB.
  - unfold begin_body in E. destruct (Z.ltb_spec 0 (discard c)); [|lia]. inversion E; subst.
    rewrite (has_body_delta ty HB). repeat split; auto; try lia. intros e [].
  - rewrite step_nobody_hr_phases, IO, andb_false_r in E. unfold tasted in E.
    destruct (Z.ltb_spec 0 (discard c)); [|lia]. cbn [orb] in E. unfold clause, opened, tok_delta in *.
    destruct (ty =? tok_OPEN).
    + cbn [inOpen discard stack with_inOpen with_stack] in E. inversion E; subst.
      cbn [inOpen discard stack vocab rootmode with_inOpen with_stack]. repeat split; auto. intros e [].
    + destruct (ty =? tok_CLOSE).
      { rewrite IO in E. cbn [andb] in E. destruct (Z.ltb_spec 0 (discard c)); [|lia]. inversion E; subst. cbn [inOpen discard stack vocab rootmode with_stack].
        repeat split; auto; try lia. intros e []. }
      assert (same : Ok' c [] = Ok' c' es ->
                stack c' = stack c /\ inOpen c' = false /\ discard c' = discard c + 0 /\ vocab c' = vocab c /\ rootmode c' = rootmode c /\ pongs_only es).
      { intros HH. inversion HH; subst. repeat split; auto; try lia. intros e []. }
      destruct (ty =? tok_ABORT); [exact (same E)|].
      destruct (ty =? tok_INT); [exact (same E)|].
      destruct (ty =? tok_NEG); [exact (same E)|].
      destruct (ty =? tok_VOCAB). { destruct (vocab_get (vocab c) hdr); [exact (same E)|discriminate]. }
      destruct (ty =? tok_PING).
      { inversion E; subst. repeat split; auto; try lia. intros e [<-|[]]. eauto. }
      destruct (ty =? tok_PONG); [exact (same E)|discriminate].
Qed.

Fixpoint keeps_discarding (d : Z) (ts : list (Z * Z * list Z)) : Prop :=
  match ts with [] => True | (ty, _, _) :: r => 0 < d /\ keeps_discarding (d + tok_delta ty) r end.

(* "A schema violation discards exactly the offending top-level object": once the rest of an object is being discarded
   (discardCount > 0), every token up to and including the CLOSE that brings discardCount back to 0 changes nothing but
   discardCount -- no unslicer is touched, nothing is delivered, no further violation is reported; only PINGs are answered *)
Theorem banana_discard_silent ts : forall c c' es, inOpen c = false -> keeps_discarding (discard c) ts -> apply_all c ts = Ok' c' es ->
  stack c' = stack c /\ inOpen c' = false /\ discard c' = discard c + delta_sum ts /\ vocab c' = vocab c /\ rootmode c' = rootmode c /\ pongs_only es.
Proof.
  induction ts as [|[[ty hdr] body] ts IH]; intros c c' es IO S E; cbn [apply_all delta_sum keeps_discarding] in *.
  - inversion E; subst. repeat split; auto; try lia. intros e [].
  - destruct S as (Hd & S). destruct (tok_apply c ty hdr body) as [c1 es1|] eqn:E1; [|discriminate].
    destruct (apply_all c1 ts) as [c2 es2|] eqn:E2; [|discriminate]. inversion E; subst.
    destruct (banana_discarding_token _ _ _ _ _ _ Hd IO E1) as (S1 & I1 & D1 & V1 & M1 & P1).
    rewrite <- D1 in S. destruct (IH _ _ _ I1 S E2) as (S2 & I2 & D2 & V2 & M2 & P2).
    split; [congruence|]. split; [exact I2|]. split; [lia|]. split; [congruence|]. split; [congruence|]. apply pongs_only_app; assumption.
Qed.

(* ... so when the root has absorbed a violation inside an object (only the root is left on the stack), the receiver is at top
   level again exactly at the end of that object, with the root unslicer untouched *)
Corollary banana_rejected_object_ends_at_top ts c c' es :
  stack c = [root_frame] -> inOpen c = false -> keeps_discarding (discard c) ts -> discard c + delta_sum ts = 0 ->
  apply_all c ts = Ok' c' es -> at_top c' /\ pongs_only es /\ vocab c' = vocab c.
Proof.
  intros St IO K Z E. destruct (banana_discard_silent ts c c' es IO K E) as (S & I & D & V & _ & P).
  split; [split; [lia|split; [exact I|congruence]]|auto].
Qed.
