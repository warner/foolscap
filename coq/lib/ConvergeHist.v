(* C14: steps of lib/Converge.v that start nothing (`frame`), the induction principle over reachable states that
   leaves only the four steps that do start something -- a dial, a restart, the master taking an offer, the non-master
   taking a decision -- (`run_ind`), and the history invariant: whenever both Tubs hold the same current connection,
   the non-master's slave_table record is exactly (master incarnation, seqnum of that connection); every decision in
   flight on the master's current connection names the master's current incarnation and seqnum. *)
From Coq Require Import ZArith List Bool Arith Lia.
Import ListNotations.
Require Import Verif.lib.PyLite Verif.gen.ConvergeGen Verif.lib.Converge Verif.lib.ConvergeProofs.

(* e before, e' after.  A negotiating end may have gone on to EBrk (end_le EBrk ENeg and end_le EBrk EDec hold); what is
   excluded is that an end which was closing or lost is healthy again, or that an end which was a Broker negotiates again *)
Definition healthy (e : est) : bool := match e with ENeg | EDec | EBrk => true | _ => false end.
Definition end_le (e' e : est) : Prop :=
  (negotiating e' = true -> negotiating e = true) /\ (healthy e' = true -> healthy e = true) /\ (e' <> ELost -> e <> ELost).
Lemma end_le_refl e : end_le e e.
Proof. unfold end_le. auto. Qed.
Lemma end_le_trans e1 e2 e3 : end_le e1 e2 -> end_le e2 e3 -> end_le e1 e3.
Proof. unfold end_le. intuition. Qed.
Lemma end_le_closed e' e : closed e' = true -> (e = ELost -> e' = ELost) -> end_le e' e.
Proof.
  intros Hc Hl. split; [|split].
  - destruct e'; discriminate.
  - destruct e'; discriminate.
  - intros H E. apply H, Hl, E.
Qed.

Definition loud (m : msg) : bool := match m with Hello _ _ | Decision _ _ => true | _ => false end.
Definition conn_le (k' k : conn) : Prop :=
  c_client k' = c_client k /\ c_gen k' = c_gen k /\ (forall x, end_le (cend x k') (cend x k)) /\
  (forall m, loud m = true -> In m (c_qms k') -> In m (c_qms k)) /\
  (forall m, loud m = true -> In m (c_qsm k') -> In m (c_qsm k)).
Definition harmless (f : conn -> conn) : Prop := forall k, conn_le (f k) k.

Lemma conn_le_refl k : conn_le k k.
Proof. split; [reflexivity|]. split; [reflexivity|]. split; [intros x; apply end_le_refl|auto]. Qed.
Lemma conn_le_trans k1 k2 k3 : conn_le k1 k2 -> conn_le k2 k3 -> conn_le k1 k3.
Proof.
  intros (A1 & A2 & A3 & A4 & A5) (B1 & B2 & B3 & B4 & B5). split; [congruence|]. split; [congruence|].
  split; [intros x; eapply end_le_trans; [apply A3|apply B3]|]. split; auto.
Qed.
Lemma conn_le_set_end x e k : end_le e (cend x k) -> conn_le (set_end x e k) k.
Proof.
  intros He. destruct x; (split; [reflexivity|]; split; [reflexivity|]; split; [|auto]);
    intros y; destruct y; first [exact He|apply end_le_refl].
Qed.
Lemma in_snoc_quiet m m0 (l : list msg) : loud m0 = false -> loud m = true -> In m (l ++ [m0]) -> In m l.
Proof. intros H0 Hm H. apply in_app_or in H as [H|[H|[]]]; [exact H|congruence]. Qed.
Lemma conn_le_enq x m k : loud m = false -> conn_le (enq x m k) k.
Proof.
  intros Hm. unfold enq. destruct (c_cut k); [apply conn_le_refl|].
  destruct x; (split; [reflexivity|]; split; [reflexivity|]; split; [intros y; apply end_le_refl|]); cbn;
    split; auto; intros m'; apply in_snoc_quiet, Hm.
Qed.
Lemma conn_le_lose x k : conn_le (lose x k) k.
Proof.
  unfold lose. destruct (cend x k) eqn:E; try apply conn_le_refl;
    (eapply conn_le_trans; [apply conn_le_enq; reflexivity|]; apply conn_le_set_end; rewrite E;
     apply end_le_closed; [reflexivity|discriminate]).
Qed.
Lemma conn_le_cancel x g k : conn_le (cancel x g k) k.
Proof. unfold cancel. destruct (_ && _ && _)%bool; [apply conn_le_lose|apply conn_le_refl]. Qed.
Lemma conn_le_srv_expire n d k : conn_le (srv_expire n d k) k.
Proof. unfold srv_expire. destruct (_ && _)%bool; [apply conn_le_lose|apply conn_le_refl]. Qed.
Lemma in_tl {A} (a : A) l : In a (tl l) -> In a l.
Proof. destruct l; [auto|right; assumption]. Qed.
Lemma conn_le_pop_ms k : conn_le (pop_ms k) k.
Proof.
  split; [reflexivity|]. split; [reflexivity|]. split; [intros x; apply end_le_refl|]. split; [|auto].
  intros m _. apply in_tl.
Qed.
Lemma conn_le_pop_sm k : conn_le (pop_sm k) k.
Proof.
  split; [reflexivity|]. split; [reflexivity|]. split; [intros x; apply end_le_refl|]. split; [auto|].
  intros m _. apply in_tl.
Qed.
Lemma conn_le_cut k : conn_le (cut_conn k) k.
Proof. split; [reflexivity|]. split; [reflexivity|]. split; [intros x; apply end_le_refl|]. split; intros m _ []. Qed.
Lemma conn_le_kill x k : conn_le (kill x k) k.
Proof. eapply conn_le_trans; [|apply conn_le_cut]. apply conn_le_set_end, end_le_closed; auto. Qed.

Lemma cancel_negotiating x g k :
  c_client k = x -> negotiating (cend x (cancel x g k)) = true -> c_gen k <> g.
Proof.
  intros Hx Hn Hg. unfold cancel in Hn. rewrite Hx, Hg, Nat.eqb_refl in Hn.
  replace (tub_eqb x x) with true in Hn by (destruct x; reflexivity). cbn [andb] in Hn.
  destruct (negotiating (cend x k)) eqn:N; [|congruence].
  unfold lose in Hn. destruct k as [cl gg m sd qms qsm cut]. destruct x; cbn in N, Hn;
    [destruct m|destruct sd]; try discriminate N; destruct cut; discriminate Hn.
Qed.

Definition core (t : tub) := (t_inc t, t_master t, t_bseq t, t_bir t, t_slave t).
Lemma core_eq t' t :
  core t' = core t ->
  t_inc t' = t_inc t /\ t_master t' = t_master t /\ t_bseq t' = t_bseq t /\ t_bir t' = t_bir t /\ t_slave t' = t_slave t.
Proof. intros H. inversion H. auto. Qed.
Definition connector_le (x : tubname) (s s' : state) : Prop :=
  t_connector (tubof x s') = t_connector (tubof x s) \/
  (t_connector (tubof x s') <> None -> t_broker (tubof x s') = None) /\
  forall i, i < nconn s -> c_client (conns s i) = x -> negotiating (cend x (conns s' i)) = true ->
            t_connector (tubof x s) <> Some (c_gen (conns s i)).
Definition frame (s s' : state) : Prop :=
  nconn s' = nconn s /\
  (forall x, core (tubof x s') = core (tubof x s) /\
             (t_broker (tubof x s') = None \/ t_broker (tubof x s') = t_broker (tubof x s)) /\ connector_le x s s') /\
  (forall i, conn_le (conns s' i) (conns s i)).

Lemma frame_conns s s' :
  tm s' = tm s -> ts s' = ts s -> nconn s' = nconn s -> (forall i, conn_le (conns s' i) (conns s i)) -> frame s s'.
Proof.
  intros Em Es En Hc. split; [exact En|]. split; [|exact Hc].
  intros x. unfold connector_le. destruct x; cbn [tubof]; rewrite ?Em, ?Es; auto.
Qed.
Lemma frame_refl s : frame s s.
Proof. apply frame_conns; try reflexivity. intros i. apply conn_le_refl. Qed.
Lemma frame_trans s1 s2 s3 : frame s1 s2 -> frame s2 s3 -> frame s1 s3.
Proof.
  intros (N1 & T1 & C1) (N2 & T2 & C2). split; [congruence|]. split; [|intros i; eapply conn_le_trans; [apply C2|apply C1]].
  intros x. destruct (T1 x) as (A1 & A2 & A3), (T2 x) as (B1 & B2 & B3). split; [congruence|].
  assert (Hn : forall i, negotiating (cend x (conns s3 i)) = true -> negotiating (cend x (conns s2 i)) = true).
  { intros i. destruct (C2 i) as (_ & _ & E & _). apply (E x). }
  split; [destruct B2 as [B2|B2]; [left; exact B2|]; destruct A2 as [A2|A2]; [left|right]; congruence|].
  destruct B3 as [B3|[B3 B4]].
  - destruct A3 as [A3|[A3 A4]]; [left; congruence|right]. split.
    + rewrite B3. intros H. destruct B2 as [B2|B2]; [exact B2|]. rewrite B2. apply A3, H.
    + intros i Hi Hx H. apply (A4 i Hi Hx), Hn, H.
  - right. split; [exact B3|]. intros i Hi Hx H. destruct A3 as [A3|[_ A4]]; [|apply (A4 i Hi Hx), Hn, H].
    destruct (C1 i) as (Ec & Eg & _). rewrite <- A3, <- Eg. apply B4; [congruence|congruence|exact H].
Qed.

Lemma frame_upd c k' s : conn_le k' (conns s c) -> frame s (set_conns (upd (conns s) c k') s).
Proof.
  intros H. apply frame_conns; try reflexivity. intros i. cbn [set_conns conns]. unfold upd.
  destruct (Nat.eqb_spec i c); [subst; exact H|apply conn_le_refl].
Qed.
Lemma frame_map f s : harmless f -> frame s (map_conns f s).
Proof. intros H. apply frame_conns; try reflexivity. intros i. apply H. Qed.
Lemma frame_set_tub x t s :
  core t = core (tubof x s) -> (t_broker t = None \/ t_broker t = t_broker (tubof x s)) ->
  (t_connector t = t_connector (tubof x s) \/
   (t_connector t <> None -> t_broker t = None) /\
   forall i, i < nconn s -> c_client (conns s i) = x -> negotiating (cend x (conns s i)) = true ->
             t_connector (tubof x s) <> Some (c_gen (conns s i))) ->
  frame s (set_tub x t s).
Proof.
  intros Hc Hb Hk. split; [destruct x; reflexivity|]. split; [|intros i; destruct x; apply conn_le_refl].
  intros y. unfold connector_le. destruct x, y; cbn [set_tub tubof tm ts conns nconn]; auto.
Qed.

Lemma getref_tub_le n t :
  core (getref_tub n t) = core t /\ t_broker (getref_tub n t) = t_broker t /\
  (t_connector (getref_tub n t) = t_connector t \/ t_broker t = None /\ t_connector t = None).
Proof.
  unfold getref_tub, core. destruct (t_broker t); [auto|]. destruct (t_connector t); cbn; auto.
Qed.
Lemma gone_tub_le n t :
  core (connector_gone n t) = core t /\ t_broker (connector_gone n t) = t_broker t /\
  (t_connector (connector_gone n t) <> None -> t_broker t = None).
Proof.
  unfold connector_gone, connection_failed_forgets_first, errback_all. cbn [set_connector t_broker].
  destruct (t_broker t) eqn:E; [cbn; rewrite E; split; [reflexivity|]; split; [reflexivity|]; intros C; contradiction C; reflexivity|].
  match goal with |- context [if ?b then _ else _] => destruct b end.
  - destruct (getref_tub_le n (set_retry false (fire n false (set_connector None t)))) as (A & B & _).
    rewrite A, B. cbn. auto.
  - cbn. rewrite E. auto.
Qed.

Lemma frame_getref x s : frame s (do_getref x s).
Proof.
  destruct (getref_tub_le (now s) (tubof x s)) as (A & B & C).
  apply frame_set_tub; [exact A|right; exact B|]. destruct C as [C|[C1 C2]]; [left; exact C|right].
  rewrite B, C2. split; [auto|discriminate].
Qed.
Lemma frame_gone x s :
  (forall i, i < nconn s -> c_client (conns s i) = x -> negotiating (cend x (conns s i)) = true ->
             t_connector (tubof x s) <> Some (c_gen (conns s i))) ->
  frame s (set_tub x (connector_gone (now s) (tubof x s)) s).
Proof.
  intros H. destruct (gone_tub_le (now s) (tubof x s)) as (A & B & C).
  apply frame_set_tub; [exact A|right; exact B|right]. rewrite B. auto.
Qed.
Lemma frame_connector_failed x g s : frame s (connector_failed x g s).
Proof.
  unfold connector_failed. destruct (t_connector (tubof x s)) as [g'|] eqn:Ec; [|apply frame_refl].
  destruct (Nat.eqb g g' && negb (any_pending x g s))%bool eqn:E; [|apply frame_refl].
  apply andb_true_iff in E as [Eg Ep]. apply Nat.eqb_eq in Eg. subst g'. apply negb_true_iff in Ep.
  apply frame_gone. intros i Hi Hx Hn Hg. assert (Hg' : g = c_gen (conns s i)) by congruence.
  rewrite <- not_true_iff_false in Ep. apply Ep. apply existsb_exists. exists i. split; [apply in_seq; lia|].
  unfold is_pending. rewrite Hx, <- Hg', Nat.eqb_refl. replace (tub_eqb x x) with true by (destruct x; reflexivity).
  destruct (cend x (conns s i)); try discriminate Hn; reflexivity.
Qed.
Lemma frame_timeout x s : frame s (do_timeout x s).
Proof.
  unfold do_timeout. destruct (t_connector (tubof x s)) as [g|] eqn:Ec; [|apply frame_refl].
  eapply frame_trans; [apply (frame_map (cancel x g)); intros k; apply conn_le_cancel|].
  apply frame_gone. intros i _ Hx Hn. replace (tubof x (map_conns (cancel x g) s)) with (tubof x s) by (destruct x; reflexivity).
  rewrite Ec. cbn [map_conns set_conns conns] in *. destruct (conn_le_cancel x g (conns s i)) as (Ecl & Eg & _).
  rewrite Eg. intros E. inversion E as [E']. rewrite Ecl in Hx. exact (cancel_negotiating x g _ Hx Hn (eq_sym E')).
Qed.
Lemma frame_nobroker x s : frame s (set_tub x (set_broker None (tubof x s)) s).
Proof. apply frame_set_tub; [reflexivity|left; reflexivity|left; reflexivity]. Qed.
Lemma frame_conn_lost x c pre s : harmless pre -> frame s (conn_lost x c pre s).
Proof.
  intros Hp.
  assert (F1 : frame s (set_conns (upd (conns s) c (set_end x ELost (pre (conns s c)))) s)).
  { apply frame_upd. eapply conn_le_trans; [|apply Hp]. apply conn_le_set_end, end_le_closed; auto. }
  apply conn_lost_cases; intros; [exact F1|..]; (eapply frame_trans; [exact F1|]); [apply frame_nobroker|apply frame_connector_failed].
Qed.
Lemma frame_drop x s : frame s (drop_existing x s).
Proof.
  unfold drop_existing. destruct (t_broker (tubof x s)) as [e|]; [|apply frame_refl].
  eapply frame_trans; [apply (frame_upd e (lose x (conns s e)) s), conn_le_lose|].
  match goal with |- frame ?s1 _ => apply (frame_nobroker x s1) end.
Qed.
Lemma frame_reject c s : frame s (master_reject c s).
Proof. apply frame_upd. eapply conn_le_trans; [apply conn_le_lose|apply conn_le_enq; reflexivity]. Qed.
Lemma frame_advance dt s : frame s (do_advance dt s).
Proof.
  unfold do_advance. set (n := Z.max _ _).
  set (s2 := set_conns (fun i => srv_expire n (sdl s i) (conns s i)) (set_now n s)).
  assert (F2 : frame s s2) by (apply frame_conns; try reflexivity; intros i; apply conn_le_srv_expire).
  assert (F3 : frame s (if expired TM s2 then do_timeout TM s2 else s2)).
  { destruct (expired TM s2); [eapply frame_trans; [exact F2|apply frame_timeout]|exact F2]. }
  destruct (expired TS _); [eapply frame_trans; [exact F3|apply frame_timeout]|exact F3].
Qed.

Lemma tub_eqb_eq a b : tub_eqb a b = true -> a = b.
Proof. destruct a, b; try discriminate; reflexivity. Qed.

Lemma accept_conn d k :
  let k1 := set_end TM EBrk (enq TM d k) in
  c_client k1 = c_client k /\ c_gen k1 = c_gen k /\ c_m k1 = EBrk /\ c_s k1 = c_s k /\ c_qsm k1 = c_qsm k /\
  (forall m, In m (c_qms k1) -> In m (c_qms k) \/ m = d).
Proof.
  cbv zeta. unfold enq. destruct (c_cut k); cbn; repeat split; auto.
  intros m H. apply in_app_or in H as [H|[H|[]]]; auto.
Qed.

Lemma attach_spec x c s :
  let s' := attach x c s in
  nconn s' = nconn s /\ match x with TM => ts s' = ts s | TS => tm s' = tm s end /\
  core (tubof x s') = core (tubof x s) /\ t_broker (tubof x s') = Some c /\ t_connector (tubof x s') = None /\
  (forall i, conn_le (conns s' i) (conns s i)) /\
  ((c_client (conns s c) = x -> t_connector (tubof x s) = Some (c_gen (conns s c))) ->
   forall i, c_client (conns s i) = x -> negotiating (cend x (conns s' i)) = true ->
             t_connector (tubof x s) <> Some (c_gen (conns s i))).
Proof.
  cbv zeta. unfold attach.
  destruct (tub_eqb (c_client (conns s c)) x) eqn:Ex; [|destruct (t_connector (tubof x s)) as [g'|] eqn:Ec];
    rewrite tubof_set_tub, conns_set_tub;
    (split; [destruct x; reflexivity|]); (split; [destruct x; reflexivity|]); (split; [destruct x; reflexivity|]);
    (split; [reflexivity|]); (split; [reflexivity|]); split;
    try (intros i; first [apply conn_le_cancel|apply conn_le_refl]).
  - intros Hpre i Hx Hn. rewrite (Hpre (tub_eqb_eq _ _ Ex)). intros E. inversion E as [E'].
    exact (cancel_negotiating x _ _ Hx Hn (eq_sym E')).
  - intros _ i Hx Hn E. inversion E as [E']. exact (cancel_negotiating x _ _ Hx Hn (eq_sym E')).
  - discriminate.
Qed.

Lemma offer_facts s c :
  inv s -> c_m (conns s c) = ENeg ->
  t_broker (tm s) <> Some c /\ t_broker (ts s) <> Some c /\ has_dec (c_qms (conns s c)) = false.
Proof.
  intros H Em. destruct (proj1 H c) as ((G3 & G4 & _) & _). split; [|split].
  - intros E. apply (inv_live s TM c H) in E. cbn [cend] in E. congruence.
  - intros E. apply (inv_live s TS c H) in E. exact (G3 E Em).
  - destruct (has_dec _) eqn:D; [|reflexivity]. destruct (G4 eq_refl Em).
Qed.

Section Reachable.
  Variable P : state -> Prop.
  Hypothesis P_init : P init.
  Hypothesis P_frame : forall s s', frame s s' -> P s -> P s'.
  Hypothesis P_dial : forall ops x g, let s := run ops in t_connector (tubof x s) = Some g -> P s -> P (do_dial x s).
  Hypothesis P_restart : forall ops x, P (run ops) -> P (do_restart x (run ops)).
  (* s1: the hello taken off the queue, the master's existing Broker (if any) shut down *)
  Hypothesis P_accept_m : forall ops c inc last q s1, let s := run ops in
    c < nconn s -> c_qsm (conns s c) = Hello inc last :: q -> c_m (conns s c) = ENeg -> P s ->
    frame s s1 -> t_broker (tm s1) = None -> conns s1 c = pop_sm (conns s c) -> P (master_accept c inc s1).
  (* s1: the non-master's existing Broker (if any) shut down; the record written is the decision's whoever dialled:
     the translated slave_table_recorded_always is true, by computation *)
  Hypothesis P_accept_s : forall ops c inc seq q s1, let s := run ops in
    c < nconn s -> c_qms (conns s c) = Decision inc seq :: q -> c_s (conns s c) = EDec -> P s ->
    frame s s1 -> tm s1 = tm s -> t_broker (ts s1) = None -> conns s1 c = conns s c ->
    P (attach TS c (set_tub TS (set_slave (Some (inc, seq)) (ts s1))
                      (set_conns (upd (conns s1) c (set_end TS EBrk (pop_ms (conns s1 c)))) s1))).

  Lemma P_deliver_m ops c : c < nconn (run ops) -> P (run ops) -> P (deliver_m c (run ops)).
  Proof.
    intros Hc IH. pose proof (run_inv ops) as HI. set (s := run ops) in *.
    assert (FR : forall s', frame s s' -> P s') by (intros s' F; exact (P_frame s s' F IH)).
    assert (F0 : frame s (set_conns (upd (conns s) c (pop_sm (conns s c))) s)) by apply frame_upd, conn_le_pop_sm.
    apply deliver_m_cases; [exact IH|intros; exact (FR _ F0)| | |].
    - intros m q _ _ _. apply FR, frame_upd. eapply conn_le_trans; [apply conn_le_lose|apply conn_le_pop_sm].
    - intros q _. apply FR, frame_conn_lost. intros k. apply conn_le_pop_sm.
    - intros inc last q Eq Em. split; [intros _; exact (FR _ (frame_trans _ _ _ F0 (frame_reject c _)))|].
      destruct (offer_facts s c HI Em) as (Hm & _).
      apply (P_accept_m ops c inc last q); try assumption; [exact (frame_trans _ _ _ F0 (frame_drop TM _))| |];
        unfold drop_existing; cbn [tubof set_conns tm]; destruct (t_broker (tm s)) as [e|] eqn:Eb; try reflexivity; try exact Eb.
      + cbn [set_tub set_conns conns]. rewrite upd_other; [apply upd_same|]. intros E. subst e. exact (Hm eq_refl).
      + apply upd_same.
  Qed.

  Lemma P_deliver_s ops c : c < nconn (run ops) -> P (run ops) -> P (deliver_s c (run ops)).
  Proof.
    intros Hc IH. pose proof (run_inv ops) as HI. set (s := run ops) in *.
    assert (FR : forall s', frame s s' -> P s') by (intros s' F; exact (P_frame s s' F IH)).
    apply deliver_s_cases; [exact IH|intros; apply FR, frame_upd, conn_le_pop_ms| | | |].
    - intros m q _ _. apply FR, frame_upd. eapply conn_le_trans; [apply conn_le_lose|apply conn_le_pop_ms].
    - intros q _. apply FR, frame_conn_lost. intros k. apply conn_le_pop_ms.
    - intros a b q _ Es. apply FR, frame_upd. eapply conn_le_trans; [|apply conn_le_pop_ms].
      apply conn_le_set_end. change (cend TS (pop_ms (conns s c))) with (c_s (conns s c)). rewrite Es.
      split; [auto|]. split; [auto|discriminate].
    - intros inc seq q Eq Es. apply (P_accept_s ops c inc seq q); try assumption; [apply frame_drop| | |];
        unfold drop_existing; cbn [tubof]; destruct (t_broker (ts s)) as [e|] eqn:Eb; try reflexivity; try exact Eb.
      cbn [set_tub set_conns conns]. apply upd_other. intros E. subst e.
      apply (inv_live s TS c HI) in Eb. cbn [cend] in Eb. congruence.
  Qed.

  Theorem run_ind ops : P (run ops).
  Proof.
    induction ops as [|o ops IH] using rev_ind; [exact P_init|].
    unfold run in *. rewrite fold_left_app. cbn [fold_left]. fold (run ops) in *.
    assert (FR : forall s', frame (run ops) s' -> P s') by (intros s' F; exact (P_frame _ s' F IH)).
    destruct o as [x|x|c to|c x|c|x|x|x|dt|o]; cbn [step].
    - apply FR, frame_getref.
    - destruct (t_connector (tubof x (run ops))) as [g|] eqn:Ec; [exact (P_dial ops x g Ec IH)|].
      unfold do_dial. rewrite Ec. exact IH.
    - destruct to; destruct (Nat.ltb_spec c (nconn (run ops))); try exact IH; [apply P_deliver_m|apply P_deliver_s]; assumption.
    - destruct (Nat.ltb c (nconn (run ops))); [|exact IH]. unfold do_closeseen.
      destruct (close_pending x (conns (run ops) c)); [|exact IH]. apply FR, frame_conn_lost. intros k. apply conn_le_refl.
    - destruct (Nat.ltb c (nconn (run ops))); [|exact IH]. apply FR, frame_upd, conn_le_cut.
    - apply P_restart, IH.
    - apply FR, frame_timeout.
    - apply FR, frame_set_tub; [reflexivity|right; reflexivity|left; reflexivity].
    - apply FR, frame_advance.
    - apply FR, frame_conns; try reflexivity. intros i. apply conn_le_refl.
  Qed.
End Reachable.

Definition decs_ok (s : state) : Prop :=
  forall c i q, t_broker (tm s) = Some c -> In (Decision i q) (c_qms (conns s c)) -> i = t_inc (tm s) /\ q = t_bseq (tm s).
Definition rec_ok (s : state) : Prop :=
  forall c, t_broker (tm s) = Some c -> t_broker (ts s) = Some c -> t_slave (ts s) = Some (t_inc (tm s), t_bseq (tm s)).
Definition hist_inv (s : state) : Prop := decs_ok s /\ rec_ok s.

Lemma hist_frame s s' : frame s s' -> hist_inv s -> hist_inv s'.
Proof.
  intros (_ & T & C) [D R]. destruct (T TM) as (Cm & Bm & _), (T TS) as (Cs & Bs & _). cbn [tubof] in *.
  destruct (core_eq _ _ Cm) as (E1 & _ & E3 & _), (core_eq _ _ Cs) as (_ & _ & _ & _ & G5).
  destruct Bm as [Bm|Bm]; [split; intros c; rewrite Bm; discriminate|]. split.
  - intros c i q Eb Hin. rewrite E1, E3. apply (D c); [congruence|]. apply (C c); [reflexivity|exact Hin].
  - intros c Eb Es. destruct Bs as [Bs|Bs]; [congruence|]. rewrite E1, E3, G5. apply (R c); congruence.
Qed.

Lemma hist_dial x g s : t_connector (tubof x s) = Some g -> hist_inv s -> hist_inv (do_dial x s).
Proof.
  intros Ec [D R]. unfold do_dial. rewrite Ec. split; [|exact R].
  intros c i q Eb. cbn [tm conns]. unfold upd.
  destruct (Nat.eqb c (nconn s)); [intros [H|[]]; discriminate H|apply (D c i q Eb)].
Qed.

Lemma hist_restart x s : hist_inv (do_restart x s).
Proof.
  unfold do_restart. split.
  - intros c i q _. rewrite conns_set_tub. destruct x; intros [].
  - intros c Em Es. destruct x; cbn in Em, Es; discriminate.
Qed.

Lemma has_dec_in i q l : In (Decision i q) l -> has_dec l = true.
Proof. intros H. apply existsb_exists. exists (Decision i q). split; [exact H|reflexivity]. Qed.

Lemma hist_accept_m c inc s :
  hist_inv s -> t_broker (tm s) = None -> has_dec (c_qms (conns s c)) = false -> t_broker (ts s) <> Some c ->
  hist_inv (master_accept c inc s).
Proof.
  intros [D R] Eb Hd Hs. unfold master_accept.
  match goal with |- hist_inv (attach TM c ?s') => set (s2 := s') end.
  destruct (attach_spec TM c s2) as (_ & A6 & Ac & A1 & _ & A5 & _). cbv zeta in *. cbn [tubof] in *.
  destruct (core_eq _ _ Ac) as (A2 & _ & A3 & _). split.
  - intros c0 i q E0 Hin. rewrite A1 in E0. injection E0 as <-. rewrite A2, A3. apply (A5 c) in Hin; [|reflexivity].
    cbn [s2 set_tub set_conns conns tm set_accept t_inc t_bseq] in *. rewrite upd_same in Hin.
    change (In (Decision i q) (c_qms (enq TM (Decision (t_inc (tm s)) (t_master (tm s) + seqnum_step)) (conns s c)))) in Hin.
    unfold enq in Hin. destruct (c_cut (conns s c)); [apply has_dec_in in Hin; congruence|].
    apply in_app_or in Hin as [Hin|[Hin|[]]]; [apply has_dec_in in Hin; congruence|]. inversion Hin. auto.
  - intros c0 E0. rewrite A1 in E0. injection E0 as <-. rewrite A6. intros Es. destruct (Hs Es).
Qed.

Lemma hist_accept_s c inc seq s s1 :
  hist_inv s -> In (Decision inc seq) (c_qms (conns s c)) -> frame s s1 ->
  hist_inv (attach TS c (set_tub TS (set_slave (Some (inc, seq)) (ts s1))
                           (set_conns (upd (conns s1) c (set_end TS EBrk (pop_ms (conns s1 c)))) s1))).
Proof.
  intros HJ Hd F. destruct (hist_frame s s1 F HJ) as [D1 _].
  match goal with |- hist_inv (attach TS c ?s') => set (s2 := s') end.
  destruct (attach_spec TS c s2) as (_ & A6 & Ac & A1 & _ & A5 & _). cbv zeta in *. cbn [tubof] in *.
  destruct (core_eq _ _ Ac) as (_ & _ & _ & _ & A4'). change (tm s2) with (tm s1) in A6.
  split; intros c0; [intros i q|]; rewrite A6; intros E0.
  - intros Hin. apply (D1 c0 i q E0). apply (A5 c0) in Hin; [|reflexivity].
    cbn [s2 set_tub set_conns conns] in Hin. unfold upd in Hin. destruct (Nat.eqb_spec c0 c); [subst c0|exact Hin].
    apply in_tl. destruct (conns s1 c); exact Hin.
  - rewrite A1, A4'. intros Es. injection Es as <-. cbn [s2 set_tub ts set_slave t_slave].
    destruct F as (_ & T & _). destruct (T TM) as (Cm & [Bm|Bm] & _); cbn [tubof] in *; [congruence|].
    destruct (core_eq _ _ Cm) as (E1 & _ & E3 & _). rewrite E1, E3. rewrite Bm in E0.
    destruct (proj1 HJ c inc seq E0 Hd) as [-> ->]. reflexivity.
Qed.

Theorem run_hist ops : hist_inv (run ops).
Proof.
  apply run_ind.
  - split; intros c; cbn; discriminate.
  - exact hist_frame.
  - intros ops' x g. apply hist_dial.
  - intros ops' x _. apply hist_restart.
  - intros ops' c inc last q s1 s Hc Eq Em HJ F Eb Ec.
    destruct (offer_facts s c (run_inv ops') Em) as (_ & Hs & Hd).
    apply hist_accept_m; [exact (hist_frame _ _ F HJ)|exact Eb|rewrite Ec; exact Hd|].
    destruct F as (_ & T & _). destruct (T TS) as (_ & [B|B] & _); cbn [tubof] in B; congruence.
  - intros ops' c inc seq q s1 s Hc Eq Es HJ F _ _ _.
    apply (hist_accept_s c inc seq s); [exact HJ|rewrite Eq; left; reflexivity|exact F].
Qed.

(* "for all histories of previous connections recorded by either side": whenever both Tubs hold the same current
   connection, the non-master's record of it is exactly the master's (incarnation, seqnum) -- so that its next offer,
   after a cut only it has noticed, proves knowledge of the master's stale connection *)
Theorem slave_record_agrees ops c :
  t_broker (tm (run ops)) = Some c -> t_broker (ts (run ops)) = Some c ->
  t_slave (ts (run ops)) = Some (t_inc (tm (run ops)), t_bseq (tm (run ops))).
Proof. apply (proj2 (run_hist ops)). Qed.

Theorem decisions_in_flight_current ops c i q :
  t_broker (tm (run ops)) = Some c -> In (Decision i q) (c_qms (conns (run ops) c)) ->
  i = t_inc (tm (run ops)) /\ q = t_bseq (tm (run ops)).
Proof. apply (proj1 (run_hist ops)). Qed.

(* the step that establishes the record, whoever dialled: uses slave_table_recorded_always, read from
   acceptDecisionVersion1 *)
Lemma slave_records_decision c s i q rest :
  Nat.ltb c (nconn s) = true -> c_qms (conns s c) = Decision i q :: rest -> c_s (conns s c) = EDec ->
  t_slave (ts (step s (Deliver c TS))) = Some (i, q) /\ t_broker (ts (step s (Deliver c TS))) = Some c.
Proof.
  intros Hc Eq Es. cbn [step]. rewrite Hc. unfold deliver_s. rewrite Eq, Es. rewrite (tubof_attach TS). split; reflexivity.
Qed.

Example slave_record_after_two_rounds :
  let s := run [GetRef TM; DialHint TM; Deliver 0 TM; Deliver 0 TS; Deliver 0 TS; Cut 0; CloseSeen 0 TS;
                GetRef TS; DialHint TS; Deliver 1 TM; Deliver 1 TS; Deliver 1 TS] in
  t_broker (tm s) = Some 1 /\ t_broker (ts s) = Some 1 /\ t_slave (ts s) = Some (1%Z, 2%Z) /\ t_bseq (tm s) = 2%Z.
Proof. vm_compute. repeat split. Qed.

Definition nd (f : conn -> conn) : Prop := forall k i q, In (Decision i q) (c_qms (f k)) -> In (Decision i q) (c_qms k).
Lemma harmless_nd f : harmless f -> nd f.
Proof. intros H k i q. apply (H k). reflexivity. Qed.
Lemma nd_cut : nd cut_conn.
Proof. intros k i q []. Qed.
Lemma nd_comp f g : nd f -> nd g -> nd (fun k => f (g k)).
Proof. intros Hf Hg k i q H. apply Hg, Hf, H. Qed.
Lemma nd_set_end x e : nd (set_end x e).
Proof. intros k i q. destruct x; exact (fun H => H). Qed.
