(* C09: proofs about lib/Conn.v (both directions of one connection; what a lost connection forgets).
   The invariant SInv says of each direction that its state is a reachable state of lib/Refs.v whose two queues are as long as
   the number of its tags in the two physical FIFOs (`queued`), of each end's call and gift tables that every activeLocalCalls
   entry is queued or running (`qinv`), and that either both directions are alive or everything is forgotten.  The theorems of
   props/C09.v about `srun sinit ops` are its fields; the per-direction ones are RefsProofs theorems transported along `reachR`. *)
From Coq Require Import ZArith List Bool Lia Arith.
Import ListNotations.
Require Import Verif.lib.PyLite Verif.gen.RefsGen Verif.lib.Refs Verif.lib.RefsProofs Verif.lib.Conn.
Local Open Scope Z_scope.

Lemma finish_clears_gifts_spec : finish_clears_myGifts = true /\ finish_clears_myGiftsByGiftID = true /\ finish_drops_undelivered_calls = true.
Proof. repeat split; reflexivity. Qed.

(* how one step of the two-party model moves its two queues *)
Lemma local_queues_grow s o :
  is_local o = true ->
  (List.length (ch_oh s) <= List.length (ch_oh (fst (step s o))))%nat /\ (List.length (ch_ho s) <= List.length (ch_ho (fst (step s o))))%nat.
Proof.
  intros L. destruct (step_view s o); try discriminate L; cbn [fst ch_oh ch_ho]; rewrite ?app_length; try lia.
  destruct Hrel as [(_ & _ & _ & ->)|(_ & _ & _ & ->)]; rewrite ?app_length; lia.
Qed.

Lemma recv_oh_queues s m r : Inv s -> lost s = false -> ch_oh s = m :: r ->
  ch_oh (fst (step s RecvOH)) = r /\ ch_ho (fst (step s RecvOH)) = ch_ho s.
Proof.
  intros I Hl Hch. unfold step. rewrite Hl. unfold do_recv_oh. rewrite Hch. destruct m as [c [|] w|rid]; cbn [fst ch_oh ch_ho]; auto.
  unfold do_myref. destruct (tab_get (h_tab (hd s)) c) as [i|] eqn:G.
  - destruct (inv_tab s I _ _ G) as (t & Ht & _). rewrite Ht. destruct (get_ref t (h_nextpid (hd s))) as [[t' p] np]. auto.
  - rewrite nth_error_app_last. destruct (get_ref _ (h_nextpid (hd s))) as [[t' p] np]. auto.
Qed.

Lemma recv_ho_queues s m r : lost s = false -> ch_ho s = m :: r ->
  ch_ho (fst (step s RecvHO)) = r /\ (List.length (ch_oh s) <= List.length (ch_oh (fst (step s RecvHO))))%nat.
Proof.
  intros Hl Hch. unfold step. rewrite Hl. unfold do_recv_ho. rewrite Hch. destruct m as [c n rid|c k]; cbn [fst ch_oh ch_ho]; [|auto].
  destruct (find_clid _ _) as [e|]; [|cbn [fst ch_oh ch_ho]; rewrite app_length; cbn; split; [reflexivity | lia]].
  destruct (decref n (oe_rc e)) as [[done v]|]; cbn [fst ch_oh ch_ho]; [rewrite app_length; cbn; split; [reflexivity | lia] | split; [reflexivity | lia]].
Qed.

Lemma lost_local d o : is_local o = true -> lost (fst (step d o)) = lost d.
Proof.
  intros L. destruct (lost d) eqn:Hl; [rewrite step_lost_id by exact Hl; exact Hl|].
  apply lost_preserved; [exact Hl | destruct o; discriminate].
Qed.

Lemma cnt_inst_app i l1 l2 : cnt_inst i (l1 ++ l2) = (cnt_inst i l1 + cnt_inst i l2)%nat.
Proof. induction l1 as [|a l IH]; cbn [app cnt_inst]; [reflexivity | rewrite IH; lia]. Qed.
Lemma cnt_inst_repeat i j n : cnt_inst i (repeat j n) = match i, j with IA, IA | IB, IB => n | _, _ => O end.
Proof. induction n as [|n IH]; cbn [repeat cnt_inst]; [destruct i, j; reflexivity | rewrite IH; destruct i, j; lia]. Qed.

Lemma cnt_grow_own {T} i l (b a : list T) : cnt_inst i (l ++ grow b a i) = (cnt_inst i l + (List.length a - List.length b))%nat.
Proof. unfold grow. rewrite cnt_inst_app, cnt_inst_repeat. destruct i; reflexivity. Qed.
Lemma cnt_grow_other {T} i j l (b a : list T) : i <> j -> cnt_inst i (l ++ grow b a j) = cnt_inst i l.
Proof. intros N. unfold grow. rewrite cnt_inst_app, cnt_inst_repeat. destruct i, j; try congruence; lia. Qed.

Definition reachR (d : state) : Prop := exists ops, d = run init ops.

Lemma reachR_step d o : reachR d -> reachR (fst (step d o)).
Proof. intros (ops & ->). exists (ops ++ [o]). rewrite run_app. reflexivity. Qed.
Lemma reachR_Inv d : reachR d -> Inv d.
Proof. intros (ops & ->). apply Inv_reachable. Qed.

Record queued (d : state) (n_oh n_ho : nat) : Prop := {
  q_reach : reachR d;
  q_oh : n_oh = List.length (ch_oh d);
  q_ho : n_ho = List.length (ch_ho d)
}.

Lemma queued_local d o n m : is_local o = true -> queued d n m ->
  queued (fst (step d o)) (n + (List.length (ch_oh (fst (step d o))) - List.length (ch_oh d)))
                          (m + (List.length (ch_ho (fst (step d o))) - List.length (ch_ho d))).
Proof.
  intros L [R E1 E2]. destruct (local_queues_grow d o L) as [G1 G2].
  constructor; [apply reachR_step, R | lia | lia].
Qed.

Lemma queued_recv_oh d n m : lost d = false -> queued d (S n) m -> queued (fst (step d RecvOH)) n m.
Proof.
  intros Hl [R E1 E2]. destruct (ch_oh d) as [|x q] eqn:Hch; [discriminate|].
  destruct (recv_oh_queues d x q (reachR_Inv d R) Hl Hch) as [Q1 Q2].
  constructor; [apply reachR_step, R | rewrite Q1; apply eq_add_S, E1 | rewrite Q2; exact E2].
Qed.

Lemma queued_recv_ho d n m : lost d = false -> queued d n (S m) ->
  queued (fst (step d RecvHO)) (n + (List.length (ch_oh (fst (step d RecvHO))) - List.length (ch_oh d))) m.
Proof.
  intros Hl [R E1 E2]. destruct (ch_ho d) as [|x q] eqn:Hch; [discriminate|].
  destruct (recv_ho_queues d x q Hl Hch) as [Q1 Q2].
  constructor; [apply reachR_step, R | lia | rewrite Q1; apply eq_add_S, E2].
Qed.

Definition forgotten (d : state) : Prop := lost d = true /\ o_tab (ow d) = [] /\ h_tab (hd d) = [] /\ ch_oh d = [] /\ ch_ho d = [].
Definition qforgotten (b : btabs) : Prop :=
  b_gifts b = [] /\ b_giftids b = [] /\ b_inq b = [] /\ forall rid, In rid (b_active b) -> In rid (b_running b).
Definition all_forgotten (s : sym) : Prop :=
  forgotten (dA s) /\ forgotten (dB s) /\ tAB s = [] /\ tBA s = [] /\ qforgotten (xA s) /\ qforgotten (xB s).

Lemma connlost_forgotten d : reachR d -> forgotten (fst (step d ConnLost)).
Proof. intros (ops & ->). pose proof (loss_forgets ops []) as L. cbv zeta in L. rewrite run_app in L. exact L. Qed.

Lemma connlost_queued d : reachR d -> queued (fst (step d ConnLost)) 0 0.
Proof.
  intros R. destruct (connlost_forgotten d R) as (_ & _ & _ & E1 & E2).
  constructor; [apply reachR_step, R | rewrite E1; reflexivity | rewrite E2; reflexivity].
Qed.

Definition qinv (b : btabs) : Prop :=
  (forall rid, In rid (b_active b) -> rid <> 0 /\ (In rid (b_inq b) \/ In rid (b_running b))) /\
  (forall id, In id (b_giftids b) <-> In id (b_gifts b)).

Lemma memZ_In x l : memZ x l = true <-> In x l.
Proof. unfold memZ. rewrite existsb_exists. split; [intros (y & H & E); apply Z.eqb_eq in E; subst; exact H | intros H; exists x; split; [exact H | apply Z.eqb_refl]]. Qed.
Lemma In_delZ x y l : In y (delZ x l) <-> In y l /\ y <> x.
Proof. unfold delZ. rewrite filter_In, Bool.negb_true_iff, Z.eqb_neq. tauto. Qed.

Lemma qinv_step b q : qinv b -> qinv (qstep b q).
Proof.
  intros Q0. pose proof Q0 as [H1 H2]. destruct q; cbn [qstep].
  - destruct (negb (rid =? 0) && memZ rid (b_active b)); [exact Q0|]. split; cbn; [|exact H2].
    intros r Hr. rewrite in_app_iff. cbn. destruct (Z.eqb_spec rid 0) as [E0|E0].
    + specialize (H1 r Hr). tauto.
    + destruct Hr as [<-|Hr]; [tauto | specialize (H1 r Hr); tauto].
  - destruct (b_inq b) as [|rid r]; [exact Q0|]. split; cbn; [|exact H2].
    intros x Hx. specialize (H1 x Hx). cbn in H1. destruct (Z.eqb_spec rid 0) as [->|E0]; cbn; [intuition congruence | tauto].
  - destruct (memZ rid (b_running b)); [|exact Q0]. split; cbn; [|exact H2].
    intros x Hx. rewrite In_delZ in *. specialize (H1 x (proj1 Hx)). tauto.
  - destruct (memZ id (b_gifts b)); [exact Q0|]. split; cbn; [exact H1|].
    intros x. rewrite H2. tauto.
  - split; cbn; [exact H1|]. intros x. rewrite !In_delZ, H2. tauto.
Qed.

Lemma qfinish_eq b : qfinish b = {| b_gifts := []; b_giftids := []; b_inq := [];
                                    b_active := filter (fun r => negb (memZ r (b_inq b))) (b_active b); b_running := b_running b |}.
Proof. unfold qfinish. destruct finish_clears_gifts_spec as (-> & -> & ->). reflexivity. Qed.

Lemma qinv_finish b : qinv b -> qinv (qfinish b).
Proof.
  intros [H1 H2]. rewrite qfinish_eq. split; cbn [b_active b_inq b_running b_gifts b_giftids]; [|tauto].
  intros r Hr. apply filter_In in Hr as [Hr Hn]. apply Bool.negb_true_iff in Hn.
  destruct (H1 r Hr) as [A [B|B]]; [apply memZ_In in B; congruence | auto].
Qed.

Lemma qfinish_forgets b : qinv b -> qforgotten (qfinish b).
Proof.
  intros Q. destruct (qinv_finish b Q) as [H1 _]. revert H1. rewrite qfinish_eq. cbn [b_active b_inq b_running]. intros H1.
  repeat split. intros r Hr. destruct (H1 r Hr) as [_ [[]|B]]. exact B.
Qed.

Record SInv (s : sym) : Prop := {
  (* the tag lists are a merge of the instances' queues: a delivery always finds its message *)
  si_a : queued (dA s) (cnt_inst IA (tAB s)) (cnt_inst IA (tBA s));
  si_b : queued (dB s) (cnt_inst IB (tBA s)) (cnt_inst IB (tAB s));
  si_xa : qinv (xA s);
  si_xb : qinv (xB s);
  si_live : lost (dA s) = false /\ lost (dB s) = false \/ all_forgotten s
}.

Lemma SInv_init : SInv sinit.
Proof.
  assert (Q : qinv btabs0) by (split; cbn; tauto).
  assert (D : queued init 0 0) by (split; [exists []; reflexivity | reflexivity | reflexivity]).
  constructor; [exact D | exact D | exact Q | exact Q | left; split; reflexivity].
Qed.

Theorem SInv_step s o : SInv s -> SInv (sstep s o).
Proof.
  intros I. unfold sstep. destruct (lost (dA s)) eqn:Hl; [exact I|].
  pose proof I as [A B XA XB [[_ HlB]|[[F _] _]]]; [|congruence].
  destruct o.
  - destruct (is_local o) eqn:L; [|exact I]. constructor; cbn [dA dB tAB tBA xA xB]; [| | exact XA | exact XB |].
    + rewrite !cnt_grow_own. apply queued_local; assumption.
    + rewrite !cnt_grow_other by discriminate. exact B.
    + left. rewrite lost_local by exact L. auto.
  - destruct (is_local o) eqn:L; [|exact I]. constructor; cbn [dA dB tAB tBA xA xB]; [| | exact XA | exact XB |].
    + rewrite !cnt_grow_other by discriminate. exact A.
    + rewrite !cnt_grow_own. apply queued_local; assumption.
    + left. rewrite lost_local by exact L. auto.
  - destruct (tAB s) as [|[|] r]; [exact I | |]; (constructor; cbn [dA dB tAB tBA xA xB]; [| | exact XA | exact XB |]).
    + apply queued_recv_oh; assumption.
    + exact B.
    + left. rewrite (lost_preserved (dA s) RecvOH Hl) by discriminate. auto.
    + rewrite cnt_grow_other by discriminate. exact A.
    + rewrite cnt_grow_own. apply queued_recv_ho; assumption.
    + left. rewrite (lost_preserved (dB s) RecvHO HlB) by discriminate. auto.
  - destruct (tBA s) as [|[|] r]; [exact I | |]; (constructor; cbn [dA dB tAB tBA xA xB]; [| | exact XA | exact XB |]).
    + rewrite cnt_grow_own. apply queued_recv_ho; assumption.
    + rewrite cnt_grow_other by discriminate. exact B.
    + left. rewrite (lost_preserved (dA s) RecvHO Hl) by discriminate. auto.
    + exact A.
    + apply queued_recv_oh; assumption.
    + left. rewrite (lost_preserved (dB s) RecvOH HlB) by discriminate. auto.
  - constructor; cbn [dA dB tAB tBA xA xB]; auto using qinv_step.
  - constructor; cbn [dA dB tAB tBA xA xB]; auto using qinv_step.
  - constructor; cbn [dA dB tAB tBA xA xB].
    + apply connlost_queued, A.
    + apply connlost_queued, B.
    + apply qinv_finish, XA.
    + apply qinv_finish, XB.
    + right. split; [apply connlost_forgotten, A|]. split; [apply connlost_forgotten, B|]. split; [reflexivity|]. split; [reflexivity|].
      split; apply qfinish_forgets; assumption.
Qed.

Theorem SInv_run ops : forall s, SInv s -> SInv (srun s ops).
Proof. induction ops as [|o r IH]; intros s I; cbn [srun]; [exact I | apply IH, SInv_step, I]. Qed.

Corollary SInv_reachable ops : SInv (srun sinit ops).
Proof. apply SInv_run, SInv_init. Qed.

(* product theorem: whatever the two directions do at once over the shared FIFOs, each direction is a history of the
   one-direction model -- so every theorem of props/C08.v / C09.v about `run init ops` holds for it *)
Theorem directions_independent ops :
  let s := srun sinit ops in
  (exists opsA, dA s = run init opsA) /\ (exists opsB, dB s = run init opsB) /\ lost (dA s) = lost (dB s).
Proof.
  intros s. destruct (SInv_reachable ops : SInv s) as [[RA _ _] [RB _ _] _ _ L]. split; [exact RA|]. split; [exact RB|].
  destruct L as [[-> ->]|([-> _] & [-> _] & _)]; reflexivity.
Qed.

(* the shared FIFOs: the tag lists are exactly a merge of the two instances' queues *)
Theorem fifo_is_a_merge ops :
  let s := srun sinit ops in
  cnt_inst IA (tAB s) = List.length (ch_oh (dA s)) /\ cnt_inst IB (tAB s) = List.length (ch_ho (dB s)) /\
  cnt_inst IA (tBA s) = List.length (ch_ho (dA s)) /\ cnt_inst IB (tBA s) = List.length (ch_oh (dB s)).
Proof. intros s. destruct (SInv_reachable ops : SInv s) as [[_ A1 A2] [_ B1 B2] _ _ _]. auto. Qed.

(* C09 per direction, both at once *)
Theorem sym_count_invariant ops c :
  let s := srun sinit ops in
  (rc (o_tab (ow (dA s))) c = recv_sum (h_trk (hd (dA s))) c + inflight (ch_oh (dA s)) c + decs (ch_ho (dA s)) c + cnt (leaked (dA s)) c) /\
  (rc (o_tab (ow (dB s))) c = recv_sum (h_trk (hd (dB s))) c + inflight (ch_oh (dB s)) c + decs (ch_ho (dB s)) c + cnt (leaked (dB s)) c).
Proof.
  intros s. destruct (directions_independent ops) as ((oa & Ea) & (ob & Eb) & _). fold s in Ea, Eb. rewrite Ea, Eb.
  split; apply count_invariant.
Qed.

Theorem sym_no_reuse ops :
  let s := srun sinit ops in
  NoDup (map fst (o_alloc (ow (dA s)))) /\ NoDup (map oe_clid (o_tab (ow (dA s)))) /\
  NoDup (map fst (o_alloc (ow (dB s)))) /\ NoDup (map oe_clid (o_tab (ow (dB s)))).
Proof.
  intros s. destruct (directions_independent ops) as ((oa & Ea) & (ob & Eb) & _). fold s in Ea, Eb. rewrite Ea, Eb.
  destruct (no_reuse oa) as (A1 & A2 & _). destruct (no_reuse ob) as (B1 & B2 & _). auto.
Qed.

Lemma srun_app a b s : srun s (a ++ b) = srun (srun s a) b.
Proof. revert s; induction a as [|o r IH]; intros s; cbn [app srun]; [reflexivity | apply IH]. Qed.
Lemma sstep_lost_id s o : lost (dA s) = true -> sstep s o = s.
Proof. intros H. unfold sstep. rewrite H. reflexivity. Qed.
Lemma srun_lost_id ops s : lost (dA s) = true -> srun s ops = s.
Proof. intros H. induction ops as [|o r IH]; cbn [srun]; [reflexivity | rewrite sstep_lost_id by exact H; exact IH]. Qed.
Lemma sstep_SLost_lost s : lost (dA (sstep s SLost)) = true.
Proof. unfold sstep. destruct (lost (dA s)) eqn:Hl; [exact Hl | apply lost_after_connlost]. Qed.

(* "when the connection is lost both sides forget everything": both export tables, both import tables, all four queues,
   the gift tables, the calls that were parsed but never run with their activeLocalCalls entries -- and it stays that way *)
Theorem sym_loss_forgets ops1 ops2 :
  let s := srun sinit (ops1 ++ SLost :: ops2) in
  forgotten (dA s) /\ forgotten (dB s) /\ tAB s = [] /\ tBA s = [] /\ qforgotten (xA s) /\ qforgotten (xB s).
Proof.
  cbv zeta. rewrite srun_app. cbn [srun]. rewrite srun_lost_id by apply sstep_SLost_lost.
  destruct (si_live _ (SInv_step _ SLost (SInv_reachable ops1))) as [[Hl _]|F]; [|exact F].
  rewrite sstep_SLost_lost in Hl. discriminate.
Qed.

(* non-vacuity: references flow both ways at once, releases cross, calls are queued, gifts registered; then the loss *)
Example both_directions_example :
  let s := srun sinit [ActA (Send 1 false); ActB (Send 5 false); DeliverBA; DeliverAB; ActA (DropProxy 0); ActA HandleRefLost;
                       ActB (Send 5 false); ActB (DropProxy 0); ActB HandleRefLost; AuxA (QCall 7); AuxA (QCall 0); AuxA QRun;
                       AuxA (QCall 9); AuxB (QGift 3)] in
  tAB s = [IB] /\ tBA s = [IA; IB] /\ List.length (ch_ho (dA s)) = 1%nat /\ List.length (ch_ho (dB s)) = 1%nat /\
  b_inq (xA s) = [0; 9] /\ b_active (xA s) = [9; 7] /\ b_gifts (xB s) = [3] /\
  let s' := sstep s SLost in b_active (xA s') = [7] /\ b_inq (xA s') = [] /\ b_gifts (xB s') = [] /\ o_tab (ow (dA s')) = [] /\ h_tab (hd (dB s')) = [].
Proof. vm_compute. repeat split. Qed.
