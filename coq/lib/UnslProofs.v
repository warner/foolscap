(* Theorems about the receive logic of lib/Unsl.v for EVERY unslicer semantics: chunk independence, abandonment,
   exact discard accounting through every violation, resynchronisation, silent discarding, object numbering,
   "no exception escapes dataReceived". *)
From Coq Require Import ZArith List Bool Lia.
Import ListNotations.
Require Import Verif.lib.PyLite Verif.gen.BananaGen Verif.gen.RecvGen Verif.lib.Token Verif.lib.Recv Verif.lib.RecvProofs Verif.lib.Unsl.
Local Open Scope Z_scope.

(* ---- dataReceived catches every exception kind (translated `except` clause) ---- *)
Lemma dr_catches_everything : forall k, dr_caught k = true.
Proof. intros k. unfold dr_caught. repeat match goal with |- context [if ?b then _ else _] => destruct b end; reflexivity. Qed.

Lemma dr_handler_complete : In HSendError dr_handler_ops /\ In HSetAbandoned dr_handler_ops /\ In HReport dr_handler_ops.
Proof. unfold dr_handler_ops. cbn. auto 10. Qed.

Definition is_escape (e : uevent) : bool := match e with UEscaped _ => true | _ => false end.
Definition no_escape (es : list uevent) : Prop := forallb (fun e => negb (is_escape e)) es = true.

Lemma no_escape_app a b : no_escape a -> no_escape b -> no_escape (a ++ b).
Proof. unfold no_escape. intros A B. rewrite forallb_app, A, B. reflexivity. Qed.

Lemma no_escape_app_inv a b : no_escape (a ++ b) -> no_escape a /\ no_escape b.
Proof. unfold no_escape. rewrite forallb_app. intros H. apply andb_true_iff in H. exact H. Qed.

Lemma ufatal_no_escape k : no_escape (ufatal k).
Proof. unfold ufatal. destruct (abstain_code k); [reflexivity|]. rewrite dr_catches_everything. reflexivity. Qed.

(* every exception kind; 97 / 98 are not exception kinds but the abstention marker of lib/Unsl.v *)
Lemma ufatal_closes k : abstain_code k = false -> In ULose (ufatal k) /\ In UErrorSent (ufatal k).
Proof. intros A. unfold ufatal. rewrite A, dr_catches_everything. cbn. auto. Qed.

Lemma ufatal_abstains k : abstain_code k = true -> ufatal k = [UUnmodelled].
Proof. intros A. unfold ufatal. rewrite A. reflexivity. Qed.

Lemma ufatal_not_abstained k : abstain_code k = false -> abstained (ufatal k) = false.
Proof. intros A. unfold ufatal. rewrite A, dr_catches_everything. reflexivity. Qed.

Section Proofs.
Variable fr : Type.
Variable u_check : fr -> Z -> Z -> oc unit.
Variable u_opener_check : list fr -> Z -> Z -> list (list Z) -> oc unit.
Variable u_do_open : list fr -> list (list Z) -> oc (option fr).
Variable u_start : fr -> Z -> oc fr.
Variable u_child : fr -> uval -> list uevent * oc fr.
Variable u_close : fr -> oc uval.
Variable u_finish : fr -> oc unit.
Variable u_report : fr -> option (list uevent).

Notation uctx := (uctx fr).
Notation ufr := (ufr fr).
Notation uhv_loop := (uhv_loop fr u_finish u_report).
Notation uhandle_violation := (uhandle_violation fr u_finish u_report).
Notation uhandle_token := (uhandle_token fr u_child u_finish u_report).
Notation uhandle_close := (uhandle_close fr u_child u_close u_finish u_report).
Notation uhandle_open := (uhandle_open fr u_do_open u_start u_finish u_report).
Notation udeliver := (udeliver fr u_do_open u_start u_child u_finish u_report).
Notation utaste := (utaste fr u_check u_opener_check).
Notation ubegin_body := (ubegin_body fr u_check u_opener_check u_finish u_report).
Notation ufinish_body := (ufinish_body fr u_do_open u_start u_child u_finish u_report).
Notation ustep_nobody_hr := (ustep_nobody_hr fr u_check u_opener_check u_do_open u_start u_child u_close u_finish u_report).
Notation ustep_nobody := (ustep_nobody fr u_check u_opener_check u_do_open u_start u_child u_close u_finish u_report).
Notation utok_apply := (utok_apply fr u_check u_opener_check u_do_open u_start u_child u_close u_finish u_report).
Notation uapply_all := (uapply_all fr u_check u_opener_check u_do_open u_start u_child u_close u_finish u_report).
Notation ufeed_all := (ufeed_all fr u_check u_opener_check u_do_open u_start u_child u_close u_finish u_report).
Notation urun := (urun fr u_check u_opener_check u_do_open u_start u_child u_close u_finish u_report).

Theorem unsl_chunk_independent c cs cs' : concat cs = concat cs' -> ufeed_all (init c) cs = ufeed_all (init c) cs'.
Proof. apply chunk_independent. Qed.

Theorem unsl_feed_is_run c cs : ufeed_all (init c) cs = urun c (concat cs).
Proof. apply feed_all_is_run. Qed.

Theorem unsl_abandon_is_final s cs : r_dead s = true -> ufeed_all s cs = (s, []).
Proof. apply dead_is_final. Qed.

(* the OPEN bookkeeping that precedes the taste *)
Definition uopened (c : uctx) (ty : Z) : uctx :=
  if ty =? tok_OPEN then
    {| u_discard := u_discard fr c; u_inOpen := true; u_opentype := u_opentype fr c; u_stack := u_stack fr c;
       u_objctr := u_objctr fr c + 1; u_inbObj := u_objctr fr c; u_inbOpen := u_inbOpen fr c; u_vocab := u_vocab fr c |}
  else c.

(* the taste: the context to go on with, what handleViolation emitted, whether the token is rejected *)
Definition utasted (c1 : uctx) (wasInOpen rejected0 exempt : bool) (ty hdr : Z) : tasted fr :=
  if rejected0 || exempt then TsGo fr c1 [] rejected0
  else match utaste c1 wasInOpen ty hdr with
       | OOk _ => TsGo fr c1 [] false
       | OBanana => TsFatal fr (ufatal 0)
       | OExc k => TsFatal fr (ufatal k)
       | OViol => match uhandle_violation c1 (u_inOpen fr c1) false with
                  | UOk _ c' es => TsGo fr (uw_inOpen fr c' false) es true
                  | UFatal _ es => TsFatal fr es
                  end
       end.

(* a Violation raised by a taster, or an ABORT: a pending index phase counts as one discarded level and is over *)
Definition uhv_index (c : uctx) : uhr fr :=
  match uhandle_violation c (u_inOpen fr c) false with
  | UOk _ c' es => UOk fr (uw_inOpen fr c' false) es
  | UFatal _ es => UFatal fr es
  end.

(* INT, NEG, VOCAB (and, in utok_apply, the tokens with a body): dropped if rejected, delivered otherwise *)
Definition uobject (c : uctx) (es : list uevent) (rejected : bool) (v : uval) : uhr fr :=
  if rejected then UOk fr c es else upre fr es (udeliver c v).

Definition uclause (c2 : uctx) (es : list uevent) (rejected : bool) (ty hdr : Z) : uhr fr :=
  if ty =? tok_OPEN then
    let c3 := {| u_discard := u_discard fr c2; u_inOpen := u_inOpen fr c2; u_opentype := u_opentype fr c2; u_stack := u_stack fr c2;
                 u_objctr := u_objctr fr c2; u_inbObj := u_inbObj fr c2; u_inbOpen := hdr; u_vocab := u_vocab fr c2 |} in
    if rejected then
      if u_inOpen fr c3 then UOk fr (uw_inOpen fr (uw_stack fr c3 (u_discard fr c3 + 1) (u_stack fr c3)) false) es
      else UOk fr c3 es
    else UOk fr (uw_opentype fr (uw_inOpen fr c3 true) []) es
  else if ty =? tok_CLOSE then
    if hd_close_fatal (u_inOpen fr c2) (u_discard fr c2) then UFatal fr (es ++ ufatal 0)
    else if 0 <? u_discard fr c2 then UOk fr (uw_stack fr c2 (u_discard fr c2 - 1) (u_stack fr c2)) es
    else upre fr es (uhandle_close c2 hdr)
  else if ty =? tok_ABORT then
    if rejected then UOk fr c2 es
    else if hd_abort_in_index then upre fr es (uhv_index c2)
    else upre fr es (uhandle_violation c2 false false)
  else if ty =? tok_INT then uobject c2 es rejected (UInt hdr)
  else if ty =? tok_NEG then uobject c2 es rejected (UInt (- hdr))
  else if ty =? tok_VOCAB then
    match uvocab_get (u_vocab fr c2) hdr with
    | None => UFatal fr (es ++ ufatal 1)
    | Some w => uobject c2 es rejected (UStr w)
    end
  else if ty =? tok_PING then UOk fr c2 (es ++ [UPong hdr])
  else if ty =? tok_PONG then UOk fr c2 es
  else UFatal fr (es ++ ufatal 0).

Lemma ustep_nobody_hr_phases c ty hdr : ustep_nobody_hr c ty hdr =
  if (ty =? tok_OPEN) && u_inOpen fr c then UFatal fr (ufatal 0)
  else match utasted (uopened c ty) (u_inOpen fr c) (0 <? u_discard fr c) (existsb (Z.eqb ty) hd_exempt) ty hdr with
       | TsFatal _ es => UFatal fr es
       | TsGo _ c2 es rejected => uclause c2 es rejected ty hdr
       end.
Proof. reflexivity. Qed.

Lemma utok_apply_body c ty hdr body : has_body ty = true -> utok_apply c ty hdr body =
  match utasted c (u_inOpen fr c) (0 <? u_discard fr c) false ty hdr with
  | TsFatal _ es => UFatal fr es
  | TsGo _ c2 es rejected => uobject c2 es rejected (ubody_val ty body)
  end.
Proof.
  intros HB. unfold Unsl.utok_apply, Unsl.ubegin_body, utasted, uobject. rewrite HB, orb_false_r.
  destruct (0 <? u_discard fr c); [reflexivity|]. destruct (utaste c (u_inOpen fr c) ty hdr); try reflexivity.
  - destruct (udeliver c (ubody_val ty body)); reflexivity.
  - destruct (uhandle_violation c (u_inOpen fr c) false); reflexivity.
Qed.

Lemma tasted_cases c1 w r0 ex ty hdr c2 es rej : utasted c1 w r0 ex ty hdr = TsGo fr c2 es rej ->
  (c2 = c1 /\ es = [] /\ rej = r0) \/ (r0 = false /\ ex = false /\ rej = true /\ uhv_index c1 = UOk fr c2 es).
Proof.
  unfold utasted, uhv_index. destruct (r0 || ex) eqn:X; [intros E; inversion E; auto|].
  apply orb_false_iff in X as [-> ->]. destruct (utaste c1 w ty hdr); try discriminate; [intros E; inversion E; auto|].
  destruct (uhandle_violation c1 (u_inOpen fr c1) false); [|discriminate]. intros E; inversion E; subst. auto 6.
Qed.

Lemma upre_nil r : upre fr [] r = r.
Proof. destruct r; reflexivity. Qed.

Lemma uclause_pre c es rej ty hdr : uclause c es rej ty hdr = upre fr es (uclause c [] rej ty hdr).
Proof.
  unfold uclause, uobject. cbv zeta.
  destruct (ty =? tok_OPEN); [destruct rej; [destruct (u_inOpen fr c)|]|
  destruct (ty =? tok_CLOSE); [destruct (hd_close_fatal _ _); [|destruct (0 <? _)]|
  destruct (ty =? tok_ABORT); [destruct rej; [|destruct hd_abort_in_index]|
  destruct (ty =? tok_INT); [destruct rej|
  destruct (ty =? tok_NEG); [destruct rej|
  destruct (ty =? tok_VOCAB); [destruct (uvocab_get _ _); [destruct rej|]|
  destruct (ty =? tok_PING); [|destruct (ty =? tok_PONG)]]]]]]];
    cbn [upre app u_inOpen]; rewrite ?app_nil_r, ?upre_nil; reflexivity.
Qed.

(* Every property of results that the handlers respect holds of every token: Inv is what is known of the context on the way,
   P of the events emitted so far, Q of the result. *)
Section Closed.
Variable Inv : uctx -> Prop.
Variable P : list uevent -> Prop.
Variable Q : uhr fr -> Prop.
Hypothesis Inv_stack : forall c c', u_stack fr c' = u_stack fr c -> Inv c -> Inv c'.
Hypothesis P_nil : P [].
Hypothesis P_pong : forall n, P [UPong n].
Hypothesis Q_ok : forall c es, Inv c -> P es -> Q (UOk fr c es).
Hypothesis Q_fatal : forall k, Q (UFatal fr (ufatal k)).
Hypothesis Q_pre : forall es r, P es -> Q r -> Q (upre fr es r).
Hypothesis Q_violation : forall c, Inv c -> Q (uhandle_violation c false false).
Hypothesis Q_index : forall c, Inv c -> match uhv_index c with UOk _ c' es => Inv c' /\ P es | UFatal _ es => Q (UFatal fr es) end.
Hypothesis Q_close : forall c n, Inv c -> Q (uhandle_close c n).
Hypothesis Q_deliver : forall c v, Inv c -> Q (udeliver c v).

Lemma utasted_closed c w r0 ex ty hdr : Inv c ->
  match utasted c w r0 ex ty hdr with TsFatal _ es => Q (UFatal fr es) | TsGo _ c2 es _ => Inv c2 /\ P es end.
Proof.
  intros H. unfold utasted. destruct (r0 || ex); [auto|].
  destruct (utaste c w ty hdr); try apply Q_fatal; [auto|].
  pose proof (Q_index c H) as K. unfold uhv_index in K. destruct (uhandle_violation c (u_inOpen fr c) false); exact K.
Qed.

Lemma uobject_closed c es rej v : Inv c -> P es -> Q (uobject c es rej v).
Proof. intros H E. unfold uobject. destruct rej; [apply Q_ok|apply Q_pre; [|apply Q_deliver]]; assumption. Qed.

Lemma uclause_closed c es rej ty hdr : Inv c -> P es -> Q (uclause c es rej ty hdr).
Proof.
  intros H E. unfold uclause.
  assert (same : forall c', u_stack fr c' = u_stack fr c -> Q (UOk fr c' es)) by (intros c' S; apply Q_ok; [apply (Inv_stack c c' S H)|exact E]).
  assert (fatal : forall k, Q (UFatal fr (es ++ ufatal k))) by (intros k; apply (Q_pre es (UFatal fr (ufatal k)) E (Q_fatal k))).
  destruct (ty =? tok_OPEN). { destruct rej; [destruct (u_inOpen fr _)|]; apply same; reflexivity. }
  destruct (ty =? tok_CLOSE).
  { destruct (hd_close_fatal _ _); [apply fatal|]. destruct (0 <? _); [apply same; reflexivity|]. apply Q_pre; [exact E|apply Q_close; exact H]. }
  destruct (ty =? tok_ABORT).
  { destruct rej; [apply same; reflexivity|]. destruct hd_abort_in_index; (apply Q_pre; [exact E|]); [|apply Q_violation; exact H].
    pose proof (Q_index c H) as K. destruct (uhv_index c); [apply Q_ok; apply K|exact K]. }
  destruct (ty =? tok_INT); [apply uobject_closed; assumption|]. destruct (ty =? tok_NEG); [apply uobject_closed; assumption|].
  destruct (ty =? tok_VOCAB); [destruct (uvocab_get _ _); [apply uobject_closed; assumption|apply fatal]|].
  destruct (ty =? tok_PING); [apply (Q_pre es (UOk fr c [UPong hdr]) E), Q_ok; [exact H|apply P_pong]|].
  destruct (ty =? tok_PONG); [apply same; reflexivity|apply fatal].
Qed.

Lemma ustep_nobody_closed c ty hdr : Inv c -> Q (ustep_nobody_hr c ty hdr).
Proof.
  intros H. rewrite ustep_nobody_hr_phases. destruct (_ && _); [apply Q_fatal|].
  assert (H1 : Inv (uopened c ty)) by (revert H; apply Inv_stack; unfold uopened; destruct (ty =? tok_OPEN); reflexivity).
  pose proof (utasted_closed _ (u_inOpen fr c) (0 <? u_discard fr c) (existsb (Z.eqb ty) hd_exempt) ty hdr H1) as K.
  destruct (utasted _ _ _ _ ty hdr); [exact K|]. apply uclause_closed; apply K.
Qed.

Theorem utok_apply_closed c ty hdr body : Inv c -> Q (utok_apply c ty hdr body).
Proof.
  intros H. destruct (has_body ty) eqn:HB.
  - rewrite (utok_apply_body _ _ _ _ HB). pose proof (utasted_closed c (u_inOpen fr c) (0 <? u_discard fr c) false ty hdr H) as K.
    destruct (utasted _ _ _ _ ty hdr); [exact K|]. apply uobject_closed; apply K.
  - unfold Unsl.utok_apply. rewrite HB. apply ustep_nobody_closed; exact H.
Qed.

End Closed.

(* the handlers respect whatever the unslicers' callbacks respect: S is what is known of the stack, P of the events a
   callback emits, Q of the result *)
Record respected (S : list ufr -> Prop) (P : list uevent -> Prop) (Q : uhr fr -> Prop) : Prop := {
  r_pop : forall top rest, S (top :: rest) -> S rest;
  r_child : forall top rest v es f', S (top :: rest) -> u_child (uf_st fr top) v = (es, OOk f') ->
            S ({| uf_open := uf_open fr top; uf_st := f' |} :: rest);
  r_open : forall st ot ch o, S st -> u_do_open (map (uf_st fr) st) ot = OOk (Some ch) ->
           S ({| uf_open := o; uf_st := ch |} :: st) /\ forall n ch', u_start ch n = OOk ch' -> S ({| uf_open := o; uf_st := ch' |} :: st);
  r_nil : P [];
  r_pong : forall n, P [UPong n];
  r_child_events : forall f v, P (fst (u_child f v));
  r_report : forall f es, u_report f = Some es -> P es;
  r_ok : forall c es, S (u_stack fr c) -> P es -> Q (UOk fr c es);
  r_fatal : forall k, Q (UFatal fr (ufatal k));
  r_unmodelled : Q (UFatal fr [UUnmodelled]);
  r_pre : forall es r, P es -> Q r -> Q (upre fr es r) }.

Section Respected.
Variable S : list ufr -> Prop.
Variable P : list uevent -> Prop.
Variable Q : uhr fr -> Prop.
Hypothesis R : respected S P Q.

Lemma hv_loop_respected : forall st d ic, S st ->
  match uhv_loop st d ic with HvOk _ st' _ es => S st' /\ P es | HvFatal _ es => Q (UFatal fr es) end.
Proof.
  induction st as [|top rest IH]; intros d ic H; cbn [Unsl.uhv_loop]; [apply (r_fatal _ _ _ R)|].
  destruct (u_report (uf_st fr top)) eqn:E; [split; [exact H|apply (r_report _ _ _ R _ _ E)]|].
  destruct (u_finish (uf_st fr top)); try apply (r_fatal _ _ _ R);
    (destruct rest; [apply (r_fatal _ _ _ R)|apply IH, (r_pop _ _ _ R _ _ H)]).
Qed.

Lemma hv_respected c io ic : S (u_stack fr c) ->
  match uhandle_violation c io ic with UOk _ c' es => S (u_stack fr c') /\ P es | UFatal _ es => Q (UFatal fr es) end.
Proof.
  intros H. unfold Unsl.uhandle_violation.
  pose proof (hv_loop_respected _ (if io then u_discard fr c + 1 else u_discard fr c) ic H) as K. destruct (uhv_loop _ _ _); exact K.
Qed.

Lemma violation_respected c io ic : S (u_stack fr c) -> Q (uhandle_violation c io ic).
Proof.
  intros H. pose proof (hv_respected c io ic H) as K. destruct (uhandle_violation c io ic); [apply (r_ok _ _ _ R); apply K|exact K].
Qed.

Lemma token_respected c v : S (u_stack fr c) -> Q (uhandle_token c v).
Proof.
  intros H. pose proof (violation_respected c false false H) as HV. unfold Unsl.uhandle_token.
  destruct (u_stack fr c) as [|top rest] eqn:Es; [apply (r_fatal _ _ _ R)|].
  pose proof (r_child_events _ _ _ R (uf_st fr top) v) as PE. destruct (u_child (uf_st fr top) v) as [es r] eqn:EC. cbn [fst] in PE.
  destruct r as [f'| | |k].
  - apply (r_ok _ _ _ R); [apply (r_child _ _ _ R _ _ _ _ _ H EC)|exact PE].
  - apply (r_pre _ _ _ R _ _ PE HV).
  - apply (r_pre _ _ _ R es (UFatal fr (ufatal 0)) PE (r_fatal _ _ _ R 0)).
  - apply (r_pre _ _ _ R es (UFatal fr (ufatal k)) PE (r_fatal _ _ _ R k)).
Qed.

Lemma close_respected c n : S (u_stack fr c) -> Q (uhandle_close c n).
Proof.
  intros H. pose proof (violation_respected c false true H) as HV. unfold Unsl.uhandle_close.
  destruct (u_stack fr c) as [|top rest] eqn:Es; [apply (r_fatal _ _ _ R)|]. destruct (negb _); [apply (r_fatal _ _ _ R)|].
  destruct (u_close (uf_st fr top)); try apply (r_fatal _ _ _ R); try exact HV.
  destruct (u_finish (uf_st fr top)); try apply (r_fatal _ _ _ R); try exact HV.
  apply token_respected, (r_pop _ _ _ R _ _ H).
Qed.

Lemma open_respected c v : S (u_stack fr c) -> Q (uhandle_open c v).
Proof.
  intros H. unfold Unsl.uhandle_open. cbv zeta. destruct v as [z|b|b|t d items]; try apply (r_fatal _ _ _ R).
  destruct (negb _); [apply (r_unmodelled _ _ _ R)|]. destruct (u_stack fr c) as [|top rest] eqn:Es; [apply (r_fatal _ _ _ R)|].
  destruct (u_do_open _ _) as [[child|]| | |k] eqn:ED; try apply (r_fatal _ _ _ R).
  - destruct (r_open _ _ _ R _ _ _ (Some (u_inbOpen fr c)) H ED) as (SC & SS).
    destruct (u_start child (u_inbObj fr c)) as [child'| | |k] eqn:ES; try apply (r_fatal _ _ _ R).
    + apply (r_ok _ _ _ R); [apply (SS _ _ ES)|apply (r_nil _ _ _ R)].
    + apply violation_respected. exact SC.
  - apply (r_ok _ _ _ R); [|apply (r_nil _ _ _ R)]. cbn [uw_opentype u_stack]. rewrite Es. exact H.
  - apply violation_respected. cbn [uw_inOpen uw_opentype u_stack]. rewrite Es. exact H.
Qed.

Lemma deliver_respected c v : S (u_stack fr c) -> Q (udeliver c v).
Proof. unfold Unsl.udeliver. destruct (u_inOpen fr c); [apply open_respected|apply token_respected]. Qed.

Lemma hv_index_respected c : S (u_stack fr c) ->
  match uhv_index c with UOk _ c' es => S (u_stack fr c') /\ P es | UFatal _ es => Q (UFatal fr es) end.
Proof. intros H. unfold uhv_index. pose proof (hv_respected c (u_inOpen fr c) false H) as K. destruct (uhandle_violation c _ _); exact K. Qed.

Lemma stack_respected c c' : u_stack fr c' = u_stack fr c -> S (u_stack fr c) -> S (u_stack fr c').
Proof. intros ->. auto. Qed.

Lemma ustep_nobody_respected c ty hdr : S (u_stack fr c) -> Q (ustep_nobody_hr c ty hdr).
Proof.
  exact (ustep_nobody_closed (fun c => S (u_stack fr c)) P Q stack_respected (r_nil _ _ _ R) (r_pong _ _ _ R) (r_ok _ _ _ R) (r_fatal _ _ _ R)
           (r_pre _ _ _ R) (fun c => violation_respected c false false) hv_index_respected close_respected deliver_respected c ty hdr).
Qed.

Theorem utok_apply_respected c ty hdr body : S (u_stack fr c) -> Q (utok_apply c ty hdr body).
Proof.
  exact (utok_apply_closed (fun c => S (u_stack fr c)) P Q stack_respected (r_nil _ _ _ R) (r_pong _ _ _ R) (r_ok _ _ _ R) (r_fatal _ _ _ R)
           (r_pre _ _ _ R) (fun c => violation_respected c false false) hv_index_respected close_respected deliver_respected c ty hdr body).
Qed.

End Respected.

(* ---- the root is at the bottom, has no openCount and absorbs ---- *)
Definition absorbs (f : fr) : Prop := u_report f <> None.

Definition ubottom (st : list ufr) : Prop :=
  exists pre r, st = pre ++ [r] /\ uf_open fr r = None /\ absorbs (uf_st fr r).

Definition uwfc (c : uctx) : Prop := 0 <= u_discard fr c /\ ubottom (u_stack fr c).

(* an unslicer that absorbs violations still does so after it was handed a child (the root's reportViolation does
   not depend on what it has delivered) *)
Hypothesis child_keeps_absorbing : forall f v es f', u_child f v = (es, OOk f') -> absorbs f -> absorbs f'.
(* an unslicer whose receiveClose / finish raises a Violation hands that violation to its parent (it does not absorb it
   itself).  True of every unslicer of the package: only root unslicers absorb, and a root is never closed.  Without it the
   statement is false: see unsl_depth_refuted_absorbing_closer in lib/PolUnslProofs.v *)
Hypothesis closing_violation_propagates : forall f,
  (u_close f = OViol \/ (exists v, u_close f = OOk v /\ u_finish f = OViol)) -> u_report f = None.

Lemma ubottom_nonempty st : ubottom st -> (1 <= List.length st)%nat.
Proof. intros (pre & r & -> & _). rewrite app_length. cbn. lia. Qed.

Lemma ubottom_push st f : ubottom st -> ubottom (f :: st).
Proof. intros (pre & r & -> & H). exists (f :: pre), r. split; [reflexivity|exact H]. Qed.

Lemma ubottom_pop top rest : ubottom (top :: rest) -> uf_open fr top <> None -> ubottom rest.
Proof.
  intros (pre & r & E & Ho & Ha) Ht. destruct pre as [|p pre].
  - cbn in E. inversion E; subst. contradiction.
  - cbn in E. inversion E; subst. exists pre, r. auto.
Qed.

Lemma ubottom_replace top rest f' : ubottom (top :: rest) ->
  (absorbs (uf_st fr top) -> absorbs f') -> ubottom ({| uf_open := uf_open fr top; uf_st := f' |} :: rest).
Proof.
  intros (pre & r & E & Ho & Ha) K. destruct pre as [|p pre].
  - cbn in E. inversion E; subst. exists [], {| uf_open := uf_open fr r; uf_st := f' |}. cbn. auto.
  - cbn in E. inversion E; subst. exists ({| uf_open := uf_open fr p; uf_st := f' |} :: pre), r. auto.
Qed.

Lemma ubottom_tail f st : ubottom (f :: st) -> st <> [] -> ubottom st.
Proof. intros ([|p pre] & r & E & H) N; inversion E; subst; [contradiction|]. exists pre, r. auto. Qed.

Lemma ubottom_app pre st : ubottom (pre ++ st) -> st <> [] -> ubottom st.
Proof.
  intros B N. induction pre as [|p pre IH]; [exact B|]. apply IH, (ubottom_tail p); [exact B|].
  intros X. apply app_eq_nil in X as [_ X]. contradiction.
Qed.

(* handleViolation pops the frames that hand the violation on, down to the first that absorbs it; each popped frame counts as
   a discarded level, except the first when the violation comes from its own CLOSE *)
Lemma uhv_loop_spec : forall st d ic,
  match uhv_loop st d ic with
  | HvOk _ st' d' es => exists pre top rest, st = pre ++ st' /\ st' = top :: rest /\ u_report (uf_st fr top) = Some es /\
      Forall (fun f => u_report (uf_st fr f) = None) pre /\
      d' = d + Z.of_nat (List.length pre) - (if ic then match pre with [] => 0 | _ :: _ => 1 end else 0)
  | HvFatal _ es => exists k, es = ufatal k
  end.
Proof.
  induction st as [|f st IH]; intros d ic; cbn [Unsl.uhv_loop]; [exists 6; reflexivity|].
  destruct (u_report (uf_st fr f)) as [es0|] eqn:ER.
  { exists [], f, st. split; [reflexivity|]. split; [reflexivity|]. split; [exact ER|]. split; [constructor|]. destruct ic; cbn; lia. }
  destruct (u_finish (uf_st fr f)); try (eexists; reflexivity);
    (destruct st as [|g st]; [exists 0; reflexivity|]; specialize (IH (if ic then d else d + 1) false);
     destruct (uhv_loop (g :: st) _ false); [|exact IH]; destruct IH as (pre & t & r & E1 & E2 & R & F & D);
     exists (f :: pre), t, r; cbn [app List.length]; rewrite <- E1;
     (split; [reflexivity|]; split; [exact E2|]; split; [exact R|]; split; [constructor; assumption|]; destruct ic; lia)).
Qed.

(* handleViolation never pops the root, and counts exactly the frames it pops (the first one not when inClose) *)
Lemma uhv_loop_bottom st : ubottom st -> forall d ic st' d' es, uhv_loop st d ic = HvOk fr st' d' es ->
  ubottom st' /\ d <= d' /\
  d' - d = Z.of_nat (List.length st - List.length st') - (if ic then (if (List.length st' <? List.length st)%nat then 1 else 0) else 0).
Proof.
  intros B d ic st' d' es E. pose proof (uhv_loop_spec st d ic) as K. rewrite E in K. destruct K as (pre & t & r & -> & -> & _ & _ & ->).
  split; [apply (ubottom_app pre); [exact B|discriminate]|].
  rewrite app_length. destruct (Nat.ltb_spec (List.length (t :: r)) (List.length pre + List.length (t :: r)));
    destruct pre; cbn [List.length] in *; destruct ic; lia.
Qed.

(* ... and when no finish() can raise anything but a Violation, handleViolation always terminates normally *)
Lemma uhv_loop_total st : ubottom st -> (forall f, u_finish f = OOk tt \/ u_finish f = OViol) ->
  forall d ic, exists st' d' es, uhv_loop st d ic = HvOk fr st' d' es.
Proof.
  intros (pre & r & -> & Ho & Ha) Hf. induction pre as [|f pre IH]; intros d ic.
  - cbn [app Unsl.uhv_loop]. pose proof Ha as Ha2. unfold absorbs in Ha2. destruct (u_report (uf_st fr r)) as [es0|]; [|contradiction]. eauto.
  - cbn [app Unsl.uhv_loop]. destruct (u_report (uf_st fr f)) as [es0|]; [eauto|].
    destruct (pre ++ [r]) as [|g rest] eqn:Er; [destruct pre; discriminate|].
    destruct (Hf (uf_st fr f)) as [-> | ->]; apply IH.
Qed.

Notation depth := (uopen_depth fr).

(* the fields that no handler writes (the OPEN bookkeeping of ustep_nobody_hr advances the object counter) *)
Definition keeps (c c' : uctx) : Prop := u_vocab fr c' = u_vocab fr c /\ u_objctr fr c' = u_objctr fr c.

Definition moves (c c' : uctx) (k : Z) : Prop := keeps c c' /\ (uwfc c -> uwfc c' /\ depth c' = depth c + k).

Lemma moves_refl c : moves c c 0.
Proof. split; [split; reflexivity|]. intros W. split; [exact W|lia]. Qed.

Lemma moves_trans c1 c2 c3 j k n : moves c1 c2 j -> moves c2 c3 k -> j + k = n -> moves c1 c3 n.
Proof.
  intros ((V1 & O1) & D1) ((V2 & O2) & D2) <-. split; [split; congruence|].
  intros W. destruct (D1 W) as (W2 & E2). destruct (D2 W2) as (W3 & E3). split; [exact W3|lia].
Qed.

Lemma upre_ok es r c' es' : upre fr es r = UOk fr c' es' -> exists es1, r = UOk fr c' es1 /\ es' = es ++ es1.
Proof. destruct r; cbn; intros H; inversion H; subst; eauto. Qed.

Lemma hv_depth c io ic c' es : uhandle_violation c io ic = UOk fr c' es ->
  u_inOpen fr c' = u_inOpen fr c /\ keeps c c' /\
  exists pre, u_stack fr c = pre ++ u_stack fr c' /\
    (forall top rest, u_stack fr c = top :: rest -> u_report (uf_st fr top) = None -> pre <> []) /\
    (uwfc c -> uwfc c' /\
       depth c' = depth c + (if io then 1 else 0) - (if ic then match pre with [] => 0 | _ :: _ => 1 end else 0)).
Proof.
  unfold Unsl.uhandle_violation.
  pose proof (uhv_loop_spec (u_stack fr c) (if io then u_discard fr c + 1 else u_discard fr c) ic) as K.
  destruct (uhv_loop (u_stack fr c) _ ic) as [st' d' es'|]; [|discriminate].
  destruct K as (pre & t & r & Es & -> & R & _ & ->). intros E; inversion E; subst.
  split; [reflexivity|]. split; [split; reflexivity|]. exists pre. cbn [uw_stack u_stack]. split; [exact Es|]. split.
  - intros top rest Et HR ->. rewrite Et in Es. inversion Es; subst. congruence.
  - intros (Hd & Hr). unfold uwfc, uopen_depth. cbn [uw_stack u_discard u_stack u_inOpen]. rewrite Es in Hr |- *. rewrite app_length.
    split; [split; [|apply (ubottom_app pre); [exact Hr|discriminate]]|]; destruct io, ic, pre; cbn [List.length]; lia.
Qed.

Lemma violation_moves c io c' es : uhandle_violation c io false = UOk fr c' es -> moves c c' (if io then 1 else 0).
Proof.
  intros E. destruct (hv_depth _ _ _ _ _ E) as (_ & F & pre & _ & _ & D). split; [exact F|].
  intros W. destruct (D W) as (W' & D'). split; [exact W'|lia].
Qed.

(* a Violation raised by receiveClose or finish: the closing frame hands it on and is popped without being counted *)
Lemma violation_in_close_moves c top rest c' es : u_stack fr c = top :: rest -> u_report (uf_st fr top) = None ->
  uhandle_violation c false true = UOk fr c' es -> moves c c' (-1).
Proof.
  intros Es HR E. destruct (hv_depth _ _ _ _ _ E) as (_ & F & pre & _ & NE & D). split; [exact F|].
  intros W. destruct (D W) as (W' & D'). split; [exact W'|]. specialize (NE _ _ Es HR). destruct pre; [contradiction|lia].
Qed.

Lemma hv_index_moves c c' es : uhv_index c = UOk fr c' es -> moves c c' 0.
Proof.
  unfold uhv_index. destruct (uhandle_violation c (u_inOpen fr c) false) as [c1 es1|] eqn:EV; [|discriminate].
  intros E; inversion E; subst. destruct (hv_depth _ _ _ _ _ EV) as (I & F & pre & _ & _ & D). split; [exact F|].
  intros W. destruct (D W) as (W' & D'). split; [exact W'|].
  unfold uopen_depth in *. cbn [uw_inOpen u_discard u_stack u_inOpen]. rewrite I in D'. destruct (u_inOpen fr c); lia.
Qed.

Lemma token_moves c v c' es : uhandle_token c v = UOk fr c' es -> moves c c' 0.
Proof.
  unfold Unsl.uhandle_token. destruct (u_stack fr c) as [|top rest] eqn:Es; [discriminate|].
  destruct (u_child (uf_st fr top) v) as [es0 r] eqn:EC. destruct r as [f'| | |k]; try discriminate.
  - intros E; inversion E; subst. split; [split; reflexivity|]. intros (Hd & Hr). rewrite Es in Hr.
    unfold uwfc, uopen_depth, uw_stack. cbn [u_discard u_stack u_inOpen List.length]. rewrite Es. cbn [List.length].
    split; [split; [exact Hd|]|lia]. apply ubottom_replace; [exact Hr|]. apply (child_keeps_absorbing _ _ _ _ EC).
  - intros E. apply upre_ok in E as (es1 & E & _). apply (violation_moves _ _ _ _ E).
Qed.

Lemma opt_is_some o n : opt_is o n = true -> o <> None.
Proof. destruct o; [discriminate|]. cbn. discriminate. Qed.

Lemma close_moves c n c' es : uhandle_close c n = UOk fr c' es -> moves c c' (-1).
Proof.
  unfold Unsl.uhandle_close. destruct (u_stack fr c) as [|top rest] eqn:Es; [discriminate|].
  destruct (opt_is (uf_open fr top) n) eqn:EO; [|discriminate]. cbn [negb].
  destruct (u_close (uf_st fr top)) as [obj| | |k] eqn:EC; try discriminate.
  - destruct (u_finish (uf_st fr top)) as [[]| | |k] eqn:EF; try discriminate.
    + intros E. refine (moves_trans _ _ _ (-1) 0 _ _ (token_moves _ _ _ _ E) eq_refl).
      split; [split; reflexivity|]. intros (Hd & Hr). rewrite Es in Hr.
      unfold uwfc, uopen_depth, uw_stack. cbn [u_discard u_stack u_inOpen]. rewrite Es. cbn [List.length].
      split; [split; [exact Hd|apply (ubottom_pop top rest Hr (opt_is_some _ _ EO))]|lia].
    + apply (violation_in_close_moves c top rest c' es Es), closing_violation_propagates. right. exists obj. auto.
  - apply (violation_in_close_moves c top rest c' es Es), closing_violation_propagates. left. exact EC.
Qed.

(* an index token: the pending OPEN stays pending, becomes a live unslicer, or becomes a discarded level *)
Lemma open_moves c v c' es : u_inOpen fr c = true -> uhandle_open c v = UOk fr c' es -> moves c c' 0.
Proof.
  intros IO. unfold Unsl.uhandle_open. cbv zeta. destruct v as [z|b|b|t d items]; try discriminate.
  destruct (negb (uascii b)); [discriminate|].
  destruct (u_stack fr c) as [|top rest] eqn:Es; [discriminate|].
  destruct (u_do_open (map (uf_st fr) (top :: rest)) (u_opentype fr c ++ [b])) as [[child|]| | |k]; try discriminate.
  - assert (MP : forall f, moves c (uw_stack fr (uw_inOpen fr (uw_opentype fr c (u_opentype fr c ++ [b])) false) (u_discard fr c)
                                      ({| uf_open := Some (u_inbOpen fr c); uf_st := f |} :: top :: rest)) 0).
    { intros f. split; [split; reflexivity|]. intros (Hd & Hr). rewrite Es in Hr.
      unfold uwfc, uopen_depth. cbn [uw_stack uw_inOpen uw_opentype u_discard u_stack u_inOpen List.length]. rewrite Es, IO. cbn [List.length].
      split; [split; [exact Hd|apply ubottom_push; exact Hr]|lia]. }
    destruct (u_start child (u_inbObj fr c)) as [child'| | |k]; try discriminate.
    + intros E; inversion E; subst. apply MP.
    + intros E. apply (moves_trans _ _ _ 0 0 _ (MP child) (violation_moves _ _ _ _ E) eq_refl).
  - intros E; inversion E; subst. split; [split; reflexivity|]. intros W. split; [exact W|].
    unfold uopen_depth. cbn [uw_opentype u_discard u_stack u_inOpen]. lia.
  - intros E. refine (moves_trans _ _ _ (-1) 1 _ _ (violation_moves _ _ _ _ E) eq_refl).
    split; [split; reflexivity|]. intros W. split; [exact W|].
    unfold uopen_depth. cbn [uw_inOpen uw_opentype u_discard u_stack u_inOpen]. rewrite IO. lia.
Qed.

Lemma deliver_moves c v c' es : udeliver c v = UOk fr c' es -> moves c c' 0.
Proof. unfold Unsl.udeliver. destruct (u_inOpen fr c) eqn:IO; [apply open_moves; exact IO|apply token_moves]. Qed.

Lemma tasted_moves c1 w r0 ex ty hdr c2 es rej : utasted c1 w r0 ex ty hdr = TsGo fr c2 es rej ->
  moves c1 c2 0 /\ (rej = false -> c2 = c1).
Proof.
  intros E. destruct (tasted_cases _ _ _ _ _ _ _ _ _ E) as [(-> & _ & _)|(_ & _ & -> & H)].
  - split; [apply moves_refl|reflexivity].
  - split; [apply (hv_index_moves _ _ _ H)|discriminate].
Qed.

Lemma object_moves c es rej v c' es' : uobject c es rej v = UOk fr c' es' -> moves c c' 0.
Proof.
  unfold uobject. destruct rej; intros E; [inversion E; subst; apply moves_refl|].
  apply upre_ok in E as (es1 & E & _). apply (deliver_moves _ _ _ _ E).
Qed.

(* an accepted OPEN finds the index phase begun by uopened; a rejected one counts it as a discarded level *)
Lemma clause_moves c es rej ty hdr c' es' : (ty = tok_OPEN -> rej = false -> u_inOpen fr c = true) ->
  uclause c es rej ty hdr = UOk fr c' es' -> moves c c' (if ty =? tok_CLOSE then -1 else 0).
Proof.
  intros IO. unfold uclause.
  assert (same : forall es0, UOk fr c es0 = UOk fr c' es' -> moves c c' 0) by (intros es0 E; inversion E; subst; apply moves_refl).
  destruct (Z.eqb_spec ty tok_OPEN) as [->|_].
  { change (tok_OPEN =? tok_CLOSE) with false. cbv zeta. cbn [u_inOpen]. destruct rej.
    - destruct (u_inOpen fr c) eqn:I; intros E; inversion E; subst; (split; [split; reflexivity|]); intros (Hd & Hr);
        unfold uwfc, uopen_depth; cbn [uw_inOpen uw_stack u_discard u_stack u_inOpen]; rewrite I; (split; [split; [lia|exact Hr]|lia]).
    - intros E; inversion E; subst. split; [split; reflexivity|]. intros W. split; [exact W|].
      unfold uopen_depth. cbn [uw_opentype uw_inOpen u_discard u_stack u_inOpen]. rewrite (IO eq_refl eq_refl). lia. }
  destruct (ty =? tok_CLOSE).
  { destruct (hd_close_fatal _ _); [discriminate|]. destruct (Z.ltb_spec 0 (u_discard fr c)).
    - intros E; inversion E; subst. split; [split; reflexivity|]. intros (Hd & Hr).
      unfold uwfc, uopen_depth. cbn [uw_stack u_discard u_stack u_inOpen]. split; [split; [lia|exact Hr]|lia].
    - intros E. apply upre_ok in E as (es0 & E & _). apply (close_moves _ _ _ _ E). }
  destruct (ty =? tok_ABORT).
  { destruct rej; [apply same|]. destruct hd_abort_in_index; intros E; apply upre_ok in E as (es0 & E & _);
      [apply (hv_index_moves _ _ _ E)|apply (violation_moves _ _ _ _ E)]. }
  destruct (ty =? tok_INT); [apply object_moves|]. destruct (ty =? tok_NEG); [apply object_moves|].
  destruct (ty =? tok_VOCAB); [destruct (uvocab_get _ hdr); [apply object_moves|discriminate]|].
  destruct (ty =? tok_PING); [apply same|]. destruct (ty =? tok_PONG); [apply same|discriminate].
Qed.

(* the effect of one token on well-formedness, vocabulary, depth and object counter *)
Definition moved (c c' : uctx) (dd dc : Z) : Prop :=
  uwfc c' /\ u_vocab fr c' = u_vocab fr c /\ depth c' = depth c + dd /\ u_objctr fr c' = u_objctr fr c + dc.

Definition is_open_tok (ty : Z) : Z := if ty =? tok_OPEN then 1 else 0.

Lemma has_body_delta ty : has_body ty = true -> utok_delta ty = 0 /\ is_open_tok ty = 0.
Proof.
  unfold has_body, utok_delta, is_open_tok. intros H.
  destruct (Z.eqb_spec ty tok_OPEN) as [->|_]; [discriminate|].
  destruct (Z.eqb_spec ty tok_CLOSE) as [->|_]; [discriminate|]. auto.
Qed.

Theorem tok_apply_moves c ty hdr body c' es : utok_apply c ty hdr body = UOk fr c' es ->
  (ty = tok_OPEN -> u_inOpen fr c = false) /\ moves (uopened c ty) c' (if ty =? tok_CLOSE then -1 else 0).
Proof.
  destruct (has_body ty) eqn:HB.
  - rewrite (utok_apply_body _ _ _ _ HB). destruct (has_body_delta ty HB) as (D & O). unfold utok_delta, is_open_tok, uopened in *.
    destruct (Z.eqb_spec ty tok_OPEN); [discriminate|]. destruct (ty =? tok_CLOSE); [discriminate|].
    destruct (utasted _ _ _ _ ty hdr) as [|c2 es2 rej] eqn:ET; [discriminate|]. intros E. split; [intros; contradiction|].
    apply (moves_trans _ _ _ 0 0 _ (proj1 (tasted_moves _ _ _ _ _ _ _ _ _ ET)) (object_moves _ _ _ _ _ _ E) eq_refl).
  - unfold Unsl.utok_apply. rewrite HB, ustep_nobody_hr_phases. intros E.
    assert (IO : ty = tok_OPEN -> u_inOpen fr c = false) by (intros ->; destruct (u_inOpen fr c); [discriminate E|reflexivity]).
    split; [exact IO|]. destruct ((ty =? tok_OPEN) && u_inOpen fr c); [discriminate|].
    destruct (utasted _ _ _ _ ty hdr) as [|c2 es2 rej] eqn:ET; [discriminate|].
    destruct (tasted_moves _ _ _ _ _ _ _ _ _ ET) as (M2 & Acc).
    refine (moves_trans _ _ _ 0 _ _ M2 (clause_moves _ _ _ _ _ _ _ _ E) eq_refl).
    intros -> R. rewrite (Acc R). reflexivity.
Qed.

(* every complete token moves the receiver's depth exactly as it moves the stream's nesting depth, and the object
   counter by one exactly when it is an OPEN -- accepted, rejected or discarded *)
Theorem utok_apply_moved c ty hdr body c' es : uwfc c -> utok_apply c ty hdr body = UOk fr c' es ->
  moved c c' (utok_delta ty) (is_open_tok ty).
Proof.
  intros W E. destruct (tok_apply_moves _ _ _ _ _ _ E) as (IO & (V & O) & D). unfold uopened, utok_delta, is_open_tok in *.
  destruct (Z.eqb_spec ty tok_OPEN) as [->|_].
  - destruct (D W) as (W' & D'). cbn [u_vocab u_objctr] in *. change (tok_OPEN =? tok_CLOSE) with false in D'.
    split; [exact W'|]. split; [exact V|]. split; [|exact O]. rewrite D'. unfold uopen_depth. cbn [u_discard u_stack u_inOpen].
    rewrite (IO eq_refl). lia.
  - destruct (D W) as (W' & D'). split; [exact W'|]. split; [exact V|]. split; [exact D'|lia].
Qed.

Fixpoint udelta_sum (ts : list (Z * Z * list Z)) : Z :=
  match ts with [] => 0 | (ty, _, _) :: r => utok_delta ty + udelta_sum r end.
Fixpoint ucount_opens (ts : list (Z * Z * list Z)) : Z :=
  match ts with [] => 0 | (ty, _, _) :: r => is_open_tok ty + ucount_opens r end.

Theorem uapply_all_moved ts : forall c c' es, uwfc c -> uapply_all c ts = UOk fr c' es ->
  moved c c' (udelta_sum ts) (ucount_opens ts).
Proof.
  induction ts as [|[[ty hdr] body] ts IH]; intros c c' es W E; cbn [Unsl.uapply_all udelta_sum ucount_opens] in *.
  - inversion E; subst. split; [exact W|]. split; [reflexivity|]. split; lia.
  - destruct (utok_apply c ty hdr body) as [c1 es1|] eqn:E1; [|discriminate].
    apply upre_ok in E as (es2 & E2 & _).
    destruct (utok_apply_moved _ _ _ _ _ _ W E1) as (W1 & V1 & D1 & O1).
    destruct (IH _ _ _ W1 E2) as (W2 & V2 & D2 & O2).
    split; [exact W2|]. split; [congruence|]. split; lia.
Qed.

Lemma uctx0_wf root voc : absorbs root -> uwfc (uctx0 fr root voc).
Proof. intros A. split; [cbn; lia|]. exists [], {| uf_open := None; uf_st := root |}. cbn. auto. Qed.

Lemma uat_top_depth c : uat_top fr c -> depth c = 0.
Proof. intros (D & I & S). unfold uopen_depth. rewrite D, I, S. reflexivity. Qed.

Lemma udepth_zero_top c : uwfc c -> depth c = 0 -> uat_top fr c.
Proof.
  intros (Hd & Hr) D. unfold uopen_depth in D. pose proof (ubottom_nonempty _ Hr) as L.
  destruct (u_inOpen fr c) eqn:I; [lia|]. split; [lia|]. split; [exact I|lia].
Qed.

(* RESYNCHRONISATION, for every unslicer semantics: whatever happens inside a top-level object -- violations at any
   depth, ABORTs, rejected or skipped tokens -- unless the connection is abandoned, after a token sequence whose OPENs and
   CLOSEs balance the receiver is back at top level: nothing is being discarded, only the root unslicer is on the stack, no
   index phase is pending, the vocabulary is the same and the object counter has advanced by the number of OPEN tokens *)
Theorem unsl_resync c ts c' es : uat_top fr c -> uwfc c -> udelta_sum ts = 0 -> uapply_all c ts = UOk fr c' es ->
  uat_top fr c' /\ uwfc c' /\ u_vocab fr c' = u_vocab fr c /\ u_objctr fr c' = u_objctr fr c + ucount_opens ts.
Proof.
  intros T W B E. destruct (uapply_all_moved ts c c' es W E) as (W' & V & D & O).
  split; [|auto]. apply udepth_zero_top; [exact W'|]. rewrite D, (uat_top_depth c T), B. reflexivity.
Qed.

Theorem unsl_depth_nonneg c ts c' es : uwfc c -> uapply_all c ts = UOk fr c' es -> 0 <= depth c + udelta_sum ts.
Proof.
  intros W E. destruct (uapply_all_moved ts c c' es W E) as ((Hd & Hr) & _ & D & _).
  rewrite <- D. unfold uopen_depth. pose proof (ubottom_nonempty _ Hr). destruct (u_inOpen fr c'); lia.
Qed.

(* ---- while a rejected object is being discarded (discardCount > 0) nothing reaches any unslicer: every token only
   moves discardCount by its own nesting delta, and the only events are the PONGs that answer PINGs ---- *)
Definition only_pongs (es : list uevent) : Prop := forall e, In e es -> exists n, e = UPong n.

Lemma only_pongs_app a b : only_pongs a -> only_pongs b -> only_pongs (a ++ b).
Proof. intros A B e H. apply in_app_or in H as [H|H]; auto. Qed.

(* a rejected token that is neither OPEN nor CLOSE changes nothing; a PING is answered all the same *)
Lemma clause_rejected c es ty hdr c' es' : ty =? tok_OPEN = false -> ty =? tok_CLOSE = false ->
  uclause c es true ty hdr = UOk fr c' es' -> c' = c /\ (es' = es \/ es' = es ++ [UPong hdr]).
Proof.
  unfold uclause, uobject. intros -> ->.
  assert (same : UOk fr c es = UOk fr c' es' -> c' = c /\ (es' = es \/ es' = es ++ [UPong hdr])) by (intros E; inversion E; auto).
  destruct (ty =? tok_ABORT); [exact same|]. destruct (ty =? tok_INT); [exact same|]. destruct (ty =? tok_NEG); [exact same|].
  destruct (ty =? tok_VOCAB); [destruct (uvocab_get _ _); [exact same|discriminate]|].
  destruct (ty =? tok_PING); [intros E; inversion E; auto|]. destruct (ty =? tok_PONG); [exact same|discriminate].
Qed.

Lemma discarding_token c ty hdr body c' es : 0 < u_discard fr c -> u_inOpen fr c = false -> utok_apply c ty hdr body = UOk fr c' es ->
  u_stack fr c' = u_stack fr c /\ u_inOpen fr c' = false /\ u_discard fr c' = u_discard fr c + utok_delta ty /\
  u_vocab fr c' = u_vocab fr c /\ only_pongs es.
Proof.
  intros Hd IO. assert (Hd' : 0 <? u_discard fr c = true) by (apply Z.ltb_lt; exact Hd).
  assert (nil : only_pongs []) by (intros e []).
  destruct (has_body ty) eqn:HB.
  - rewrite (utok_apply_body _ _ _ _ HB). unfold utasted. rewrite Hd'. cbn [orb uobject]. intros E; inversion E; subst.
    destruct (has_body_delta ty HB) as [-> _]. repeat split; auto; lia.
  - unfold Unsl.utok_apply. rewrite HB, ustep_nobody_hr_phases, IO, andb_false_r. unfold utasted. rewrite Hd'. cbn [orb].
    unfold utok_delta, uopened. destruct (ty =? tok_OPEN) eqn:EO; [|destruct (ty =? tok_CLOSE) eqn:EC].
    + unfold uclause. rewrite EO. intros E; cbn [u_inOpen] in E; inversion E; subst.
      cbn [u_inOpen u_discard u_stack u_vocab uw_inOpen uw_stack]. repeat split; auto.
    + unfold uclause. rewrite EO, EC, IO. unfold hd_close_fatal. rewrite Hd'. intros E; cbn [andb] in E; inversion E; subst.
      cbn [u_inOpen u_discard u_stack u_vocab uw_stack]. repeat split; auto; lia.
    + intros E. destruct (clause_rejected _ _ _ _ _ _ EO EC E) as (-> & [-> | ->]); repeat split; auto; try lia.
      intros e [<-|[]]. eauto.
Qed.

Fixpoint stays_discarding (d : Z) (ts : list (Z * Z * list Z)) : Prop :=
  match ts with [] => True | (ty, _, _) :: r => 0 < d /\ stays_discarding (d + utok_delta ty) r end.

Theorem unsl_discard_silent ts : forall c c' es, u_inOpen fr c = false -> stays_discarding (u_discard fr c) ts ->
  uapply_all c ts = UOk fr c' es ->
  u_stack fr c' = u_stack fr c /\ u_inOpen fr c' = false /\ u_discard fr c' = u_discard fr c + udelta_sum ts /\
  u_vocab fr c' = u_vocab fr c /\ only_pongs es.
Proof.
  induction ts as [|[[ty hdr] body] ts IH]; intros c c' es IO S E; cbn [Unsl.uapply_all udelta_sum stays_discarding] in *.
  - inversion E; subst. repeat split; auto; try lia. intros e [].
  - destruct S as (Hd & S). destruct (utok_apply c ty hdr body) as [c1 es1|] eqn:E1; [|discriminate].
    apply upre_ok in E as (es2 & E2 & ->).
    destruct (discarding_token _ _ _ _ _ _ Hd IO E1) as (S1 & I1 & D1 & V1 & P1).
    rewrite <- D1 in S. destruct (IH _ _ _ I1 S E2) as (S2 & I2 & D2 & V2 & P2).
    split; [congruence|]. split; [exact I2|]. split; [lia|]. split; [congruence|]. apply only_pongs_app; assumption.
Qed.

(* ---- byte level and token level agree ---- *)
Notation utok_step := (tok_step uctx uevent ubegin_body ufinish_body ustep_nobody (ufatal 0) (ufatal 0) (fun _ => [ULose])).

Theorem utok_step_complete c b ds ty rest :
  scan_header 64 [] b = HOk ds ty rest -> ty <> tok_ERROR ->
  (has_body ty = true -> blen ty (le128 ds) <= lenZ rest) ->
  let n := if has_body ty then blen ty (le128 ds) else 0 in
  utok_step c b =
  match utok_apply c ty (le128 ds) (firstn (Z.to_nat n) rest) with
  | UOk _ c' es => TCont uctx uevent c' es (skipn (Z.to_nat n) rest)
  | UFatal _ es => TDead uctx uevent es
  end.
Proof.
  intros S NE HB. unfold Recv.tok_step. rewrite S.
  destruct (Z.eqb_spec ty tok_ERROR); [contradiction|].
  unfold Unsl.utok_apply. destruct (has_body ty) eqn:Hb.
  - specialize (HB eq_refl). destruct (ubegin_body c ty (le128 ds)) as [|c1 es1|es1]; [| |reflexivity].
    + destruct (Z.ltb_spec (lenZ rest) (blen ty (le128 ds))); [lia|].
      unfold Unsl.ufinish_body, uto_generic. destruct (udeliver c (ubody_val ty _)); reflexivity.
    + destruct (Z.ltb_spec (lenZ rest) (blen ty (le128 ds))); [lia|]. reflexivity.
  - cbn [Z.to_nat firstn skipn]. unfold Unsl.ustep_nobody, uto_generic. destruct (ustep_nobody_hr c ty (le128 ds)); reflexivity.
Qed.

Lemma utok_step_lift (Q : uhr fr -> Prop) c b :
  Q (UFatal fr (ufatal 0)) -> Q (UFatal fr [ULose]) -> (forall ty hdr body, Q (utok_apply c ty hdr body)) ->
  match utok_step c b with
  | TNeed _ _ => True | TSkip _ _ c' es _ => Q (UOk fr c' es) | TCont _ _ c' es _ => Q (UOk fr c' es) | TDead _ _ es => Q (UFatal fr es)
  end.
Proof.
  intros Q0 QL HQ. unfold Recv.tok_step. destruct (scan_header 64 [] b) as [| |ds ty rest]; [exact I|exact Q0|].
  destruct (ty =? tok_ERROR).
  { destruct (SIZE_LIMIT <? le128 ds); [exact Q0|]. destruct (lenZ rest <? le128 ds); [exact I|exact QL]. }
  specialize (HQ ty (le128 ds) (firstn (Z.to_nat (blen ty (le128 ds))) rest)). unfold Unsl.utok_apply in HQ.
  destruct (has_body ty).
  - destruct (ubegin_body c ty (le128 ds)); [|destruct (lenZ rest <? _); exact HQ|exact HQ].
    destruct (lenZ rest <? _); [exact I|]. unfold Unsl.ufinish_body, uto_generic. destruct (udeliver c _); exact HQ.
  - unfold Unsl.ustep_nobody, uto_generic. destruct (ustep_nobody_hr c ty (le128 ds)); exact HQ.
Qed.

Definition usized (ty : Z) : bool := (ty =? tok_STRING) || (ty =? tok_LONGINT) || (ty =? tok_LONGNEG).

(* ---- "no exception ever escapes to the transport": when the unslicers' own events are honest, no run of
   dataReceived -- any state, any chunks -- produces an escape event ---- *)
Hypothesis child_events_clean : forall f v, no_escape (fst (u_child f v)).
Hypothesis report_events_clean : forall f es, u_report f = Some es -> no_escape es.

Definition hr_clean (r : uhr fr) : Prop := match r with UOk _ _ es => no_escape es | UFatal _ es => no_escape es end.

Lemma upre_clean es r : no_escape es -> hr_clean r -> hr_clean (upre fr es r).
Proof. destruct r; cbn; intros; apply no_escape_app; assumption. Qed.

Lemma clean_respected : respected (fun _ => True) no_escape hr_clean.
Proof.
  constructor; try (intros; exact I); try reflexivity.
  - intros; split; intros; exact I.
  - exact child_events_clean.
  - exact report_events_clean.
  - intros c es _ E. exact E.
  - exact ufatal_no_escape.
  - exact upre_clean.
Qed.

Theorem tok_apply_clean c ty hdr body : hr_clean (utok_apply c ty hdr body).
Proof. exact (utok_apply_respected _ _ _ clean_respected c ty hdr body I). Qed.

Theorem unsl_no_escape cs : forall s, no_escape (snd (ufeed_all s cs)).
Proof.
  intros s. refine (proj2 (feed_all_inv _ _ _ _ _ _ _ _ (fun _ => True) (fun _ => True) no_escape I eq_refl no_escape_app _ cs s (conj I I))).
  intros c b _. pose proof (utok_step_lift hr_clean c b (ufatal_no_escape 0) eq_refl (tok_apply_clean c)) as K.
  destruct (utok_step c b); auto.
Qed.

(* every way of abandoning the connection on an exception sends ERROR and closes *)
Theorem unsl_fatal_sends_error_and_closes k : abstain_code k = false -> In UErrorSent (ufatal k) /\ In ULose (ufatal k).
Proof. intros A. destruct (ufatal_closes k A). auto. Qed.

End Proofs.

(* C11 with an invariant on the unslicers that are on the stack: if every unslicer that can get there (P) has tasters that
   admit a sized body only up to B bytes, the bytes held never reach 65 + max(B, 8, SIZE_LIMIT) -- for all chunk sequences. *)
Section Bounded.
Variable fr : Type.
Variable u_check : fr -> Z -> Z -> oc unit.
Variable u_opener_check : list fr -> Z -> Z -> list (list Z) -> oc unit.
Variable u_do_open : list fr -> list (list Z) -> oc (option fr).
Variable u_start : fr -> Z -> oc fr.
Variable u_child : fr -> uval -> list uevent * oc fr.
Variable u_close : fr -> oc uval.
Variable u_finish : fr -> oc unit.
Variable u_report : fr -> option (list uevent).
Variable P : fr -> Prop.
Variable B : Z.
Hypothesis P_open : forall st ot ch, Forall P st -> u_do_open st ot = OOk (Some ch) -> P ch.
Hypothesis P_start : forall ch n ch', P ch -> u_start ch n = OOk ch' -> P ch'.
Hypothesis P_child : forall f v es f', P f -> u_child f v = (es, OOk f') -> P f'.
Hypothesis P_check : forall f ty size, P f -> usized ty = true -> u_check f ty size = OOk tt -> size <= B.
Hypothesis P_opener : forall st ty size ot, usized ty = true -> u_opener_check st ty size ot = OOk tt -> size <= B.

Notation uctx := (uctx fr).
Notation uhandle_violation := (uhandle_violation fr u_finish u_report).
Notation ubegin_body := (ubegin_body fr u_check u_opener_check u_finish u_report).
Notation ufinish_body := (ufinish_body fr u_do_open u_start u_child u_finish u_report).
Notation ustep_nobody := (ustep_nobody fr u_check u_opener_check u_do_open u_start u_child u_close u_finish u_report).
Notation utok_apply := (utok_apply fr u_check u_opener_check u_do_open u_start u_child u_close u_finish u_report).
Notation ufeed_all := (ufeed_all fr u_check u_opener_check u_do_open u_start u_child u_close u_finish u_report).
Notation utok_step := (tok_step uctx uevent ubegin_body ufinish_body ustep_nobody (ufatal 0) (ufatal 0) (fun _ => [ULose])).

Definition SJ (st : list (ufr fr)) : Prop := Forall (fun f => P (uf_st fr f)) st.
Definition J (c : uctx) : Prop := SJ (u_stack fr c).
Definition hrJ (r : uhr fr) : Prop := match r with UOk _ c _ => J c | UFatal _ _ => True end.

Lemma SJ_map st : SJ st -> Forall P (map (uf_st fr) st).
Proof. induction 1; cbn; constructor; assumption. Qed.

Lemma upre_J es r : hrJ r -> hrJ (upre fr es r).
Proof. destruct r; auto. Qed.

Lemma J_respected : respected fr u_do_open u_start u_child u_report SJ (fun _ => True) hrJ.
Proof.
  constructor; try (intros; exact I).
  - intros top rest H. inversion H; assumption.
  - intros top rest v es f' H E. inversion H as [|? ? PT HR]; subst. constructor; [apply (P_child _ _ _ _ PT E)|exact HR].
  - intros st ot ch o H E. pose proof (P_open _ _ _ (SJ_map _ H) E) as PC.
    split; [constructor; assumption|]. intros n ch' ES. constructor; [apply (P_start _ _ _ PC ES)|exact H].
  - intros c es H _. exact H.
  - intros es r _. apply upre_J.
Qed.

Lemma accept_J c ty hdr : J c -> has_body ty = true -> ubegin_body c ty hdr = BAccept -> blen ty hdr <= Z.max B 8.
Proof.
  intros H HB. unfold blen. destruct (ty =? tok_FLOAT) eqn:EF; [lia|].
  assert (SZ : usized ty = true) by (unfold has_body in HB; unfold usized; rewrite EF, orb_false_r in HB; exact HB).
  unfold Unsl.ubegin_body. destruct (0 <? u_discard fr c); [discriminate|].
  unfold Unsl.utaste. unfold J in H. destruct (u_stack fr c) as [|top rest]; [discriminate|].
  destruct (u_inOpen fr c).
  - destruct (u_opener_check _ ty hdr _) as [[]| | |] eqn:EO; try discriminate.
    + intros _. pose proof (P_opener _ _ _ _ SZ EO). lia.
    + destruct (uhandle_violation _ _ _); discriminate.
  - destruct (u_check _ ty hdr) as [[]| | |] eqn:EC; try discriminate.
    + intros _. inversion H as [|? ? PT _]; subst. pose proof (P_check _ _ _ PT SZ EC). lia.
    + destruct (uhandle_violation _ _ _); discriminate.
Qed.

Theorem tok_apply_J c ty hdr body : J c -> hrJ (utok_apply c ty hdr body).
Proof. eapply utok_apply_respected, J_respected. Qed.

Definition LIM : Z := 65 + Z.max (Z.max B 8) SIZE_LIMIT.

Definition good (s : rstate uctx) : Prop := J (r_ctx s) /\ lenZ (r_buf s) < LIM.

(* C11, standard form: whatever is sent and however it is chunked, the bytes held stay below 65 + max(B, 8, SIZE_LIMIT) *)
Theorem unsl_buffer_bounded_inv cs : forall s, good s -> good (fst (ufeed_all s cs)).
Proof.
  intros s G. refine (proj1 (feed_all_inv _ _ _ _ _ _ _ _ J (fun b => lenZ b < LIM) (fun _ => True) _ I (fun _ _ _ _ => I) _ cs s G)).
  - unfold LIM, SIZE_LIMIT, lenZ. cbn [List.length Z.of_nat]. lia.
  - intros c b H.
    pose proof (utok_step_lift fr u_check u_opener_check u_do_open u_start u_child u_close u_finish u_report hrJ c b I I
                  (fun ty hdr body => tok_apply_J c ty hdr body H)) as K.
    destruct (utok_step c b) eqn:T; auto.
    exact (need_bound _ _ _ _ _ _ _ _ (Z.max B 8) c (fun ty hdr => accept_J c ty hdr H) b T).
Qed.

End Bounded.

(* C11 when every unslicer's tasters admit a sized body only up to B bytes: the invariant is trivial *)
Section BoundedAll.
Variable fr : Type.
Variable u_check : fr -> Z -> Z -> oc unit.
Variable u_opener_check : list fr -> Z -> Z -> list (list Z) -> oc unit.
Variable u_do_open : list fr -> list (list Z) -> oc (option fr).
Variable u_start : fr -> Z -> oc fr.
Variable u_child : fr -> uval -> list uevent * oc fr.
Variable u_close : fr -> oc uval.
Variable u_finish : fr -> oc unit.
Variable u_report : fr -> option (list uevent).
Notation ufeed_all := (ufeed_all fr u_check u_opener_check u_do_open u_start u_child u_close u_finish u_report).

Theorem unsl_buffer_bounded B : 0 <= B ->
  (forall f ty size, usized ty = true -> u_check f ty size = OOk tt -> size <= B) ->
  (forall st ty size ot, usized ty = true -> u_opener_check st ty size ot = OOk tt -> size <= B) ->
  forall cs c, lenZ (r_buf (fst (ufeed_all (init c) cs))) < 65 + Z.max (Z.max B 8) SIZE_LIMIT.
Proof.
  intros HB HC HO cs c.
  apply (unsl_buffer_bounded_inv fr u_check u_opener_check u_do_open u_start u_child u_close u_finish u_report (fun _ => True) B
           (fun _ _ _ _ _ => I) (fun _ _ _ _ _ => I) (fun _ _ _ _ _ _ => I) (fun f ty size _ => HC f ty size) HO cs (init c)).
  split; [apply Forall_forall; intros; exact I|]. unfold LIM, init, mk, lenZ, SIZE_LIMIT. cbn [r_buf List.length Z.of_nat]. lia.
Qed.

End BoundedAll.
