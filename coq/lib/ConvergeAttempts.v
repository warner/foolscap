(* C14: who has a connection attempt under way, and when.  For all schedules of lib/Converge.v:
   a Tub has a live TubConnector only while it has no current connection; every connection it dialled whose own end
   is still negotiating belongs to that live connector; a hello sent by the dialling non-master carries last-connection. *)
From Coq Require Import ZArith List Bool Arith Lia.
Import ListNotations.
Require Import Verif.lib.PyLite Verif.gen.ConvergeGen Verif.lib.Converge Verif.lib.ConvergeProofs Verif.lib.ConvergeHist.

Definition xinv (s : state) : Prop :=
  (forall x, t_connector (tubof x s) <> None -> t_broker (tubof x s) = None) /\
  (forall x i, i < nconn s -> c_client (conns s i) = x -> negotiating (cend x (conns s i)) = true ->
               t_connector (tubof x s) = Some (c_gen (conns s i))) /\
  (forall i inc last, In (Hello inc last) (c_qsm (conns s i)) -> c_client (conns s i) = TS -> last <> None).

Lemma xinv_frame s s' : frame s s' -> xinv s -> xinv s'.
Proof.
  intros (N & T & C) (X1 & X2 & X3). split; [|split].
  - intros x Hc. destruct (T x) as (_ & Hb & [Hk|[Hk _]]); [|exact (Hk Hc)].
    destruct Hb as [Hb|Hb]; [exact Hb|]. rewrite Hb. apply X1. rewrite <- Hk. exact Hc.
  - intros x i Hi Hx Hn. destruct (C i) as (Ecl & Eg & El & _). rewrite N in Hi. rewrite Ecl in Hx. rewrite Eg.
    pose proof (X2 x i Hi Hx (proj1 (El x) Hn)) as E.
    destruct (T x) as (_ & _ & [Hk|[_ Hk]]); [rewrite Hk; exact E|]. destruct (Hk i Hi Hx Hn E).
  - intros i a b H Hx. destruct (C i) as (Ecl & _ & _ & _ & Eh).
    apply (X3 i a b); [apply Eh; [reflexivity|exact H]|rewrite <- Ecl; exact Hx].
Qed.

Lemma xinv_dial x g s : t_connector (tubof x s) = Some g -> xinv s -> xinv (do_dial x s).
Proof.
  intros Ec (X1 & X2 & X3). unfold do_dial. rewrite Ec. split; [|split]; cbn [tubof tm ts conns nconn].
  - intros y. destruct y; [apply (X1 TM)|apply (X1 TS)].
  - intros y i Hi Hy Hn. unfold upd in *. destruct (Nat.eqb_spec i (nconn s)).
    + cbn [c_client c_gen] in *. subst y. destruct x; exact Ec.
    + destruct y; [apply (X2 TM i)|apply (X2 TS i)]; try assumption; lia.
  - intros i a b H Hx. unfold upd in *. destruct (Nat.eqb i (nconn s)); [|apply (X3 i a b H Hx)].
    cbn [c_qsm c_client] in *. subst x. destruct H as [H|[]]. inversion H. discriminate.
Qed.

Lemma xinv_restart x s : xinv s -> xinv (do_restart x s).
Proof.
  intros (X1 & X2 & X3). unfold do_restart. split; [|split].
  - intros y. destruct x, y; cbn [set_tub map_conns set_conns tubof tm ts new_tub t_connector t_broker]; auto;
      first [apply (X1 TM)|apply (X1 TS)].
  - intros y i Hi Hy Hn. rewrite conns_set_tub in *. cbn [map_conns set_conns conns] in *.
    destruct (conn_le_kill x (conns s i)) as (Ka & Kg & Kn & _). rewrite Ka in Hy. rewrite Kg.
    destruct x, y; cbn [set_tub map_conns set_conns tubof tm ts nconn] in *;
      try (exfalso; destruct (conns s i); discriminate Hn);
      first [apply (X2 TM i)|apply (X2 TS i)]; try assumption; apply (Kn _), Hn.
  - intros i a b Hin. rewrite conns_set_tub in Hin. destruct x; destruct Hin.
Qed.

(* Negotiation.switchToBanana at x on c: given that, if x dialled c, c belongs to x's live connector *)
Lemma xinv_attach x c s :
  xinv s -> (c_client (conns s c) = x -> t_connector (tubof x s) = Some (c_gen (conns s c))) -> xinv (attach x c s).
Proof.
  intros (X1 & X2 & X3) Hpre. destruct (attach_spec x c s) as (N & Ho & _ & _ & Ak & C & St). cbv zeta in *.
  specialize (St Hpre). split; [|split].
  - intros y Hc. destruct x, y; cbn [tubof] in *; try (rewrite Ak in Hc; destruct (Hc eq_refl)); rewrite Ho in *;
      [apply (X1 TS Hc)|apply (X1 TM Hc)].
  - intros y i Hi Hy Hn. destruct (C i) as (Ecl & Eg & El & _). rewrite N in Hi. rewrite Ecl in Hy. rewrite Eg.
    pose proof (X2 y i Hi Hy (proj1 (El y) Hn)) as E.
    destruct x, y; cbn [tubof] in *; try (destruct (St i Hy Hn E)); rewrite Ho; exact E.
  - intros i a b H Hx. destruct (C i) as (Ecl & _ & _ & _ & Eh).
    apply (X3 i a b); [apply Eh; [reflexivity|exact H]|rewrite <- Ecl; exact Hx].
Qed.

Lemma xinv_set_tub x t s :
  t_connector t = t_connector (tubof x s) -> t_broker t = t_broker (tubof x s) -> xinv s -> xinv (set_tub x t s).
Proof.
  intros Hk Hb (X1 & X2 & X3). split; [|split].
  - intros y. destruct x, y; cbn [set_tub tubof tm ts] in *; rewrite ?Hk, ?Hb; first [apply (X1 TM)|apply (X1 TS)].
  - intros y i. rewrite conns_set_tub. destruct x, y; cbn [set_tub tubof tm ts nconn] in *; rewrite ?Hk;
      first [apply (X2 TM)|apply (X2 TS)].
  - intros i. rewrite conns_set_tub. apply X3.
Qed.

Lemma xinv_accept_m c inc s : c < nconn s -> xinv s -> c_m (conns s c) = ENeg -> xinv (master_accept c inc s).
Proof.
  intros Hc (X1 & X2 & X3) Em. unfold master_accept.
  destruct (accept_conn (Decision (t_inc (tm s)) (t_master (tm s) + seqnum_step)) (conns s c)) as (Ka & Kg & Km & Ks & Kq & _).
  cbv zeta in *. apply xinv_attach; [split; [|split]|]; cbn [set_tub set_conns tubof tm ts conns nconn].
  - intros y. destruct y; [apply (X1 TM)|apply (X1 TS)].
  - intros y i Hi. unfold upd. destruct (Nat.eqb_spec i c) as [->|_]; [|destruct y; [apply (X2 TM i Hi)|apply (X2 TS i Hi)]].
    rewrite Ka, Kg. destruct y; cbn [cend tubof]; [rewrite Km; discriminate|rewrite Ks; apply (X2 TS c Hc)].
  - intros i a b. unfold upd. destruct (Nat.eqb i c) eqn:E; [|apply X3]. apply Nat.eqb_eq in E. subst i.
    rewrite Kq, Ka. apply X3.
  - rewrite upd_same, Ka, Kg. intros Ecl. apply (X2 TM c Hc Ecl). cbn [cend]. rewrite Em. reflexivity.
Qed.

Theorem run_xinv ops : xinv (run ops).
Proof.
  apply run_ind.
  - split; [|split]; [intros x; destruct x; cbn; auto|intros x i Hi; cbn in Hi; lia|intros i a b []].
  - exact xinv_frame.
  - intros ops' x g. apply xinv_dial.
  - intros ops' x. apply xinv_restart.
  - intros ops' c inc last q s1 s Hc Eq Em H F _ Ec.
    apply xinv_accept_m; [rewrite (proj1 F); exact Hc|exact (xinv_frame _ _ F H)|rewrite Ec; exact Em].
  - intros ops' c inc seq q s1 s Hc Eq Es H F _ _ Ec.
    set (s2 := set_conns (upd (conns s1) c (set_end TS EBrk (pop_ms (conns s1 c)))) s1).
    assert (F2 : frame s s2).
    { eapply frame_trans; [exact F|]. apply frame_upd. eapply conn_le_trans; [|apply conn_le_pop_ms].
      apply conn_le_set_end. change (cend TS (pop_ms (conns s1 c))) with (c_s (conns s1 c)). rewrite Ec, Es.
      split; [discriminate|]. split; [auto|discriminate]. }
    apply xinv_attach; [apply xinv_set_tub; [reflexivity|reflexivity|exact (xinv_frame _ _ F2 H)]|].
    rewrite conns_set_tub. cbn [s2 set_tub set_conns conns tubof ts set_slave t_connector]. rewrite upd_same, Ec.
    intros Hx. destruct H as (_ & X2 & _). pose proof (X2 TS c Hc Hx) as E. cbn [cend tubof] in E. rewrite Es in E.
    specialize (E eq_refl). destruct F as (_ & T & _). destruct (T TS) as (_ & _ & [Hk|[_ Hk]]); cbn [tubof] in Hk; [rewrite Hk; exact E|].
    destruct (Hk c Hc Hx); [rewrite Ec; cbn [cend]; rewrite Es; reflexivity|exact E].
Qed.

(* a Tub looks for a connection (live TubConnector, or one of its own dials still negotiating at its end)
   only while it has no current connection *)
Theorem attempt_only_without_broker ops x :
  let s := run ops in
  (t_connector (tubof x s) <> None -> t_broker (tubof x s) = None) /\
  (forall i, i < nconn s -> c_client (conns s i) = x -> negotiating (cend x (conns s i)) = true -> t_broker (tubof x s) = None).
Proof.
  cbv zeta. destruct (run_xinv ops) as (X1 & X2 & _). split; [apply X1|].
  intros i Hi Hx Hn. apply X1. rewrite (X2 x i Hi Hx Hn). discriminate.
Qed.

(* handle-old-duplicate-connections is never consulted between two modern Tubs: whenever the master evaluates an offer
   while it has a current connection, the offer carries last-connection (and my-incarnation), so the translated decision
   function does not reach its old-peer branch and its result does not depend on the option or on the Broker's age *)
Theorem handle_old_unreachable ops c inc last rest :
  let s := run ops in
  c < nconn s -> c_qsm (conns s c) = Hello inc last :: rest -> c_m (conns s c) = ENeg -> t_broker (tm s) <> None ->
  last <> None /\
  forall h h' a a',
    compare_offer (Some inc) last (t_bir (tm s)) (t_bseq (tm s)) (t_inc (tm s)) h a =
    compare_offer (Some inc) last (t_bir (tm s)) (t_bseq (tm s)) (t_inc (tm s)) h' a'.
Proof.
  cbv zeta. intros Hc Eq Em Hb. destruct (run_xinv ops) as (X1 & X2 & X3).
  assert (Hl : last <> None).
  { destruct (c_client (conns (run ops) c)) eqn:Ecl.
    - exfalso. apply Hb. apply (X1 TM). rewrite (X2 TM c Hc Ecl); [discriminate|]. cbn [cend]. rewrite Em. reflexivity.
    - apply (X3 c inc last); [rewrite Eq; left; reflexivity|exact Ecl]. }
  split; [exact Hl|]. intros h h' a a'. destruct last as [[lir lseq]|]; [|contradiction Hl; reflexivity].
  rewrite !compare_total. reflexivity.
Qed.
