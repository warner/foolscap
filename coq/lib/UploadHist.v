(* C19 -- histories: the services run again and again on the directory the previous incarnation left behind
   (model only, no proofs).

   An incarnation of a service call is the execution of a PREFIX of its operation list (the process is killed / the
   machine is switched off before the k-th operation; k beyond the end = the call runs to completion), or -- for the
   registry -- the k-th system call FAILING with an errno (the statement's own exception handling still runs).  Then the
   process is gone (`reboot`): its open file object is lost together with whatever it had not flushed, the next
   incarnation starts unfailed on the directory as it is, INCLUDING leftovers (`<name>.partial`, `services.json.tmp`).
   Between two incarnations a local actor may put a symbolic link at ANY name that is not a directory (`plant`): the
   pre-existing symlinks of the property's quantifier, made compositional.  A link planted WHILE a call is running is a
   different matter: see UploadHistProofs.concurrent_symlink_refuted. *)
From Coq Require Import NArith List Bool Arith.
Import ListNotations.
Require Import Verif.lib.UploadShape Verif.gen.UploadGen Verif.lib.Paths Verif.lib.Upload.

(* the process is gone: no handle, unflushed data lost; what is on disk stays; a new process is not `failed` *)
Definition reboot (s : st) : st := mkst (names s) (data s) (next s) None false (followed s).

(* a local actor puts a symlink with text t at p, replacing a file or a link (never a directory) *)
Definition plant (s : st) (p t : str) : st :=
  match names s p with
  | Some D => s
  | _ => mkst (upd (names s) p (Some (L t))) (data s) (next s) (handle s) (failed s) (followed s)
  end.

(* ---- upload service ---- *)
Inductive uevent :=
| UUpload (final : str) (blocks : list (list N)) (oc : outcome) (k : nat)
| UPlant (p t : str).

Definition do_uevent (s : st) (e : uevent) : st :=
  match e with
  | UUpload final blocks oc k => reboot (run s (firstn k (upload_ops final blocks oc)))
  | UPlant p t => plant s p t
  end.
Definition uhistory (s : st) (es : list uevent) : st := fold_left do_uevent es s.

(* the temporary names used by the uploads of a history *)
Definition utmps (es : list uevent) : list str :=
  flat_map (fun e => match e with UUpload final _ _ _ => [final ++ putfile_tmp_ext] | UPlant _ _ => [] end) es.

(* the final names of the uploads of a history *)
Definition ufinals (es : list uevent) : list str :=
  flat_map (fun e => match e with UUpload final _ _ _ => [final] | UPlant _ _ => [] end) es.

(* THE GUARD under which the history theorems speak about every final name: no final name of the history is the temporary
   of an upload of the history (`x.partial` uploaded as a file of its own, and `x` uploaded too).  The service does not
   enforce it -- it accepts names that end in the temporary extension --: UploadHistProofs.upload_name_is_temporary_refuted *)
Definition no_name_collision (es : list uevent) : Prop := forall f, In f (ufinals es) -> ~ In f (utmps es).

(* what may legitimately be seen at a name that is not one of those temporaries: the initial entry, a planted link,
   or the COMPLETE content of one of the uploads that were sent under that name *)
Definition uallowed (s0 : st) (es : list uevent) (q : str) (v : view) : Prop :=
  v = look s0 q \/
  (exists t, In (UPlant q t) es /\ v = VLink t) \/
  (exists blocks k, In (UUpload q blocks Done k) es /\ v = VFile (concat blocks)).

(* ---- service registry ---- *)
Inductive revent :=
| RSave (chunks : list (list N)) (k : nat) (fault : bool)   (* fault = false: dies before operation k; true: operation k fails *)
| RPlant (p t : str).

Definition do_revent (basedir : str) (s : st) (e : revent) : st :=
  match e with
  | RSave chunks k false => reboot (run s (firstn k (registry_ops basedir chunks)))
  | RSave chunks k true => reboot (run_fault k s (registry_ops basedir chunks))
  | RPlant p t => plant s p t
  end.
Definition rhistory (basedir : str) (s : st) (es : list revent) : st := fold_left (do_revent basedir) es s.

Definition rallowed (s0 : st) (es : list revent) (q : str) (v : view) : Prop :=
  v = look s0 q \/
  (exists t, In (RPlant q t) es /\ v = VLink t) \/
  (exists chunks k f, In (RSave chunks k f) es /\ v = VFile (concat chunks)).

(* load_service_data: services.json if os.path.exists() says so (a regular file; links are not modelled here), else the
   old-style directory walk *)
Inductive loaded := LoadedJson (text : list N) | LoadedLegacy | LoadFails.
Definition registry_load (s : st) (basedir : str) : loaded :=
  match look s (join basedir registry_load_basename) with
  | VFile c => LoadedJson c
  | VNone => LoadedLegacy
  | _ => LoadFails
  end.

(* ---- paths an operation may REMOVE or MOVE AWAY (directories are never among them in the services), and the
        destinations of its renames ---- *)
Definition movable (o : op) : list str :=
  match o with
  | Rename a _ | RenameRetry a _ => [a]
  | RenameElseUnlink a _ c => [a; c]
  | Unlink p | UnlinkIfExists p => [p]
  | _ => []
  end.
Definition dests (o : op) : list str :=
  match o with
  | Rename _ b | RenameElseUnlink _ b _ | RenameRetry _ b => [b]
  | _ => []
  end.

(* ---- helpers for the correspondence: after every event, the full view of the watched names and the KIND of entry at
        the names in `kinds` (the content of a temporary after a kill depends on what the dying process had flushed) ---- *)
Definition kind_of (v : view) : list N := firstn 1 (code_view v).

Definition code_uevent_views (s0 : st) (es : list uevent) (watch kinds : list str) : list (list N) :=
  flat_map (fun n => let s := uhistory s0 (firstn n es) in
                     [b2n (followed s)] :: map (fun p => code_view (look s p)) watch ++ map (fun p => kind_of (look s p)) kinds)
           (seq 1 (List.length es)).

Definition code_revent_views (basedir : str) (s0 : st) (es : list revent) (watch kinds : list str) : list (list N) :=
  flat_map (fun n => let s := rhistory basedir s0 (firstn n es) in
                     map (fun p => code_view (look s p)) watch ++ map (fun p => kind_of (look s p)) kinds)
           (seq 1 (List.length es)).

(* ---- the read paths that do not go through FilePath.child ----
   LogPublisher.list_incident_names(since) (reached by remote_list_incidents and by IncidentSubscription.catch_up): every
   entry of os.listdir(logdir) that starts with the prefix and does not end in the skipped suffix; its basename is the
   entry with the trimmed suffixes cut off (in that order, each at most once); it is reported -- and its file opened by
   get_incident_trigger -- when basename > since (code-point order = byte order of UTF-8) *)
Definition suffixb (suf s : str) : bool := prefixb (rev suf) (rev s).
Definition trim1 (s suf : str) : str := if suffixb suf s then firstn (List.length s - List.length suf) s else s.
Definition trim (s : str) (sufs : list str) : str := fold_left trim1 sufs s.
Fixpoint str_ltb (a b : str) : bool :=
  match a, b with
  | _, [] => false
  | [], _ :: _ => true
  | x :: a', y :: b' => if N.ltb x y then true else if N.eqb x y then str_ltb a' b' else false
  end.

Definition list_incidents (base : str) (listing : list str) (since : str) : list (str * str) :=
  flat_map (fun fn =>
    if prefixb listing_prefix fn && negb (suffixb listing_skip_suffix fn) then
      let bn := trim fn listing_trim in
      if str_ltb since bn then [(bn, join base fn)] else []
    else []) listing.

(* ---- files that are opened FOR READING: the same `followed` flag, for a read that goes through a symbolic link ----
   (what is read then is the link's target: a file that need not be in the directory).  A read changes nothing in the file
   system.  A read that raises (directory, missing entry) stops the call: `failed`.  What happens AFTER a link was followed
   (the target may be missing: the open raises) is outside the model; the flag is what containment is about. *)
Inductive rop :=
| ROpen (p : str)              (* open(p, "r" | "rb") / BZ2File(p): FOLLOWS a symbolic link at p *)
| ROpenUnlessLink (p : str).   (* the same open behind an lstat test: `if not islink(p): open(p)` resp. `if islink(p): continue | raise`
                                  in front of it -- a link at p is not opened (whether the call then goes on or raises is not observed) *)

Definition mark_followed (s : st) : st := mkst (names s) (data s) (next s) (handle s) (failed s) true.
Definition is_link (s : st) (p : str) : bool := match names s p with Some (L _) => true | _ => false end.

Definition rstep (s : st) (o : rop) : st :=
  if failed s then s else
  match o with
  | ROpen p => match names s p with Some (F _) => s | Some (L _) => mark_followed s | _ => fail s end
  | ROpenUnlessLink p => match names s p with Some (F _) | Some (L _) => s | _ => fail s end
  end.
Definition rrun (s : st) (ops : list rop) : st := fold_left rstep ops s.

(* the open as the source has it: behind the lstat test, or bare (the flags are read off the source by g_upload.py) *)
Definition guarded_read (g : bool) (p : str) : rop := if g then ROpenUnlessLink p else ROpen p.
(* a fresh call on the directory as it is *)
Definition calm (s : st) : st := mkst (names s) (data s) (next s) (handle s) false false.

(* list_incident_names ON A DIRECTORY STATE: with `if os.path.islink(fullname): continue` in front of the yield an entry that
   is a symbolic link is not reported (listing_link_skipped, read off the source); without it, it is *)
Definition list_incidents_at (s : st) (base : str) (listing : list str) (since : str) : list (str * str) :=
  filter (fun np => negb (listing_link_skipped && is_link s (snd np))) (list_incidents base listing since).

(* remote_list_incidents: get_incident_trigger opens every reported file, in the order of the listing.
   (IncidentSubscription.catch_up opens a subset of them -- one per basename -- in sorted order: the theorems are stated for
   EVERY sequence of reads of reported files.) *)
Definition listing_read_ops (s : st) (base : str) (listing : list str) (since : str) : list rop :=
  map (fun np => ROpen (snd np)) (list_incidents_at s base listing since).

(* IncidentObserver.connect: the state file `latest` is read back (and its content sent to the publisher as since=) *)
Definition connect_read_ops (base : str) : list rop := [guarded_read gatherer_state_read_guarded (join base gatherer_latest)].

(* everything IncidentObserver._got_incident writes for one incident: the savefile and the `latest` marker *)
Definition gatherer_writes (cwd base name : str) : option (list str) :=
  option_map (fun q => [q; join base gatherer_latest]) (gatherer_path cwd base name).

(* ---- PHYSICAL containment of the gatherer's writes and the publisher's reads: pre-existing symbolic links AT the names
        that are opened (`<name>.flog.bz2`, `latest`; `<name>.flog[.bz2]`).
   save_incident / update_latest: [if islink(p): unlink(p)] ; f = open(p, "w") ; writes ; f.close() -- whether the bracketed guard
   is there is read off the source (gatherer_save_guarded / gatherer_latest_guarded). *)
Definition file_write_ops (guarded : bool) (p : str) (chunks : list (list N)) : list op :=
  (if guarded then [UnlinkIfLink p] else []) ++ Open p :: map (Write p) chunks ++ [Close p].

(* IncidentObserver._got_incident once the name is accepted: the savefile, then the `latest` marker *)
Definition gatherer_ops (q latest : str) (chunks : list (list N)) (ltext : list N) : list op :=
  file_write_ops gatherer_save_guarded q chunks ++ file_write_ops gatherer_latest_guarded latest [ltext].

Definition gatherer_call (cwd base name : str) (chunks : list (list N)) (ltext : list N) : option (list op) :=
  option_map (fun q => gatherer_ops q (join base gatherer_latest) chunks ltext) (gatherer_path cwd base name).

(* LogPublisher.remote_get_incident: the file that is opened for reading -- the first candidate if os.path.exists() (which
   follows links) says so, else the second -- and whether that open goes THROUGH a symbolic link *)
Definition publisher_opened (s : st) (paths : list str) : option str :=
  match paths with
  | [p1; p2] => Some (if exists_at exists_fuel s p1 then p1 else p2)
  | _ => None
  end.
(* the read of remote_get_incident as an operation list: the selected file, behind `if os.path.islink(fn): raise KeyError`
   or not (publisher_link_refused, read off the source) *)
Definition publisher_read_ops (s : st) (cwd base name : str) : list rop :=
  match publisher_paths cwd base name with
  | Some paths => match publisher_opened s paths with
                  | Some p => [guarded_read publisher_link_refused p]
                  | None => []
                  end
  | None => []
  end.
Definition publisher_reads_through_link (s : st) (cwd base name : str) : bool :=
  followed (rrun (calm s) (publisher_read_ops s cwd base name)).

(* ---- an operating-system operation of an UPLOAD fails (errno) instead of being performed ----
   a failing f.write() raises inside _got_data, which reaches _got_error and hence remote_putfile's _err (that is the
   BadBlock ending after the blocks written so far); every other operation failing raises out of the statement it is in:
   run_fault (the handler of the publishing rename still removes the temporary) *)
Definition upload_fault (k : nat) (s : st) (final : str) (blocks : list (list N)) (oc : outcome) : st :=
  match nth_error (upload_ops final blocks oc) k with
  | Some (Write _ _) => run s (upload_ops final (firstn (k - 2) blocks) BadBlock)
  | _ => run_fault k s (upload_ops final blocks oc)
  end.

Definition upload_fault_views (s : st) (final : str) (blocks : list (list N)) (oc : outcome) : list (list N) :=
  flat_map (fun k => let s' := upload_fault k s final blocks oc in
                     [code_view (look s' final); kind_of (look s' (final ++ putfile_tmp_ext))])
           (seq 0 (List.length (upload_ops final blocks oc))).
