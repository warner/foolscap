(* ConnectAllProofs.v -- per-hint containment and no-stall for the model of TubConnector.connectToAll (ConnectAll.v),
   for ALL hint lists and ALL behaviours of the individual hints (a hint whose handler has not answered, HWaiting, included:
   it counts as pending).  What happens after connect() has returned (late phase, timer) is ConnectLateProofs.v. *)
From Coq Require Import ZArith List String Bool.
Import ListNotations.
Require Import Verif.lib.PyLite Verif.lib.ConnectAll.
Local Open Scope Z_scope.

Lemma hmem_In h l : hmem h l = true <-> In h l.
Proof.
  induction l as [|x l IH]; cbn [hmem In]; [split; [discriminate|tauto]|].
  rewrite orb_true_iff, IH, list_eqb_eq. split; intros [H|H]; auto.
Qed.

Lemma list_eqb_refl h : list_eqb h h = true.
Proof. apply list_eqb_eq. reflexivity. Qed.

Lemma cff_cases s :
  (check_for_failure s = s /\ (active s = false \/ remaining s <> [] \/ pending s <> [])) \/
  (active s = true /\ remaining s = [] /\ pending s = [] /\
   exists r, check_for_failure s =
     {| remaining := remaining s; attempted := attempted s; valid := valid s; pending := pending s; statuses := statuses s;
        reason := r; active := false; failed_calls := S (failed_calls s) |}).
Proof.
  unfold check_for_failure. generalize "NoLocationHintsError"%string. intros nm.   (* keeps the literal out of the case analysis *)
  destruct (active s); [|auto]. destruct (remaining s) eqn:R; [|left; split; [reflexivity | right; left; discriminate]].
  destruct (pending s) eqn:P; [|left; split; [reflexivity | right; right; discriminate]].
  right. repeat (split; [reflexivity|]). unfold failed. destruct (nil_b (valid s)); cbn; rewrite ?R, ?P; eexists; reflexivity.
Qed.

Lemma cff_fields s :
  attempted (check_for_failure s) = attempted s /\ valid (check_for_failure s) = valid s /\
  pending (check_for_failure s) = pending s /\ statuses (check_for_failure s) = statuses s /\
  remaining (check_for_failure s) = remaining s.
Proof. destruct (cff_cases s) as [[-> _]|(_ & _ & _ & r & ->)]; repeat split. Qed.

Lemma connfail_fields e h s :
  attempted (connection_failed e h s) = attempted s /\ valid (connection_failed e h s) = valid s /\
  pending (connection_failed e h s) = pending s /\ statuses (connection_failed e h s) = (h, classify e) :: statuses s /\
  remaining (connection_failed e h s) = remaining s.
Proof. exact (cff_fields _). Qed.

Lemma consider_fields beh h s :
  attempted (consider beh h s) = attempted s /\ remaining (consider beh h s) = remaining s /\
  pending (consider beh h s) = (if is_pending (beh h) then h :: pending s else pending s) /\
  forall h', status_of h' (statuses (consider beh h s)) =
             if list_eqb h' h then Some (expected_status (beh h)) else status_of h' (statuses s).
Proof.
  unfold consider. destruct (beh h) as [| |e|e]; cbn [is_pending expected_status]; [auto | auto | |].
  - destruct (connfail_fields e h (good_hint h s)) as (-> & _ & -> & -> & ->). repeat split.
    intros h'. cbn [statuses good_hint status_of]. destruct (list_eqb h' h); reflexivity.
  - destruct (connfail_fields e h s) as (-> & _ & -> & -> & ->). auto.
Qed.

Lemma consider_attempted beh h s : attempted (consider beh h s) = attempted s.
Proof. apply consider_fields. Qed.

Lemma consider_remaining beh h s : remaining (consider beh h s) = remaining s.
Proof. apply consider_fields. Qed.

Definition Books (beh : hstr -> houtcome) (s : cas) : Prop :=
  forall h, (In h (pending s) <-> In h (attempted s) /\ is_pending (beh h) = true) /\
            (In h (attempted s) -> status_of h (statuses s) = Some (expected_status (beh h))).

Definition popped (rest : list hstr) (s : cas) : cas :=
  {| remaining := rest; attempted := attempted s; valid := valid s; pending := pending s; statuses := statuses s;
     reason := reason s; active := active s; failed_calls := failed_calls s |}.
Definition tried (h : hstr) (s : cas) : cas :=
  {| remaining := remaining s; attempted := h :: attempted s; valid := valid s; pending := pending s; statuses := statuses s;
     reason := reason s; active := active s; failed_calls := failed_calls s |}.

Lemma connect_loop_cons beh h rest s :
  connect_loop beh (h :: rest) s =
  connect_loop beh rest (if hmem h (attempted s) then popped rest s else consider beh h (tried h (popped rest s))).
Proof. cbn [connect_loop attempted]. destruct (hmem h (attempted s)); reflexivity. Qed.

Lemma consider_books beh x s : Books beh s -> Books beh (consider beh x (tried x s)).
Proof.
  intros B h. destruct (B h) as [P K].
  destruct (consider_fields beh x (tried x s)) as (-> & _ & -> & ->). cbn [tried attempted pending statuses In]. split.
  - destruct (is_pending (beh x)) eqn:E; cbn [In]; rewrite P.
    + split; [intros [<-|[H H']]; auto | intros [[<-|H] H']; auto].
    + split; [intros [H H']; auto | intros [[<-|H] H']; [congruence | auto]].
  - destruct (list_eqb h x) eqn:E; [apply list_eqb_eq in E; subst x; reflexivity|].
    intros [->|H]; [rewrite list_eqb_refl in E; discriminate | exact (K H)].
Qed.

Lemma loop_books beh : forall l s, Books beh s ->
  Books beh (connect_loop beh l s) /\
  forall h, In h (attempted (connect_loop beh l s)) <-> In h (attempted s) \/ In h l.
Proof.
  induction l as [|x rest IH]; intros s B.
  - cbn [connect_loop]. destruct (cff_fields s) as (A & _ & P & S & _). unfold Books. rewrite A, P, S.
    split; [exact B | intros h; split; [auto | intros [H|[]]; exact H]].
  - rewrite connect_loop_cons. destruct (hmem x (attempted s)) eqn:M.
    + destruct (IH (popped rest s) B) as [B' A]. split; [exact B'|]. intros h. rewrite A. cbn [popped attempted In].
      apply hmem_In in M. split; [intros [H|H]; auto | intros [H|[<-|H]]; auto].
    + destruct (IH _ (consider_books beh x (popped rest s) B)) as [B' A]. split; [exact B'|]. intros h.
      rewrite A, consider_attempted. cbn [tried popped attempted In]. split; [intros [[H|H]|H]; auto | intros [H|[H|H]]; auto].
Qed.

Lemma init_books beh hints : Books beh (init hints).
Proof. intros h. split; [split; [intros [] | intros [[] _]] | intros []]. Qed.

Lemma connect_all_books beh hints :
  Books beh (connect_all beh hints) /\ forall h, In h (attempted (connect_all beh hints)) <-> In h hints.
Proof.
  destruct (loop_books beh hints _ (init_books beh hints)) as [B A]. split; [exact B|].
  intros h. rewrite (A h). split; [intros [[]|H]; exact H | auto].
Qed.

Lemma pending_iff beh hints h : In h (pending (connect_all beh hints)) <-> In h hints /\ is_pending (beh h) = true.
Proof. destruct (connect_all_books beh hints) as [B A]. rewrite <- (A h). apply B. Qed.

Theorem every_hint_tried : forall beh hints h, In h hints -> In h (attempted (connect_all beh hints)).
Proof. intros beh hints h. apply connect_all_books. Qed.

(* a hint that yields a live endpoint is dialled, one whose handler is still waiting is held (is_pending) -- no exception
   of another hint keeps it from being tried *)
Theorem usable_hint_dialled : forall beh hints h, In h hints -> is_pending (beh h) = true ->
  In h (pending (connect_all beh hints)).
Proof. intros beh hints h H Hb. apply pending_iff. auto. Qed.

Theorem status_is_own : forall beh hints h, In h hints ->
  status_of h (statuses (connect_all beh hints)) = Some (expected_status (beh h)).
Proof.
  intros beh hints h H. destruct (connect_all_books beh hints) as [B A]. apply B, A, H.
Qed.

Definition Running (s : cas) : Prop := active s = true /\ failed_calls s = 0%nat.
Definition Reported (s : cas) : Prop := active s = false /\ failed_calls s = 1%nat /\ pending s = [] /\ remaining s = [].

Lemma cff_inactive s : active s = false -> check_for_failure s = s.
Proof. intros H. destruct (cff_cases s) as [[E _]|[A _]]; [exact E | congruence]. Qed.

Lemma cff_running s : Running s ->
  (check_for_failure s = s /\ (remaining s <> [] \/ pending s <> [])) \/ Reported (check_for_failure s).
Proof.
  intros [A F]. destruct (cff_cases s) as [[E [A'|N]]|(_ & R & P & r & ->)]; [congruence | left; auto | right].
  unfold Reported. cbn [active failed_calls pending remaining]. rewrite F. auto.
Qed.

Lemma connfail_running e h s : Running s ->
  (Running (connection_failed e h s) /\ (remaining s <> [] \/ pending s <> [])) \/ Reported (connection_failed e h s).
Proof.
  intros L. unfold connection_failed.
  match goal with |- context [check_for_failure ?y] => destruct (cff_running y L) as [[-> N]|D] end; [left; split; assumption | right; exact D].
Qed.

Lemma consider_running beh h s : Running s -> Running (consider beh h s) \/ Reported (consider beh h s).
Proof.
  intros L. unfold consider. destruct (beh h) as [| |e|e]; [left; exact L | left; exact L | |].
  - destruct (connfail_running e h (good_hint h s) L) as [[L' _]|D]; auto.
  - destruct (connfail_running e h s L) as [[L' _]|D]; auto.
Qed.

Lemma loop_failure beh : forall l s, remaining s = l -> Running s \/ Reported s ->
  let r := connect_loop beh l s in (Running r /\ pending r <> []) \/ Reported r.
Proof.
  induction l as [|x rest IH]; intros s R H; cbv zeta.
  - cbn [connect_loop]. destruct H as [L|D]; [|right; rewrite cff_inactive; [exact D | apply D]].
    destruct (cff_running s L) as [[-> [N|N]]|D]; [contradiction | left; auto | right; exact D].
  - assert (L : Running s) by (destruct H as [L|(_ & _ & _ & E)]; [exact L | congruence]).
    rewrite connect_loop_cons. apply IH; destruct (hmem x (attempted s)); [reflexivity | apply consider_remaining | left; exact L |].
    apply consider_running. exact L.
Qed.

(* never stalls: either a connection attempt is running (then the connect timer of Connector.v bounds the wait) and
   nothing has been reported, or failed() -- Tub.connectionFailed, which answers every waiting getReference -- ran
   exactly once before connect() returned; which of the two is decided by `usable` alone *)
Theorem connect_all_outcome : forall beh hints,
  let r := connect_all beh hints in
  (usable beh hints = true /\ pending r <> [] /\ active r = true /\ failed_calls r = 0%nat) \/
  (usable beh hints = false /\ pending r = [] /\ active r = false /\ failed_calls r = 1%nat).
Proof.
  intros beh hints. cbv zeta. unfold usable.
  destruct (loop_failure beh hints (init hints) eq_refl (or_introl (conj eq_refl eq_refl))) as [[[A F] P]|(A & F & P & _)];
    cbv zeta in *; fold (connect_all beh hints) in *.
  - left. split; [|auto]. apply existsb_exists.
    destruct (pending (connect_all beh hints)) as [|p ps] eqn:E; [congruence|].
    exists p. apply pending_iff. rewrite E. left. reflexivity.
  - right. split; [|auto]. destruct (existsb _ hints) eqn:E; [|reflexivity].
    apply existsb_exists in E as (h & E). apply pending_iff in E. rewrite P in E. destruct E.
Qed.

(* non-vacuity: a raising hint before and after a usable one; only raising hints; a duplicate *)
Example connect_all_examples :
  let beh := fun h : hstr => match h with [1] => HPending | [2] => HRaises "KeyError" | [3] => HRaises "InvalidHintError"
                                     | [4] => HConnectFails "ConnectionRefusedError" | _ => HRaises "TypeError" end in
  obs (connect_all beh [[2]; [1]; [3]; [1]; [4]]) =
    ([[2]; [1]; [3]; [4]], [[1]; [4]], 1, [([2], 2); ([1], 0); ([3], 1); ([4], 3)], Some "KeyError"%string, true, 0) /\
  obs (connect_all beh [[2]; [3]]) = ([[2]; [3]], [], 0, [([2], 2); ([3], 1)], Some "NoLocationHintsError"%string, false, 1) /\
  obs (connect_all beh []) = ([], [], 0, [], Some "NoLocationHintsError"%string, false, 1).
Proof. vm_compute. exact (conj eq_refl (conj eq_refl eq_refl)). Qed.
