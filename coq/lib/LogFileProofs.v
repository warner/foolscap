(* C18: the layers composed -- logger model (lib/LogBuf.v: WHICH events an incident file / a log file holds, and with
   which compression it is written and read) with the JSON model (lib/LogJson.v: what each line reads back as). *)
From Coq Require Import ZArith List Bool Lia.
Import ListNotations.
Require Import Verif.lib.PyLite Verif.gen.LogBufGen Verif.gen.LogJsonGen Verif.lib.LogBuf Verif.lib.LogBufProofs
               Verif.lib.LogJson Verif.lib.LogJsonProofs.
Local Open Scope Z_scope.

Definition ev_fields (msg : event -> Z) (x : event) := Some (fields (e_num x) (e_lvl x) (msg x)).

(* a log file (LogFileObserver, plain or .bz2): every event handed to it is read back by get_events, in order, with
   its number, level and message -- whatever else the events hold *)
Theorem logfile_events_read_back L (payload : event -> pv) (msg : event -> Z) from rx name_bz2 (evs : list event) : lims_ok L ->
  (forall x, In x evs -> is_event (payload x) (e_num x) (e_lvl x) (msg x)) ->
  exists js, write_lines L from rx (map payload evs) = Some js /\
             read_back name_bz2 (write_codec logfile_codec_from name_bz2 false) js = Some js /\
             map line_view js = map (ev_fields msg) evs.
Proof.
  intros HL Hp. destruct (all_lines_read_back L from rx payload e_num e_lvl msg evs HL Hp) as (js & W & V).
  exists js. split; [exact W|]. split; [apply read_back_logfile | exact V].
Qed.

(* LINE BY LINE: no hypothesis on the file as a whole.  Every line whose own event is an is_event reads back its number /
   level / message, every scalar member of every event dict reads back (line_ok of lib/LogJsonProofs.v); a format event
   or a non-integer number elsewhere in the file takes nothing away *)
Theorem logfile_lines_read_back L (payload : event -> pv) from rx name_bz2 (evs : list event) : lims_ok L ->
  exists js, write_lines L from rx (map payload evs) = Some js /\
             read_back name_bz2 (write_codec logfile_codec_from name_bz2 false) js = Some js /\
             Forall2 (fun x j => line_ok (payload x) j) evs js.
Proof.
  intros HL. destruct (each_line_reads_back L from rx payload evs HL) as (js & W & F).
  exists js. split; [exact W|]. split; [apply read_back_logfile | exact F].
Qed.

(* an incident file, BOTH reporters (the default reporter is the trailing one): the lines written at the moment of the
   trigger are everything buffered, the trigger among them; NonTrailing publishes  trigger :: lines  at once, the
   trailing reporter holds them (plus later events) until its timer / quota publishes  trigger :: lines ++ ..
   (C18_incident_timer_publishes, C18_incident_trailing).  The header line reads back the trigger's number / level /
   message if the trigger is an is_event, and any scalar member otherwise; the event lines read back line by line.
   Guard (exact, see incident_lost_when_sort_raises): no buffered number on which isinstance(.., int) raises. *)
Theorem incident_file_reads_back L (payload : event -> pv) from rx ty c sz b i e : lims_ok L ->
  c_fault c = NoFault -> c_qual c = true -> incident_level <= e_lvl e -> i_rep i = None -> i_zombie i = false ->
  1 <= limit_of sz (e_fac e) (e_lvl e) ->
  let a := add_event c sz b i e in
  nohost (x_bufs a) ->
  exists lines,
    (c_trailing c = false -> i_files (x_inc a) = i_files i ++ [e :: lines]) /\
    (c_trailing c = true -> i_rep (x_inc a) = Some (mkRep e lines TRAILING_EVENT_LIMIT true)) /\
    In e lines /\ Permutation.Permutation lines (all_buffered (x_bufs a)) /\
    (exists jh, serialize L (header ty (payload e) []) = Ok jh /\
       (forall n l m, is_event (payload e) n l m -> exists d, trigger_of_header jh = Some d /\ view3 d = fields n l m) /\
       (forall kv s v j0, is_event_dict (payload e) kv -> pfield s kv = Some v -> stable v j0 ->
          exists d, trigger_of_header jh = Some d /\ jfield s d = Some j0)) /\
    (exists js, write_lines L from rx (map payload lines) = Some js /\ Forall2 (fun x j => line_ok (payload x) j) lines js).
Proof.
  intros HL H1 H2 H3 H4 H5 H6 a Hh.
  assert (H6' : 0 <= limit_of sz (e_fac e) (e_lvl e)) by lia.
  destruct (incident_recorded_guarded c sz b i e H1 H2 H3 H4 H5 H6' Hh (enc_total _) (forallb_enc_total _)) as (_ & Hn & Ht).
  exists (sort_by_num (all_buffered (x_bufs a))). split; [exact Hn|]. split; [exact Ht|].
  split; [apply sort_with_in; eapply buf_get_in_all; apply trigger_buffered; exact H6|]. split; [apply sort_with_perm|]. split.
  - destruct (serialize_total L (header ty (payload e) []) HL) as [jh Hjh]. exists jh. split; [exact Hjh|]. split.
    + intros n l m He. exact (trigger_fields_survive L ty [] (payload e) n l m jh He Hjh).
    + intros kv s v j0 He Hp Hs. exact (trigger_field_survives L ty [] (payload e) kv s v j0 jh He Hp Hs Hjh).
  - apply each_line_reads_back. exact HL.
Qed.

(* when every buffered event is an is_event the whole file reads back *)
Corollary incident_file_reads_back_all L (payload : event -> pv) (msg : event -> Z) from rx c sz b i e : lims_ok L ->
  (forall x, In x (all_buffered (x_bufs (add_event c sz b i e))) -> is_event (payload x) (e_num x) (e_lvl x) (msg x)) ->
  exists js, write_lines L from rx (map payload (sort_by_num (all_buffered (x_bufs (add_event c sz b i e))))) = Some js /\
             map line_view js = map (ev_fields msg) (sort_by_num (all_buffered (x_bufs (add_event c sz b i e)))).
Proof.
  intros HL Hp. apply (all_lines_read_back L from rx payload e_num e_lvl msg); [exact HL|].
  intros x Hx. exact (Hp x (proj1 (sort_with_in _ _ x) Hx)).
Qed.

(* non-vacuity: a history (a 3000-deep value in the buffer, then a trigger) and a payload function satisfying the hypotheses *)
Definition ex_payload (x : event) : pv :=
  mk_event 10 (e_num x) (e_lvl x) 100 [(KStr 101, if e_ok x then PInt 1 else PDeep 3000 (PList 11 []))].

Example ex_incident_file_hyps :
  let c := mkCfg true false NoFault in
  let b := s_bufs (fst (run c init [Msg None 0 20 false true 0; Msg None 2 20 true true 1])) in
  let e := mkEv 2 0 30 true 2 NumInt in
  (forall x, In x (all_buffered (x_bufs (add_event c [] b init_inc e))) -> is_event (ex_payload x) (e_num x) (e_lvl x) 100) /\
  c_qual c = true /\ incident_level <= e_lvl e /\ 1 <= limit_of [] (e_fac e) (e_lvl e) /\ lims_ok cpython /\
  nohost (x_bufs (add_event c [] b init_inc e)).
Proof.
  cbv zeta. split; [|split; [reflexivity|split; [vm_compute; discriminate|split; [vm_compute; discriminate|split; [apply cpython_ok | vm_compute; reflexivity]]]]].
  intros x Hx.
  assert (Hb : Z.abs (e_num x) < 2 ^ 64 /\ Z.abs (e_lvl x) < 2 ^ 64)
    by (vm_compute in Hx; repeat (destruct Hx as [<-|Hx]; [split; reflexivity|]); contradiction).
  apply mk_event_is_event; [discriminate | discriminate | discriminate | repeat constructor; eexists; reflexivity | apply small_int_64, Hb ..].
Qed.

(* the same history with a format event and a non-integer number in the buffer: the guard still holds (NumOdd is inside
   it) although NOT every buffered event is an is_event; the per-line theorem applies *)
Example ex_incident_file_odd_hyps :
  let c := mkCfg true false NoFault in
  let b := s_bufs (fst (run c init [Msg (Some (900, NumOdd)) 0 20 false true 0; Msg None 2 20 true true 1])) in
  let e := mkEv 1 0 30 true 2 NumInt in
  nohost (x_bufs (add_event c [] b init_inc e)) /\ existsb (fun x => negb (is_int x)) (all_buffered (x_bufs (add_event c [] b init_inc e))) = true.
Proof. vm_compute. split; reflexivity. Qed.
