(* C13: theorems about lib/NegWire.v -- one block across the wire (sendBlock, splitter, parseLines composed), out-of-order
   blocks, and the phase machine read from Negotiation.dataReceived. *)
From Coq Require Import ZArith List String Bool Lia Arith.
Import ListNotations.
Require Import Verif.lib.PyLite Verif.gen.NegotiateGen Verif.lib.Negotiate Verif.lib.NegotiateProofs Verif.lib.NegCodec
  Verif.gen.NegCodecGen Verif.lib.NegSplit Verif.lib.NegSplitProofs Verif.lib.NegCodecProofs Verif.lib.NegWire.
Local Open Scope Z_scope.

Lemma In_eqb k l : existsb (list_eqb k) l = true -> In k l.
Proof. intros H. apply existsb_exists in H as (x & Hx & E). apply list_eqb_eq in E. subst x. exact Hx. Qed.

(* every key the sender stores in a hello / decision block is one the receiving methods look up (both sides read from the
   source; HOW the value is taken apart is the hand-written part of lib/NegWire.v, tied by running the real methods) *)
Theorem keys_written_are_read :
  In hello_key_version_range_written hello_keys_read /\
  In hello_key_vocab_range_written hello_keys_read /\
  In hello_key_tubid_written hello_keys_read /\
  In error_key hello_keys_read /\
  In decision_key_version_written decision_keys_read /\
  In decision_key_vocab_written decision_keys_read /\
  In error_key decision_keys_read.
Proof. repeat apply conj; apply In_eqb; reflexivity. Qed.

(* one block across the wire (sendBlock, the splitter's terminator search and cap, parseLines) arrives as itself; the bytes
   sent behind it are left over for the next phase *)
Theorem deliver_round_trip d rest :
  d <> [] -> canonical d -> Forall wf_pair d -> (List.length (header_of d) <= cap)%nat ->
  deliver d rest = Ok (d, rest).
Proof.
  intros NE C W L. destruct (block_round_trip d rest NE C W) as (wire & S & F & P1 & P2 & P3).
  unfold deliver, bind. rewrite S, F.
  destruct (Nat.ltb_spec cap (List.length (header_of d))); [lia|]. rewrite P1, P3, P2. reflexivity.
Qed.

Lemma drain_zero (ok : list Z -> bool) f buf : drain ok f buf 0 = (NPass, [], buf).
Proof. destruct f; reflexivity. Qed.

(* the same through the packet-level splitter of lib/NegSplit.v, for EVERY packetisation of the stream: the phase handler
   is given exactly the header of the block, once *)
Theorem deliver_any_chunking (ok : list Z -> bool) d rest (cs : list (list Z)) :
  d <> [] -> canonical d -> Forall wf_pair d -> (List.length (header_of d) <= cap)%nat ->
  List.concat cs = wire_of d ++ rest ->
  nfeed_all ok (NWait [] 1) cs =
    if ok (header_of d) then (NPass, [header_of d], rest) else (NDead, [header_of d], []).
Proof.
  intros NE C W L E. rewrite (nfeed_all_concat ok cs (NWait [] 1) (init_stable 0)). rewrite E.
  destruct (block_round_trip d rest NE C W) as (wire & S & F & P1 & P2 & P3).
  rewrite (send_canonical d C W) in S. inversion S; subst wire.
  cbn [nfeed app]. cbn [drain]. rewrite F.
  destruct (Nat.ltb_spec cap (List.length (header_of d))); [lia|]. rewrite P1, P2.
  destruct (ok (header_of d)); [rewrite drain_zero|]; reflexivity.
Qed.

Section WireFacts.
Variable hf : Z -> list Z.

(* out-of-order input, by content: a decision block that arrives where a hello is expected (phase ENCRYPTED,
   handleENCRYPTED) is refused with the negotiation error, whatever it decides ... *)
Theorem decision_where_hello_expected me m offer ver dec :
  decide_wire hf m offer ver = Ok dec -> eval_hello_wire me (fst dec) = Exc "NegotiationError".
Proof.
  unfold decide_wire, bind. destruct (parse_pair_lax _) as [p|]; [|discriminate].
  destruct (best_overlap _ _ _ _) as [idx|]; [|discriminate]. intros E; inversion E; subst; cbn [fst].
  reflexivity.
Qed.

(* ... and a hello block that arrives where the decision is expected (phase DECIDING, handleDECIDING: a second hello, or
   the hello of a peer that believes it is not the decider) is refused with the negotiation error *)
Theorem hello_where_decision_expected me e : accept_wire hf me (hello_block e) = Exc "NegotiationError".
Proof. reflexivity. Qed.

(* an error block is understood in both phases, by every receiver that has the accept method of the version stamped on it *)
Theorem error_block_understood me (msg : list Z) :
  let blk := dset (dset [] decision_key_version_written (fmt_d error_block_version)) error_key msg in
  eval_hello_wire me blk = Exc "RemoteNegotiationError" /\
  (ep_accepts me error_block_version = true -> accept_wire hf me blk = Exc "RemoteNegotiationError").
Proof.
  cbv zeta. split; [reflexivity|]. intros A.
  transitivity (if negb (ep_accepts me error_block_version) then Exc "AttributeError" else @Exc params "RemoteNegotiationError");
    [reflexivity|rewrite A; reflexivity].
Qed.

End WireFacts.

(* every class of this tree has the accept method for the version stamped on error blocks *)
Theorem error_block_version_has_accept_method : In error_block_version class_accept_versions.
Proof. vm_compute. auto. Qed.

(* phases by their numbers in negotiate.py: 0 PLAINTEXT, 1 ENCRYPTED, 2 DECIDING, 3 BANANA *)
Definition legal (s : nstate) : Prop :=
  In (ns_recv s, ns_send s, ns_switched s, ns_client s)
     [(0, 0, false, false); (0, 1, false, true);
      (1, 1, false, false); (1, 1, false, true); (2, 3, false, false); (2, 3, false, true);
      (1, 3, true, false); (1, 3, true, true); (2, 3, true, false); (2, 3, true, true)]
  \/ ns_dead s = true.

(* the table read by phase: before the switch the send phase is determined by the receive phase (a client has sent its
   request when the object is made); the switch happens in ENCRYPTED (decider) or DECIDING, with nothing left to send *)
Definition row_shape (t : Z * Z * bool * bool) : Prop :=
  let '(r, sd, sw, cl) := t in
  if sw then sd = ph_BANANA /\ (r = ph_ENCRYPTED \/ r = ph_DECIDING)
  else (r = ph_PLAINTEXT /\ sd = if cl then ph_ENCRYPTED else ph_PLAINTEXT) \/
       (r = ph_ENCRYPTED /\ sd = ph_ENCRYPTED) \/
       (r = ph_DECIDING /\ sd = ph_BANANA).

Lemma legal_live s : legal s -> ns_dead s = false -> row_shape (ns_recv s, ns_send s, ns_switched s, ns_client s).
Proof.
  intros [H|H] D; [|congruence]. revert H. apply Forall_forall. repeat (apply Forall_cons; [cbn; auto|]). apply Forall_nil.
Qed.

(* membership in the table by a boolean test, so that its proof is an evaluation and not a term as large as the table *)
Definition row_eqb (x y : Z * Z * bool * bool) : bool :=
  let '(r, sd, sw, cl) := x in let '(r', sd', sw', cl') := y in (r =? r') && (sd =? sd') && eqb sw sw' && eqb cl cl'.

Lemma In_row x l : existsb (row_eqb x) l = true -> In x l.
Proof.
  intros H. apply existsb_exists in H as (y & Hy & E). destruct x as [[[r sd] sw] cl], y as [[[r' sd'] sw'] cl'].
  cbn [row_eqb] in E. apply andb_true_iff in E as [E Ec]. apply andb_true_iff in E as [E Ew]. apply andb_true_iff in E as [Er Es].
  apply Z.eqb_eq in Er, Es. apply eqb_prop in Ew, Ec. subst. exact Hy.
Qed.

Lemma legal_init c : legal (init_state c).
Proof. left. apply In_row. destruct c; reflexivity. Qed.

Lemma dead_absorbs s v : ns_dead s = true -> on_block s v = s.
Proof. intros H. unfold on_block. rewrite H. reflexivity. Qed.

Lemma switched_absorbs s v : ns_switched s = true -> on_block s v = s.
Proof. intros H. unfold on_block. rewrite H, orb_true_r. reflexivity. Qed.

Lemma on_block_plaintext s v : ns_dead s = false -> ns_switched s = false -> ns_recv s = ph_PLAINTEXT ->
  on_block s v = match v with
                 | VGood => set_phases s ph_ENCRYPTED (if ns_client s then ns_send s else ph_ENCRYPTED) false
                 | _ => fail_with s (ns_send s)
                 end.
Proof. intros D W R. unfold on_block. rewrite D, W, R. destruct (ns_client s); reflexivity. Qed.

Lemma on_block_encrypted s v : ns_dead s = false -> ns_switched s = false -> ns_recv s = ph_ENCRYPTED ->
  on_block s v = match v with
                 | VHelloIDecide => set_phases s ph_ENCRYPTED ph_BANANA true
                 | VHelloIRefuse => fail_with s ph_DECIDING
                 | VHelloIWait => set_phases s ph_DECIDING ph_BANANA false
                 | _ => fail_with s (ns_send s)
                 end.
Proof. intros D W R. unfold on_block. rewrite D, W, R. reflexivity. Qed.

Lemma on_block_deciding s v : ns_dead s = false -> ns_switched s = false -> ns_recv s = ph_DECIDING ->
  on_block s v = match v with VGood => set_phases s ph_DECIDING (ns_send s) true | _ => fail_with s (ns_send s) end.
Proof. intros D W R. unfold on_block. rewrite D, W, R. reflexivity. Qed.

Inductive block_effect (s : nstate) : nstate -> Prop :=
| Ignored : block_effect s s
| Advanced r sd sw : ns_recv s <= r -> ns_send s <= sd -> (ns_recv s < r \/ sw = true) -> legal (set_phases s r sd sw) ->
                     block_effect s (set_phases s r sd sw)
| Ended sd : ns_send s <= sd -> block_effect s (fail_with s sd).

Lemma on_block_effect s v : legal s -> block_effect s (on_block s v).
Proof.
  intros L.
  destruct (ns_dead s) eqn:D; [rewrite dead_absorbs by exact D; apply Ignored|].
  destruct (ns_switched s) eqn:W; [rewrite switched_absorbs by exact W; apply Ignored|].
  pose proof (legal_live s L D) as Sh. cbn [row_shape] in Sh. rewrite W in Sh.
  destruct Sh as [[R S]|[[R S]|[R S]]].
  - rewrite (on_block_plaintext s v D W R). destruct v; try apply Ended, Z.le_refl.
    apply Advanced; rewrite ?R, ?S; [discriminate|destruct (ns_client s); discriminate|left; reflexivity|].
    left. apply In_row. cbn. destruct (ns_client s); reflexivity.
  - rewrite (on_block_encrypted s v D W R). destruct v; try apply Ended, Z.le_refl.
    + apply Advanced; rewrite ?R, ?S; [discriminate|discriminate|right; reflexivity|].
      left. apply In_row. cbn. destruct (ns_client s); reflexivity.
    + apply Ended. rewrite S. discriminate.
    + apply Advanced; rewrite ?R, ?S; [discriminate|discriminate|left; reflexivity|].
      left. apply In_row. cbn. destruct (ns_client s); reflexivity.
  - rewrite (on_block_deciding s v D W R). destruct v; try apply Ended, Z.le_refl.
    apply Advanced; rewrite ?R, ?S; [discriminate|discriminate|right; reflexivity|].
    left. apply In_row. cbn. destruct (ns_client s); reflexivity.
Qed.

(* C13, "out-of-order ... input only ever ends that connection attempt": a header block in ANY legal state, whatever the
   handler makes of its content, either
     (a) is not looked at (the object is dead, has switched to Banana, or is ABANDONED), or
     (b) advances along the legal order: no phase goes back, and the receive phase goes forward or the connection switches, or
     (c) ends the attempt: the object is dead, nothing else about it changes except the record of how the refusal is
         reported, which is the report that dataReceived's catch-all makes for the send phase reached. *)
Theorem block_advances_or_ends s v : legal s ->
  let s' := on_block s v in
  s' = s \/
  (ns_dead s' = false /\ ns_recv s <= ns_recv s' /\ ns_send s <= ns_send s' /\ (ns_recv s < ns_recv s' \/ ns_switched s' = true)
   /\ ns_client s' = ns_client s) \/
  (ns_dead s' = true /\ ns_switched s' = ns_switched s /\ ns_recv s' = ns_recv s /\ ns_client s' = ns_client s /\
   ns_send s <= ns_send s' /\ ns_report s' = error_report (ns_send s')).
Proof.
  intros L. cbv zeta.
  destruct (on_block_effect s v L) as [|r sd sw Hr Hs Hw _|sd Hs]; [left; reflexivity|right; left; cbn; auto|right; right; cbn; auto 7].
Qed.

Theorem legal_preserved s v : legal s -> legal (on_block s v).
Proof. intros L. destruct (on_block_effect s v L) as [|r sd sw _ _ _ L'|sd _]; [exact L|exact L'|right; reflexivity]. Qed.

Theorem legal_run vs : forall s, legal s -> legal (run_blocks s vs).
Proof. induction vs as [|v vs IH]; intros s L; [exact L|]. cbn [run_blocks fold_left]. apply IH. apply legal_preserved. exact L. Qed.

(* every state reached from a fresh client or server object by any sequence of blocks is legal *)
Theorem legal_run_from_init c vs : legal (run_blocks (init_state c) vs).
Proof. apply legal_run. apply legal_init. Qed.

(* the `assert 0` arm of the dispatch is never taken *)
Theorem dispatch_total_on_legal s : legal s -> ns_dead s = false -> dispatch (ns_recv s) (ns_client s) <> 4.
Proof.
  intros L D. pose proof (legal_live s L D) as Sh. cbn [row_shape] in Sh.
  destruct (ns_switched s); [destruct Sh as [_ [-> | ->]]|destruct Sh as [[-> _]|[[-> _]|[-> _]]]]; try discriminate.
  destruct (ns_client s); discriminate.
Qed.

Theorem ended_stays_ended s vs : ns_dead s = true -> run_blocks s vs = s.
Proof. intros D. induction vs as [|v vs IH]; [reflexivity|]. cbn [run_blocks fold_left]. rewrite (dead_absorbs s v D). exact IH. Qed.

(* after connectionLost the object ignores input by the translated guard alone (receive_phase = ABANDONED) *)
Theorem abandoned_ignores_input s : ns_switched s = false -> input_ignored (ns_recv (on_lost s)) (ns_client (on_lost s)) = true.
Proof. intros H. unfold on_lost. rewrite H. reflexivity. Qed.

(* every store to receive_phase / send_phase in the class (read from the source) is one the machine knows: the receive phase
   is only ever set to ENCRYPTED, DECIDING or ABANDONED, the send phase to ENCRYPTED, DECIDING or BANANA *)
Theorem phase_stores_known :
  Forall (fun mv => In (snd mv) [ph_ENCRYPTED; ph_DECIDING; ph_ABANDONED]) receive_phase_stores /\
  Forall (fun mv => In (snd mv) [ph_ENCRYPTED; ph_DECIDING; ph_BANANA]) send_phase_stores.
Proof.
  split; repeat (apply Forall_cons; [cbn; auto|]); apply Forall_nil.
Qed.

Example story_client_waits : state_code (run_blocks (init_state true) [VGood; VHelloIWait; VGood]) = [2; 3; 1; 0; 3].
Proof. vm_compute. reflexivity. Qed.
Example story_server_decides : state_code (run_blocks (init_state false) [VGood; VHelloIDecide]) = [1; 3; 1; 0; 3].
Proof. vm_compute. reflexivity. Qed.
Example story_decider_refuses : state_code (run_blocks (init_state false) [VGood; VHelloIRefuse; VGood]) = [1; 2; 0; 1; 1].
Proof. vm_compute. reflexivity. Qed.
Example story_bad_decision : state_code (run_blocks (init_state true) [VGood; VHelloIWait; VBad]) = [2; 3; 0; 1; 2].
Proof. vm_compute. reflexivity. Qed.
