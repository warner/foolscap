(* C18: proofs about lib/LogJson.v (the JSON fallback chain of flogfile.py) for ALL values of the universe and all
   budgets of the interpreter:
     serialize_total         serialize_to_json_utf8 never raises
     path_survives           whatever stage produced the line, a JSON scalar reached through text keys reads back unchanged
     event_field_survives    ... so every scalar member of the event inside a line does (number / level / message:
                             event_fields_survive), and of the trigger inside an incident file's header (trigger_field_survives)
     file_lines_read_back    a whole file: one line per event, in order, each reading back what its own event warrants
   Proofs split on the translated facts by computation only (vm_compute on closed terms), so a rewrite of flogfile.py
   that keeps the facts keeps the proofs. *)
From Coq Require Import ZArith List Bool Lia.
Import ListNotations.
Require Import Verif.lib.PyLite Verif.gen.LogJsonGen Verif.lib.LogJson.
Local Open Scope Z_scope.

(* the C encoder accepts the few levels _last_resort leaves, and prints every integer _last_resort keeps *)
Definition lims_ok (L : lims) : Prop :=
  lr_default_depth + 1 <= l_json_depth L /\ (forall z, lr_int_ok (PInt z) = true -> printable L z = true).

Lemma lims_ok_above L : lr_default_depth + 1 <= l_json_depth L -> 2 ^ 64 <= l_int_bound L -> lims_ok L.
Proof.
  intros Hd Hb. split; [exact Hd|]. intros z H. apply Z.ltb_lt in H. apply Z.ltb_lt. exact (Z.lt_le_trans _ _ _ H Hb).
Qed.

Lemma cpython_ok : lims_ok cpython.
Proof.
  apply lims_ok_above; [vm_compute; discriminate|]. change (l_int_bound cpython) with (Z.shiftl 1 14284).
  (* 2^64 <= 2^14284 by comparing the exponents: the large power is never computed *)
  rewrite Z.shiftl_1_l. apply Z.pow_le_mono_r; [reflexivity | discriminate].
Qed.

Definition small_int (n : Z) : Prop := lr_int_ok (PInt n) = true.

Lemma small_int_64 n : Z.abs n < 2 ^ 64 -> small_int n.
Proof. intros H. apply Z.ltb_lt. exact H. Qed.

(* an event: a dict (not the wrapper itself) holding an integer number, an integer level and a text message *)
Definition is_event (e : pv) (n l m : Z) : Prop :=
  exists id kv, e = PDict id kv /\ id <> WRAP_ID /\ id <> HDR_ID /\ id <> HDR2_ID /\ text_keys kv /\
    pfield K_num kv = Some (PInt n) /\ pfield K_level kv = Some (PInt l) /\ pfield K_message kv = Some (PStr m) /\
    small_int n /\ small_int l.

Definition fields (n l m : Z) : option jv * option jv * option jv := (Some (JInt n), Some (JInt l), Some (JStr m)).

(* is_event above speaks of events that carry a text 'message' and integer number / level.  An event logged with
   format= has NO 'message' key (log.py _msg: `if "format" in event: pass`), a level may be a float, a number
   any object.  What the three stages really preserve is every member of the event dict whose value is a JSON scalar --
   None, a bool, a float, text, an integer below 2^64 -- under whatever text key it sits: the number, the level, the
   message, the format string, every named argument of that kind.  A member whose value needed the fallback encoder (an
   object, bytes, a set: ExtendedEncoder.default; a non-text key, a cycle: _make_jsonable; depth / huge integers:
   _last_resort) reads back as its replacement record or text, NOT as the value: the text format_message renders from
   the read-back event then shows the replacement where the emitted event showed str(value) (ex_format_arg_replaced).
   (floats: json's round trip of a float is taken as the identity, like the rest of CPython's json; NaN != NaN.) *)
Inductive stable : pv -> jv -> Prop :=
| stable_int n : small_int n -> stable (PInt n) (JInt n)
| stable_str m : stable (PStr m) (JStr m)
| stable_bool b : stable (PBool b) (JBool b)
| stable_none : stable PNone JNull
| stable_float f : stable (PFloat f) (JFloat f).

(* an event dict as log.msg builds it: a dict of its own (not the wrapper / header records) with text keys (kwargs) *)
Definition is_event_dict (e : pv) (kv : list (pkey * pv)) : Prop :=
  exists id, e = PDict id kv /\ id <> WRAP_ID /\ id <> HDR_ID /\ id <> HDR2_ID /\ text_keys kv.

Definition trigger_of_header (j : jv) : option jv := match jfield K_header j with Some h => jfield K_trigger h | None => None end.

Definition line_view (j : jv) := match event_of_line j with Some d => Some (view3 d) | None => None end.

Lemma map_res_cons {A B} (f : A -> res B) x t :
  map_res f (x :: t) = match f x with Raise e => Raise e | Ok y => match map_res f t with Raise e => Raise e | Ok ys => Ok (y :: ys) end end.
Proof. reflexivity. Qed.

Lemma map_res_all_ok {A B} (f : A -> res B) l : (forall x, In x l -> exists y, f x = Ok y) -> exists ys, map_res f l = Ok ys.
Proof.
  induction l as [|x t IH]; intros H; [exists []; reflexivity|]. rewrite map_res_cons.
  destruct (H x (or_introl eq_refl)) as [y ->]. destruct IH as [ys ->]; [intros z Hz; apply H; right; exact Hz|]. eauto.
Qed.

(* json.dumps and _make_jsonable both rebuild a dict entry by entry: the key through fk, the value through g *)
Definition on_entry {V W} (fk : pkey -> res pkey) (g : V -> res W) (e : pkey * V) : res (pkey * W) :=
  match e with
  | (k, v) => match fk k with Raise x => Raise x | Ok k' => match g v with Ok w => Ok (k', w) | Raise x => Raise x end end
  end.

(* pfield and jfield_l are this function at pv and at jv *)
Definition field {V} : Z -> list (pkey * V) -> option V :=
  fix field s kv := match kv with [] => None | (k, v) :: t => if key_is s k then Some v else field s t end.

Lemma on_entry_field {V W} (fk : pkey -> res pkey) (g : V -> res W) s :
  (forall k k', fk k = Ok k' -> key_is s k' = key_is s k) ->
  forall kv kw v, map_res (on_entry fk g) kv = Ok kw -> field s kv = Some v -> exists w, g v = Ok w /\ field s kw = Some w.
Proof.
  intros Hk. induction kv as [|[k v0] t IH]; intros kw v H Hp; [discriminate|].
  rewrite map_res_cons in H. cbn [on_entry] in H.
  destruct (fk k) as [k'|] eqn:Ek; [|discriminate]. destruct (g v0) as [w0|] eqn:Eg; [|discriminate].
  destruct (map_res (on_entry fk g) t) as [tw|]; [|discriminate]. injection H as <-.
  cbn [field] in Hp |- *. rewrite (Hk _ _ Ek). destruct (key_is s k).
  - injection Hp as <-. eauto.
  - exact (IH _ _ eq_refl Hp).
Qed.

Lemma json_key_same L k k' : json_key L k = Ok k' -> k' = k.
Proof. destruct k; cbn [json_key]; try destruct (printable L z); intros [= <-]; reflexivity. Qed.

Lemma dumps_field L ext mk d id kv j s v :
  dumps L ext mk d (PDict id kv) = Ok j -> pfield s kv = Some v ->
  exists j', dumps L ext (id :: mk) (d + 1) v = Ok j' /\ jfield s j = Some j'.
Proof.
  cbn [dumps]. destruct (l_json_depth L <=? d); [discriminate|].
  destruct (map_res _ kv) as [js|] eqn:Em; [|discriminate]. intros [= <-].
  exact (on_entry_field (json_key L) _ s (fun k k' E => f_equal (key_is s) (json_key_same L k k' E)) kv js v Em).
Qed.

Lemma dumps_stable L ext mk d v j0 j : stable v j0 -> dumps L ext mk d v = Ok j -> j = j0.
Proof. intros [n _|m|b| |f]; cbn [dumps]; try destruct (printable L n); intros [= <-]; reflexivity. Qed.

Lemma mj_key_is s k k' : mj_key k = Ok k' -> key_is s k' = key_is s k.
Proof.
  unfold mj_key. destruct (isinst (ktype_of k) mj_key_keep) eqn:E; [intros [= <-]; reflexivity|].
  destruct k; try (vm_compute in E; discriminate E); try destruct mj_key_repr_guarded; intros [= <-]; reflexivity.
Qed.

Lemma mj_dict L seen d id kv o2 : memZ id seen = false -> mj L seen d (PDict id kv) = Ok o2 ->
  exists kv', o2 = PDict id kv' /\
    forall s v, pfield s kv = Some v -> exists v', mj L (id :: seen) (d + 1) v = Ok v' /\ pfield s kv' = Some v'.
Proof.
  intros Hs. cbn [mj]. destruct (isinst TDict mj_container_types) eqn:Ec; [|vm_compute in Ec; discriminate].
  unfold mj_enter. rewrite Hs, andb_false_r. destruct (l_py_depth L <=? d); [discriminate|].
  destruct (map_res _ kv) as [kv'|] eqn:Em; [|discriminate]. intros [= <-]. exists kv'. split; [reflexivity|].
  intros s v. exact (on_entry_field mj_key _ s (mj_key_is s) kv kv' v Em).
Qed.

Lemma mj_stable L seen d v j0 : stable v j0 -> mj L seen d v = Ok v.
Proof. intros []; reflexivity. Qed.

Lemma lr_eq depth env o : lr depth env o =
  let o' := resolve env o in
  if isinst (vtype_of o') lr_scalar_types then o'
  else if lr_int_ok o' then o'
  else match o', depth with
       | PDict id kv, S dd => PDict id (map (fun e : pkey * pv => (lr_key (fst e), lr dd ((id, o') :: env) (snd e))) kv)
       | _, _ => PFixed FValPlace
       end.
Proof. destruct depth; reflexivity. Qed.

Lemma lr_dict dd env id kv :
  lr (S dd) env (PDict id kv) = PDict id (map (fun e : pkey * pv => (lr_key (fst e), lr dd ((id, PDict id kv) :: env) (snd e))) kv).
Proof. rewrite lr_eq. reflexivity. Qed.

Lemma lr_stable dd env v j0 : stable v j0 -> lr dd env v = v.
Proof. intros [n Hn|m|b| |f]; rewrite lr_eq; cbn [resolve]; cbv zeta; try rewrite Hn; reflexivity. Qed.

Lemma lr_key_is s k : key_is s (lr_key k) = key_is s k.
Proof. destruct k; reflexivity. Qed.

Lemma json_key_lr_key L k : json_key L (lr_key k) = Ok (lr_key k).
Proof. destruct k; reflexivity. Qed.

Lemma pfield_map_lr s (g : pv -> pv) kv v : pfield s kv = Some v ->
  pfield s (map (fun e : pkey * pv => (lr_key (fst e), g (snd e))) kv) = Some (g v).
Proof.
  induction kv as [|[k v0] t IH]; [discriminate|]. cbn [pfield map fst snd]. rewrite lr_key_is.
  destruct (key_is s k); [intros [= <-]; reflexivity | exact IH].
Qed.

(* the plain encoder takes whatever _last_resort returns *)
Lemma dumps_kept L ext mk d o : (forall z, lr_int_ok (PInt z) = true -> printable L z = true) ->
  isinst (vtype_of o) lr_scalar_types = true \/ lr_int_ok o = true -> exists j, dumps L ext mk d o = Ok j.
Proof.
  intros Hint [E|E].
  - destruct o as [| | | | | |[] ?| | | | |]; try (vm_compute in E; discriminate E); cbn [dumps]; eauto.
  - destruct o; try discriminate E; cbn [dumps]; [|rewrite (Hint _ E)]; eauto.
Qed.

Lemma lr_dumps_ok L : (forall z, lr_int_ok (PInt z) = true -> printable L z = true) ->
  forall depth env o mk d, d + Z.of_nat depth < l_json_depth L -> exists j, dumps L false mk d (lr depth env o) = Ok j.
Proof.
  (* course-of-values induction, so that the depth is split only where it matters: at a dict *)
  intros Hint depth. induction depth as [depth IH] using lt_wf_ind. intros env o mk d Hd.
  rewrite lr_eq. cbv zeta. set (o' := resolve env o).
  destruct (isinst (vtype_of o') lr_scalar_types) eqn:E1; [apply dumps_kept; auto|].
  destruct (lr_int_ok o') eqn:E2; [apply dumps_kept; auto|].
  destruct o'; try (eexists; reflexivity). destruct depth as [|dd]; [eexists; reflexivity|].
  cbn [dumps]. destruct (Z.leb_spec (l_json_depth L) d) as [E3|_]; [lia|].
  match goal with |- context [map_res ?f ?l] => destruct (map_res_all_ok f l) as [ys ->]; [|eauto] end.
  intros e He. apply in_map_iff in He. destruct He as [[k v] [<- _]]. cbn [fst snd]. rewrite json_key_lr_key.
  destruct (IH dd (Nat.lt_succ_diag_r dd) ((id, PDict id kv) :: env) v (id :: mk) (d + 1)) as [j ->]; [lia | eauto].
Qed.

Lemma stage3_ok L o : lims_ok L -> exists j, stage3 L o = Ok j.
Proof.
  intros [Hd Hi]. apply lr_dumps_ok; [exact Hi|].
  assert (0 <= lr_default_depth) by (vm_compute; discriminate). lia.
Qed.

Lemma catch1_all e : (2 <=? ser_stages) && catches ser_catch1 e = true.
Proof. destruct e; vm_compute; reflexivity. Qed.

Lemma catch2_all e : (3 <=? ser_stages) && catches ser_catch2 e = true.
Proof. destruct e; vm_compute; reflexivity. Qed.

Theorem serialize_st_total L o : lims_ok L -> exists j st, serialize_st L o = Ok (j, st) /\ 1 <= st <= 3.
Proof.
  intros HL. unfold serialize_st. destruct (stage1 L o) as [j|e1]; [exists j, 1; split; [reflexivity|lia]|].
  rewrite catch1_all. destruct (stage2 L o) as [j|e2]; [exists j, 2; split; [reflexivity|lia]|].
  rewrite catch2_all. destruct (stage3_ok L o HL) as [j ->]. exists j, 3; split; [reflexivity|lia].
Qed.

Theorem serialize_total L o : lims_ok L -> exists j, serialize L o = Ok j.
Proof. intros HL. unfold serialize. destruct (serialize_st_total L o HL) as (j & st & -> & _). eauto. Qed.

Lemma serialize_stage L o j : serialize L o = Ok j -> stage1 L o = Ok j \/ stage2 L o = Ok j \/ stage3 L o = Ok j.
Proof.
  unfold serialize, serialize_st. destruct (stage1 L o) as [j1|e1]; [intros [= <-]; auto|].
  destruct ((2 <=? ser_stages) && catches ser_catch1 e1); [|discriminate].
  destruct (stage2 L o) as [j2|e2]; [intros [= <-]; auto|].
  destruct ((3 <=? ser_stages) && catches ser_catch2 e2); [|discriminate].
  destruct (stage3 L o) as [j3|e3]; [intros [= <-]; auto | discriminate].
Qed.

(* v sits in o under the text keys p; every dict on the way has an identity that is not in seen and is not that of a
   dict around it: the cycle test of _make_jsonable (ids of the enclosing containers) then leaves the way to v alone *)
Inductive at_path : list Z -> pv -> list Z -> pv -> Prop :=
| at_here seen v : at_path seen v [] v
| at_field seen id kv s w p v : memZ id seen = false -> pfield s kv = Some w -> at_path (id :: seen) w p v ->
    at_path seen (PDict id kv) (s :: p) v.

Fixpoint jget (p : list Z) (j : jv) : option jv :=
  match p with [] => Some j | s :: q => match jfield s j with Some d => jget q d | None => None end end.

Lemma jget_cons s p j x : jget (s :: p) j = Some x -> exists d, jfield s j = Some d /\ jget p d = Some x.
Proof. cbn [jget]. destruct (jfield s j) as [d|]; [eauto | discriminate]. Qed.

Lemma dumps_path L ext seen o p v j0 : at_path seen o p v -> stable v j0 ->
  forall mk d j, dumps L ext mk d o = Ok j -> jget p j = Some j0.
Proof.
  induction 1 as [seen v|seen id kv s w p v _ Hp _ IH]; intros Hs mk d j H.
  - rewrite (dumps_stable _ _ _ _ _ _ _ Hs H). reflexivity.
  - destruct (dumps_field _ _ _ _ _ _ _ _ _ H Hp) as (j' & Hj' & Hf). cbn [jget]. rewrite Hf. exact (IH Hs _ _ _ Hj').
Qed.

Lemma mj_path L seen o p v j0 : at_path seen o p v -> stable v j0 ->
  forall d o', mj L seen d o = Ok o' -> at_path seen o' p v.
Proof.
  induction 1 as [seen v|seen id kv s w p v Hid Hp _ IH]; intros Hs d o' H.
  - rewrite (mj_stable _ _ _ _ _ Hs) in H. injection H as <-. constructor.
  - destruct (mj_dict _ _ _ _ _ _ Hid H) as (kv' & -> & F). destruct (F _ _ Hp) as (w' & Hw & Hp').
    exact (at_field _ _ _ _ _ _ _ Hid Hp' (IH Hs _ _ Hw)).
Qed.

Lemma lr_path seen o p v j0 : at_path seen o p v -> stable v j0 ->
  forall depth env, (length p <= depth)%nat -> at_path seen (lr depth env o) p v.
Proof.
  induction 1 as [seen v|seen id kv s w p v Hid Hp _ IH]; intros Hs depth env Hd.
  - rewrite (lr_stable _ _ _ _ Hs). constructor.
  - destruct depth as [|dd]; [inversion Hd|]. rewrite lr_dict.
    exact (at_field _ _ _ _ _ _ _ Hid (pfield_map_lr _ _ _ _ Hp) (IH Hs _ _ (le_S_n _ _ Hd))).
Qed.

(* whichever stage produced the line *)
Theorem path_survives L o p v j0 j : at_path [] o p v -> stable v j0 -> (length p <= Z.to_nat lr_default_depth)%nat ->
  serialize L o = Ok j -> jget p j = Some j0.
Proof.
  intros P Hs Hd H. destruct (serialize_stage _ _ _ H) as [H1|[H2|H3]].
  - exact (dumps_path _ _ _ _ _ _ _ P Hs _ _ _ H1).
  - unfold stage2, bind in H2. destruct (mj L [] 0 o) as [o'|] eqn:Em; [|discriminate].
    exact (dumps_path _ _ _ _ _ _ _ (mj_path _ _ _ _ _ _ P Hs _ _ Em) Hs _ _ _ H2).
  - exact (dumps_path _ _ _ _ _ _ _ (lr_path _ _ _ _ _ P Hs _ _ Hd) Hs _ _ _ H3).
Qed.

Lemma memZ_cons x y l : x <> y -> memZ x l = false -> memZ x (y :: l) = false.
Proof. intros N H. unfold memZ in *. cbn [existsb]. rewrite H, (proj2 (Z.eqb_neq x y) N). reflexivity. Qed.

(* whichever stage produced the line of an event: the member reads back as the same scalar *)
Theorem event_field_survives L from rx e kv s v j0 j :
  is_event_dict e kv -> pfield s kv = Some v -> stable v j0 -> serialize L (wrap from rx e) = Ok j ->
  exists d, event_of_line j = Some d /\ jfield s d = Some j0.
Proof.
  intros (id & -> & N1 & _) Hp Hs H.
  assert (P : at_path [] (wrap from rx (PDict id kv)) [K_d; s] v).
  { eapply at_field; [reflexivity | reflexivity |].
    eapply at_field; [apply memZ_cons; [exact N1 | reflexivity] | exact Hp | apply at_here]. }
  apply (path_survives _ _ _ _ _ _ P Hs) in H; [|apply Nat.leb_le; reflexivity].
  apply jget_cons in H as (d & Hd & H). apply jget_cons in H as (x & Hx & [= ->]). exists d. split; assumption.
Qed.

(* the same for the trigger inside the header line of an incident file *)
Theorem trigger_field_survives L ty more e kv s v j0 j :
  is_event_dict e kv -> pfield s kv = Some v -> stable v j0 -> serialize L (header ty e more) = Ok j ->
  exists d, trigger_of_header j = Some d /\ jfield s d = Some j0.
Proof.
  intros (id & -> & N1 & N2 & N3 & _) Hp Hs H.
  assert (P : at_path [] (header ty (PDict id kv) more) [K_header; K_trigger; s] v).
  { eapply at_field; [reflexivity | reflexivity |]. eapply at_field; [reflexivity | reflexivity |].
    eapply at_field; [apply memZ_cons; [exact N3 | apply memZ_cons; [exact N2 | reflexivity]] | exact Hp | apply at_here]. }
  apply (path_survives _ _ _ _ _ _ P Hs) in H; [|apply Nat.leb_le; reflexivity].
  apply jget_cons in H as (h & Hh & H). apply jget_cons in H as (d & Hd & H). apply jget_cons in H as (x & Hx & [= ->]).
  exists d. unfold trigger_of_header. rewrite Hh. split; assumption.
Qed.

Lemma members_agree (get : jv -> option jv) j d kv : get j = Some d ->
  (forall s v j0, pfield s kv = Some v -> stable v j0 -> exists d', get j = Some d' /\ jfield s d' = Some j0) ->
  forall s v j0, pfield s kv = Some v -> stable v j0 -> jfield s d = Some j0.
Proof. intros Hd F s v j0 Hp Hs. destruct (F s v j0 Hp Hs) as (d' & Hd' & J). rewrite Hd in Hd'. injection Hd' as <-. exact J. Qed.

Lemma fields_of_members (get : jv -> option jv) e n l m j : is_event e n l m ->
  (forall kv s v j0, is_event_dict e kv -> pfield s kv = Some v -> stable v j0 ->
     exists d, get j = Some d /\ jfield s d = Some j0) ->
  exists d, get j = Some d /\ view3 d = fields n l m.
Proof.
  intros (id & kv & -> & N1 & N2 & N3 & Ht & Hn & Hl & Hm & Sn & Sl) F.
  specialize (F kv). assert (He : is_event_dict (PDict id kv) kv) by (exists id; repeat split; assumption).
  destruct (F _ _ _ He Hn (stable_int n Sn)) as (d & Hd & Jn). exists d. split; [exact Hd|].
  pose proof (members_agree get j d kv Hd (fun s v j0 => F s v j0 He)) as G.
  unfold view3, fields. rewrite Jn, (G _ _ _ Hl (stable_int l Sl)), (G _ _ _ Hm (stable_str m)). reflexivity.
Qed.

Theorem event_fields_survive L from rx e n l m j :
  is_event e n l m -> serialize L (wrap from rx e) = Ok j ->
  exists d, event_of_line j = Some d /\ view3 d = fields n l m.
Proof.
  intros He H. apply (fields_of_members event_of_line e n l m j He).
  intros kv s v j0 Hd Hp Hs. exact (event_field_survives L from rx e kv s v j0 j Hd Hp Hs H).
Qed.

Theorem trigger_fields_survive L ty more e n l m j :
  is_event e n l m -> serialize L (header ty e more) = Ok j ->
  exists d, trigger_of_header j = Some d /\ view3 d = fields n l m.
Proof.
  intros He H. apply (fields_of_members trigger_of_header e n l m j He).
  intros kv s v j0 Hd Hp Hs. exact (trigger_field_survives L ty more e kv s v j0 j Hd Hp Hs H).
Qed.

(* a format event: number, level, format string and every scalar named argument read back *)
Definition K_format : Z := 10.

Definition is_format_event (e : pv) (n l f : pv) (args : list (Z * pv)) : Prop :=
  exists kv, is_event_dict e kv /\ pfield K_num kv = Some n /\ pfield K_level kv = Some l /\ pfield K_format kv = Some f /\
             pfield K_message kv = None /\ Forall (fun a => pfield (fst a) kv = Some (snd a)) args.

Theorem format_event_fields_survive L from rx e n l f args jn jl jf j :
  is_format_event e n l f args -> stable n jn -> stable l jl -> stable f jf ->
  serialize L (wrap from rx e) = Ok j ->
  exists d, event_of_line j = Some d /\ jfield K_num d = Some jn /\ jfield K_level d = Some jl /\ jfield K_format d = Some jf /\
            Forall (fun a => forall ja, stable (snd a) ja -> jfield (fst a) d = Some ja) args.
Proof.
  intros (kv & He & Hn & Hl & Hf & _ & Ha) Sn Sl Sf H.
  pose proof (fun s v j0 Hp Hs => event_field_survives L from rx e kv s v j0 j He Hp Hs H) as F.
  destruct (F _ _ _ Hn Sn) as (d & Hd & Jn). pose proof (members_agree event_of_line j d kv Hd F) as G.
  exists d. split; [exact Hd|]. split; [exact Jn|]. split; [exact (G _ _ _ Hl Sl)|]. split; [exact (G _ _ _ Hf Sf)|].
  apply (Forall_impl _ (fun a Hp ja => G _ _ ja Hp) Ha).
Qed.

(* about the line's OWN event only: an odd event elsewhere in the file (a format event, a non-integer number) takes
   nothing away *)
Definition line_ok (e : pv) (j : jv) : Prop :=
  (forall n l m, is_event e n l m -> line_view j = Some (fields n l m)) /\
  (forall kv s v j0, is_event_dict e kv -> pfield s kv = Some v -> stable v j0 ->
     exists d, event_of_line j = Some d /\ jfield s d = Some j0).

Lemma line_is_ok L from rx e j : serialize L (wrap from rx e) = Ok j -> line_ok e j.
Proof.
  intros Hj. split.
  - intros n l m He. destruct (event_fields_survive _ _ _ _ _ _ _ _ He Hj) as (d & Hd & Hv). unfold line_view. rewrite Hd, Hv. reflexivity.
  - intros kv s v j0 He Hp Hs. exact (event_field_survives _ _ _ _ _ _ _ _ _ He Hp Hs Hj).
Qed.

Lemma write_lines_each {A} L from rx (f : A -> pv) (R : A -> jv -> Prop) l : lims_ok L ->
  (forall x j, In x l -> serialize L (wrap from rx (f x)) = Ok j -> R x j) ->
  exists js, write_lines L from rx (map f l) = Some js /\ Forall2 R l js.
Proof.
  intros HL. induction l as [|x t IH]; intros HR; [exists []; split; [reflexivity | constructor]|].
  destruct IH as (js & W & F); [intros y j Hy; apply HR; right; exact Hy|].
  cbn [map write_lines]. destruct (serialize_total L (wrap from rx (f x)) HL) as [j Hj]. rewrite Hj, W.
  exists (j :: js). split; [reflexivity|]. constructor; [apply HR; [left; reflexivity | exact Hj] | exact F].
Qed.

Lemma Forall2_map_eq {A B C} (f : B -> C) (g : A -> C) l js : Forall2 (fun x j => f j = g x) l js -> map f js = map g l.
Proof. induction 1 as [|x j l js E _ IH]; [reflexivity|]. cbn [map]. rewrite E, IH. reflexivity. Qed.

Lemma each_line_reads_back {A} L from rx (f : A -> pv) xs : lims_ok L ->
  exists js, write_lines L from rx (map f xs) = Some js /\ Forall2 (fun x j => line_ok (f x) j) xs js.
Proof. intros HL. apply write_lines_each; [exact HL|]. intros x j _. apply line_is_ok. Qed.

Lemma all_lines_read_back {A} L from rx (f : A -> pv) (n l m : A -> Z) xs : lims_ok L ->
  (forall x, In x xs -> is_event (f x) (n x) (l x) (m x)) ->
  exists js, write_lines L from rx (map f xs) = Some js /\ map line_view js = map (fun x => Some (fields (n x) (l x) (m x))) xs.
Proof.
  intros HL H. destruct (write_lines_each L from rx f (fun x j => line_view j = Some (fields (n x) (l x) (m x))) xs HL) as (js & W & F).
  - intros x j Hx Hj. exact (proj1 (line_is_ok _ _ _ _ _ Hj) _ _ _ (H x Hx)).
  - exists js. split; [exact W | exact (Forall2_map_eq _ _ _ _ F)].
Qed.

Theorem file_lines_read_back L from rx (evs : list pv) : lims_ok L ->
  exists js, write_lines L from rx evs = Some js /\ Forall2 line_ok evs js.
Proof. intros HL. destruct (each_line_reads_back L from rx (fun e => e) evs HL) as (js & W & F). rewrite map_id in W. eauto. Qed.

Theorem file_reads_back L from rx (evs : list (pv * (Z * Z * Z))) : lims_ok L ->
  Forall (fun x => is_event (fst x) (fst (fst (snd x))) (snd (fst (snd x))) (snd (snd x))) evs ->
  exists js, write_lines L from rx (map fst evs) = Some js /\
             map line_view js = map (fun x => Some (fields (fst (fst (snd x))) (snd (fst (snd x))) (snd (snd x)))) evs.
Proof. intros HL H. apply all_lines_read_back; [exact HL | apply Forall_forall; exact H]. Qed.

Lemma mk_event_is_event id n l m more : id <> WRAP_ID -> id <> HDR_ID -> id <> HDR2_ID -> text_keys more ->
  small_int n -> small_int l -> is_event (mk_event id n l m more) n l m.
Proof.
  intros N1 N2 N3 Ht Sn Sl. exists id, ((KStr K_num, PInt n) :: (KStr K_level, PInt l) :: (KStr K_message, PStr m) :: more).
  repeat (split; [reflexivity || assumption|]). split; [|repeat split; assumption].
  repeat (constructor; [eexists; reflexivity|]). exact Ht.
Qed.

Definition ev0 (x : pv) : pv := PDict 10 [(KStr K_num, PInt 7); (KStr K_level, PInt 30); (KStr K_message, PStr 100); (KStr 101, x)].

Example ex_is_event x : is_event (ev0 x) 7 30 100.
Proof.
  apply (mk_event_is_event 10 7 30 100 [(KStr 101, x)]);
    [discriminate | discriminate | discriminate | repeat constructor; eexists; reflexivity | apply small_int_64; reflexivity ..].
Qed.

(* stage 1: an object with a failing repr; stage 2: a tuple key, a list that contains itself; stage 3: 3000 levels, 2^16600 *)
Example ex_stages :
  (exists j, serialize_st cpython (wrap (PStr 50) (PFloat 51) (ev0 (POpaque OReprRaises 60))) = Ok (j, 1)) /\
  (exists j, serialize_st cpython (wrap (PStr 50) (PFloat 51) (ev0 (PDict 11 [(KTuple 61, PInt 1)]))) = Ok (j, 2)) /\
  (exists j, serialize_st cpython (wrap (PStr 50) (PFloat 51) (ev0 (PList 12 [PInt 1; PBack 12]))) = Ok (j, 2)) /\
  (exists j, serialize_st cpython (wrap (PStr 50) (PFloat 51) (ev0 (PDeep 3000 (PList 13 [])))) = Ok (j, 3)) /\
  (exists j, serialize_st cpython (wrap (PStr 50) (PFloat 51) (ev0 (PInt (Z.shiftl 1 16600)))) = Ok (j, 3)).
Proof.
  (* all five in one evaluation: a checker that re-evaluates lazily then computes cpython's integer bound once *)
  vm_compute. repeat split; eexists; reflexivity.
Qed.

(* the bound on the number is needed: an explicit num=2^64 next to an unencodable value is replaced by the placeholder *)
Example ex_huge_num_lost :
  let e := PDict 10 [(KStr K_num, PInt (2 ^ 64)); (KStr K_level, PInt 30); (KStr K_message, PStr 100); (KStr 101, PDeep 3000 (PList 13 []))] in
  exists j d, serialize cpython (wrap (PStr 50) (PFloat 51) e) = Ok j /\ event_of_line j = Some d /\
              view3 d = (Some (JFixed FValPlace), Some (JInt 30), Some (JStr 100)).
Proof. eexists _, _. vm_compute. repeat split. Qed.

(* a format event (no 'message'), float level, named arguments: one scalar, one object that needs the fallback encoder *)
Definition fev : pv := PDict 10 [(KStr K_num, PInt 7); (KStr K_level, PFloat 29); (KStr K_format, PStr 100); (KStr 101, PInt 5);
                                 (KStr 102, POpaque OReprOk 60)].

Example ex_is_format_event : is_format_event fev (PInt 7) (PFloat 29) (PStr 100) [(101, PInt 5); (102, POpaque OReprOk 60)].
Proof.
  eexists. split; [exists 10; split; [reflexivity|]; repeat (split; [discriminate|]); repeat constructor; eexists; reflexivity|].
  repeat split; repeat constructor.
Qed.

(* ... whose object argument reads back as the replacement record, so `%(x)s` renders differently after read-back *)
Example ex_format_arg_replaced :
  exists j d, serialize cpython (wrap (PStr 50) (PFloat 51) fev) = Ok j /\ event_of_line j = Some d /\
              jfield 101 d = Some (JInt 5) /\ jfield K_message d = None /\
              jfield 102 d = Some (JObj [(KFixed FAt, JFixed FUnJSONable); (KFixed FMessage, JFixed FText); (KFixed FRepr, JDerived DRepr 60)]).
Proof. eexists _, _. vm_compute. repeat split. Qed.

(* one odd line (a non-integer number: not an is_event) between two ordinary ones: the others still read back *)
Example ex_odd_line_between :
  exists js, write_lines cpython (PStr 50) (PFloat 51) [ev0 PNone; PDict 11 [(KStr K_num, PStr 77); (KStr K_level, PInt 20); (KStr K_message, PStr 100)]; ev0 (PBool true)] = Some js /\
             map line_view js = [Some (fields 7 30 100); Some (Some (JStr 77), Some (JInt 20), Some (JStr 100)); Some (fields 7 30 100)].
Proof. eexists. vm_compute. split; reflexivity. Qed.
