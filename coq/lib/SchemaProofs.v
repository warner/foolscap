(* C02 / C12: proofs about lib/Schema.v *)
From Coq Require Import ZArith List String Bool Lia.
Import ListNotations.
Require Import Verif.lib.Utf8 Verif.lib.Utf8Proofs Verif.lib.PyLite Verif.gen.BananaGen Verif.gen.SchemaGen Verif.lib.BytesProofs Verif.lib.Schema.
Local Open Scope Z_scope.

Section CtrInd.
  Variable P : ctr -> Prop.
  Hypothesis HAny : P CAny.
  Hypothesis HInt : forall mb, P (CInt mb).
  Hypothesis HNumber : forall mb, P (CNumber mb).
  Hypothesis HBytes : forall mx mn, P (CBytes mx mn).
  Hypothesis HText : forall mx mn, P (CText mx mn).
  Hypothesis HBool : forall v, P (CBool v).
  Hypothesis HNone : P CNone.
  Hypothesis HList : forall c mx mn, P c -> P (CList c mx mn).
  Hypothesis HTuple : forall cs, Forall P cs -> P (CTuple cs).
  Hypothesis HDict : forall k v mk, P k -> P v -> P (CDict k v mk).
  Hypothesis HSet : forall c mx mut, P c -> P (CSet c mx mut).
  Hypothesis HChoice : forall cs, Forall P cs -> P (CChoice cs).
  Hypothesis HOpt : forall c, P c -> P (COpt c).
  Hypothesis HRemote : forall i, P (CRemote i).

  Fixpoint ctr_ind' (c : ctr) : P c :=
    let fix all (cs : list ctr) : Forall P cs :=
      match cs with [] => Forall_nil P | c1 :: cs' => Forall_cons c1 (ctr_ind' c1) (all cs') end in
    match c with
    | CAny => HAny | CInt mb => HInt mb | CNumber mb => HNumber mb | CBytes mx mn => HBytes mx mn
    | CText mx mn => HText mx mn | CBool v => HBool v | CNone => HNone
    | CList c1 mx mn => HList c1 mx mn (ctr_ind' c1)
    | CTuple cs => HTuple cs (all cs)
    | CDict k v mk => HDict k v mk (ctr_ind' k) (ctr_ind' v)
    | CSet c1 mx mut => HSet c1 mx mut (ctr_ind' c1)
    | CChoice cs => HChoice cs (all cs)
    | COpt c1 => HOpt c1 (ctr_ind' c1)
    | CRemote i => HRemote i
    end.
End CtrInd.

Section ObjInd.
  Variable P : obj -> Prop.
  Hypothesis HInt : forall z, P (OInt z).
  Hypothesis HFloat : forall b, P (OFloat b).
  Hypothesis HBytes : forall bs, P (OBytes bs).
  Hypothesis HText : forall cps, P (OText cps).
  Hypothesis HBool : forall b, P (OBool b).
  Hypothesis HNone : P ONone.
  Hypothesis HList : forall l, Forall P l -> P (OList l).
  Hypothesis HTuple : forall l, Forall P l -> P (OTuple l).
  Hypothesis HSet : forall l, Forall P l -> P (OSet l).
  Hypothesis HFset : forall l, Forall P l -> P (OFset l).
  Hypothesis HDict : forall ks vs, Forall P ks -> Forall P vs -> P (ODict ks vs).
  Hypothesis HPending : forall k, P (OPending k).
  Hypothesis HRemote : forall n, P (ORemote n).

  Fixpoint obj_ind' (o : obj) : P o :=
    let fix all (l : list obj) : Forall P l :=
      match l with [] => Forall_nil P | x :: l' => Forall_cons x (obj_ind' x) (all l') end in
    match o with
    | OInt z => HInt z | OFloat b => HFloat b | OBytes bs => HBytes bs | OText cps => HText cps
    | OBool b => HBool b | ONone => HNone
    | OList l => HList l (all l) | OTuple l => HTuple l (all l) | OSet l => HSet l (all l) | OFset l => HFset l (all l)
    | ODict ks vs => HDict ks vs (all ks) (all vs)
    | OPending k => HPending k
    | ORemote n => HRemote n
    end.
End ObjInd.

Lemma zlen_nonneg {A} (l : list A) : 0 <= zlen l.
Proof. unfold zlen. lia. Qed.

Lemma zlen_cons {A} (x : A) l : zlen (x :: l) = zlen l + 1.
Proof. unfold zlen. cbn [List.length]. lia. Qed.

Lemma forallb_Forall_iff {A} (f : A -> bool) (P : A -> Prop) l :
  Forall (fun x => f x = true <-> P x) l -> (forallb f l = true <-> Forall P l).
Proof.
  induction 1 as [|x l Hx _ IH]; cbn [forallb].
  - split; constructor.
  - rewrite andb_true_iff, Hx, IH. split; [intros [A1 A2]; constructor; assumption|intros A1; inversion A1; auto].
Qed.

Lemma Forall2_map {A B} (R : A -> B -> Prop) f l : (forall x, In x l -> R x (f x)) -> Forall2 R l (map f l).
Proof. induction l as [|x l IH]; intros H; constructor; [apply H; left; reflexivity|apply IH; intros; apply H; right; assumption]. Qed.

Lemma Forall_all {A} (P : A -> Prop) l : (forall x, P x) -> Forall P l.
Proof. intros H. induction l; constructor; auto. Qed.

Definition int_in_range (mb : option Z) (z : Z) : Prop :=
  match mb with
  | None => True
  | Some m => if m =? -1 then - 2 ^ 31 <= z < 2 ^ 31 else Z.abs z < 2 ^ (8 * m)
  end.

Definition max_in (mx : option Z) (n : Z) : Prop := match mx with None => True | Some m => n <= m end.
Definition len_in (mx : option Z) (mn n : Z) : Prop := max_in mx n /\ mn <= n.
Definition fixed (A : Type) (v : option A) (x : A) : Prop := match v with None => True | Some y => x = y end.
Arguments fixed {A} v x.

Inductive satisfies : ctr -> obj -> Prop :=
| S_any o : satisfies CAny o
| S_int mb z : int_in_range mb z -> satisfies (CInt mb) (OInt z)
| S_numf mb b : satisfies (CNumber mb) (OFloat b)
| S_numi mb z : int_in_range mb z -> satisfies (CNumber mb) (OInt z)
| S_bytes mx mn bs : len_in mx mn (zlen bs) -> satisfies (CBytes mx mn) (OBytes bs)
| S_text mx mn cps : len_in mx mn (zlen cps) -> satisfies (CText mx mn) (OText cps)
| S_bool v b : fixed v b -> satisfies (CBool v) (OBool b)
| S_none : satisfies CNone ONone
| S_list c mx mn l : len_in mx mn (zlen l) -> Forall (satisfies c) l -> satisfies (CList c mx mn) (OList l)
| S_tuple cs l : Forall2 satisfies cs l -> satisfies (CTuple cs) (OTuple l)
| S_dict k v mk ks vs : max_in mk (zlen ks) -> Forall (satisfies k) ks -> Forall (satisfies v) vs ->
                        satisfies (CDict k v mk) (ODict ks vs)
| S_set c mx mut l : fixed mut true -> max_in mx (zlen l) -> Forall (satisfies c) l -> satisfies (CSet c mx mut) (OSet l)
| S_fset c mx mut l : fixed mut false -> max_in mx (zlen l) -> Forall (satisfies c) l -> satisfies (CSet c mx mut) (OFset l)
| S_choice cs c o : In c cs -> satisfies c o -> satisfies (CChoice cs) o
| S_opt c o : satisfies (COpt c) o
| S_remote_any claim : satisfies (CRemote None) (ORemote claim)
| S_remote d : d <> [] -> satisfies (CRemote (Some d)) (ORemote d).

Lemma int_ok_spec mb z : int_ok mb z = true <-> int_in_range mb z.
Proof.
  unfold int_ok, int_check, int_in_range. destruct mb as [m|]; [|cbn; tauto].
  destruct (m =? -1).
  - unfold int_check_32. change (2 ^ 31) with 2147483648.
    destruct (Z.geb_spec z 2147483648), (Z.ltb_spec z (Z.opp 2147483648)); cbn [orb is_ok]; split; intros; try discriminate; try lia; reflexivity.
  - unfold int_check_mb. destruct (Z.geb_spec (Z.abs z) (2 ^ (8 * m))); cbn [is_ok]; split; intros; try discriminate; try lia; reflexivity.
Qed.

Lemma over_max_gt mx n : over_max SGt mx n = false <-> max_in mx n.
Proof. destruct mx as [m|]; cbn; [|tauto]. destruct (Z.gtb_spec n m); split; intros; try discriminate; try lia; reflexivity. Qed.

Lemma len_ok_spec mx mn n : len_ok SGt SLt mx mn n = true <-> len_in mx mn n.
Proof.
  unfold len_ok, len_in. rewrite andb_true_iff, !negb_true_iff, over_max_gt. cbn [scmp_eval].
  destruct (Z.ltb_spec n mn); split; intros [A1 A2]; split; auto; try discriminate; lia.
Qed.

Lemma bool_ok_spec v b : bool_ok v b = true <-> fixed v b.
Proof. destruct v as [x|]; cbn; [|tauto]. destruct b, x; cbn; split; intros; congruence. Qed.

Lemma mut_ok_spec mut b : mut_ok mut b = true <-> fixed mut b.
Proof. destruct mut as [x|]; cbn; [|tauto]. destruct b, x; cbn; split; intros; congruence. Qed.

Lemma satisfies_inv c o : satisfies c o ->
  match c, o with
  | CAny, _ | COpt _, _ | CNumber _, OFloat _ | CNone, ONone => True
  | CInt mb, OInt z | CNumber mb, OInt z => int_in_range mb z
  | CBytes mx mn, OBytes l | CText mx mn, OText l => len_in mx mn (zlen l)
  | CBool v, OBool b => fixed v b
  | CList c mx mn, OList l => len_in mx mn (zlen l) /\ Forall (satisfies c) l
  | CTuple cs, OTuple l => Forall2 satisfies cs l
  | CDict k v mk, ODict ks vs => max_in mk (zlen ks) /\ Forall (satisfies k) ks /\ Forall (satisfies v) vs
  | CSet c mx mut, OSet l => fixed mut true /\ max_in mx (zlen l) /\ Forall (satisfies c) l
  | CSet c mx mut, OFset l => fixed mut false /\ max_in mx (zlen l) /\ Forall (satisfies c) l
  | CChoice cs, _ => exists c, In c cs /\ satisfies c o
  | CRemote i, ORemote claim => match i with None => True | Some d => claim = d /\ d <> [] end
  | _, _ => False
  end.
Proof. destruct 1; eauto. Qed.

Lemma all2_Forall2 {A B} (f : A -> B -> bool) (R : A -> B -> Prop) cs :
  Forall (fun c => forall o, f c o = true <-> R c o) cs ->
  forall l, (zlen l =? zlen cs) && all2 f cs l = true <-> Forall2 R cs l.
Proof.
  induction 1 as [|c cs Hc _ IH]; intros [|x l]; cbn [all2]; rewrite ?zlen_cons, !andb_true_iff, Z.eqb_eq.
  - split; [constructor|auto].
  - pose proof (zlen_nonneg l). split; [intros [E _]; change (zlen []) with 0 in E; lia|inversion 1].
  - pose proof (zlen_nonneg cs). split; [intros [E _]; change (zlen []) with 0 in E; lia|inversion 1].
  - rewrite Hc. split.
    + intros (L & Hx & E). constructor; [exact Hx|]. apply IH. rewrite andb_true_iff, Z.eqb_eq. split; [lia|exact E].
    + inversion 1 as [|? ? ? ? Hx F]; subst. apply IH, andb_true_iff in F as [L E]. apply Z.eqb_eq in L. split; [lia|auto].
Qed.

(* C02, sentence 1 (object level): the executable check decides exactly the declared meaning of the constraint *)
Theorem checkObject_sound : forall c o, checkObject c o = true <-> satisfies c o.
Proof.
  induction c using ctr_ind'; intros o.
  1, 13: split; [constructor|reflexivity].
  11: { cbn [checkObject]. rewrite existsb_exists. rewrite Forall_forall in H. split.
        - intros (c & Hin & Hc). apply (S_choice cs c); [|apply H]; assumption.
        - intros S. apply satisfies_inv in S as (c & Hin & S). exists c. split; [|apply H]; assumption. }
  all: destruct o; try (split; [discriminate|intros S; apply satisfies_inv in S; contradiction]); cbn [checkObject].
  - rewrite int_ok_spec. split; [apply S_int|apply satisfies_inv].
  - rewrite int_ok_spec. split; [apply S_numi|apply satisfies_inv].
  - split; [constructor|reflexivity].
  - rewrite (len_ok_spec mx mn). split; [apply S_bytes|apply satisfies_inv].
  - rewrite (len_ok_spec mx mn). split; [apply S_text|apply satisfies_inv].
  - rewrite bool_ok_spec. split; [apply S_bool|apply satisfies_inv].
  - split; [constructor|reflexivity].
  - rewrite andb_true_iff, (len_ok_spec mx mn), (forallb_Forall_iff _ (satisfies c)) by (apply Forall_all; apply IHc).
    split; [intros []; constructor; assumption|apply satisfies_inv].
  - change tuple_len_cmp with SNe. cbn [scmp_eval]. rewrite negb_involutive, (all2_Forall2 _ _ cs H).
    split; [apply S_tuple|apply satisfies_inv].
  - rewrite !andb_true_iff, negb_true_iff, (over_max_gt mk), (forallb_Forall_iff _ (satisfies c1)),
      (forallb_Forall_iff _ (satisfies c2)) by (apply Forall_all; assumption).
    split; [intros [[]]; constructor; assumption|intros S; apply satisfies_inv in S; tauto].
  - rewrite !andb_true_iff, negb_true_iff, (over_max_gt mx), mut_ok_spec, (forallb_Forall_iff _ (satisfies c))
      by (apply Forall_all; assumption).
    split; [intros [[]]; constructor; assumption|intros S; apply satisfies_inv in S; tauto].
  - rewrite !andb_true_iff, negb_true_iff, (over_max_gt mx), mut_ok_spec, (forallb_Forall_iff _ (satisfies c))
      by (apply Forall_all; assumption).
    split; [intros [[]]; constructor; assumption|intros S; apply satisfies_inv in S; tauto].
  - destruct i as [d|]; [|split; [constructor|reflexivity]].
    rewrite andb_true_iff, negb_true_iff, list_eqb_eq. split.
    + intros [N ->]. apply S_remote. intros ->. discriminate N.
    + intros S. apply satisfies_inv in S as [-> N]. split; [destruct d; [contradiction N|]|]; reflexivity.
Qed.

(* _doCall (shape translated from broker.py): the method is invoked only after checkAllArgs succeeded, on the very
   objects that are passed to it *)
Theorem doCall_checked ms a kw a' kw' :
  doCall ms a kw = CInvoke a' kw' -> a' = a /\ kw' = kw /\ checkAllArgs ms a kw = Ok tt.
Proof.
  unfold doCall. change doCall_shape with CheckedBeforeCall. cbv iota.
  destruct (checkAllArgs ms a kw) as [[]|t]; intros E; [inversion E; subst; auto|].
  destruct (String.eqb t "Violation"); discriminate.
Qed.

(* ... whatever token stream (pos, kws: arbitrary wire trees, including forged references) produced the arguments *)
Theorem recv_call_checked ms pos kws a kw :
  recv_call ms pos kws = CInvoke a kw -> checkAllArgs ms a kw = Ok tt.
Proof.
  unfold recv_call. destruct (recv_pos ms pos 0) as [l| |]; try discriminate.
  destruct (recv_kw ms _ kws) as [l'| |]; try discriminate.
  intros E. apply doCall_checked in E as (-> & -> & E). exact E.
Qed.

Fixpoint kw_fresh (prev : list Z) (l : list Z) : Prop :=
  match l with [] => True | n :: l' => ~ In n prev /\ kw_fresh (prev ++ [n]) l' end.

Lemma memZ_In n l : memZ n l = true <-> In n l.
Proof.
  unfold memZ. rewrite existsb_exists. split.
  - intros (x & Hin & E). apply Z.eqb_eq in E. subst. assumption.
  - intros Hin. exists n. split; [assumption|apply Z.eqb_refl].
Qed.

Lemma add_kwargs_spec {V} (kw : list (Z * V)) : forall acc r,
  add_kwargs acc kw = Some r <-> (r = acc ++ kw /\ kw_fresh (map fst acc) (map fst kw)).
Proof.
  induction kw as [|[n v] kw IH]; intros acc r; cbn [add_kwargs map kw_fresh fst].
  - rewrite app_nil_r. split; [intros E; inversion E; auto|intros [-> _]; reflexivity].
  - destruct (memZ n (map fst acc)) eqn:M.
    + apply memZ_In in M. split; [discriminate|intros [_ [A1 _]]; contradiction].
    + assert (N : ~ In n (map fst acc)) by (intros A1; apply memZ_In in A1; congruence).
      rewrite IH, map_app. cbn [map fst]. rewrite <- app_assoc. cbn [app].
      split; [intros [-> A2]; auto|intros [-> [_ A2]]; auto].
Qed.

Lemma lookup_In n l a : lookup n l = Some a -> In a l /\ a_name a = n.
Proof.
  induction l as [|b l IH]; cbn [lookup]; [discriminate|].
  destruct (Z.eqb_spec n (a_name b)).
  - intros E; inversion E; subst. split; [left; reflexivity|reflexivity].
  - intros E. destruct (IH E). split; [right; assumption|assumption].
Qed.

(* the per-argument loop of checkAllArgs succeeds exactly when every bound name is DECLARED and its value passes the
   declared constraint -- whatever the two unknown-argument flags say: an undeclared name never gets through (under a
   flag it ends in None.checkObject, an AttributeError) *)
Lemma check_each_spec ms l : check_each ms l = Ok tt <-> forallb (arg_ok ms) l = true.
Proof.
  induction l as [|[n v] l IH]; cbn [check_each forallb]; [tauto|].
  unfold getKeywordArgConstraint, arg_ok. cbn [memZ existsb fst snd].
  destruct (lookup n (ms_args ms)) as [sp|].
  - destruct (checkObject (a_ctr sp) v); cbn [andb]; [exact IH|split; discriminate].
  - cbn [andb]. destruct (ms_ignore ms); [split; discriminate|]. destruct (ms_accept ms); split; discriminate.
Qed.

Lemma arg_ok_spec ms l : forallb (arg_ok ms) l = true <->
  forall n v, In (n, v) l -> exists sp, lookup n (ms_args ms) = Some sp /\ satisfies (a_ctr sp) v.
Proof.
  rewrite forallb_forall. unfold arg_ok. split.
  - intros H n v Hin. specialize (H _ Hin). cbn [fst snd] in H.
    destruct (lookup n (ms_args ms)) as [sp|]; [|discriminate]. exists sp. split; [reflexivity|]. apply checkObject_sound, H.
  - intros H [n v] Hin. destruct (H n v Hin) as (sp & L & S). cbn [fst snd]. rewrite L. apply checkObject_sound, S.
Qed.

Lemma required_ok_spec ms bound : required_ok ms bound = true <->
  forall sp, In sp (ms_args ms) -> a_opt sp = false -> In (a_name sp) bound.
Proof.
  unfold required_ok. rewrite forallb_forall. split.
  - intros H sp Hin O. specialize (H sp Hin). rewrite O in H. apply memZ_In, H.
  - intros H sp Hin. destruct (a_opt sp) eqn:O; [reflexivity|]. apply memZ_In, H; assumption.
Qed.

(* C02, sentence 1 (argument list): checkAllArgs succeeds exactly when there are no more positional values than declared
   names, no name is bound twice, every bound name is declared and its value satisfies the declared constraint,
   and every argument not declared Optional is bound *)
Theorem checkAllArgs_spec ms a kw :
  checkAllArgs ms a kw = Ok tt <->
  (zlen a <= zlen (ms_args ms) /\
   kw_fresh (map fst (combine (names ms) a)) (map fst kw) /\
   (forall n v, In (n, v) (combine (names ms) a ++ kw) ->
      exists sp, lookup n (ms_args ms) = Some sp /\ satisfies (a_ctr sp) v) /\
   (forall sp, In sp (ms_args ms) -> a_opt sp = false -> In (a_name sp) (map fst (combine (names ms) a ++ kw)))).
Proof.
  rewrite <- arg_ok_spec, <- check_each_spec, <- required_ok_spec.
  unfold checkAllArgs. change args_count_cmp with SGt. cbn [scmp_eval].
  destruct (Z.gtb_spec (zlen a) (zlen (ms_args ms))) as [G|G]; [split; [discriminate|intros [A1 _]; lia]|].
  destruct (add_kwargs (combine (names ms) a) kw) as [allargs|] eqn:E.
  - apply add_kwargs_spec in E as [-> F].
    destruct (check_each ms _) as [[]|e]; [|split; [discriminate|intros (_ & _ & A3 & _); discriminate A3]].
    destruct (required_ok ms _); cbn [negb].
    + split; [intros _; split; [lia|split; [exact F|split; reflexivity]]|reflexivity].
    + split; [discriminate|intros (_ & _ & _ & A4); discriminate A4].
  - split; [discriminate|]. intros (_ & F & _).
    pose proof (proj2 (add_kwargs_spec kw _ _) (conj eq_refl F)) as E'. congruence.
Qed.

Lemma checkAllArgs_ok ms a kw : checkAllArgs ms a kw = Ok tt ->
  (forall n v, In (n, v) (combine (names ms) a ++ kw) ->
     exists sp, In sp (ms_args ms) /\ a_name sp = n /\ satisfies (a_ctr sp) v) /\
  (forall sp, In sp (ms_args ms) -> a_opt sp = false -> In (a_name sp) (map fst (combine (names ms) a ++ kw))) /\
  kw_fresh (map fst (combine (names ms) a)) (map fst kw) /\ zlen a <= zlen (ms_args ms).
Proof.
  intros E. apply checkAllArgs_spec in E as (A1 & A2 & A3 & A4).
  split; [|split; [assumption|split; assumption]].
  intros n v Hin. destruct (A3 n v Hin) as (sp & L & S). apply lookup_In in L as [L1 L2]. exists sp. auto.
Qed.

(* C02, sentence 1, as one statement about inbound calls: if the method body runs, every value it is given satisfies
   the constraint declared for the name it is bound to, no undeclared name is bound, and every required one is *)
Theorem C02_args_main ms pos kws a kw :
  recv_call ms pos kws = CInvoke a kw ->
  (forall n v, In (n, v) (combine (names ms) a ++ kw) ->
     exists sp, In sp (ms_args ms) /\ a_name sp = n /\ satisfies (a_ctr sp) v) /\
  (forall sp, In sp (ms_args ms) -> a_opt sp = false -> In (a_name sp) (map fst (combine (names ms) a ++ kw))) /\
  kw_fresh (map fst (combine (names ms) a)) (map fst kw) /\ zlen a <= zlen (ms_args ms).
Proof. intros E. apply checkAllArgs_ok, (recv_call_checked ms pos kws), E. Qed.

Definition ms1 (c : ctr) : mschema := mkms [{| a_name := 1; a_ctr := c; a_opt := false |}] None.

Example C02_args_nonvacuous :
  recv_call (ms1 (CList (CInt (Some 1024)) (Some 2) 0)) [slice [] (OList [OInt 5; OInt (2 ^ 40)])] [] =
  CInvoke [OList [OInt 5; OInt (2 ^ 40)]] [].
Proof. vm_compute. reflexivity. Qed.

(* a violation makes the call fail and the method is not run: a short tuple, a back-reference to a list where a
   tuple is declared, an unknown keyword, a missing argument *)
Example C02_args_rejects :
  recv_call (ms1 (CTuple [CInt None; CInt None])) [WOpen OtTuple [WInt 129 7 7]] [] = CViol /\
  recv_call (ms1 (CTuple [CInt None; CInt None])) [WRef (OList [OInt 1; OInt 2])] [] = CViol /\
  recv_call (ms1 CAny) [WInt 129 7 7] [(2, WInt 129 7 7)] = CViol /\
  recv_call (ms1 CAny) [] [] = CViol.
Proof. vm_compute. auto. Qed.

(* C02, result side: REFUTED on the current tree (D6) *)
Theorem C02_result_refuted :
  (exists c w v, recv_answer (Some c) w = Callback v /\ checkObject c v = false /\
                 c = CTuple [CInt (Some 1024); CInt (Some 1024)] /\ w = WOpen OtTuple [WInt 129 7 7]) /\
  (exists c w v, recv_answer (Some c) w = Callback v /\ checkObject c v = false /\
                 c = CText (Some 3) 0 /\ w = slice [] (OText [116; 111; 111; 108; 111; 110; 103])) /\
  (exists c w v, recv_answer (Some c) w = Callback v /\ checkObject c v = false /\
                 c = CInt (Some (-1)) /\ w = WInt 129 (2 ^ 40) (2 ^ 40)) /\
  (exists c w v, recv_answer (Some c) w = Callback v /\ checkObject c v = false /\
                 c = CBool None /\ w = WOpen OtBool []).
Proof.
  split; [|split; [|split]].
  - exists (CTuple [CInt (Some 1024); CInt (Some 1024)]), (WOpen OtTuple [WInt 129 7 7]), (OTuple [OInt 7]). vm_compute. auto.
  - exists (CText (Some 3) 0), (slice [] (OText [116; 111; 111; 108; 111; 110; 103])), (OText [116; 111; 111; 108; 111; 110; 103]).
    vm_compute. auto.
  - exists (CInt (Some (-1))), (WInt 129 (2 ^ 40) (2 ^ 40)), (OInt (2 ^ 40)). vm_compute. auto.
  - exists (CBool None), (WOpen OtBool []), ONone. vm_compute. auto.
Qed.

(* C02, sentence 3 ("that one call fails with a Violation"): REFUTED for strictTaster constraints -- the connection is lost *)
Theorem C02_one_call_refuted :
  exists ms pos, recv_call ms pos [] = CAbort /\ ms = ms1 (CText None 0) /\ pos = [WInt 129 5 5].
Proof. exists (ms1 (CText None 0)), [WInt 129 5 5]. vm_compute. auto. Qed.

(* C12: REFUTED regions, one witness each *)
Definition d7a_ctr := CChoice [CList (CInt (Some 1024)) None 0; CTuple [CInt (Some 1024); CInt (Some 1024)]].

Theorem C12_refuted_choice :        (* D7a *)
  checkObject d7a_ctr (OList [OInt 1; OInt 2]) = true /\ recvw (Some d7a_ctr) (slice [] (OList [OInt 1; OInt 2])) = RAbort.
Proof. vm_compute. auto. Qed.

Theorem C12_refuted_anystring :     (* schema.AnyStringConstraint with a text *)
  let c := CChoice [CBytes None 0; CText None 0] in
  checkObject c (OText [97]) = true /\ recvw (Some c) (slice [] (OText [97])) = RAbort.
Proof. vm_compute. auto. Qed.

Theorem C12_refuted_optional :
  let c := CList (COpt (CInt (Some 1024))) None 0 in
  checkObject c (OList [OList [OInt 1]]) = true /\ recvw (Some c) (slice [] (OList [OList [OInt 1]])) = RAbort.
Proof. vm_compute. auto. Qed.

(* C12: sender-accepted implies receiver-accepted *)
Lemma int_token_cases z :
  (int_token z = (133, bytelen z) /\ 2147483648 <= z) \/
  (int_token z = (129, z) /\ 0 <= z < 2147483648) \/
  (int_token z = (134, bytelen (- z)) /\ z < - 2147483648) \/
  (int_token z = (131, - z) /\ - 2147483648 <= z < 0).
Proof.
  unfold int_token. change (Z.pow 2 31) with 2147483648.
  destruct (Z.geb_spec z 2147483648); [left; split; [reflexivity|lia]|].
  destruct (Z.geb_spec z 0); [right; left; split; [reflexivity|lia]|].
  destruct (Z.gtb_spec (Z.opp z) 2147483648); [right; right; left; split; [reflexivity|lia]|].
  right; right; right. split; [reflexivity|lia].
Qed.

Lemma bytelen_spec n : 0 < n -> 256 ^ (bytelen n - 1) <= n < 256 ^ bytelen n.
Proof.
  intros Hn. unfold bytelen. destruct (long_to_bytes_spec n ltac:(lia)) as (ds & E & _). rewrite E.
  exact (long_to_bytes_length n _ Hn E).
Qed.

(* the byte length of n is at most m when n < 2^(8m): the LONGINT body of an accepted integer fits the taster's limit *)
Lemma bytelen_bound n m : 0 < n -> 0 <= m -> n < 2 ^ (8 * m) -> bytelen n <= m.
Proof.
  intros Hn Hm Hlt. destruct (bytelen_spec n Hn) as [L _].
  destruct (Z.le_gt_cases (bytelen n) m) as [|G]; [assumption|exfalso].
  replace (2 ^ (8 * m)) with (256 ^ m) in Hlt by (rewrite Z.pow_mul_r by lia; reflexivity).
  assert (256 ^ m <= 256 ^ (bytelen n - 1)) by (apply Z.pow_le_mono_r; lia). lia.
Qed.

Lemma bytelen_above n m : 0 <= m -> 256 ^ m <= n -> m < bytelen n.
Proof.
  intros Hm Hn. assert (P : 0 < 256 ^ m) by (apply Z.pow_pos_nonneg; lia).
  destruct (bytelen_spec n ltac:(lia)) as [_ U].
  destruct (Z.lt_ge_cases m (bytelen n)) as [|G]; [assumption|exfalso].
  assert (256 ^ bytelen n <= 256 ^ m) by (apply Z.pow_le_mono_r; lia). lia.
Qed.

(* everythingTaster limits a LONGINT body to 1000 bytes (SIZE_LIMIT) *)
Lemma any_refuses_long voc z : 2147483648 <= z -> 1000 < bytelen z -> recvw (Some CAny) (slice voc (OInt z)) = RViol.
Proof.
  intros H B. cbn [slice]. destruct (int_token_cases z) as [[-> _]|[[_ R]|[[_ R]|[_ R]]]]; try lia.
  cbn [recvw slot_token taste]. unfold checkToken_base. change (assoc 133 (taster_of CAny)) with (Some (Some 1000)).
  change token_size_cmp with SGt. cbn [scmp_eval]. destruct (Z.gtb_spec (bytelen z) 1000); [reflexivity|lia].
Qed.

Theorem C12_refuted_any_huge_int :
  checkObject CAny (OInt (2 ^ 8001)) = true /\ recvw (Some CAny) (slice [] (OInt (2 ^ 8001))) = RViol.
Proof.
  split; [reflexivity|]. apply any_refuses_long.
  - change 2147483648 with (2 ^ 31). apply Z.pow_le_mono_r; lia.
  - apply bytelen_above; [lia|]. change 256 with (2 ^ 8). rewrite <- Z.pow_mul_r by lia. apply Z.pow_le_mono_r; lia.
Qed.

Lemma limit_ok flag size l : scmp_eval token_size_cmp size l = false ->
  ((negb flag || negb (l =? 0)) && scmp_eval token_size_cmp size l) = false.
Proof. intros ->. apply andb_false_r. Qed.

Lemma long_taste p ex strict tb n : tb = 133 \/ tb = 134 -> 0 < n -> n < 2 ^ (8 * Z.pos p) ->
  checkToken_base (int_taster (Some (Z.pos p)) ++ ex) strict tb (bytelen n) = TOk.
Proof.
  intros T Hn Hlt. unfold checkToken_base.
  replace (assoc tb (int_taster (Some (Z.pos p)) ++ ex)) with (Some (Some (Z.pos p))) by (destruct T as [->| ->]; reflexivity).
  rewrite limit_ok; [reflexivity|]. change token_size_cmp with SGt. cbn [scmp_eval].
  pose proof (bytelen_bound n (Z.pos p) Hn ltac:(lia) Hlt). destruct (Z.gtb_spec (bytelen n) (Z.pos p)); [lia|reflexivity].
Qed.

Lemma int_taste mb z ex strict :
  mb_wf mb true = true -> int_ok mb z = true ->
  checkToken_base (int_taster mb ++ ex) strict (fst (int_token z)) (snd (int_token z)) = TOk.
Proof.
  intros W H. apply int_ok_spec in H. unfold int_in_range in H.
  (* INT and NEG tokens have no limit; LONGINT and LONGNEG: the 32-bit constraint has no entry for them (and
     accepts no such z), any other maxBytes is their limit *)
  destruct (int_token_cases z) as [[E B]|[[E B]|[[E B]|[E B]]]]; rewrite E; cbn [fst snd]; try reflexivity.
  all: destruct mb as [m|]; [|reflexivity]; unfold mb_wf in W; change int_maxBytes_min with 4 in W.
  all: destruct (Z.eqb_spec m (-1)) as [->|Hm]; [cbn in H; lia|].
  all: cbn [andb orb] in W; apply Z.leb_le in W; destruct m as [|p|p]; try lia; cbn [Z.eqb] in H.
  all: apply long_taste; [auto|lia|lia].
Qed.

Lemma of_tv_ok t o : t = TOk -> of_tv t o = RDeliver o.
Proof. intros ->. reflexivity. Qed.

Lemma nth_error_lt {A} (l : list A) j x : nth_error l j = Some x -> (j < List.length l)%nat.
Proof. intros H. apply nth_error_Some. congruence. Qed.

Lemma forallb_nth {A} (f : A -> bool) l j x : forallb f l = true -> nth_error l j = Some x -> f x = true.
Proof. intros H E. rewrite forallb_forall in H. apply H. eapply nth_error_In; eassumption. Qed.

Lemma all2_nth {A B} (f : A -> B -> bool) : forall cs l j c x,
  all2 f cs l = true -> nth_error cs j = Some c -> nth_error l j = Some x -> f c x = true.
Proof.
  induction cs as [|c0 cs IH]; intros l j c x H Ec El; [destruct j; discriminate|].
  destruct l as [|x0 l]; [destruct j; discriminate|]. cbn [all2] in H. apply andb_true_iff in H as [H1 H2].
  destruct j; cbn in Ec, El; [congruence|]. eapply IH; eassumption.
Qed.

Lemma Forall2_length {A B} (R : A -> B -> Prop) l ws : Forall2 R l ws -> List.length l = List.length ws.
Proof. induction 1; cbn; congruence. Qed.

Lemma over_ge_false mx n len : max_in mx len -> n < len -> over_max SGe mx n = false.
Proof. destruct mx as [m|]; cbn; [|reflexivity]. intros. destruct (Z.geb_spec n m); [lia|reflexivity]. Qed.

Lemma nth_interleave {A} : forall (ks vs : list A) j x, nth_error (interleave ks vs) j = Some x ->
  (Nat.div2 j < List.length ks)%nat /\
  (if Nat.even j then nth_error ks (Nat.div2 j) = Some x else nth_error vs (Nat.div2 j) = Some x).
Proof.
  induction ks as [|k ks IH]; intros vs j x H; [destruct j; discriminate|].
  destruct vs as [|v vs]; [destruct j; discriminate|]. cbn [interleave] in H.
  destruct j as [|[|j]]; cbn in H.
  - inversion H; subst. cbn. split; [lia|reflexivity].
  - inversion H; subst. cbn. split; [lia|reflexivity].
  - destruct (IH vs j x H) as [A1 A2]. cbn [Nat.div2 List.length]. split; [lia|].
    change (Nat.even (S (S j))) with (Nat.even j). cbn [nth_error]. exact A2.
Qed.

Lemma evens_odds_interleave {A} : forall (ks vs : list A), List.length ks = List.length vs ->
  evens (interleave ks vs) = ks /\ odds (interleave ks vs) = vs.
Proof.
  induction ks as [|k ks IH]; intros [|v vs] H; try discriminate; cbn; [split; reflexivity|].
  destruct (IH vs ltac:(cbn in H; lia)) as [E1 E2]. rewrite E1, E2. split; reflexivity.
Qed.

Lemma of_tv_deliver t o o' : of_tv t o = RDeliver o' -> t = TOk.
Proof. destruct t; cbn; intros E; [reflexivity|discriminate|discriminate]. Qed.

Lemma existsb_intro {A} (f : A -> bool) l x : In x l -> f x = true -> existsb f l = true.
Proof. intros Hin Hf. apply existsb_exists. exists x. auto. Qed.

Lemma utf8size_bound cps : 0 <= utf8size cps <= 4 * zlen cps.
Proof.
  induction cps as [|cp cps IH]; [cbn; unfold zlen; cbn; lia|].
  rewrite zlen_cons. cbn [utf8size fold_right]. fold (utf8size cps). unfold utf8len.
  destruct (cp <? 128), (cp <? 2048), (cp <? 65536); lia.
Qed.

Lemma number_taster_float mb : assoc 132 (number_taster mb) = Some None.
Proof. destruct mb as [[|p|[p|p|]]|]; reflexivity. Qed.

(* Any constrains integer tokens only (the LONGINT size limit of everythingTaster) *)
Lemma recvw_any w : match w with WInt _ _ _ => True | _ => recvw (Some CAny) w = recvw None w end.
Proof. destruct w as [| |[|]| [| | | | | | | | |] | |]; try exact I; reflexivity. Qed.

Lemma recvw_list c mx mn ws : recvw (Some (CList c mx mn)) (WOpen OtList ws) =
  match kids_with recvw (ChList (Some c) mx) ws 0 with KOk l => RDeliver (OList l) | KViol => RViol | KAbort => RAbort end.
Proof. reflexivity. Qed.
Lemma recvw_tuple cs ws : recvw (Some (CTuple cs)) (WOpen OtTuple ws) =
  match kids_with recvw (ChTuple (Some cs)) ws 0 with KOk l => RDeliver (OTuple l) | KViol => RViol | KAbort => RAbort end.
Proof. reflexivity. Qed.
Lemma recvw_dict k v mk ws : recvw (Some (CDict k v mk)) (WOpen OtDict ws) =
  match kids_with recvw (ChDict (Some (k, v)) mk) ws 0 with
  | KOk l => RDeliver (ODict (evens l) (odds l)) | KViol => RViol | KAbort => RAbort end.
Proof. reflexivity. Qed.
Lemma recvw_set c mx mut ws : recvw (Some (CSet c mx mut)) (WOpen OtSet ws) =
  match kids_with recvw (ChSet (Some c) mx) ws 0 with KOk l => RDeliver (OSet l) | KViol => RViol | KAbort => RAbort end.
Proof. reflexivity. Qed.
Lemma recvw_fset c mx mut ws : recvw (Some (CSet c mx mut)) (WOpen OtFset ws) =
  match kids_with recvw (ChFset (Some c) mx) ws 0 with KOk l => RDeliver (OFset l) | KViol => RViol | KAbort => RAbort end.
Proof. reflexivity. Qed.

Lemma utf8_encode_cp_len cp : zlen (utf8_encode_cp cp) = utf8len cp.
Proof.
  unfold utf8_encode_cp, utf8len. destruct (cp <? 128), (cp <? 2048), (cp <? 65536); reflexivity.
Qed.

Lemma utf8_encode_size cps : zlen (utf8_encode cps) = utf8size cps.
Proof.
  induction cps as [|cp cps IH]; [reflexivity|].
  unfold utf8_encode. cbn [flat_map]. fold (utf8_encode cps). unfold zlen. rewrite app_length, Nat2Z.inj_add.
  fold (zlen (utf8_encode_cp cp)). fold (zlen (utf8_encode cps)). rewrite utf8_encode_cp_len, IH. reflexivity.
Qed.

Definition cp_in_range (cp : Z) : bool := (0 <=? cp) && (cp <=? 1114111).

Lemma cp_in_range_spec cp : cp_in_range cp = true <-> 0 <= cp <= 1114111.
Proof. unfold cp_in_range. rewrite andb_true_iff, !Z.leb_le. tauto. Qed.

Lemma cp_encodable_spec cp : cp_encodable cp = true <-> 0 <= cp <= 1114111 /\ ~ 55296 <= cp <= 57343.
Proof. unfold cp_encodable. rewrite !andb_true_iff, negb_true_iff, andb_false_iff, !Z.leb_le, !Z.leb_gt. lia. Qed.

(* utf8_encode_cp is Utf8.enc1 (the two bodies are the same text), so Utf8Proofs.u8 relates a code point to its bytes here too *)
Lemma u8_of_encode cp : 0 <= cp <= 1114111 -> u8 cp (utf8_encode_cp cp).
Proof. exact (u8_of_enc1 cp). Qed.

Lemma u8_encode cp bs : u8 cp bs -> utf8_encode_cp cp = bs.
Proof. exact (u8_enc1 cp bs). Qed.

Lemma u8_decode cp bs r : u8 cp bs -> utf8_decode (bs ++ r) = cp :: utf8_decode r.
Proof.
  destruct 1; cbn [app utf8_decode].
  - rewrite (proj2 (Z.ltb_lt b 128)) by lia. reflexivity.
  - rewrite (proj2 (Z.ltb_ge b 128)), (proj2 (Z.ltb_lt b 224)) by lia. reflexivity.
  - rewrite (proj2 (Z.ltb_ge b 128)), (proj2 (Z.ltb_ge b 224)), (proj2 (Z.ltb_lt b 240)) by lia. reflexivity.
  - rewrite (proj2 (Z.ltb_ge b 128)), (proj2 (Z.ltb_ge b 224)), (proj2 (Z.ltb_ge b 240)) by lia. reflexivity.
Qed.

Lemma in_range a b x : a <= x <= b -> (a <=? x) && (x <=? b) = true.
Proof. intros. apply andb_true_iff. split; apply Z.leb_le; lia. Qed.
Lemma below_range a b x : x < a -> (a <=? x) && (x <=? b) = false.
Proof. intros. apply andb_false_iff. left. apply Z.leb_gt. lia. Qed.
Lemma above_range a b x : b < x -> (a <=? x) && (x <=? b) = false.
Proof. intros. apply andb_false_iff. right. apply Z.leb_gt. lia. Qed.
Lemma range_spec a b x : (a <=? x) && (x <=? b) = true -> a <= x <= b.
Proof. intros H. apply andb_true_iff in H as [A B]. apply Z.leb_le in A, B. lia. Qed.
Lemma ascii_spec x : (0 <=? x) && (x <? 128) = true <-> 0 <= x < 128.
Proof. rewrite andb_true_iff, Z.leb_le, Z.ltb_lt. tauto. Qed.

Lemma u8_valid cp bs r : u8 cp bs -> ~ 55296 <= cp <= 57343 -> utf8_valid (bs ++ r) = utf8_valid r.
Proof.
  destruct 1 as [b Hb|b c1 Hb H1|b c1 c2 Hb H1 H2 Hz|b c1 c2 c3 Hb H1 H2 H3 Hz Hy]; intros S; cbn [app utf8_valid]; unfold u8cont.
  - rewrite (proj2 (ascii_spec b) Hb). reflexivity.
  - rewrite (inb_false 0 128 b), (in_range 194 223 b Hb), (in_range 128 191 c1 H1) by lia. reflexivity.
  - assert (K : b = 237 -> c1 <= 159) by lia. clear S.
    rewrite (inb_false 0 128 b), (above_range 194 223 b), (in_range 224 239 b Hb), (in_range 128 191 c2 H2) by lia.
    destruct (Z.eqb_spec b 224); [rewrite (in_range 160 191 c1) by lia; reflexivity|].
    destruct (Z.eqb_spec b 237); [rewrite (in_range 128 159 c1) by lia; reflexivity|].
    rewrite (in_range 128 191 c1 H1). reflexivity.
  - clear S. rewrite (inb_false 0 128 b), (above_range 194 223 b), (above_range 224 239 b), (in_range 240 244 b Hb),
      (in_range 128 191 c2 H2), (in_range 128 191 c3 H3) by lia.
    destruct (Z.eqb_spec b 240); [rewrite (in_range 144 191 c1) by lia; reflexivity|].
    destruct (Z.eqb_spec b 244); [rewrite (in_range 128 143 c1) by lia; reflexivity|].
    rewrite (in_range 128 191 c1 H1). reflexivity.
Qed.

Lemma u8_surrogate_invalid cp bs r : u8 cp bs -> 55296 <= cp <= 57343 -> utf8_valid (bs ++ r) = false.
Proof.
  destruct 1; intros S; try lia. assert (b = 237 /\ 159 < c1) as [-> G] by lia.
  cbn [app utf8_valid]. change ((0 <=? 237) && (237 <? 128)) with false. change ((194 <=? 237) && (237 <=? 223)) with false.
  change ((224 <=? 237) && (237 <=? 239)) with true. change (237 =? 224) with false. change (237 =? 237) with true. cbv iota.
  rewrite (above_range 128 159 c1 G). reflexivity.
Qed.

Lemma utf8_valid_inv b r : utf8_valid (b :: r) = true ->
  exists cp bs r', b :: r = bs ++ r' /\ u8 cp bs /\ ~ 55296 <= cp <= 57343 /\ utf8_valid r' = true.
Proof.
  cbn [utf8_valid]. unfold u8cont. intros V.
  destruct ((0 <=? b) && (b <? 128)) eqn:A.
  { apply ascii_spec in A. exists b, [b], r. split; [reflexivity|]. split; [apply u8_1; exact A|]. split; [lia|exact V]. }
  destruct ((194 <=? b) && (b <=? 223)) eqn:B.
  { apply range_spec in B. destruct r as [|c1 r1]; [discriminate|]. apply andb_true_iff in V as [C1 V]. apply range_spec in C1.
    exists ((b - 192) * 64 + (c1 - 128)), [b; c1], r1. split; [reflexivity|]. split; [apply u8_2; assumption|]. split; [lia|exact V]. }
  destruct ((224 <=? b) && (b <=? 239)) eqn:C.
  { apply range_spec in C. destruct r as [|c1 [|c2 r2]]; try discriminate.
    apply andb_true_iff in V as [V V2]. apply andb_true_iff in V as [C1 C2]. apply range_spec in C2.
    assert (K : 128 <= c1 <= 191 /\ (b = 224 -> 160 <= c1) /\ (b = 237 -> c1 <= 159)).
    { destruct (Z.eqb_spec b 224), (Z.eqb_spec b 237); apply range_spec in C1; lia. }
    exists ((b - 224) * 4096 + (c1 - 128) * 64 + (c2 - 128)), [b; c1; c2], r2.
    split; [reflexivity|]. split; [apply u8_3; tauto|]. split; [lia|exact V2]. }
  destruct ((240 <=? b) && (b <=? 244)) eqn:D; [|discriminate].
  apply range_spec in D. destruct r as [|c1 [|c2 [|c3 r3]]]; try discriminate.
  apply andb_true_iff in V as [V V3]. apply andb_true_iff in V as [V C3]. apply andb_true_iff in V as [C1 C2].
  apply range_spec in C2, C3.
  assert (K : 128 <= c1 <= 191 /\ (b = 240 -> 144 <= c1) /\ (b = 244 -> c1 <= 143)).
  { destruct (Z.eqb_spec b 240), (Z.eqb_spec b 244); apply range_spec in C1; lia. }
  exists ((b - 240) * 262144 + (c1 - 128) * 4096 + (c2 - 128) * 64 + (c3 - 128)), [b; c1; c2; c3], r3.
  split; [reflexivity|]. split; [apply u8_4; tauto|]. split; [lia|exact V3].
Qed.

Lemma utf8_encode_cp_valid cp r : cp_encodable cp = true -> utf8_valid (utf8_encode_cp cp ++ r) = utf8_valid r.
Proof. intros E. apply cp_encodable_spec in E as [R S]. exact (u8_valid cp _ r (u8_of_encode cp R) S). Qed.

Theorem utf8_encode_valid cps : text_encodable cps = true -> utf8_valid (utf8_encode cps) = true /\ zlen (utf8_encode cps) = utf8size cps.
Proof.
  intros E. split; [|apply utf8_encode_size].
  induction cps as [|cp cps IH]; [reflexivity|]. unfold text_encodable in E. cbn [forallb] in E. apply andb_true_iff in E as [E1 E2].
  unfold utf8_encode. cbn [flat_map]. fold (utf8_encode cps). rewrite utf8_encode_cp_valid by exact E1. apply IH. exact E2.
Qed.

(* the receiver's strict decoder accepts the generic UTF-8 form of a text exactly when the text is encodable: what the
   strict encoder refuses is what the receiver would refuse *)
Theorem utf8_encode_valid_iff cps : forallb cp_in_range cps = true -> utf8_valid (utf8_encode cps) = text_encodable cps.
Proof.
  induction cps as [|cp cps IH]; [reflexivity|]. cbn [forallb]. intros E. apply andb_true_iff in E as [E1 E2].
  apply cp_in_range_spec in E1.
  unfold utf8_encode, text_encodable. cbn [flat_map forallb]. fold (utf8_encode cps). fold (text_encodable cps).
  destruct (cp_encodable cp) eqn:C.
  - rewrite utf8_encode_cp_valid by exact C. apply IH. exact E2.
  - apply (u8_surrogate_invalid cp); [apply u8_of_encode; exact E1|].
    destruct (Z.le_gt_cases 55296 cp), (Z.le_gt_cases cp 57343); try lia;
      (assert (cp_encodable cp = true) by (apply cp_encodable_spec; lia)); congruence.
Qed.

(* ... and decoding gives the text back: utf8_decode inverts utf8_encode (lone surrogates in their generic form included,
   which is what the lenient decoder would deliver) *)
Theorem utf8_decode_encode cps : forallb cp_in_range cps = true -> utf8_decode (utf8_encode cps) = cps.
Proof.
  induction cps as [|cp cps IH]; [reflexivity|]. cbn [forallb]. intros E. apply andb_true_iff in E as [E1 E2].
  unfold utf8_encode. cbn [flat_map]. fold (utf8_encode cps).
  rewrite (u8_decode cp) by (apply u8_of_encode, cp_in_range_spec, E1). rewrite IH by exact E2. reflexivity.
Qed.

Lemma encodable_in_range cps : text_encodable cps = true -> forallb cp_in_range cps = true.
Proof.
  unfold text_encodable. induction cps as [|cp cps IH]; [reflexivity|]. cbn [forallb]. intros E. apply andb_true_iff in E as [E1 E2].
  rewrite (IH E2), andb_true_r. apply cp_in_range_spec. apply cp_encodable_spec in E1. tauto.
Qed.

(* the honest body: valid, of the announced length, and it decodes to the text that was sent *)
Theorem utf8_roundtrip cps : text_encodable cps = true ->
  utf8_valid (utf8_encode cps) = true /\ zlen (utf8_encode cps) = utf8size cps /\ utf8_decode (utf8_encode cps) = cps.
Proof.
  intros E. destruct (utf8_encode_valid cps E) as [A B]. split; [exact A|split; [exact B|]].
  apply utf8_decode_encode, encodable_in_range, E.
Qed.

(* a body the strict decoder accepts is the UTF-8 form of the text it decodes to, and that text is encodable: no two accepted
   bodies stand for the same text, and what user code receives could have been sent by an honest UnicodeSlicer *)
Theorem utf8_valid_decode l : utf8_valid l = true ->
  utf8_encode (utf8_decode l) = l /\ text_encodable (utf8_decode l) = true.
Proof.
  induction l as [l IH] using (induction_ltof1 _ (@List.length Z)). unfold ltof in IH.
  intros V. destruct l as [|b r]; [split; reflexivity|].
  destruct (utf8_valid_inv b r V) as (cp & bs & r' & E & U & S & V'). destruct (u8_range cp bs U) as [R P].
  destruct (IH r') as [E1 E2]; [apply (f_equal (@List.length Z)) in E; rewrite app_length in E; lia|exact V'|].
  rewrite E, (u8_decode cp bs r' U). unfold utf8_encode, text_encodable in *. cbn [flat_map forallb].
  rewrite (u8_encode cp bs U), E1, E2, andb_true_r. split; [reflexivity|]. apply cp_encodable_spec. split; assumption.
Qed.

Section Sender.
Variable voc : list (list Z).

Lemma slice_int z : slice voc (OInt z) = WInt (fst (int_token z)) (snd (int_token z)) z.
Proof. cbn [slice]. destruct (int_token z). reflexivity. Qed.

Lemma ser_open_inv o w : ser voc o w ->
  match o with
  | OList l => exists ws, w = WOpen OtList ws /\ Forall2 (ser voc) l ws
  | OTuple l => exists ws, w = WOpen OtTuple ws /\ Forall2 (ser voc) l ws
  | OSet l => exists ws, w = WOpen OtSet ws /\ Forall2 (ser voc) l ws
  | OFset l => exists ws, w = WOpen OtFset ws /\ Forall2 (ser voc) l ws
  | ODict ks vs => exists wks wvs, w = WOpen OtDict (interleave wks wvs) /\ Forall2 (ser voc) ks wks /\ Forall2 (ser voc) vs wvs
  | _ => w = slice voc o
  end \/ (refable o = true /\ w = WRef o).
Proof. destruct 1 as [o A| | | | | |o R]; [left; destruct o; try discriminate A; reflexivity|left; eauto..|right; auto]. Qed.

Lemma ser_token o w : is_token_or_none o = true -> ser voc o w -> w = slice voc o.
Proof. intros T S. destruct (ser_open_inv _ _ S) as [E|[R _]]; destruct o; try discriminate T; try discriminate R; exact E. Qed.

Lemma Forall2_map_ser l : Forall (fun o => owf o = true -> ser voc o (slice voc o)) l -> forallb owf l = true ->
  Forall2 (ser voc) l (map (slice voc) l).
Proof. rewrite Forall_forall, forallb_forall. intros H W. apply Forall2_map. auto. Qed.

(* the tree serialization (no sharing) is one of the serializations *)
Lemma ser_slice : forall o, owf o = true -> ser voc o (slice voc o).
Proof.
  induction o using obj_ind'; intros W; try (apply ser_atom; reflexivity); try discriminate W; cbn [owf] in W; cbn [slice].
  - apply ser_list. apply Forall2_map_ser; assumption.
  - apply ser_tuple. apply Forall2_map_ser; assumption.
  - apply ser_set. apply Forall2_map_ser; assumption.
  - apply ser_fset. apply Forall2_map_ser; assumption.
  - apply andb_true_iff in W as [W W3]. apply andb_true_iff in W as [W1 W2].
    apply ser_dict; apply Forall2_map_ser; assumption.
Qed.

Lemma kids_deliver ch (slotc : nat -> option ctr) : forall l ws, Forall2 (ser voc) l ws -> forall i,
  (forall j x w, nth_error l j = Some x -> ser voc x w ->
     child_slot ch (i + j) = Some (slotc (i + j)%nat) /\ recvw (slotc (i + j)%nat) w = RDeliver x) ->
  kids_with recvw ch ws i = KOk l.
Proof.
  induction 1 as [|x w l ws Sx F IH]; intros i H; [reflexivity|].
  cbn [kids_with]. destruct (H O x w eq_refl Sx) as [A1 A2]. rewrite Nat.add_0_r in A1, A2. rewrite A1, A2.
  rewrite (IH (S i)); [reflexivity|]. intros j y v Hy Sv. specialize (H (S j) y v Hy Sv). rewrite Nat.add_succ_r in H. exact H.
Qed.

Lemma Forall2_interleave {A B} (R : A -> B -> Prop) ks wks : Forall2 R ks wks -> forall vs wvs, Forall2 R vs wvs ->
  Forall2 R (interleave ks vs) (interleave wks wvs).
Proof.
  induction 1 as [|k wk ks wks Hk _ IH]; intros vs wvs F2; [constructor|].
  destruct F2 as [|v wv vs wvs Hv F2]; cbn [interleave]; [constructor|]. constructor; [exact Hk|]. constructor; [exact Hv|]. apply IH, F2.
Qed.

Lemma recv_text_ok mx vocab size cps :
  text_body_too_long mx vocab size = false -> text_encodable cps = true ->
  recv_text mx [WStr vocab size (utf8_encode cps)] = RDeliver (OText cps).
Proof.
  intros A B. cbn [recv_text]. rewrite A. unfold body_decodable. change unicode_unslicer_strict_decode with true. cbv iota.
  destruct (utf8_roundtrip cps B) as (V & _ & D). rewrite V, D. reflexivity.
Qed.

Lemma free_seq ch l ws : (forall i, child_slot ch i = Some None) ->
  Forall (fun o => forall w, owf o = true -> ser voc o w -> recvw None w = RDeliver o) l -> forallb owf l = true ->
  Forall2 (ser voc) l ws -> kids_with recvw ch ws 0 = KOk l.
Proof.
  intros Hs H W F. apply (kids_deliver ch (fun _ => None) l ws F 0%nat).
  intros j x w Hx Sx. split; [apply Hs|]. rewrite Forall_forall in H.
  apply H; [eapply nth_error_In; eassumption|eapply forallb_nth; eassumption|exact Sx].
Qed.

Lemma tuple_seq cs l ws : zlen l = zlen cs -> Forall2 (ser voc) l ws ->
  (forall j c x w, nth_error cs j = Some c -> nth_error l j = Some x -> ser voc x w -> recvw (Some c) w = RDeliver x) ->
  kids_with recvw (ChTuple (Some cs)) ws 0 = KOk l.
Proof.
  intros L F H. apply (kids_deliver _ (fun j => nth_error cs j) l ws F 0%nat).
  intros j x w Hx Sx. cbn [Nat.add]. pose proof (nth_error_lt _ _ _ Hx) as Hj.
  destruct (nth_error cs j) as [c|] eqn:Ec; [|apply nth_error_None in Ec; unfold zlen in L; lia]. split; [|eapply H; eassumption].
  cbn [child_slot]. change tuple_full_cmp with SGe. cbn [scmp_eval]. rewrite Ec.
  destruct (Z.geb_spec (Z.of_nat j) (zlen cs)); [unfold zlen in *; lia|reflexivity].
Qed.

Lemma dict_seq kv mk ks vs wks wvs : max_in mk (zlen ks) -> List.length ks = List.length vs ->
  Forall2 (ser voc) ks wks -> Forall2 (ser voc) vs wvs ->
  (forall x w, In x ks -> ser voc x w -> recvw (option_map fst kv) w = RDeliver x) ->
  (forall x w, In x vs -> ser voc x w -> recvw (option_map snd kv) w = RDeliver x) ->
  kids_with recvw (ChDict kv mk) (interleave wks wvs) 0 = KOk (interleave ks vs).
Proof.
  intros B L F1 F2 Hk Hv.
  apply (kids_deliver _ (fun j => if Nat.even j then option_map fst kv else option_map snd kv) _ _ (Forall2_interleave _ _ _ F1 _ _ F2) 0%nat).
  intros j x w Hx Sx. cbn [Nat.add]. apply nth_interleave in Hx as [Hlt Hn]. split.
  - cbn [child_slot]. change dict_full_cmp with SGe. rewrite (over_ge_false mk _ (zlen ks) B) by (unfold zlen; lia).
    destruct kv as [[k v]|], (Nat.even j); reflexivity.
  - destruct (Nat.even j); [apply Hk|apply Hv]; try exact Sx; eapply nth_error_In; exact Hn.
Qed.

Lemma ser_free : forall o w, owf o = true -> ser voc o w -> recvw None w = RDeliver o.
Proof.
  induction o using obj_ind'; intros w W S; try discriminate W.
  all: destruct (ser_open_inv _ _ S) as [S'|[_ ->]]; [|reflexivity].
  - rewrite S', slice_int. reflexivity.
  - rewrite S'. reflexivity.
  - rewrite S'. cbn [slice]. unfold str_token. destruct (vocab_index voc bs); reflexivity.
  - cbn [owf] in W. rewrite S'. cbn [slice]. unfold str_token.
    destruct (vocab_index voc (utf8_encode cps)) as [i|];
      [change (recvw None (WOpen OtUnicode [WStr true i (utf8_encode cps)])) with (recv_text None [WStr true i (utf8_encode cps)])
      |change (recvw None (WOpen OtUnicode [WStr false (utf8size cps) (utf8_encode cps)]))
         with (recv_text None [WStr false (utf8size cps) (utf8_encode cps)])];
      (apply recv_text_ok; [unfold text_body_too_long; apply andb_false_r|exact W]).
  - rewrite S'. destruct b; reflexivity.
  - rewrite S'. reflexivity.
  - destruct S' as (ws & -> & F).
    cbn [recvw slot_open slot_opentype child_of free_child negb]. rewrite (free_seq (ChList None None) l ws (fun _ => eq_refl) H W F). reflexivity.
  - destruct S' as (ws & -> & F).
    cbn [recvw slot_open slot_opentype child_of free_child negb]. rewrite (free_seq (ChTuple None) l ws (fun _ => eq_refl) H W F). reflexivity.
  - destruct S' as (ws & -> & F).
    cbn [recvw slot_open slot_opentype child_of free_child negb]. rewrite (free_seq (ChSet None None) l ws (fun _ => eq_refl) H W F). reflexivity.
  - destruct S' as (ws & -> & F).
    cbn [recvw slot_open slot_opentype child_of free_child negb]. rewrite (free_seq (ChFset None None) l ws (fun _ => eq_refl) H W F). reflexivity.
  - cbn [owf] in W. apply andb_true_iff in W as [W W3]. apply andb_true_iff in W as [W1 W2]. apply Nat.eqb_eq in W1.
    destruct S' as (wks & wvs & -> & F1 & F2).
    rewrite Forall_forall in H, H0. rewrite forallb_forall in W2, W3.
    cbn [recvw slot_open slot_opentype child_of free_child negb]. rewrite (dict_seq None None ks vs wks wvs I W1 F1 F2).
    + cbn [build]. destruct (evens_odds_interleave ks vs W1) as [E1 E2]. rewrite E1, E2. reflexivity.
    + intros x w Hin. apply H; auto.
    + intros x w Hin. apply H0; auto.
Qed.

Lemma any_free o w : owf o = true -> ser voc o w -> (forall z, o <> OInt z) -> recvw (Some CAny) w = RDeliver o.
Proof.
  intros OW S N. rewrite <- (ser_free o w OW S). pose proof (recvw_any w) as A.
  destruct S as [o At| | | | | |]; try exact A.
  destruct o; try discriminate At; try exact A; [contradiction (N z eq_refl)|].
  cbn [slice] in *. unfold str_token in *. destruct (vocab_index voc bs); exact A.
Qed.

(* a repeated container travelling as a reference: accepted wherever the object itself is accepted *)
Lemma open_taste : forall c o, checkObject c o = true -> refable o = true -> taste c 136 0 = TOk.
Proof.
  induction c using ctr_ind'; intros o CO R; try reflexivity; try (destruct o; discriminate).
  cbn [checkObject] in CO. apply existsb_exists in CO as (c1 & Hin & CO). rewrite Forall_forall in H.
  cbn [taste]. rewrite (existsb_intro _ cs c1 Hin); [reflexivity|]. rewrite (H c1 Hin o CO R). reflexivity.
Qed.

Theorem ref_ok : forall c o, checkObject c o = true -> refable o = true -> recvw (Some c) (WRef o) = RDeliver o.
Proof.
  intros c o CO R. cbn [recvw slot_open]. change tok_OPEN with 136. rewrite (open_taste c o CO R).
  rewrite CO. rewrite orb_true_r. reflexivity.
Qed.

Lemma str_taste_everything size bs oc : exists tb sz, recvw oc (str_token voc size bs) = slot_token oc tb sz (OBytes bs) /\
  forall strictflag, checkToken_base everythingTaster strictflag tb sz = TOk.
Proof.
  unfold str_token. destruct (vocab_index voc bs) as [i|].
  - exists 135, i. split; [reflexivity|intros; reflexivity].
  - exists 130, size. split; [reflexivity|intros; reflexivity].
Qed.

Lemma token_form o : is_token_or_none o = true ->
  o = ONone \/ exists tb size, (forall oc, recvw oc (slice voc o) = slot_token oc tb size o) /\
                               (any_int_ok o = true -> forall strict, checkToken_base everythingTaster strict tb size = TOk).
Proof.
  intros T. destruct o; try discriminate; [right..|left; reflexivity].
  - exists (fst (int_token z)), (snd (int_token z)). split; [intros oc; rewrite slice_int; reflexivity|].
    cbn [any_int_ok]. destruct (int_token z) as [tb size]. cbn [fst snd]. intros A strict.
    unfold checkToken_base in *. destruct (assoc tb everythingTaster) as [[l|]|]; try discriminate; try reflexivity.
    destruct ((negb token_limit_zero_unlimited || negb (l =? 0)) && scmp_eval token_size_cmp size l); [discriminate|reflexivity].
  - exists 132, 0. split; reflexivity.
  - cbn [slice]. unfold str_token. destruct (vocab_index voc bs) as [i|].
    + exists 135, i. split; reflexivity.
    + exists 130, (zlen bs). split; reflexivity.
Qed.

Lemma guarded_seq ch c mx l ws :
  (forall i, child_slot ch i = if over_max SGe mx (Z.of_nat i) then None else Some (Some c)) -> max_in mx (zlen l) ->
  (forall o w, owf o = true -> c12_guard c o = true -> checkObject c o = true -> ser voc o w -> recvw (Some c) w = RDeliver o) ->
  forallb owf l = true -> forallb (c12_guard c) l = true -> forallb (checkObject c) l = true -> Forall2 (ser voc) l ws ->
  kids_with recvw ch ws 0 = KOk l.
Proof.
  intros Hs B IH OW G CO F. apply (kids_deliver ch (fun _ => Some c) l ws F 0%nat).
  intros j x w Hx Sx. cbn [Nat.add]. split.
  - rewrite Hs, (over_ge_false mx _ (zlen l) B); [reflexivity|]. apply nth_error_lt in Hx. unfold zlen. lia.
  - apply IH; [exact (forallb_nth _ _ _ _ OW Hx)|exact (forallb_nth _ _ _ _ G Hx)|exact (forallb_nth _ _ _ _ CO Hx)|exact Sx].
Qed.

(* C12: for EVERY serialization w of o (the tree one, or any one in which repeated containers are references, with the
   connection's vocabulary voc abbreviating byte strings), what the sender's check accepts the receiver delivers *)
Theorem c12_ser : forall c o w,
  wf c = true -> owf o = true -> c12_guard c o = true -> checkObject c o = true -> ser voc o w ->
  recvw (Some c) w = RDeliver o.
Proof.
  induction c using ctr_ind'; intros o w W OW G CO S.
  all: destruct (ser_open_inv _ _ S) as [S'|[R ->]]; [|exact (ref_ok _ _ CO R)].
  - (* Any *)
    destruct o; try (apply any_free; [assumption|assumption|discriminate]).
    rewrite S'. cbn [c12_guard] in G. rewrite slice_int. cbn [recvw slot_token taste]. apply of_tv_ok.
    cbn [any_int_ok] in G. destruct (int_token z) as [tb size]. cbn [fst snd].
    change (taster_of CAny) with everythingTaster. change (strict_of CAny) with false.
    destruct (checkToken_base everythingTaster false tb size); [reflexivity|discriminate|discriminate].
  - (* Int *)
    destruct o; try discriminate. rewrite S'.
    cbn [checkObject] in CO. cbn [wf] in W. rewrite slice_int. cbn [recvw slot_token taste].
    apply of_tv_ok. change (taster_of (CInt mb)) with (int_taster mb). rewrite <- (app_nil_r (int_taster mb)).
    apply int_taste; assumption.
  - (* Number *)
    destruct o; try discriminate; rewrite S';
      [|cbn [slice recvw slot_token taste]; unfold checkToken_base; change (taster_of (CNumber mb)) with (number_taster mb);
        change tok_FLOAT with 132; rewrite number_taster_float; reflexivity].
    cbn [checkObject] in CO. cbn [wf] in W. rewrite slice_int.
    cbn [recvw slot_token taste]. apply of_tv_ok. change (taster_of (CNumber mb)) with (int_taster mb ++ [(132, None)]).
    apply int_taste; [|assumption]. destruct mb as [m|]; [|reflexivity]. unfold mb_wf in *. cbn [andb orb] in *. rewrite W. apply orb_true_r.
  - (* Bytes: a STRING of its length, or -- when it is a word of the connection's vocabulary -- a VOCAB token carrying the
       word's index, which must not be compared with maxLength *)
    destruct o; try discriminate. rewrite S'.
    cbn [checkObject] in CO. apply (len_ok_spec mx mn) in CO as [H1 H2].
    cbn [slice]. unfold str_token. destruct (vocab_index voc bs) as [i|]; cbn [recvw slot_token taste]; apply of_tv_ok.
    + unfold checkToken_base. cbn [taster_of bytes_taster assoc]. change (tok_VOCAB =? 130) with false.
      change (tok_VOCAB =? 135) with true. cbv iota. reflexivity.
    + unfold checkToken_base. cbn [taster_of bytes_taster assoc]. change (tok_STRING =? 130) with true. cbv iota.
      destruct mx as [l|]; [|reflexivity]. rewrite limit_ok; [reflexivity|]. cbn in H1. change token_size_cmp with SGt. cbn [scmp_eval].
      destruct (Z.gtb_spec (zlen bs) l); [lia|reflexivity].
  - (* Text *)
    destruct o; try discriminate. rewrite S'.
    cbn [checkObject] in CO. apply (len_ok_spec mx mn) in CO as [H1 H2].
    cbn [slice recvw]. change (slot_open (Some (CText mx mn))) with TOk. change (slot_opentype (Some (CText mx mn)) OtUnicode) with true.
    cbn [negb child_of]. cbn [owf] in OW. unfold str_token. destruct (vocab_index voc (utf8_encode cps)) as [i|]; apply recv_text_ok; try exact OW.
    + unfold text_body_too_long. cbn [negb]. rewrite andb_false_r. reflexivity.
    + unfold text_body_too_long. destruct mx as [m|]; [|apply andb_false_r]. cbn in H1.
      change unicode_size_cmp with SGt. change unicode_size_factor with 6. cbn [scmp_eval].
      pose proof (utf8size_bound cps). destruct (Z.gtb_spec (utf8size cps) (6 * m)); [lia|apply andb_false_r].
  - (* Bool *)
    destruct o; try discriminate. rewrite S'. cbn [checkObject] in CO. cbn [slice recvw].
    change (slot_open (Some (CBool v))) with TOk. change (slot_opentype (Some (CBool v)) OtBool) with true.
    cbn [negb child_of recv_bool]. change (129 =? tok_INT) with true. cbn [negb].
    destruct b; cbn [Z.eqb negb]; rewrite CO; reflexivity.
  - (* None *)
    destruct o; try discriminate. rewrite S'. reflexivity.
  - (* List *)
    destruct o; try discriminate.
    destruct S' as (ws & -> & F).
    cbn [checkObject] in CO. apply andb_true_iff in CO as [H1 H2]. apply (len_ok_spec mx mn) in H1 as [H1 _].
    rewrite recvw_list, (guarded_seq (ChList (Some c) mx) c mx l ws (fun _ => eq_refl) H1 (fun o w => IHc o w W) OW G H2 F). reflexivity.
  - (* Tuple *)
    destruct o; try discriminate.
    destruct S' as (ws & -> & F).
    cbn [checkObject] in CO. apply andb_true_iff in CO as [H1 H2].
    cbn [wf] in W. cbn [owf] in OW. cbn [c12_guard] in G. change tuple_len_cmp with SNe in H1. cbn [scmp_eval] in H1.
    rewrite negb_involutive in H1. apply Z.eqb_eq in H1.
    rewrite recvw_tuple, (tuple_seq cs l ws H1 F); [reflexivity|].
    intros j c x w Ec Ex Sx. rewrite Forall_forall in H.
    apply H; [eapply nth_error_In; eassumption|exact (forallb_nth _ _ _ _ W Ec)|exact (forallb_nth _ _ _ _ OW Ex)
             |eapply all2_nth; eassumption..|exact Sx].
  - (* Dict *)
    destruct o; try discriminate.
    destruct S' as (wks & wvs & -> & F1 & F2).
    cbn [checkObject] in CO. apply andb_true_iff in CO as [CO H3]. apply andb_true_iff in CO as [H1 H2].
    apply negb_true_iff in H1. apply (over_max_gt mk) in H1.
    cbn [wf] in W. apply andb_true_iff in W as [W1 W2]. cbn [owf] in OW. apply andb_true_iff in OW as [OW OW3].
    apply andb_true_iff in OW as [OW1 OW2]. apply Nat.eqb_eq in OW1.
    cbn [c12_guard] in G. apply andb_true_iff in G as [G1 G2].
    rewrite forallb_forall in OW2, OW3, G1, G2, H2, H3.
    rewrite recvw_dict, (dict_seq (Some (c1, c2)) mk ks vs wks wvs H1 OW1 F1 F2).
    + destruct (evens_odds_interleave ks vs OW1) as [E1 E2]. rewrite E1, E2. reflexivity.
    + intros x w Hin. apply IHc1; auto.
    + intros x w Hin. apply IHc2; auto.
  - (* Set *)
    destruct o; try discriminate.
    all: destruct S' as (ws & -> & F); cbn [checkObject] in CO; apply andb_true_iff in CO as [CO H3];
      apply andb_true_iff in CO as [_ H2]; apply negb_true_iff, (over_max_gt mx) in H2.
    + rewrite recvw_set, (guarded_seq (ChSet (Some c) mx) c mx l ws (fun _ => eq_refl) H2 (fun o w => IHc o w W) OW G H3 F). reflexivity.
    + rewrite recvw_fset, (guarded_seq (ChFset (Some c) mx) c mx l ws (fun _ => eq_refl) H2 (fun o w => IHc o w W) OW G H3 F). reflexivity.
  - (* Choice *)
    cbn [c12_guard] in G. apply andb_true_iff in G as [T G]. apply existsb_exists in G as (c1 & Hin & G).
    apply andb_true_iff in G as [Hc1 G1]. cbn [wf] in W. rewrite Forall_forall in H.
    pose proof (ser_token o w T S) as ->.
    assert (D : recvw (Some c1) (slice voc o) = RDeliver o).
    { apply (H c1 Hin o (slice voc o)); try assumption. rewrite forallb_forall in W. apply W. assumption. }
    destruct (token_form o T) as [->|(tb & size & E & _)].
    + cbn [slice recvw] in *.
      assert (O1 : slot_open (Some c1) = TOk).
      { destruct (slot_open (Some c1)); [reflexivity|discriminate|discriminate]. }
      assert (O2 : slot_open (Some (CChoice cs)) = TOk).
      { cbn [slot_open taste]. rewrite (existsb_intro _ cs c1 Hin); [reflexivity|]. cbn [slot_open] in O1. rewrite O1. reflexivity. }
      rewrite O2. reflexivity.
    + rewrite E in *. cbn [slot_token] in *. apply of_tv_deliver in D. apply of_tv_ok.
      cbn [taste]. rewrite (existsb_intro _ cs c1 Hin); [reflexivity|]. rewrite D. reflexivity.
  - (* Optional below the argument level *)
    cbn [c12_guard] in G. apply andb_true_iff in G as [T A0].
    rewrite (ser_token o w T S).
    destruct (token_form o T) as [->|(tb & size & E1 & E2)]; [reflexivity|].
    rewrite E1. cbn [slot_token taste]. apply of_tv_ok, E2, A0.
  - (* RemoteInterface: only the receiver's view is modelled *)
    destruct o; try discriminate.
Qed.

(* the tree serialization (what slice produces) as a special case *)
Corollary c12_main : forall c o,
  wf c = true -> owf o = true -> c12_guard c o = true -> checkObject c o = true ->
  recvw (Some c) (slice voc o) = RDeliver o.
Proof. intros. apply c12_ser; try assumption. apply ser_slice. assumption. Qed.

(* the same at the level of a whole call, for EVERY method schema (any number of arguments, Optional ones, both
   unknown-argument flags) and every mix of positional and keyword arguments: what callRemote's check lets through is
   delivered.  ms_wf: argument names are distinct (a python function cannot repeat a parameter name; a dict of keyword
   arguments cannot repeat a key) and every declared constraint is well-formed. *)
Definition ms_wf (ms : mschema) : Prop := NoDup (names ms) /\ forall sp, In sp (ms_args ms) -> wf (a_ctr sp) = true.

Definition args_guarded (ms : mschema) (a : list obj) (kw : list (Z * obj)) : Prop :=
  (forall i sp v, nth_error (ms_args ms) i = Some sp -> nth_error a i = Some v -> owf v = true /\ c12_guard (a_ctr sp) v = true) /\
  (forall n v sp, In (n, v) kw -> lookup n (ms_args ms) = Some sp -> owf v = true /\ c12_guard (a_ctr sp) v = true).

Lemma map_fst_combine {A B} : forall (l : list A) (a : list B),
  (List.length a <= List.length l)%nat -> map fst (combine l a) = firstn (List.length a) l.
Proof.
  induction l as [|y l IH]; intros [|x a] H; cbn [combine map firstn List.length fst] in *; try reflexivity; try lia.
  f_equal. apply IH. lia.
Qed.

Lemma lookup_nth : forall l i sp, NoDup (map a_name l) -> nth_error l i = Some sp -> lookup (a_name sp) l = Some sp.
Proof.
  induction l as [|b l IH]; intros i sp ND E; [destruct i; discriminate|].
  cbn [map] in ND. inversion ND as [|? ? NI ND']; subst. destruct i as [|i]; cbn [nth_error lookup] in *.
  - inversion E; subst. rewrite Z.eqb_refl. reflexivity.
  - destruct (Z.eqb_spec (a_name sp) (a_name b)) as [Q|Q].
    + exfalso. apply NI. rewrite <- Q. apply in_map. eapply nth_error_In. exact E.
    + eapply IH; eassumption.
Qed.

Lemma combine_nth_In {A B} : forall (l : list A) (a : list B) i x y,
  nth_error l i = Some x -> nth_error a i = Some y -> In (x, y) (combine l a).
Proof.
  induction l as [|x0 l IH]; intros [|y0 a] [|i] x y E1 E2; cbn [nth_error combine] in *; try discriminate.
  - inversion E1; inversion E2; subst. left. reflexivity.
  - right. eapply IH; eassumption.
Qed.

(* for EVERY serialization of the call (sent_call): repeats of one container object inside the call travel
   as references -- m(l, l), m([s, s]), m(a=d, b=d) -- which is what the real ArgumentSlicer emits; c12_call below is the
   special case in which nothing is shared *)
Lemma recv_pos_ser ms : (forall sp, In sp (ms_args ms) -> wf (a_ctr sp) = true) -> forall a p,
  Forall2 (ser voc) a p -> forall i,
  (i + List.length a <= List.length (ms_args ms))%nat ->
  (forall j sp v, nth_error (ms_args ms) (i + j) = Some sp -> nth_error a j = Some v ->
     owf v = true /\ c12_guard (a_ctr sp) v = true /\ checkObject (a_ctr sp) v = true) ->
  recv_pos ms p i = KOk a.
Proof.
  intros W a p F. induction F as [|x w a p S F IH]; intros i L H; [reflexivity|].
  cbn [recv_pos]. change posarg_full_cmp with SGe. cbn [scmp_eval List.length] in *.
  destruct (Z.geb_spec (Z.of_nat i) (zlen (ms_args ms))) as [G|G]; [unfold zlen in G; lia|].
  destruct (nth_error (ms_args ms) i) as [sp|] eqn:N; [|apply nth_error_None in N; lia].
  destruct (H 0%nat sp x) as (O1 & O2 & O3); [rewrite Nat.add_0_r; exact N|reflexivity|].
  cbn [option_map]. rewrite (c12_ser (a_ctr sp) x w (W sp (nth_error_In _ _ N)) O1 O2 O3 S).
  rewrite IH; [reflexivity|lia|]. intros j sp' v E1 E2. apply (H (Datatypes.S j)); [rewrite Nat.add_succ_r; exact E1|exact E2].
Qed.

Lemma recv_kw_ser ms : forall kw k,
  Forall2 (fun (nv : Z * obj) (nw : Z * wobj) => fst nv = fst nw /\ ser voc (snd nv) (snd nw)) kw k -> forall prev,
  kw_fresh prev (map fst kw) ->
  (forall n v, In (n, v) kw -> exists sp, lookup n (ms_args ms) = Some sp /\ wf (a_ctr sp) = true /\ owf v = true /\
                                          c12_guard (a_ctr sp) v = true /\ checkObject (a_ctr sp) v = true) ->
  recv_kw ms prev k = KwOk kw.
Proof.
  intros kw k F. induction F as [|[n v] [n' w] kw k [Hn S] F IH]; intros prev Fr H; [reflexivity|].
  cbn [fst snd] in Hn, S. subst n'. cbn [map fst snd recv_kw kw_fresh] in *. destruct Fr as [F1 F2].
  destruct (H n v (or_introl eq_refl)) as (sp & L & W & O1 & O2 & O3).
  unfold getKeywordArgConstraint. destruct (memZ n prev) eqn:M; [apply memZ_In in M; contradiction|]. rewrite L.
  change au_asserts_accept with true. cbn [negb andb]. rewrite (c12_ser (a_ctr sp) v w W O1 O2 O3 S).
  rewrite IH; [reflexivity|exact F2|]. intros n0 v0 Hin. apply H. right. exact Hin.
Qed.

Theorem c12_call_ser : forall ms a kw, ms_wf ms -> args_guarded ms a kw ->
  forall p k, sent_call voc ms a kw p k -> recv_call ms p k = CInvoke a kw.
Proof.
  intros ms a kw [ND W] [G1 G2] p k (E & _ & FP & FK).
  pose proof E as E0. apply checkAllArgs_spec in E as (A1 & A2 & A3 & A4).
  assert (LE : (List.length a <= List.length (ms_args ms))%nat) by (unfold zlen in A1; lia).
  unfold recv_call. rewrite (recv_pos_ser ms W a p FP 0%nat).
  - assert (LP : List.length a = List.length p) by (eapply Forall2_length; exact FP). rewrite <- LP. rewrite <- (map_fst_combine (names ms) a) by (unfold names; rewrite map_length; exact LE).
    rewrite (recv_kw_ser ms kw k FK).
    + unfold doCall. change doCall_shape with CheckedBeforeCall. cbv iota. rewrite E0. reflexivity.
    + exact A2.
    + intros n v Hin. destruct (A3 n v) as (sp & L & Sat); [apply in_or_app; right; exact Hin|].
      exists sp. split; [exact L|]. apply lookup_In in L as HL. destruct HL as [HL _].
      destruct (G2 n v sp Hin L) as [O1 O2]. split; [apply W; exact HL|]. split; [exact O1|]. split; [exact O2|].
      apply checkObject_sound. exact Sat.
  - cbn [Nat.add]. exact LE.
  - cbn [Nat.add]. intros j sp v E1 E2. destruct (G1 j sp v E1 E2) as [O1 O2]. split; [exact O1|]. split; [exact O2|].
    assert (Hin : In (a_name sp, v) (combine (names ms) a ++ kw)).
    { apply in_or_app. left. eapply combine_nth_In; [|exact E2]. unfold names. rewrite nth_error_map, E1. reflexivity. }
    destruct (A3 _ _ Hin) as (sp' & L & Sat). rewrite (lookup_nth _ _ _ ND E1) in L. inversion L; subst sp'.
    apply checkObject_sound. exact Sat.
Qed.

Lemma send_call_sent ms a kw p k : args_guarded ms a kw -> send_call voc ms a kw = Some (p, k) -> sent_call voc ms a kw p k.
Proof.
  intros [G1 G2] S. unfold send_call in S. destruct (checkAllArgs ms a kw) as [[]|t] eqn:E; [|discriminate].
  destruct (forallb sendable a && forallb (fun nv => sendable (snd nv)) kw) eqn:Sd; [|discriminate]. inversion S; subst p k.
  pose proof E as E0. apply checkAllArgs_spec in E0 as (A1 & _ & A3 & _).
  split; [exact E|split; [exact Sd|split]].
  - assert (O : forall x, In x a -> owf x = true).
    { intros x Hx. apply In_nth_error in Hx as [i Hi]. pose proof (nth_error_lt _ _ _ Hi) as Li.
      destruct (nth_error (ms_args ms) i) as [sp|] eqn:N; [exact (proj1 (G1 i sp x N Hi))|].
      apply nth_error_None in N. unfold zlen in A1. lia. }
    apply Forall2_map. intros x Hx. apply ser_slice, O, Hx.
  - assert (O : forall n v, In (n, v) kw -> owf v = true).
    { intros n v Hin. destruct (A3 n v) as (sp & L & _); [apply in_or_app; right; exact Hin|]. exact (proj1 (G2 n v sp Hin L)). }
    apply Forall2_map. intros [n v] Hin. split; [reflexivity|apply ser_slice, (O n), Hin].
Qed.

Theorem c12_call : forall ms a kw, ms_wf ms -> args_guarded ms a kw ->
  forall p k, send_call voc ms a kw = Some (p, k) -> recv_call ms p k = CInvoke a kw.
Proof. intros ms a kw W G p k S. apply (c12_call_ser ms a kw W G), send_call_sent; assumption. Qed.

(* the one-argument instance *)
Corollary c12_call1 : forall c o,
  wf c = true -> owf o = true -> c12_guard c o = true ->
  forall p k, send_call voc (ms1 c) [o] [] = Some (p, k) -> recv_call (ms1 c) p k = CInvoke [o] [].
Proof.
  intros c o W OW G p k S. apply (c12_call (ms1 c) [o] []); [| |exact S].
  - split; [cbn; constructor; [intros []|constructor]|]. intros sp [<-|[]]. exact W.
  - split.
    + intros [|i] sp v E1 E2; cbn in E1, E2; [inversion E1; inversion E2; subst; auto|destruct i; discriminate].
    + intros n v sp [].
Qed.

(* "and symmetrically for results": a result that passes the check Broker._callFinished applies before sending
   (methodSchema.checkResults(res, False)) is accepted by the caller's AnswerUnslicer under the same result constraint and
   handed to the callRemote callback *)
Theorem c12_result : forall ms c o w,
  ms_resp ms = Some c -> wf c = true -> owf o = true -> c12_guard c o = true ->
  send_answer voc ms o = Some w -> recv_answer (Some c) w = Callback o.
Proof.
  intros ms c o w R W OW G S. unfold send_answer in S. destruct (negb (sendable o)); [discriminate|].
  rewrite R in S. change callFinished_checks_results with true in S.
  cbn [andb] in S. destruct (checkObject c o) eqn:CO; [|discriminate]. cbn [negb] in S. inversion S; subst w.
  unfold recv_answer. rewrite (c12_main c o W OW G CO). rewrite CO. destruct answer_checks_object; reflexivity.
Qed.

End Sender.

(* whatever children the peer puts into the `arguments` sequence -- any count token, any tokens where names or values
   are expected, too few or too many of them: if the method body runs, checkAllArgs accepted exactly what it is given *)
Lemma au_run_checked ms : forall items st a kw, au_run ms st items = CInvoke a kw -> checkAllArgs ms a kw = Ok tt.
Proof.
  induction items as [|w items IH]; intros st a kw E; cbn [au_run] in E.
  - destruct (au_close st) as [[a' kw']|]; [|discriminate]. apply doCall_checked in E as (-> & -> & E). exact E.
  - destruct (au_child ms st w) as [st'| |]; [eapply IH; exact E|discriminate|discriminate].
Qed.

Theorem recv_arguments_checked ms items a kw :
  recv_arguments ms items = CInvoke a kw -> checkAllArgs ms a kw = Ok tt.
Proof. apply au_run_checked. Qed.

Theorem recv_arguments_main ms items a kw :
  recv_arguments ms items = CInvoke a kw ->
  (forall n v, In (n, v) (combine (names ms) a ++ kw) ->
     exists sp, In sp (ms_args ms) /\ a_name sp = n /\ satisfies (a_ctr sp) v) /\
  (forall sp, In sp (ms_args ms) -> a_opt sp = false -> In (a_name sp) (map fst (combine (names ms) a ++ kw))) /\
  kw_fresh (map fst (combine (names ms) a)) (map fst kw) /\ zlen a <= zlen (ms_args ms).
Proof. intros E. apply checkAllArgs_ok, (recv_arguments_checked ms items), E. Qed.

(* "no undeclared argument is present", also under __ignoreUnknown__ / __acceptUnknown__: neither flag ever lets an
   undeclared name reach the method body (ms is ANY schema record, flags included) *)
Theorem unknown_flags_never_accept ms items a kw :
  recv_arguments ms items = CInvoke a kw -> forall n, In n (map fst kw) -> In n (names ms).
Proof.
  intros E n Hin. apply recv_arguments_main in E as (A1 & _). apply in_map_iff in Hin as ([n' v] & <- & Hin).
  destruct (A1 n' v) as (sp & I1 & I2 & _); [apply in_or_app; right; exact Hin|]. cbn [fst]. rewrite <- I2. unfold names. apply in_map. exact I1.
Qed.

(* streams whose count token equals the number of positional trees: the machine does what recv_call does.
   So every theorem about recv_call (C12 included) is a theorem about such streams, and recv_call needs no assumption
   about the count: it IS the machine on those streams. *)
Definition aust (na : Z) (args : list obj) (kws : list (Z * obj)) (nm : option Z) (c : option ctr) : austate :=
  {| au_numargs := Some na; au_args := args; au_kwargs := kws; au_argname := nm; au_ctr := c |}.

Lemma au_run_cons ms st w r :
  au_run ms st (w :: r) = match au_child ms st w with AuGo st' => au_run ms st' r | AuViol => CViol | AuAbort => CAbort end.
Proof. reflexivity. Qed.

Lemma au_stage_kw na args kws nm c : na <= zlen args ->
  au_stage (aust na args kws nm c) = match nm with None => AuKwName | Some _ => AuKwValue end.
Proof.
  intros H. unfold au_stage, aust. cbn [au_numargs au_args au_argname]. change au_pos_cmp with SLt. cbn [scmp_eval].
  destruct (Z.ltb_spec (zlen args) na); [lia|reflexivity].
Qed.

Lemma au_stage_pos na args kws nm c : zlen args < na -> au_stage (aust na args kws nm c) = AuPos.
Proof.
  intros H. unfold au_stage, aust. cbn [au_numargs au_args au_argname]. change au_pos_cmp with SLt. cbn [scmp_eval].
  destruct (Z.ltb_spec (zlen args) na); [reflexivity|lia].
Qed.

Lemma au_child_kwname ms na args kws c vb sz bs : na <= zlen args -> utf8_valid bs = true ->
  au_child ms (aust na args kws None c) (WStr vb sz bs) =
  au_take (getKeywordArgConstraint ms (name_code bs) (firstn (Z.to_nat na) (names ms) ++ map fst kws))
          (fun c' => aust na args kws (Some (name_code bs)) c').
Proof. intros H T. unfold au_child. rewrite (au_stage_kw _ _ _ _ _ H), T. reflexivity. Qed.

Lemma au_child_kwvalue ms na args kws n c w : na <= zlen args ->
  au_child ms (aust na args kws (Some n) c) w =
  match recvw c w with RDeliver x => AuGo (aust na args (kws ++ [(n, x)]) None c) | RViol => AuViol | RAbort => AuAbort end.
Proof. intros H. unfold au_child. rewrite (au_stage_kw _ _ _ _ _ H). reflexivity. Qed.

Lemma au_child_pos ms na args c w : zlen args < na ->
  au_child ms (aust na args [] None c) w =
  match recvw c w with
  | RViol => AuViol | RAbort => AuAbort
  | RDeliver x =>
      if zlen (args ++ [x]) <? na
      then au_take (getPositionalArgConstraint ms (zlen (args ++ [x]))) (fun c' => aust na (args ++ [x]) [] None c')
      else AuGo (aust na (args ++ [x]) [] None c)
  end.
Proof. intros H. unfold au_child. rewrite (au_stage_pos _ _ _ _ _ H). reflexivity. Qed.

Lemma au_close_kw na args kws c : na <= zlen args -> au_close (aust na args kws None c) = Some (args, kws).
Proof. intros H. unfold au_close. rewrite (au_stage_kw _ _ _ _ _ H). reflexivity. Qed.

Lemma kwname_ctr_irrelevant ms items na args kws c c' :
  na <= zlen args -> au_run ms (aust na args kws None c) items = au_run ms (aust na args kws None c') items.
Proof.
  intros H. destruct items as [|w items].
  - cbn [au_run]. rewrite !au_close_kw by exact H. reflexivity.
  - rewrite !au_run_cons. unfold au_child. rewrite !(au_stage_kw _ _ _ _ _ H). reflexivity.
Qed.

Lemma kw_phase ms : forall kwsb na args kws, na <= zlen args -> names_text kwsb = true ->
  au_run ms (aust na args kws None None) (enc_kws kwsb) =
  match recv_kw ms (firstn (Z.to_nat na) (names ms) ++ map fst kws) (code_kws kwsb) with
  | KwOk l => doCall ms args (kws ++ l) | KwViol => CViol | KwAbort => CAbort
  end.
Proof.
  induction kwsb as [|[bs w] kwsb IH]; intros na args kws H NT.
  - cbn [enc_kws flat_map code_kws map recv_kw au_run]. rewrite au_close_kw by exact H. rewrite app_nil_r. reflexivity.
  - cbn [names_text forallb fst] in NT. apply andb_true_iff in NT as [NT1 NT2].
    change (enc_kws ((bs, w) :: kwsb)) with (WStr false (zlen bs) bs :: w :: enc_kws kwsb).
    change (code_kws ((bs, w) :: kwsb)) with ((name_code bs, w) :: code_kws kwsb).
    rewrite au_run_cons, au_child_kwname by assumption. cbn [recv_kw].
    destruct (getKeywordArgConstraint ms (name_code bs) (firstn (Z.to_nat na) (names ms) ++ map fst kws)) as [| |acc oc];
      cbn [au_take]; try reflexivity.
    destruct (au_asserts_accept && negb acc); [reflexivity|].
    rewrite au_run_cons, au_child_kwvalue by exact H.
    destruct (recvw oc w) as [x| |]; try reflexivity.
    rewrite (kwname_ctr_irrelevant ms _ na args _ oc None H). rewrite IH by assumption.
    rewrite map_app. cbn [map fst]. rewrite app_assoc.
    destruct (recv_kw ms _ (code_kws kwsb)) as [l| |]; try reflexivity. rewrite <- app_assoc. reflexivity.
Qed.

Lemma recv_pos_length ms : forall pos i l, recv_pos ms pos i = KOk l -> List.length l = List.length pos.
Proof.
  induction pos as [|w pos IH]; intros i l E; cbn [recv_pos] in E; [inversion E; reflexivity|].
  destruct (scmp_eval posarg_full_cmp (Z.of_nat i) (zlen (ms_args ms))); [discriminate|].
  destruct (recvw _ w); try discriminate. destruct (recv_pos ms pos (S i)) as [l'| |] eqn:R; try discriminate.
  inversion E. cbn [List.length]. f_equal. exact (IH _ _ R).
Qed.

(* the machine fetches the constraint of a positional value, and refuses a surplus one, before the value arrives;
   recv_pos does both when it arrives: so the phases are compared from the fetch on *)
Lemma pos_phase ms tail : forall pos done na, pos <> [] -> na = zlen done + zlen pos ->
  match au_take (getPositionalArgConstraint ms (zlen done)) (fun c => aust na done [] None c) with
  | AuGo st => au_run ms st (pos ++ tail) | AuViol => CViol | AuAbort => CAbort
  end =
  match recv_pos ms pos (List.length done) with
  | KOk l => au_run ms (aust na (done ++ l) [] None None) tail | KViol => CViol | KAbort => CAbort
  end.
Proof.
  induction pos as [|w pos IH]; intros done na NE N; [contradiction NE; reflexivity|].
  rewrite zlen_cons in N. pose proof (zlen_nonneg pos) as P0.
  unfold getPositionalArgConstraint. cbn [recv_pos]. change (Z.of_nat (List.length done)) with (zlen done).
  rewrite (Nat2Z.id (List.length done) : Z.to_nat (zlen done) = _). change posarg_full_cmp with SGe. cbn [scmp_eval].
  destruct (Z.geb_spec (zlen done) (zlen (ms_args ms))) as [G|G]; [reflexivity|].
  destruct (nth_error (ms_args ms) (List.length done)) as [sp|] eqn:E; [|apply nth_error_None in E; unfold zlen in G; lia].
  cbn [au_take option_map app]. change au_asserts_accept with true. cbn [negb andb]. rewrite au_run_cons, au_child_pos by lia.
  destruct (recvw (Some (a_ctr sp)) w) as [x| |]; try reflexivity.
  assert (LA : List.length (done ++ [x]) = S (List.length done)) by (rewrite app_length; cbn [List.length]; lia).
  assert (ZA : zlen (done ++ [x]) = zlen done + 1) by (unfold zlen; rewrite LA; lia).
  rewrite <- LA. destruct pos as [|w2 pos].
  - change (zlen (@nil wobj)) with 0 in N. rewrite (proj2 (Z.ltb_ge _ _)) by lia. apply kwname_ctr_irrelevant. lia.
  - pose proof (zlen_cons w2 pos). pose proof (zlen_nonneg pos). rewrite (proj2 (Z.ltb_lt _ _)), (IH (done ++ [x]) na) by (discriminate || lia).
    destruct (recv_pos ms (w2 :: pos) _) as [l| |]; try reflexivity. rewrite <- app_assoc. reflexivity.
Qed.

Theorem recv_arguments_refines ms pos kwsb : names_text kwsb = true ->
  recv_arguments ms (enc_args pos kwsb) = recv_call ms pos (code_kws kwsb).
Proof.
  intros NT. unfold recv_arguments, enc_args, recv_call. cbn [au_run]. unfold au_child, au_stage, au_init.
  cbn [au_numargs au_args au_argname au_kwargs au_ctr]. rewrite Z.eqb_refl. cbn [negb].
  change au_count_zero_skips with true. cbn [andb]. change au_first_index with 0.
  assert (K : forall l, recv_pos ms pos 0 = KOk l ->
    au_run ms (aust (zlen pos) l [] None None) (enc_kws kwsb) =
    match recv_kw ms (firstn (List.length pos) (names ms)) (code_kws kwsb) with
    | KwOk kw => doCall ms l kw | KwViol => CViol | KwAbort => CAbort end).
  { intros l RP. rewrite (kw_phase ms kwsb (zlen pos) l []); [|unfold zlen; rewrite (recv_pos_length _ _ _ _ RP); lia|exact NT].
    cbn [map app]. rewrite app_nil_r. unfold zlen at 1. rewrite Nat2Z.id. destruct (recv_kw ms _ (code_kws kwsb)); reflexivity. }
  destruct pos as [|w pos].
  - exact (K [] eq_refl).
  - rewrite (proj2 (Z.eqb_neq (zlen (w :: pos)) 0)) by (rewrite zlen_cons; pose proof (zlen_nonneg pos); lia).
    refine (eq_trans (pos_phase ms (enc_kws kwsb) (w :: pos) [] (zlen (w :: pos)) _ eq_refl) _); [discriminate|].
    cbn [List.length]. destruct (recv_pos ms (w :: pos) 0) as [l| |] eqn:RP; try reflexivity. exact (K l eq_refl).
Qed.

Definition voc1 := vocab_table 1.

(* the honest sender's call as the receiver's machine sees it: count token, positional trees, (name, tree) pairs *)
Corollary c12_call_stream : forall voc ms a kw, ms_wf ms -> args_guarded ms a kw ->
  forall p k kb, send_call voc ms a kw = Some (p, k) -> code_kws kb = k -> names_text kb = true ->
  recv_arguments ms (enc_args p kb) = CInvoke a kw.
Proof. intros voc ms a kw W G p k kb S <- NT. rewrite recv_arguments_refines by exact NT. eapply c12_call; eassumption. Qed.

Corollary c12_call_ser_stream : forall voc ms a kw, ms_wf ms -> args_guarded ms a kw ->
  forall p k kb, sent_call voc ms a kw p k -> code_kws kb = k -> names_text kb = true ->
  recv_arguments ms (enc_args p kb) = CInvoke a kw.
Proof. intros voc ms a kw W G p k kb S <- NT. rewrite recv_arguments_refines by exact NT. eapply c12_call_ser; eassumption. Qed.

(* names 'a' 'b' 'c' 'z' as the model's identifiers *)
Definition nA := name_code [97].  Definition nB := name_code [98].  Definition nC := name_code [99].  Definition nZ := name_code [122].

Definition ms3 (ign acc : bool) : mschema :=
  {| ms_args := [{| a_name := nA; a_ctr := CInt (Some 1024); a_opt := false |};
                 {| a_name := nB; a_ctr := CList (CBytes (Some 4) 0) (Some 2) 0; a_opt := true |};
                 {| a_name := nC; a_ctr := CText None 0; a_opt := true |}];
     ms_resp := Some (CTuple [CInt (Some (-1)); CBool None]); ms_ignore := ign; ms_accept := acc |}.

Definition i5 := WInt 129 5 5.
Definition kname (b : Z) := WStr false 1 [b].

(* hostile counts and stage confusion: every line is a stream no honest sender emits *)
Example hostile_counts :
  (* count 2, one value, CLOSE: "'arguments' sequence ended too early" -- connection lost *)
  recv_arguments (ms3 false false) [WInt 129 2 2; i5] = CAbort /\
  (* count 0, then a value where a keyword NAME is expected *)
  recv_arguments (ms3 false false) [WInt 129 0 0; i5] = CAbort /\
  (* count 4 for a method of three arguments: refused when the third value has arrived, before the fourth *)
  recv_arguments (ms3 false false) [WInt 129 4 4; i5; WOpen OtList []; slice [] (OText [120])] = CViol /\
  (* count 1 but two positional-looking values: the second is taken for a keyword name *)
  recv_arguments (ms3 false false) [WInt 129 1 1; i5; WOpen OtList []] = CAbort /\
  (* the count is not an INT token / is missing *)
  recv_arguments (ms3 false false) [WInt 131 1 (-1); i5] = CAbort /\ recv_arguments (ms3 false false) [] = CAbort /\
  (* count 0 and the first argument by keyword, a second keyword naming it again *)
  recv_arguments (ms3 false false) [WInt 129 0 0; kname 97; i5; kname 97; i5] = CViol /\
  (* a keyword that names an argument the count already covered *)
  recv_arguments (ms3 false false) [WInt 129 1 1; i5; kname 97; i5] = CViol /\
  (* a name without its value *)
  recv_arguments (ms3 false false) [WInt 129 1 1; i5; kname 98] = CAbort /\
  (* a VOCAB token as keyword name is a name like any other (here: unknown) *)
  recv_arguments (ms3 false false) [WInt 129 1 1; i5; WStr true 4 [108; 105; 115; 116]; i5] = CViol /\
  (* and the conforming ones *)
  recv_arguments (ms3 false false) [WInt 129 1 1; i5; kname 99; slice [] (OText [120])] = CInvoke [OInt 5] [(nC, OText [120])] /\
  recv_arguments (ms3 false false) [WInt 129 0 0; kname 98; WOpen OtList []; kname 97; i5] = CInvoke [] [(nB, OList []); (nA, OInt 5)].
Proof. vm_compute. repeat split; reflexivity. Qed.

(* "a non-conforming message makes that one call fail with a Violation": FALSE under the two unknown-argument flags.
   __ignoreUnknown__: an unknown keyword NAME trips `assert accept` in ArgumentUnslicer.receiveChild: connection lost.
   __acceptUnknown__: the value is received unconstrained, then checkAllArgs calls None.checkObject: the call fails with an
   AttributeError (not a Violation).  In both cases the method body does not run (unknown_flags_never_accept). *)
Theorem unknown_flags_refuted :
  recv_arguments (ms3 true false) [WInt 129 1 1; i5; kname 122; i5] = CAbort /\
  recv_arguments (ms3 false true) [WInt 129 1 1; i5; kname 122; i5] = CFail /\
  checkAllArgs (ms3 true false) [OInt 5] [(nZ, OInt 5)] = Exc "AttributeError" /\
  checkAllArgs (ms3 false true) [OInt 5] [(nZ, OInt 5)] = Exc "AttributeError" /\
  checkAllArgs (ms3 false false) [OInt 5] [(nZ, OInt 5)] = Exc "Violation" /\
  recv_arguments (ms3 true true) [WInt 129 1 1; i5] = CInvoke [OInt 5] [].
Proof. vm_compute. repeat split; reflexivity. Qed.

Example c12_call_nonvacuous :
  let a := [OInt (2 ^ 40)] in
  let kw := [(nC, OText [8364]); (nB, OList [OBytes [108; 105; 115; 116]; OBytes []])] in
  let kb := [([99], slice voc1 (OText [8364])); ([98], slice voc1 (OList [OBytes [108; 105; 115; 116]; OBytes []]))] in
  ms_wf (ms3 false true) /\ args_guarded (ms3 false true) a kw /\
  send_call voc1 (ms3 false true) a kw = Some (map (slice voc1) a, code_kws kb) /\
  recv_arguments (ms3 false true) (enc_args (map (slice voc1) a) kb) = CInvoke a kw.
Proof.
  cbv zeta. split; [|split; [|split]].
  - split; [|intros sp [<-|[<-|[<-|[]]]]; reflexivity].
    cbn. repeat constructor; cbn; intros H; repeat destruct H as [H|H]; try discriminate H; exact H.
  - split.
    + intros [|[|[|i]]] sp v E1 E2; cbn in E1, E2; try discriminate; try (destruct i; discriminate).
      inversion E1; inversion E2; subst. vm_compute. auto.
    + intros n v sp [H|[H|[]]] L; inversion H; subst; vm_compute in L; inversion L; subst; vm_compute; auto.
  - vm_compute. reflexivity.
  - vm_compute. reflexivity.
Qed.

Example c12_result_nonvacuous :
  let o := OTuple [OInt (- 2 ^ 31); OBool false] in
  send_answer voc1 (ms3 false false) o = Some (slice voc1 o) /\
  recv_answer (ms_resp (ms3 false false)) (slice voc1 o) = Callback o /\
  send_answer voc1 (ms3 false false) (OTuple [OInt (2 ^ 31); OBool false]) = None.
Proof. vm_compute. repeat split; reflexivity. Qed.

Example c12_main_nonvacuous :
  let c := CTuple [CInt (Some (-1)); CInt (Some 4); CList (CText (Some 2) 0) (Some 2) 1; CDict (CBytes (Some 1) 0) (CSet (CBool None) (Some 1) None) (Some 1);
                   CChoice [CInt (Some 1024); CNone]; CBytes (Some 10) 0] in
  let o := OTuple [OInt (- 2 ^ 31); OInt (2 ^ 32 - 1); OList [OText [8364; 8364]; OText []]; ODict [OBytes [7]] [OFset [OBool true]]; ONone;
                   OBytes [99; 97; 108; 108]] in
  wf c = true /\ owf o = true /\ c12_guard c o = true /\ checkObject c o = true /\ recvw (Some c) (slice voc1 o) = RDeliver o /\
  slice voc1 (OBytes [99; 97; 108; 108]) = WStr true 11 [99; 97; 108; 108].
Proof. vm_compute. repeat split; reflexivity. Qed.

(* a call m(s, s) with ONE set object: the second occurrence is a reference, and meets SetOf(mutable=True)'s checkOpentype *)
Example c12_ser_shared_nonvacuous :
  let c := CSet (CInt (Some 1024)) (Some 2) (Some true) in
  let s := OSet [OInt 1; OInt 2] in
  ser voc1 (OTuple [s; s]) (WOpen OtTuple [slice voc1 s; WRef s]) /\
  recvw (Some (CTuple [c; c])) (WOpen OtTuple [slice voc1 s; WRef s]) = RDeliver (OTuple [s; s]).
Proof.
  split; [|vm_compute; reflexivity].
  apply ser_tuple. constructor; [apply ser_slice; reflexivity|]. constructor; [apply ser_ref; reflexivity|constructor].
Qed.

(* C02, result side: what still holds (partial) *)
Lemma wwf_int tb s v : wwf (WInt tb s v) = true -> tb = 129 \/ tb = 131 \/ tb = 133 \/ tb = 134.
Proof.
  cbn [wwf]. change tok_INT with 129. change tok_NEG with 131. change tok_LONGINT with 133. change tok_LONGNEG with 134.
  intros H. repeat (apply orb_true_iff in H as [H|H]); apply Z.eqb_eq in H; auto.
Qed.

(* a back-reference -- to an earlier complete object, or (o = OPending k) to a tuple that is still open -- is delivered
   only if the constraint of the slot accepts the referenced object; a placeholder passes only "accept everything" slots *)
Theorem reference_checked : forall c o v,
  recvw (Some c) (WRef o) = RDeliver v -> v = o /\ checkObject c o = true.
Proof.
  intros c o v H. cbn [recvw] in H. destruct (slot_open (Some c)); try discriminate.
  change reference_rechecks_object with true in H. cbn [negb orb] in H.
  destruct (checkObject c o) eqn:E; [inversion H; auto|discriminate].
Qed.

(* the constraints that accept nothing but OPEN: a delivered value came as a reference, which is checked, or as a sequence *)
Lemma open_only c w v : (forall tb s, taste c tb s = checkToken_base openTaster (strict_of c) tb s) ->
  wwf w = true -> recvw (Some c) w = RDeliver v ->
  (forall ot kids, w = WOpen ot kids -> checkObject c v = true) -> checkObject c v = true.
Proof.
  intros T W R K. destruct w as [tb s x|bits|vocab s bs|ot kids|k p|o];
    [exfalso..|exact (K _ _ eq_refl)|discriminate W|apply reference_checked in R as [-> E]; exact E].
  all: cbn [recvw slot_token] in R; rewrite T in R; apply of_tv_deliver in R; unfold checkToken_base in R.
  - destruct (wwf_int _ _ _ W) as [-> | [-> | [-> | ->]]]; cbn in R; destruct (strict_of c); discriminate.
  - cbn in R. destruct (strict_of c); discriminate.
  - destruct vocab; cbn in R; destruct (strict_of c); discriminate.
Qed.

(* a container child that refuses its B-th member ("the list / set / dict is full") delivers at most B members *)
Lemma kids_bound ch (B : Z) :
  (forall i, B <= Z.of_nat i -> child_slot ch i = None) ->
  forall kids i l, kids_with recvw ch kids i = KOk l -> l = [] \/ Z.of_nat i + zlen l <= B.
Proof.
  intros Hs. induction kids as [|k kids IHk]; intros i l E.
  - cbn in E. inversion E. left. reflexivity.
  - cbn [kids_with] in E. destruct (child_slot ch i) as [oc|] eqn:CS; [|discriminate].
    assert (LT : Z.of_nat i < B). { destruct (Z.lt_ge_cases (Z.of_nat i) B) as [L|G]; [exact L|]. rewrite (Hs i G) in CS. discriminate. }
    destruct (recvw oc k) as [x| |]; try discriminate.
    destruct (kids_with recvw ch kids (S i)) as [l'| |] eqn:K; try discriminate.
    inversion E; subst. right. rewrite zlen_cons. destruct (IHk (S i) l' K) as [->|Bd].
    + change (zlen (@nil obj)) with 0. lia.
    + rewrite Nat2Z.inj_succ in Bd. lia.
Qed.

Lemma over_full mx i : match mx with Some m => m <= Z.of_nat i | None => False end -> over_max SGe mx (Z.of_nat i) = true.
Proof. destruct mx as [m|]; [|contradiction]. cbn. intros H. destruct (Z.geb_spec (Z.of_nat i) m); [reflexivity|lia]. Qed.

Lemma max_ok_of_bound mx (l : list obj) :
  (forall m, mx = Some m -> l = [] \/ zlen l <= m) -> (forall m, mx = Some m -> 0 <= m) -> over_max SGt mx (zlen l) = false.
Proof.
  intros H P. destruct mx as [m|]; [|reflexivity]. cbn. destruct (Z.gtb_spec (zlen l) m); [|reflexivity].
  destruct (H m eq_refl) as [->|B]; [|lia]. change (zlen (@nil obj)) with 0 in *. specialize (P m eq_refl). lia.
Qed.

Lemma homog_kids ch c mx :
  (forall i, child_slot ch i = if over_max SGe mx (Z.of_nat i) then None else Some (Some c)) ->
  (forall w v, wwf w = true -> recvw (Some c) w = RDeliver v -> checkObject c v = true) -> bound_nonneg mx = true ->
  forall kids l, forallb wwf kids = true -> kids_with recvw ch kids 0 = KOk l ->
  forallb (checkObject c) l = true /\ over_max SGt mx (zlen l) = false.
Proof.
  intros Hs IH NN kids l W E. split.
  - revert l W E. generalize 0%nat. induction kids as [|k kids IHk]; intros i l W E; cbn [kids_with forallb] in *.
    + inversion E. reflexivity.
    + rewrite Hs in E. destruct (over_max SGe mx (Z.of_nat i)); [discriminate|].
      apply andb_true_iff in W as [W1 W2]. destruct (recvw (Some c) k) as [x| |] eqn:R; try discriminate.
      destruct (kids_with recvw ch kids (S i)) as [l'| |] eqn:K; try discriminate. inversion E.
      cbn [forallb]. rewrite (IH k x W1 R), (IHk (S i) l' W2 K). reflexivity.
  - apply max_ok_of_bound.
    + intros m ->. destruct (kids_bound ch m) with (kids := kids) (i := 0%nat) (l := l) as [->|B]; auto.
      intros i Hi. rewrite Hs, (over_full (Some m) i Hi). reflexivity.
    + intros m ->. apply Z.leb_le, NN.
Qed.

Lemma recv_myref_remote kids v : recv_myref kids = RDeliver v -> exists n, v = ORemote n.
Proof.
  unfold recv_myref. intros E.
  repeat match type of E with
         | context [match ?x with _ => _ end] => destruct x; try discriminate E
         | context [if ?x then _ else _] => destruct x; try discriminate E
         end; inversion E; eauto.
Qed.

Lemma pair_ind {A} (P : list A -> Prop) :
  P [] -> (forall x, P [x]) -> (forall x y l, P l -> P (x :: y :: l)) -> forall l, P l.
Proof. intros H0 H1 H2. fix IH 1. intros [|x [|y l]]; [exact H0|apply H1|apply H2, IH]. Qed.

Lemma kids_alt k v mk :
  (forall w r, wwf w = true -> recvw (Some k) w = RDeliver r -> checkObject k r = true) ->
  (forall w r, wwf w = true -> recvw (Some v) w = RDeliver r -> checkObject v r = true) ->
  forall kids i l, Nat.even i = true -> forallb wwf kids = true -> kids_with recvw (ChDict (Some (k, v)) mk) kids i = KOk l ->
  forallb (checkObject k) (evens l) = true /\ forallb (checkObject v) (odds l) = true.
Proof.
  intros Hk Hv. induction kids as [|w|w1 w2 kids IH] using pair_ind; intros i l Ev W E; cbn [kids_with child_slot] in E.
  - inversion E. split; reflexivity.
  - destruct (over_max dict_full_cmp mk _); [discriminate|]. destruct (recvw _ w); try discriminate. inversion E. split; reflexivity.
  - assert (Od : Nat.even (S i) = false) by (rewrite Nat.even_succ, <- Nat.negb_even, Ev; reflexivity).
    rewrite Ev, Od in E. cbn [forallb] in W. apply andb_true_iff in W as [W1 W]. apply andb_true_iff in W as [W2 W].
    destruct (over_max dict_full_cmp mk _); [discriminate|]. destruct (recvw (Some k) w1) as [x1| |] eqn:R1; try discriminate.
    destruct (over_max dict_full_cmp mk _); [discriminate|]. destruct (recvw (Some v) w2) as [x2| |] eqn:R2; try discriminate.
    destruct (kids_with recvw _ kids (S (S i))) as [l'| |] eqn:K; try discriminate. inversion E.
    destruct (IH (S (S i)) l' Ev W K) as [A1 A2]. cbn [evens odds forallb]. rewrite (Hk w1 x1 W1 R1), (Hv w2 x2 W2 R2), A1, A2. split; reflexivity.
Qed.

Lemma evens_len {A} : forall l : list A, 2 * zlen (evens l) <= zlen l.
Proof.
  induction l as [|x|x y l IH] using pair_ind; cbn [evens]; rewrite ?zlen_cons; change (zlen (@nil A)) with 0; lia.
Qed.

(* C02, result side, for the constraints whose token-level enforcement is complete: the value a slot delivers does
   satisfy the slot's constraint (w: ANY well-formed wire tree, including forged references) *)
Lemma recvw_complete : forall c, complete c = true ->
  forall w v, wwf w = true -> recvw (Some c) w = RDeliver v -> checkObject c v = true.
Proof.
  induction c using ctr_ind'; intros C w res W R; try discriminate C; try reflexivity.
  - (* Int None *)
    destruct mb; [discriminate C|]. destruct w; try destruct vocab; cbn in R; try discriminate.
    destruct (wwf_int _ _ _ W) as [-> | [-> | [-> | ->]]]; cbn in R; inversion R; reflexivity.
  - (* Number None *)
    destruct mb; [discriminate C|]. destruct w; try destruct vocab; cbn in R; try discriminate.
    + destruct (wwf_int _ _ _ W) as [-> | [-> | [-> | ->]]]; cbn in R; inversion R; reflexivity.
    + inversion R. reflexivity.
  - (* Bytes None mn<=0 *)
    destruct mx; [discriminate C|]. cbn [complete] in C. apply Z.leb_le in C.
    destruct w; try (cbn in R; discriminate).
    + destruct (wwf_int _ _ _ W) as [-> | [-> | [-> | ->]]]; discriminate R.
    + destruct vocab; cbn in R; inversion R; subst; cbn [checkObject]; apply (len_ok_spec None mn);
        (split; [exact I | pose proof (zlen_nonneg bs); lia]).
  - (* None *)
    apply (open_only CNone w res (fun _ _ => eq_refl) W R). intros ot kids ->.
    destruct ot; try discriminate R. destruct kids; [inversion R; reflexivity|discriminate R].
  - (* List c mx mn<=0, any maxLength >= 0 *)
    cbn [complete] in C. apply andb_true_iff in C as [C1 C2]. apply andb_true_iff in C1 as [C0 C1]. apply Z.leb_le in C0.
    apply (open_only (CList c mx mn) w res (fun _ _ => eq_refl) W R). intros ot kids ->.
    destruct ot; try discriminate R. rewrite recvw_list in R.
    destruct (kids_with recvw (ChList (Some c) mx) kids 0) as [l| |] eqn:K; try discriminate. inversion R; subst res.
    destruct (homog_kids (ChList (Some c) mx) c mx (fun _ => eq_refl) (IHc C2) C1 kids l W K) as [F B].
    cbn [checkObject]. unfold len_ok. change list_max_cmp with SGt. rewrite F, B.
    change list_min_cmp with SLt. cbn [scmp_eval negb andb].
    pose proof (zlen_nonneg l). destruct (Z.ltb_spec (zlen l) mn); [lia|reflexivity].
  - (* Dict k v mk, any maxKeys >= 0 *)
    cbn [complete] in C. apply andb_true_iff in C as [C1 C3]. apply andb_true_iff in C1 as [C1 C2].
    apply (open_only (CDict c1 c2 mk) w res (fun _ _ => eq_refl) W R). intros ot kids ->.
    destruct ot; try discriminate R. rewrite recvw_dict in R.
    destruct (kids_with recvw (ChDict (Some (c1, c2)) mk) kids 0) as [l| |] eqn:K; try discriminate. inversion R; subst res.
    cbn [checkObject].
    destruct (kids_alt c1 c2 mk (IHc1 C2) (IHc2 C3) kids 0%nat l eq_refl W K) as [A1 A2]. rewrite A1, A2, !andb_true_r.
    apply negb_true_iff, max_ok_of_bound; intros m ->; [|apply Z.leb_le, C1].
    destruct (kids_bound (ChDict (Some (c1, c2)) (Some m)) (2 * m)) with (kids := kids) (i := 0%nat) (l := l) as [->|B]; auto.
    * intros i Hi. cbn [child_slot]. change dict_full_cmp with SGe.
      assert (D : m <= Z.of_nat (Nat.div2 i)). { rewrite Nat.div2_div, Nat2Z.inj_div. apply Z.div_le_lower_bound; lia. }
      rewrite (over_full (Some m) (Nat.div2 i) D). reflexivity.
    * right. pose proof (evens_len l). lia.
  - (* Set c mx None, any maxLength >= 0 *)
    destruct mut; [discriminate C|]. cbn [complete] in C. apply andb_true_iff in C as [C1 C2].
    apply (open_only (CSet c mx None) w res (fun _ _ => eq_refl) W R). intros ot kids ->.
    destruct ot; try discriminate R.
    + rewrite recvw_set in R. destruct (kids_with recvw (ChSet (Some c) mx) kids 0) as [l| |] eqn:K; try discriminate.
      inversion R; subst res. destruct (homog_kids (ChSet (Some c) mx) c mx (fun _ => eq_refl) (IHc C2) C1 kids l W K) as [F B].
      cbn [checkObject mut_ok]. change set_max_cmp with SGt. rewrite F, B. reflexivity.
    + rewrite recvw_fset in R. destruct (kids_with recvw (ChFset (Some c) mx) kids 0) as [l| |] eqn:K; try discriminate.
      inversion R; subst res. destruct (homog_kids (ChFset (Some c) mx) c mx (fun _ => eq_refl) (IHc C2) C1 kids l W K) as [F B].
      cbn [checkObject mut_ok]. change set_max_cmp with SGt. rewrite F, B. reflexivity.
  - (* RemoteInterfaceConstraint(None): any RemoteReference *)
    destruct i; [discriminate C|].
    apply (open_only (CRemote None) w res (fun _ _ => eq_refl) W R). intros ot kids ->.
    destruct ot; try discriminate R; cbn in R; apply recv_myref_remote in R as [n ->]; reflexivity.
Qed.

Theorem C02_result_partial_main : forall c w v,
  complete c = true -> wwf w = true -> recv_answer (Some c) w = Callback v -> checkObject c v = true.
Proof.
  intros c w v C W H. unfold recv_answer in H. change answer_checks_object with false in H. cbv iota in H.
  destruct (recvw (Some c) w) as [v'| |] eqn:R; try discriminate. inversion H; subst v'. exact (recvw_complete c C w v W R).
Qed.

Example C02_result_partial_nonvacuous :
  let c := CList (CSet (CInt None) None None) None 0 in
  let w := slice [] (OList [OFset [OInt 1; OInt (2 ^ 70)]; OSet []]) in
  complete c = true /\ wwf w = true /\ recv_answer (Some c) w = Callback (OList [OFset [OInt 1; OInt (2 ^ 70)]; OSet []]).
Proof. vm_compute. auto. Qed.

(* why `complete` stops where it does: further witnesses of the unchecked result side *)
Theorem result_refuted_more :
  (* ByteString(maxLength=3): a VOCAB token's header is an index, its word is not measured *)
  recv_answer (Some (CBytes (Some 3) 0)) (WStr true 21 [99; 108; 97; 115; 115]) = Callback (OBytes [99; 108; 97; 115; 115]) /\
  checkObject (CBytes (Some 3) 0) (OBytes [99; 108; 97; 115; 115]) = false /\
  (* IntegerConstraint(maxBytes=4): an INT token with a 40-bit header *)
  recv_answer (Some (CInt (Some 4))) (WInt 129 (2 ^ 40) (2 ^ 40)) = Callback (OInt (2 ^ 40)) /\ checkObject (CInt (Some 4)) (OInt (2 ^ 40)) = false /\
  (* ChoiceOf(ListOf(Any)): an OPEN none passes the OPEN taster of the list alternative *)
  recv_answer (Some (CChoice [CList CAny None 0])) (WOpen OtNone []) = Callback ONone /\ checkObject (CChoice [CList CAny None 0]) ONone = false /\
  (* SetOf(int, mutable=True): an immutable-set arrives *)
  recv_answer (Some (CSet (CInt None) None (Some true))) (WOpen OtFset []) = Callback (OFset []) /\
  checkObject (CSet (CInt None) None (Some true)) (OFset []) = false /\
  (* ListOf(int, maxLength=-1) / minLength=1: the empty list *)
  recv_answer (Some (CList (CInt None) (Some (-1)) 0)) (WOpen OtList []) = Callback (OList []) /\
  recv_answer (Some (CList (CInt None) None 1)) (WOpen OtList []) = Callback (OList []).
Proof. vm_compute. repeat split; reflexivity. Qed.

(* bounded containers: the bound is enforced exactly by the "full" tests (a third member / key is refused) *)
Example C02_result_partial_bounded :
  let c := CDict (CBytes None 0) (CList (CSet (CInt None) (Some 1) None) (Some 2) 0) (Some 1) in
  let o := ODict [OBytes [107]] [OList [OSet [OInt 5]; OFset []]] in
  complete c = true /\ wwf (slice [] o) = true /\ recv_answer (Some c) (slice [] o) = Callback o /\ checkObject c o = true /\
  recv_answer (Some c) (slice [] (ODict [OBytes [107]] [OList [OSet []; OSet []; OSet []]])) = Errback /\
  recv_answer (Some c) (slice [] (ODict [OBytes [107]] [OList [OSet [OInt 5; OInt 6]]])) = Errback /\
  recv_answer (Some c) (slice [] (ODict [OBytes [107]; OBytes [108]] [OList []; OList []])) = Errback.
Proof. vm_compute. repeat split; reflexivity. Qed.

Example reference_checked_nonvacuous :
  recvw (Some (CList CAny None 0)) (WOpen OtList [WRef (OPending 1)]) = RDeliver (OList [OPending 1]) /\
  recv_answer (Some (CTuple [CList (CText None 0) None 0])) (WOpen OtTuple [WOpen OtList [WRef (OPending 1)]]) = Errback /\
  recv_answer (Some (CTuple [CDict (CBytes None 0) (CList (CInt (Some 1024)) None 0) None]))
              (WOpen OtTuple [WOpen OtDict [WStr false 1 [107]; WRef (OPending 1)]]) = Errback.
Proof. vm_compute. auto. Qed.

(* RemoteInterface arguments: a my-reference is not examined at token level; the claimed interface name is compared with
   the declared one by the final checkAllArgs (C02_args covers it like every other constraint) *)
Example C02_remote_example :
  recv_call (ms1 (CRemote (Some [82; 73]))) [WOpen OtMyRef [WInt 129 3 3; WStr false 2 [82; 73]]] [] = CInvoke [ORemote [82; 73]] [] /\
  recv_call (ms1 (CRemote (Some [82; 73]))) [WOpen OtMyRef [WInt 129 3 3; WStr false 2 [82; 66]]] [] = CViol /\
  recv_call (ms1 (CRemote (Some [82; 73]))) [WOpen OtMyRef [WInt 129 3 3]] [] = CViol /\
  recv_call (ms1 (CRemote None)) [WOpen OtMyRef [WInt 129 3 3]] [] = CInvoke [ORemote []] [].
Proof. vm_compute. repeat split; reflexivity. Qed.

(* a back-reference to a list that is STILL OPEN is checked against the members received so far (none): the answer
   (list (reference <this list>) (list 1 2)) under ListOf(ListOf(int)) hands the callback l = [l, [1, 2]].  For calls the
   final checkAllArgs sees the cycle and refuses (second part). *)
Theorem result_refuted_open_reference :
  let c := CList (CList (CInt (Some 1024)) None 0) None 0 in
  let w := WOpen OtList [WRefOpen 0 (OList []); WOpen OtList [WInt 129 1 1; WInt 129 2 2]] in
  recv_answer (Some c) w = Callback (OList [OPending 0; OList [OInt 1; OInt 2]]) /\
  checkObject c (OList [OPending 0; OList [OInt 1; OInt 2]]) = false /\
  recv_call (ms1 c) [w] [] = CViol.
Proof. vm_compute. repeat split; reflexivity. Qed.

Definition nonstrict_leaf (c : ctr) : bool := match c with CInt _ | CNumber _ | CBytes _ _ => true | _ => false end.

Lemma checkToken_base_nonstrict t tb sz : checkToken_base t false tb sz <> TBanana.
Proof.
  unfold checkToken_base. destruct (assoc tb t) as [[l|]|]; try discriminate.
  destruct ((negb token_limit_zero_unlimited || negb (l =? 0)) && scmp_eval token_size_cmp sz l); discriminate.
Qed.

Lemma leaf_open_refused c : nonstrict_leaf c = true -> slot_open (Some c) = TViol.
Proof.
  destruct c; try discriminate; intros _; cbn [slot_open taste taster_of strict_of].
  - change strict_Int with false. destruct mb as [[|p|p]|]; try reflexivity. destruct p; reflexivity.
  - change strict_Number with false. destruct mb as [[|p|p]|]; try reflexivity. destruct p; reflexivity.
  - change strict_Bytes with false. reflexivity.
Qed.

Lemma leaf_token_no_abort c tb sz o : nonstrict_leaf c = true -> slot_token (Some c) tb sz o <> RAbort.
Proof.
  intros L. unfold slot_token. destruct c; try discriminate L; cbn [taste taster_of strict_of];
    [change strict_Int with false|change strict_Number with false|change strict_Bytes with false];
    match goal with |- of_tv ?t _ <> _ => pose proof (checkToken_base_nonstrict _ _ _ : t <> TBanana) as N; destruct t; try discriminate; contradiction end.
Qed.

Lemma leaf_never_aborts c w : nonstrict_leaf c = true -> recvw (Some c) w <> RAbort.
Proof.
  intros L. pose proof (leaf_open_refused c L) as O.
  destruct w; cbn [recvw]; try (apply leaf_token_no_abort, L); rewrite O; discriminate.
Qed.

Definition leaf_schema (ms : mschema) : Prop :=
  ms_ignore ms = false /\ ms_accept ms = false /\ forall sp, In sp (ms_args ms) -> nonstrict_leaf (a_ctr sp) = true.

Lemma recv_pos_no_abort ms : (forall sp, In sp (ms_args ms) -> nonstrict_leaf (a_ctr sp) = true) ->
  forall pos i, recv_pos ms pos i <> KAbort.
Proof.
  intros H. induction pos as [|w pos IH]; intros i; cbn [recv_pos]; [discriminate|].
  change posarg_full_cmp with SGe. cbn [scmp_eval].
  destruct (Z.geb_spec (Z.of_nat i) (zlen (ms_args ms))) as [G|G]; [discriminate|].
  destruct (nth_error (ms_args ms) i) as [sp|] eqn:N; [|apply nth_error_None in N; unfold zlen in G; lia].
  cbn [option_map]. pose proof (leaf_never_aborts (a_ctr sp) w (H sp (nth_error_In _ _ N))) as NA.
  destruct (recvw (Some (a_ctr sp)) w); try discriminate; [|contradiction].
  specialize (IH (S i)). destruct (recv_pos ms pos (S i)); try discriminate. contradiction.
Qed.

Lemma recv_kw_no_abort ms : ms_ignore ms = false -> ms_accept ms = false ->
  (forall sp, In sp (ms_args ms) -> nonstrict_leaf (a_ctr sp) = true) -> forall kws prev, recv_kw ms prev kws <> KwAbort.
Proof.
  intros Hi Ha H. induction kws as [|[n w] kws IH]; intros prev; cbn [recv_kw]; [discriminate|].
  unfold getKeywordArgConstraint. destruct (memZ n prev); [discriminate|].
  destruct (lookup n (ms_args ms)) as [sp|] eqn:L.
  - change au_asserts_accept with true. cbn [negb andb]. apply lookup_In in L as [L1 _].
    pose proof (leaf_never_aborts (a_ctr sp) w (H sp L1)) as NA.
    destruct (recvw (Some (a_ctr sp)) w); try discriminate; [|contradiction].
    specialize (IH (prev ++ [n])). destruct (recv_kw ms (prev ++ [n]) kws); try discriminate. contradiction.
  - rewrite Hi, Ha. discriminate.
Qed.

Lemma check_each_violation ms : ms_ignore ms = false -> ms_accept ms = false ->
  forall l e, check_each ms l = Exc e -> e = "Violation"%string.
Proof.
  intros Hi Ha. induction l as [|[n v] l IH]; intros e; cbn [check_each]; [discriminate|].
  unfold getKeywordArgConstraint. cbn [memZ existsb]. destruct (lookup n (ms_args ms)) as [sp|].
  - destruct (checkObject (a_ctr sp) v); [apply IH|intros E; inversion E; reflexivity].
  - rewrite Hi, Ha. intros E; inversion E; reflexivity.
Qed.

Lemma checkAllArgs_violation ms a kw e : ms_ignore ms = false -> ms_accept ms = false ->
  checkAllArgs ms a kw = Exc e -> e = "Violation"%string.
Proof.
  intros Hi Ha. unfold checkAllArgs. destruct (scmp_eval args_count_cmp (zlen a) (zlen (ms_args ms))); [intros E; inversion E; reflexivity|].
  destruct (add_kwargs (combine (names ms) a) kw) as [l|]; [|intros E; inversion E; reflexivity].
  destruct (check_each ms l) as [[]|e'] eqn:E1.
  - destruct (negb (required_ok ms (map fst l))); intros E; inversion E; reflexivity.
  - intros E; inversion E; subst. eapply check_each_violation; eassumption.
Qed.

(* "a non-conforming message makes that one call fail with a Violation", POSITIVELY, where it holds: for method schemas
   whose arguments are declared with the token-level constraints that are not strictTaster (Int / Number / ByteString, any
   bounds) and without the unknown-argument flags, EVERY counted stream -- whatever wire trees stand in the argument
   slots: wrong types, oversized tokens, containers, forged references, unknown / duplicate / missing names -- either
   runs the method with arguments that pass checkAllArgs or fails exactly this call with a Violation: the connection is
   never lost and the failure is never another exception.  The proof goes through the token-level model (taster
   tables of the three classes, their strictTaster flags, Constraint.checkToken, the OPEN refusal), not through _doCall. *)
Theorem one_call_violation ms pos kws : leaf_schema ms ->
  recv_call ms pos kws = CViol \/ exists a kw, recv_call ms pos kws = CInvoke a kw /\ checkAllArgs ms a kw = Ok tt.
Proof.
  intros (Hi & Ha & H). unfold recv_call.
  destruct (recv_pos ms pos 0) as [a| |] eqn:RP; [|left; reflexivity|exfalso; eapply recv_pos_no_abort; eassumption].
  destruct (recv_kw ms (firstn (List.length pos) (names ms)) kws) as [kw| |] eqn:RK;
    [|left; reflexivity|exfalso; eapply recv_kw_no_abort; eassumption].
  unfold doCall. change doCall_shape with CheckedBeforeCall. cbv iota.
  destruct (checkAllArgs ms a kw) as [[]|e] eqn:E.
  - right. exists a, kw. auto.
  - left. rewrite (checkAllArgs_violation ms a kw e Hi Ha E). reflexivity.
Qed.

Corollary one_call_violation_stream ms pos kwsb : leaf_schema ms -> names_text kwsb = true ->
  recv_arguments ms (enc_args pos kwsb) = CViol \/
  exists a kw, recv_arguments ms (enc_args pos kwsb) = CInvoke a kw /\ checkAllArgs ms a kw = Ok tt.
Proof. intros L NT. rewrite recv_arguments_refines by exact NT. apply one_call_violation. exact L. Qed.

(* a keyword name that is not text (bytes that are not UTF-8) fails that one call with a Violation -- whatever the schema,
   flags included, and whatever follows it; before the repair (au_nontext_name_violation = false) the connection was lost *)
Theorem nontext_name_violation ms na args kws c vb sz bs rest : na <= zlen args -> utf8_valid bs = false ->
  au_run ms (aust na args kws None c) (WStr vb sz bs :: rest) = CViol.
Proof.
  intros H T. rewrite au_run_cons. unfold au_child. rewrite (au_stage_kw _ _ _ _ _ H), T. cbn [negb].
  change au_nontext_name_violation with true. reflexivity.
Qed.

Example nontext_name_examples :
  utf8_valid [168; 97] = false /\ utf8_valid [195; 169] = true /\ utf8_valid [192; 128] = false /\
  utf8_valid [237; 160; 128] = false /\ utf8_valid [244; 144; 128; 128] = false /\ utf8_valid [240; 144; 128; 128] = true /\
  recv_arguments (ms3 false false) [WInt 129 0 0; WStr false 2 [168; 97]; i5] = CViol /\
  recv_arguments (ms3 true false) [WInt 129 1 1; i5; WStr false 2 [168; 97]; i5] = CViol /\      (* not the `assert accept` path *)
  recv_arguments (ms3 true false) [WInt 129 1 1; i5; WStr false 2 [195; 169]; i5] = CAbort /\    (* a text name that is unknown *)
  recv_arguments (ms3 false true) [WInt 129 1 1; i5; WStr false 2 [195; 169]; i5] = CFail.
Proof. vm_compute. repeat split; reflexivity. Qed.

Definition msL : mschema :=
  mkms [{| a_name := nA; a_ctr := CInt (Some (-1)); a_opt := false |}; {| a_name := nB; a_ctr := CBytes (Some 3) 1; a_opt := true |}] None.

Example one_call_violation_nonvacuous :
  leaf_schema msL /\
  recv_call msL [WInt 129 5 5] [(nB, WStr false 2 [65; 66])] = CInvoke [OInt 5] [(nB, OBytes [65; 66])] /\
  recv_call msL [WInt 133 5 (2 ^ 39)] [] = CViol /\                       (* LONGINT under the 32-bit constraint *)
  recv_call msL [WOpen OtList [WInt 129 5 5]] [] = CViol /\               (* a container where an int is declared *)
  recv_call msL [WInt 129 5 5] [(nB, WStr false 4 [65; 66; 67; 68])] = CViol /\   (* 4 bytes under maxLength 3 *)
  recv_call msL [WInt 129 5 5] [(nB, WStr false 0 [])] = CViol /\         (* minLength 1: only checkAllArgs sees it *)
  recv_call msL [WInt 129 5 5; WRef (OList [])] [] = CViol /\             (* a forged reference *)
  recv_call msL [] [(nB, WStr false 1 [65])] = CViol.                     (* required argument missing *)
Proof.
  split; [|vm_compute; repeat split; reflexivity].
  split; [reflexivity|]. split; [reflexivity|]. intros sp [<-|[<-|[]]]; reflexivity.
Qed.

(* C02: RemoteCopy state under a stateSchema *)
(* every (name, value) the RemoteCopyUnslicer collects was received under the constraint getAttrConstraint gave for
   that name (accept = True), whatever the children are *)
Lemma rc_run_invariant s (P : Z * obj -> Prop) :
  (forall n oc w x, getAttrConstraint s n = GC true oc -> wwf w = true -> recvw oc w = RDeliver x -> P (n, x)) ->
  forall items d d', forallb wwf items = true -> rc_run (Some s) d items = ADeliver d' -> Forall P d -> Forall P d'.
Proof.
  intros HP.
  assert (C : forall d d', rc_close (Some s) d = ADeliver d' -> d' = d).
  { unfold rc_close. change rc_close_checks_state with false. intros d d' E. inversion E. reflexivity. }
  induction items as [|nametok|nametok w items IH] using pair_ind; intros d d' W E F; cbn [rc_run] in E.
  2, 3: destruct nametok; try discriminate E;
    destruct (utf8_valid bs); cbn [negb] in E; [|destruct rc_nontext_name_violation; discriminate E];
    destruct (memZ (name_code bs) (map fst d)); [discriminate E|];
    destruct (getAttrConstraint s (name_code bs)) as [| |acc oc] eqn:GA; try discriminate E;
    change rc_asserts_accept with true in E; destruct acc; cbn [negb andb] in E; [|discriminate E].
  1, 2: apply C in E as ->; exact F.
  cbn [forallb] in W. apply andb_true_iff in W as [_ W]. apply andb_true_iff in W as [W1 W2].
  destruct (recvw oc w) as [x| |] eqn:R; try discriminate E.
  apply (IH _ d' W2 E), Forall_app. split; [exact F|]. constructor; [|constructor]. eapply HP; eassumption.
Qed.

(* the RemoteCopy analogue of the result side: a collected attribute value satisfies the constraint declared for its name
   when that constraint's token-level enforcement is complete -- nothing more, because receiveClose does not apply the
   stateSchema to the finished state *)
Theorem rc_values_partial s items d' : forallb wwf items = true -> rc_run (Some s) [] items = ADeliver d' ->
  forall n v a, In (n, v) d' -> lookup n (as_keys s) = Some a -> complete (a_ctr a) = true -> checkObject (a_ctr a) v = true.
Proof.
  intros W E.
  pose proof (rc_run_invariant s (fun nv => forall a, lookup (fst nv) (as_keys s) = Some a -> complete (a_ctr a) = true ->
                                                       checkObject (a_ctr a) (snd nv) = true)) as I.
  assert (F : Forall (fun nv => forall a, lookup (fst nv) (as_keys s) = Some a -> complete (a_ctr a) = true ->
                                          checkObject (a_ctr a) (snd nv) = true) d').
  { apply (I) with (items := items) (d := []); [|exact W|exact E|constructor].
    intros n oc w x GA Ww R a L C. cbn [fst snd] in *. unfold getAttrConstraint in GA. rewrite L in GA. inversion GA; subst.
    eapply recvw_complete; eassumption. }
  intros n v a Hin L C. rewrite Forall_forall in F. apply (F (n, v) Hin a L C).
Qed.

(* "no undeclared attribute": a collected name is declared, or the schema says acceptUnknown *)
Theorem rc_names_declared s items d' : forallb wwf items = true -> rc_run (Some s) [] items = ADeliver d' ->
  forall n v, In (n, v) d' -> lookup n (as_keys s) <> None \/ as_accept s = true.
Proof.
  intros W E.
  assert (F : Forall (fun nv => lookup (fst nv) (as_keys s) <> None \/ as_accept s = true) d').
  { apply (rc_run_invariant s _) with (items := items) (d := []); [|exact W|exact E|constructor].
    intros n oc w x GA _ _. cbn [fst]. unfold getAttrConstraint in GA. destruct (lookup n (as_keys s)); [left; discriminate|].
    destruct (as_ignore s); [discriminate GA|]. destruct (as_accept s); [right; reflexivity|discriminate GA]. }
  intros n v Hin. rewrite Forall_forall in F. apply (F (n, v) Hin).
Qed.

Definition asP (ign acc : bool) : attrschema :=
  {| as_keys := [{| a_name := nA; a_ctr := CInt (Some 1024); a_opt := false |};
                 {| a_name := nB; a_ctr := CTuple [CInt None; CInt None]; a_opt := false |};
                 {| a_name := nC; a_ctr := CList (CInt None) (Some 2) 0; a_opt := true |}];
     as_ignore := ign; as_accept := acc |}.

(* the full statement "the state handed to setCopyableState satisfies the declared stateSchema" is FALSE on the current
   tree (finding oracle/remotecopy-state-unchecked): required attributes may be missing, a 1-tuple arrives for
   TupleOf(int, int); and the "one call fails with a Violation" part is false for ignoreUnknown (assert accept: connection
   lost).  An attribute name that is not UTF-8 is a Violation since commit bc46263 (rc_nontext_name_violation, read from
   copyable.py; before it the UnicodeDecodeError escaped and the connection was lost) *)
Theorem rc_state_refuted :
  rc_run (Some (asP false false)) [] [] = ADeliver [] /\ attr_state_ok (asP false false) [] = false /\
  rc_run (Some (asP false false)) [] [kname 97; i5; kname 98; WOpen OtTuple [i5]] = ADeliver [(nA, OInt 5); (nB, OTuple [OInt 5])] /\
  attr_state_ok (asP false false) [(nA, OInt 5); (nB, OTuple [OInt 5])] = false /\
  rc_run (Some (asP true false)) [] [kname 97; i5; kname 122; i5] = AAbort /\
  rc_run (Some (asP false false)) [] [WStr false 2 [168; 97]; i5] = AViol /\
  rc_run (Some (asP false false)) [] [kname 97; i5; kname 122; i5] = AViol /\
  rc_run (Some (asP false true)) [] [kname 97; i5; kname 122; WOpen OtList [i5]] = ADeliver [(nA, OInt 5); (nZ, OList [OInt 5])] /\
  rc_run (Some (asP false false)) [] [kname 99; WOpen OtList [i5; i5; i5]] = AViol.
Proof. vm_compute. repeat split; reflexivity. Qed.

(* C02 / C12: the whole `call` sequence *)
Lemma au_run_collect ms : forall items st,
  au_run ms st items = match au_collect ms st items with ArOk a kw => doCall ms a kw | ArViol => CViol | ArAbort => CAbort end.
Proof.
  induction items as [|w items IH]; intros st; cbn [au_run au_collect].
  - destruct (au_close st) as [[a kw]|]; reflexivity.
  - destruct (au_child ms st w); [apply IH|reflexivity|reflexivity].
Qed.

(* the schema a call is judged by is the one the Broker's tables designate for the addressed object and method *)
Definition designated (env : benv) (clid : Z) (meth : option Z) (ms : mschema) : Prop :=
  exists t, assocZ clid (be_objs env) = Some t /\
    if clid <? 0 then t_methodSchema t = Some ms /\ meth = None
    else exists tbl n, t_iface t = Some tbl /\ meth = Some n /\ assocZ n tbl = Some ms.

Definition cu_inv (env : benv) (st : custate) : Prop :=
  (forall t, cu_target st = Some t -> assocZ (cu_objid st) (be_objs env) = Some t) /\
  (forall tbl, cu_iface st = Some tbl -> exists t, assocZ (cu_objid st) (be_objs env) = Some t /\ (cu_objid st <? 0) = false /\ t_iface t = Some tbl) /\
  (forall ms, cu_ms st = Some ms -> designated env (cu_objid st) (cu_meth st) ms).

Lemma cu_child_stop env st k r : cu_child env st k = CuStop r -> forall c m ms a kw, r <> QInvoke c m ms a kw.
Proof.
  unfold cu_child. intros E c m ms a kw ->.
  repeat match type of E with
         | context [match ?x with _ => _ end] => destruct x; try discriminate E
         | context [if ?x then _ else _] => destruct x; try discriminate E
         end.
Qed.

Lemma cu_child_inv env st k st' : cu_inv env st -> cu_child env st k = CuGo st' -> cu_inv env st'.
Proof.
  intros (I1 & I2 & I3). unfold cu_child. destruct k as [w|items].
  - destruct (negb (cu_tok_ok (cu_stage st) (typebyte_of w))); [discriminate|].
    destruct w; try discriminate.
    + destruct (cu_stage st =? 0).
      * destruct (negb (v =? 0) && memZ v (be_active env)); [discriminate|]. intros E; inversion E; subst. clear E.
        split; [|split]; cbn; intros; discriminate.
      * destruct (cu_stage st =? 1); [|discriminate]. destruct (assocZ v (be_objs env)) as [t|] eqn:A; [|discriminate].
        intros E; inversion E; subst. clear E. split; [|split]; cbn [cu_target cu_objid cu_iface cu_ms cu_meth].
        -- intros t0 E0. inversion E0; subst. exact A.
        -- intros tbl E0. destruct (v <? 0) eqn:N; [discriminate|]. exists t. auto.
        -- intros; discriminate.
    + destruct (cu_stage st =? 2); [|discriminate]. destruct (cu_objid st <? 0) eqn:N.
      * destruct (be_require env && _); [discriminate|]. intros E; inversion E; subst. clear E.
        split; [|split]; cbn [cu_target cu_objid cu_iface cu_ms cu_meth]; [exact I1|rewrite N; exact I2|].
        intros ms E0. destruct (cu_target st) as [t|] eqn:T; [|discriminate]. exists t. split; [apply I1; reflexivity|]. rewrite N. auto.
      * destruct (negb (utf8_valid bs)); [discriminate|]. destruct (cu_iface st) as [tbl|] eqn:F.
        -- destruct (assocZ (name_code bs) tbl) as [ms0|] eqn:A; [|discriminate]. intros E; inversion E; subst. clear E.
           split; [|split]; cbn [cu_target cu_objid cu_iface cu_ms cu_meth]; [exact I1|rewrite N; exact I2|].
           intros ms E0. inversion E0; subst. destruct (I2 tbl eq_refl) as (t & A1 & A2 & A3). exists t. split; [exact A1|].
           rewrite N. exists tbl, (name_code bs). auto.
        -- intros E; inversion E; subst. clear E. split; [|split]; cbn [cu_target cu_objid cu_iface cu_ms cu_meth]; [exact I1|rewrite N; exact I2|].
           intros; discriminate.
  - destruct (negb (cu_tok_ok (cu_stage st) tok_OPEN)); [discriminate|]. destruct (cu_ms st) as [ms|] eqn:M; [|discriminate].
    destruct (au_collect ms au_init items); try discriminate. intros E; inversion E; subst. clear E.
    split; [|split]; cbn [cu_target cu_objid cu_iface cu_ms cu_meth]; [exact I1|exact I2|]. intros ms0 E0. inversion E0; subst. apply I3. reflexivity.
Qed.

Lemma cu_run_checked env : forall kids st clid meth ms a kw, cu_inv env st ->
  cu_run env st kids = QInvoke clid meth ms a kw -> designated env clid meth ms /\ checkAllArgs ms a kw = Ok tt.
Proof.
  induction kids as [|k kids IH]; intros st clid meth ms a kw I E; cbn [cu_run] in E.
  - unfold cu_close in E. destruct (negb (cu_close_ok (cu_stage st))); [discriminate|].
    destruct (cu_ms st) as [ms0|] eqn:M; [|discriminate]. destruct (cu_args st) as [[a0 kw0]|]; [|discriminate].
    destruct (doCall ms0 a0 kw0) as [a1 kw1| | |] eqn:D; cbn [lift_cv] in E; try discriminate. inversion E; subst.
    apply doCall_checked in D as (-> & -> & D). split; [|exact D]. destruct I as (_ & _ & I3). apply I3. exact M.
  - destruct (cu_child env st k) as [st'|r] eqn:C.
    + eapply IH; [eapply cu_child_inv; eassumption|exact E].
    + subst r. exfalso. eapply cu_child_stop; [exact C|reflexivity].
Qed.

(* for ARBITRARY children of OPEN call: if the method body runs, the arguments passed checkAllArgs of the schema that
   the Broker's tables designate for the addressed object and method name *)
Theorem call_stream_checked env kids clid meth ms a kw :
  recv_call_stream env kids = QInvoke clid meth ms a kw -> designated env clid meth ms /\ checkAllArgs ms a kw = Ok tt.
Proof.
  apply cu_run_checked. split; [|split]; cbn; intros; discriminate.
Qed.

(* a call sequence framed like an honest one -- request id, object id >= 0 of a Referenceable whose RemoteInterface
   defines the named method, an `arguments` sequence with ARBITRARY children -- is the ArgumentUnslicer machine run under
   that method's schema *)
Definition call_kids (r c : Z) (mname : list Z) (items : list wobj) : list citem :=
  [CTok (WInt tok_INT r r); CTok (WInt tok_INT c c); CTok (WStr false (zlen mname) mname); CArgs items].

Lemma call_stream_framed env r c mname items t tbl ms :
  (negb (r =? 0) && memZ r (be_active env)) = false -> 0 <= c -> utf8_valid mname = true ->
  assocZ c (be_objs env) = Some t -> t_iface t = Some tbl -> assocZ (name_code mname) tbl = Some ms ->
  recv_call_stream env (call_kids r c mname items) = lift_cv c (Some (name_code mname)) ms (recv_arguments ms items).
Proof.
  intros A C U L1 L2 L3. unfold recv_call_stream, call_kids, recv_arguments. rewrite au_run_collect.
  assert (N : (c <? 0) = false) by (apply Z.ltb_ge; exact C).
  cbn [cu_run]. unfold cu_child at 1. cbn [cu_stage cu_init typebyte_of]. change (cu_tok_ok 0 tok_INT) with true. cbn [negb Z.eqb Pos.eqb].
  rewrite A. cbn [cu_run]. unfold cu_child at 1. cbn [cu_stage typebyte_of]. change (cu_tok_ok 1 tok_INT) with true. cbn [negb Z.eqb Pos.eqb].
  rewrite L1, N, L2. cbn [cu_run]. unfold cu_child at 1. cbn [cu_stage cu_objid cu_iface typebyte_of]. change (cu_tok_ok 2 tok_STRING) with true.
  cbn [negb Z.eqb Pos.eqb]. rewrite N, U. cbn [negb]. rewrite L3. cbn [cu_run]. unfold cu_child at 1. cbn [cu_stage cu_ms].
  change (cu_tok_ok 3 tok_OPEN) with true. cbn [negb].
  destruct (au_collect ms au_init items) as [a kw| |]; reflexivity.
Qed.

(* C02_one_call_violation for complete call sequences *)
Theorem call_one_violation env r c mname pos kwsb t tbl ms :
  (negb (r =? 0) && memZ r (be_active env)) = false -> 0 <= c -> utf8_valid mname = true ->
  assocZ c (be_objs env) = Some t -> t_iface t = Some tbl -> assocZ (name_code mname) tbl = Some ms ->
  leaf_schema ms -> names_text kwsb = true ->
  recv_call_stream env (call_kids r c mname (enc_args pos kwsb)) = QViol \/
  exists a kw, recv_call_stream env (call_kids r c mname (enc_args pos kwsb)) = QInvoke c (Some (name_code mname)) ms a kw /\
               checkAllArgs ms a kw = Ok tt.
Proof.
  intros A C U L1 L2 L3 LS NT. rewrite (call_stream_framed env r c mname _ t tbl ms A C U L1 L2 L3).
  destruct (one_call_violation_stream ms pos kwsb LS NT) as [E|(a & kw & E & K)]; rewrite E; cbn [lift_cv]; [left; reflexivity|].
  right. exists a, kw. auto.
Qed.

(* C12_call_delivered for complete call sequences: what callRemote's check lets through runs the addressed method *)
Theorem call_delivered voc env r c mname t tbl ms a kw :
  (negb (r =? 0) && memZ r (be_active env)) = false -> 0 <= c -> utf8_valid mname = true ->
  assocZ c (be_objs env) = Some t -> t_iface t = Some tbl -> assocZ (name_code mname) tbl = Some ms ->
  ms_wf ms -> args_guarded ms a kw ->
  forall p k kb, send_call voc ms a kw = Some (p, k) -> code_kws kb = k -> names_text kb = true ->
  recv_call_stream env (call_kids r c mname (enc_args p kb)) = QInvoke c (Some (name_code mname)) ms a kw.
Proof.
  intros A C U L1 L2 L3 W G p k kb S K NT. rewrite (call_stream_framed env r c mname _ t tbl ms A C U L1 L2 L3).
  rewrite (c12_call_stream voc ms a kw W G p k kb S K NT). reflexivity.
Qed.

Theorem call_delivered_ser voc env r c mname t tbl ms a kw :
  (negb (r =? 0) && memZ r (be_active env)) = false -> 0 <= c -> utf8_valid mname = true ->
  assocZ c (be_objs env) = Some t -> t_iface t = Some tbl -> assocZ (name_code mname) tbl = Some ms ->
  ms_wf ms -> args_guarded ms a kw ->
  forall p k kb, sent_call voc ms a kw p k -> code_kws kb = k -> names_text kb = true ->
  recv_call_stream env (call_kids r c mname (enc_args p kb)) = QInvoke c (Some (name_code mname)) ms a kw.
Proof.
  intros A C U L1 L2 L3 W G p k kb S K NT. rewrite (call_stream_framed env r c mname _ t tbl ms A C U L1 L2 L3).
  rewrite (c12_call_ser_stream voc ms a kw W G p k kb S K NT). reflexivity.
Qed.

Definition envX : benv :=
  {| be_objs := [(0, {| t_iface := None; t_methodSchema := None |});
                 (3, {| t_iface := Some [(name_code [109], ms3 false false); (name_code [110], msL)]; t_methodSchema := None |});
                 (4, {| t_iface := None; t_methodSchema := None |});
                 (-5, {| t_iface := None; t_methodSchema := Some msL |}); (-6, {| t_iface := None; t_methodSchema := None |})];
     be_require := true; be_active := [7] |}.

(* hostile `call` sequences: every line is a stream no honest sender emits (or addresses something that is not there) *)
Example hostile_calls :
  let args := CArgs [WInt 129 1 1; i5] in
  let rq := CTok (WInt 129 1 1) in let ob := CTok (WInt 129 3 3) in let nm_ := CTok (WStr false 1 [109]) in
  recv_call_stream envX [rq; ob; nm_; args] = QInvoke 3 (Some (name_code [109])) (ms3 false false) [OInt 5] [] /\
  recv_call_stream envX [rq; CTok (WInt 129 9 9); nm_; args] = QViol /\                       (* unknown object id *)
  recv_call_stream envX [rq; ob; CTok (WStr false 1 [120]); args] = QViol /\                  (* method not in the interface *)
  recv_call_stream envX [rq; ob; CTok (WStr false 2 [168; 97]); args] = QViol /\              (* method name not UTF-8 *)
  recv_call_stream envX [rq; ob; args] = QAbort /\                                            (* arguments where the name is expected *)
  recv_call_stream envX [rq; ob; nm_] = QAbort /\                                             (* ends before the arguments *)
  recv_call_stream envX [rq; ob; nm_; args; args] = QAbort /\                                 (* a second arguments sequence *)
  recv_call_stream envX [rq; ob; nm_; CTok (WOpen OtList [i5])] = QAbort /\                   (* a list instead of arguments *)
  recv_call_stream envX [CTok (WInt 131 1 (-1)); ob; nm_; args] = QAbort /\                   (* request id is a NEG token *)
  recv_call_stream envX [CTok (WInt 129 7 7); ob; nm_; args] = QAbort /\                      (* request id still being answered *)
  recv_call_stream envX [rq; CTok (WInt 129 4 4); nm_; args] = QNoSchema /\                   (* object without RemoteInterface *)
  recv_call_stream envX [rq; CTok (WInt 131 5 (-5)); nm_; CArgs [WInt 129 1 1; i5]] = QInvoke (-5) None msL [OInt 5] [] /\  (* bound method: name ignored *)
  recv_call_stream envX [rq; CTok (WInt 131 6 (-6)); nm_; args] = QViol /\                    (* requireSchema, bound method without schema *)
  recv_call_stream envX [rq; ob; CTok (WStr false 1 [110]); CArgs [WInt 129 1 1; WOpen OtList []]] = QViol.   (* the OTHER method's schema *)
Proof. vm_compute. repeat split; reflexivity. Qed.

(* C12: text without a UTF-8 form: the sender refuses it locally *)
Theorem unencodable_call_refused voc ms a kw :
  forallb encodable a && forallb (fun nv => encodable (snd nv)) kw = false -> send_call voc ms a kw = None.
Proof.
  intros E. unfold send_call. destruct (checkAllArgs ms a kw); [|reflexivity].
  (* unicode_slicer_refuses_unencodable holds *)
  change sendable with encodable. rewrite E. reflexivity.
Qed.

Theorem unencodable_result_refused voc ms o : encodable o = false -> send_answer voc ms o = None.
Proof.
  intros E. unfold send_answer, sendable. change unicode_slicer_refuses_unencodable with true. cbn [negb orb]. rewrite E. reflexivity.
Qed.

(* necessity (and non-vacuity): the sender's schema check accepts such text, and if the slicer let it out (the generic
   three-byte form) the receiver's strict decoder would raise UnicodeDecodeError: connection lost *)
Example unencodable_witness :
  let o := OList [OText [99; 97; 102; 56553]; OText [97]] in let c := CList (CText (Some 4) 0) None 0 in
  checkObject c o = true /\ encodable o = false /\ utf8_valid (utf8_encode [99; 97; 102; 56553]) = false /\
  recvw (Some c) (slice [] o) = (if unicode_unslicer_undecodable_violation then RViol else RAbort) /\
  send_call [] (ms1 c) [o] [] = None /\
  encodable (OText [55295; 57344; 1114111]) = true /\ utf8_valid (utf8_encode [55295; 57344; 1114111]) = true /\
  recvw (Some (CText (Some 3) 0)) (slice [] (OText [55295; 57344; 1114111])) = RDeliver (OText [55295; 57344; 1114111]).
Proof. vm_compute. repeat split; reflexivity. Qed.

(* C02: the body of a unicode sequence is ANY byte string
   the peer chooses (UnicodeUnslicer.receiveChild decodes it; since 66cc69a a body that is not UTF-8 is a Violation) *)
Theorem recv_text_delivers_decoded mx kids v : recv_text mx kids = RDeliver v ->
  (kids = [] /\ v = ONone) \/
  exists vocab size bs, kids = [WStr vocab size bs] /\ utf8_valid bs = true /\ v = OText (utf8_decode bs).
Proof.
  unfold recv_text, body_decodable. change unicode_unslicer_strict_decode with true. cbv iota.
  destruct kids as [|[| |vocab size bs| | |] rest]; intros E; try discriminate E.
  - left. inversion E. auto.
  - right. destruct (text_body_too_long mx vocab size); [discriminate|]. destruct (utf8_valid bs) eqn:V; cbn [negb] in E.
    + destruct rest; [|discriminate]. inversion E. exists vocab, size, bs. auto.
    + destruct unicode_unslicer_undecodable_violation; discriminate.
Qed.

Theorem nontext_body_violation mx vocab size bs rest : utf8_valid bs = false ->
  recv_text mx (WStr vocab size bs :: rest) = RViol.
Proof.
  intros V. cbn [recv_text]. destruct (text_body_too_long mx vocab size); [reflexivity|].
  unfold body_decodable. change unicode_unslicer_strict_decode with true. cbv iota. rewrite V. cbn [negb].
  change unicode_unslicer_undecodable_violation with true. reflexivity.
Qed.

Theorem nontext_body_violation_slot oc vocab size bs rest : utf8_valid bs = false ->
  (oc = None \/ oc = Some CAny \/ exists mx mn, oc = Some (CText mx mn)) ->
  recvw oc (WOpen OtUnicode (WStr vocab size bs :: rest)) = RViol.
Proof.
  intros V [->|[->|(mx & mn & ->)]].
  - change (recvw None (WOpen OtUnicode (WStr vocab size bs :: rest))) with (recv_text None (WStr vocab size bs :: rest)).
    apply nontext_body_violation, V.
  - change (recvw (Some CAny) (WOpen OtUnicode (WStr vocab size bs :: rest))) with (recv_text None (WStr vocab size bs :: rest)).
    apply nontext_body_violation, V.
  - change (recvw (Some (CText mx mn)) (WOpen OtUnicode (WStr vocab size bs :: rest))) with (recv_text mx (WStr vocab size bs :: rest)).
    apply nontext_body_violation, V.
Qed.

Corollary nontext_body_call_violation mx mn vocab size bs rest : utf8_valid bs = false ->
  recv_call (ms1 (CText mx mn)) [WOpen OtUnicode (WStr vocab size bs :: rest)] [] = CViol /\
  recv_call (ms1 (CList (CText mx mn) None 0)) [WOpen OtList [WOpen OtUnicode (WStr vocab size bs :: rest)]] [] = CViol /\
  recv_answer (Some (CText mx mn)) (WOpen OtUnicode (WStr vocab size bs :: rest)) = Errback.
Proof.
  intros V. pose proof (nontext_body_violation_slot (Some (CText mx mn)) vocab size bs rest V
                          (or_intror (or_intror (ex_intro _ mx (ex_intro _ mn eq_refl))))) as R.
  split; [|split].
  - unfold recv_call. cbn [recv_pos ms1 mkms ms_args nth_error option_map a_ctr]. change posarg_full_cmp with SGe.
    cbv iota. rewrite R. reflexivity.
  - unfold recv_call. cbn [recv_pos ms1 mkms ms_args nth_error option_map a_ctr]. change posarg_full_cmp with SGe.
    cbv iota. rewrite recvw_list. cbn [kids_with child_slot over_max]. rewrite R. reflexivity.
  - unfold recv_answer. rewrite R. reflexivity.
Qed.

Corollary recv_text_delivers_sent_form mx kids t : recv_text mx kids = RDeliver (OText t) ->
  text_encodable t = true /\ exists vocab size, kids = [WStr vocab size (utf8_encode t)].
Proof.
  intros E. apply recv_text_delivers_decoded in E as [[_ E]|(vocab & size & bs & -> & V & E)]; [discriminate|].
  inversion E; subst t. destruct (utf8_valid_decode bs V) as [A B]. split; [exact B|]. exists vocab, size. rewrite A. reflexivity.
Qed.

Example nontext_body_examples :
  utf8_valid [255] = false /\ utf8_valid [192; 128] = false /\ utf8_valid [237; 160; 128] = false /\ utf8_valid [195; 169] = true /\
  recv_call (ms1 (CText None 0)) [WOpen OtUnicode [WStr false 1 [255]]] [] = CViol /\
  recv_call (ms1 CAny) [WOpen OtList [WOpen OtUnicode [WStr false 2 [192; 128]]]] [] = CViol /\
  recv_answer (Some (CText (Some 3) 0)) (WOpen OtUnicode [WStr false 3 [237; 160; 128]]) = Errback /\
  recv_call (ms1 (CText None 0)) [WOpen OtUnicode [WStr false 2 [195; 169]]] [] = CInvoke [OText [233]] [] /\
  recv_answer (Some (CText (Some 1) 0)) (WOpen OtUnicode [WStr false 4 [240; 159; 152; 128]]) = Callback (OText [128512]).
Proof. vm_compute. repeat split; reflexivity. Qed.

(* C02: my-reference.  The interface name and the URL go through six.ensure_str with no handler (the remaining sites of
   the family 0c0affc / bc46263 / 66cc69a; known finding oracle/non-utf8-reference-name-drops-connection): inside the guard
   "the name is text" a reference without URL is delivered; a name / URL that is not UTF-8 gets what the translated flags
   say -- on the current tree the connection is lost (reference_name_refuted).  Text URLs: see Schema.recv_myref. *)
Theorem myref_text_delivered tb s v vb sz name :
  (tb =? tok_INT) || (tb =? tok_NEG) = true -> utf8_valid name = true ->
  recv_myref [WInt tb s v; WStr vb sz name] = RDeliver (ORemote name).
Proof. intros T N. cbn [recv_myref]. rewrite T, N. reflexivity. Qed.

Theorem myref_nontext_name_outcome tb s v vb sz name rest :
  (tb =? tok_INT) || (tb =? tok_NEG) = true -> utf8_valid name = false ->
  recv_myref (WInt tb s v :: WStr vb sz name :: rest) = (if myref_nontext_name_violation then RViol else RAbort).
Proof. intros T N. cbn [recv_myref]. rewrite T, N. reflexivity. Qed.

Theorem myref_nontext_url_outcome tb s v vb sz name vb2 sz2 url :
  (tb =? tok_INT) || (tb =? tok_NEG) = true -> utf8_valid name = true -> utf8_valid url = false ->
  recv_myref [WInt tb s v; WStr vb sz name; WStr vb2 sz2 url] = (if myref_nontext_url_violation then RViol else RAbort).
Proof. intros T N U. cbn [recv_myref]. rewrite T, N, U. reflexivity. Qed.

Theorem reference_name_refuted :
  recv_call (ms1 CAny) [WOpen OtMyRef [WInt 129 5 5; WStr false 2 [168; 97]]] [] = CAbort /\
  recv_call (ms1 (CRemote None)) [WOpen OtMyRef [WInt 129 5 5; WStr false 2 [82; 73]; WStr false 1 [255]]] [] = CAbort /\
  recv_call (ms1 (CList CAny None 0)) [WOpen OtList [WOpen OtMyRef [WInt 129 5 5; WStr false 2 [168; 97]]]] [] = CAbort /\
  recv_answer (Some CAny) (WOpen OtMyRef [WInt 129 5 5; WStr false 2 [168; 97]]) = ConnLost /\
  recv_call (ms1 CAny) [WOpen OtMyRef [WInt 131 5 (-5); WStr false 2 [82; 73]]] [] = CInvoke [ORemote [82; 73]] [] /\
  recv_call (ms1 CAny) [WOpen OtMyRef [WInt 129 5 5; WStr false 2 [195; 169]]] [] = CInvoke [ORemote [195; 169]] [].
Proof. vm_compute. repeat split; reflexivity. Qed.

(* C12: m(l, l) -- the stream the real sender emits (second occurrence as a reference) is a sent_call, the tree
   stream of send_call is another one; both are delivered *)
Example shared_list_call :
  let l := OList [OInt 1; OInt 2] in let c := CList (CInt (Some 1024)) None 0 in
  let ms := mkms [{| a_name := nA; a_ctr := c; a_opt := false |}; {| a_name := nB; a_ctr := c; a_opt := false |}] None in
  ms_wf ms /\ args_guarded ms [l; l] [] /\
  sent_call [] ms [l; l] [] [slice [] l; WRef l] [] /\
  send_call [] ms [l; l] [] = Some ([slice [] l; slice [] l], []) /\
  recv_call ms [slice [] l; WRef l] [] = CInvoke [l; l] [].
Proof.
  cbv zeta. split; [|split; [|split; [|split]]].
  - split; [|intros sp [<-|[<-|[]]]; reflexivity].
    apply NoDup_cons; [intros [H|[]]; vm_compute in H; discriminate|apply NoDup_cons; [intros []|apply NoDup_nil]].
  - split.
    + intros [|[|i]] sp v E1 E2; cbn in E1, E2; try (inversion E1; inversion E2; subst; split; reflexivity); destruct i; discriminate.
    + intros n v sp [].
  - split; [vm_compute; reflexivity|split; [vm_compute; reflexivity|split]].
    + constructor; [apply ser_slice; reflexivity|constructor; [apply ser_ref; reflexivity|constructor]].
    + constructor.
  - vm_compute. reflexivity.
  - vm_compute. reflexivity.
Qed.

(* C02: RemoteInterfaces that derive from RemoteInterfaces *)
Lemma assocZ_app {V} n (l1 l2 : list (Z * V)) :
  assocZ n (l1 ++ l2) = match assocZ n l1 with Some v => Some v | None => assocZ n l2 end.
Proof.
  induction l1 as [|[k v] l1 IH]; [reflexivity|]. cbn [app assocZ]. destruct (n =? k); [reflexivity|exact IH].
Qed.

Theorem iface_table_most_derived layers n : assocZ n (iface_table layers) = most_derived layers n.
Proof.
  unfold iface_table. induction layers as [|l layers IH]; [reflexivity|].
  cbn [List.concat most_derived]. rewrite assocZ_app. destruct (assocZ n l); [reflexivity|exact IH].
Qed.

(* the declaration of the most derived interface that declares the name wins, whatever its bases declare *)
Corollary most_derived_override pre l post n ms :
  (forall l', In l' pre -> assocZ n l' = None) -> assocZ n l = Some ms -> most_derived (pre ++ l :: post) n = Some ms.
Proof.
  intros H E. induction pre as [|p pre IH]; cbn [app most_derived]; [rewrite E; reflexivity|].
  rewrite (H p (or_introl eq_refl)). apply IH. intros l' Hin. apply H. right. exact Hin.
Qed.

Theorem call_stream_checked_inherited env kids clid n ms a kw t layers :
  0 <= clid -> assocZ clid (be_objs env) = Some t -> t_iface t = Some (iface_table layers) ->
  recv_call_stream env kids = QInvoke clid (Some n) ms a kw ->
  most_derived layers n = Some ms /\ checkAllArgs ms a kw = Ok tt.
Proof.
  intros C T I E. apply call_stream_checked in E as [(t' & T' & D) K]. split; [|exact K].
  rewrite T in T'. inversion T'; subst t'. destruct (Z.ltb_spec clid 0); [lia|].
  destruct D as (tbl & n' & I' & M & A). rewrite I in I'. inversion I'; subst tbl. inversion M; subst n'.
  rewrite <- iface_table_most_derived. exact A.
Qed.

(* RIBase { m(a=Int(maxBytes=-1), b=Optional(Bytes(3,1))); n(..same..) } <- RIDerived { m(a=int, b=Optional(ListOf(bytes<=4, 2)), c=Optional(str)) };
   object 3 implements RIDerived, object 4 RIBase *)
Definition envI : benv :=
  {| be_objs := [(3, {| t_iface := Some (iface_table [[(name_code [109], ms3 false false)]; [(name_code [109], msL); (name_code [110], msL)]]);
                        t_methodSchema := None |});
                 (4, {| t_iface := Some (iface_table [[(name_code [109], msL); (name_code [110], msL)]]); t_methodSchema := None |})];
     be_require := false; be_active := [] |}.

Example inherited_calls :
  let rq := CTok (WInt 129 1 1) in let nm_ := CTok (WStr false 1 [109]) in let nn := CTok (WStr false 1 [110]) in
  let big := CArgs [WInt 129 1 1; WInt 133 5 (2 ^ 39)] in        (* fits the override's int, not the base's 32 bits *)
  let kwc := CArgs [WInt 129 1 1; i5; kname 99; slice [] (OText [120])] in   (* c= exists in the override only *)
  most_derived [[(name_code [109], ms3 false false)]; [(name_code [109], msL); (name_code [110], msL)]] (name_code [109]) = Some (ms3 false false) /\
  most_derived [[(name_code [109], ms3 false false)]; [(name_code [109], msL); (name_code [110], msL)]] (name_code [110]) = Some msL /\
  recv_call_stream envI [rq; CTok (WInt 129 3 3); nm_; big] = QInvoke 3 (Some (name_code [109])) (ms3 false false) [OInt (2 ^ 39)] [] /\
  recv_call_stream envI [rq; CTok (WInt 129 4 4); nm_; big] = QViol /\              (* the same call to the object that implements the base *)
  recv_call_stream envI [rq; CTok (WInt 129 3 3); nn; big] = QViol /\               (* inherited, not overridden: the base's schema *)
  recv_call_stream envI [rq; CTok (WInt 129 3 3); nm_; kwc] = QInvoke 3 (Some (name_code [109])) (ms3 false false) [OInt 5] [(nC, OText [120])] /\
  recv_call_stream envI [rq; CTok (WInt 129 4 4); nm_; kwc] = QViol /\
  recv_call_stream envI [rq; CTok (WInt 129 3 3); nn; CArgs [WInt 129 1 1; i5]] = QInvoke 3 (Some (name_code [110])) msL [OInt 5] [].
Proof. vm_compute. repeat split; reflexivity. Qed.
