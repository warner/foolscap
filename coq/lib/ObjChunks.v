(* C01 x C07: the end-to-end statement "for every way of splitting the sender's bytes into packets the delivered graph
   is the sent graph".  The byte-level receiver is C07's generic tokenizer (lib/Recv.v: buffering, header cap, re-queueing
   of incomplete tokens) instantiated with handlers that hand every complete token to the layer above; its chunk
   independence is C07's theorem (RecvProofs.feed_all_is_run), reused, not re-proved.  Proved here: on a stream that the
   whole-string scanner `decode` reads cleanly, the incremental receiver emits exactly `decode`'s tokens. *)
From Coq Require Import ZArith List String Bool Lia.
Import ListNotations.
Require Import Verif.lib.PyLite Verif.gen.BananaGen Verif.gen.SlicersGen Verif.lib.Token Verif.lib.TokenProofs
        Verif.lib.Recv Verif.lib.RecvProofs Verif.lib.Obj Verif.lib.ObjProofs Verif.lib.ObjDefer Verif.lib.ObjDeferProofs.
Local Open Scope Z_scope.

(* the layer above the tokenizer: accept every body, deliver every complete token (Token.interp = handleData's per-type clauses) *)
Definition col_begin (c : unit) (ty hdr : Z) : bres unit token := BAccept.
Definition col_finish (c : unit) (ty hdr : Z) (body : list Z) : hres2 unit token :=
  match interp {| r_ty := ty; r_hdr := hdr; r_body := body |} with Some tk => HCont tt [tk] | None => HFatal [] end.
Definition col_nobody (c : unit) (ty hdr : Z) : hres2 unit token :=
  match body_kind ty with
  | NoBody => match interp {| r_ty := ty; r_hdr := hdr; r_body := [] |} with Some tk => HCont tt [tk] | None => HFatal [] end
  | _ => HFatal []
  end.

Definition cfeed_all := feed_all unit token col_begin col_finish col_nobody [] [] (fun _ => []).
Definition crun := Recv.run unit token col_begin col_finish col_nobody [] [] (fun _ => []).
Definition cloop := loop unit token col_begin col_finish col_nobody [] [] (fun _ => []).
Definition ctok_step := tok_step unit token col_begin col_finish col_nobody [] [] (fun _ => []).

(* the tokens the receiver hands upward when the bytes arrive as the packets cs *)
Definition tokens_of_chunks (cs : list (list Z)) : list token := snd (cfeed_all (Recv.init tt) cs).

Definition no_err (t : token) : bool := match t with TError _ => false | _ => true end.

Lemma tok_step_scan bs t rest tk :
  scan_token bs = STok t rest -> interp t = Some tk -> no_err tk = true -> ctok_step tt bs = TCont unit token tt [tk] rest.
Proof.
  unfold scan_token, ctok_step, tok_step. destruct (scan_header 64 [] bs) as [| |ds ty rest0]; try discriminate.
  set (hdr := le128 ds). destruct (body_len ty hdr) as [n|] eqn:BL; [|discriminate].
  destruct (Z.of_nat (List.length rest0) <? n) eqn:LT; [discriminate|]. intros H; inversion H; subst t rest; clear H.
  intros I NE. unfold lenZ.
  unfold body_len, body_kind in BL. unfold has_body, blen, col_begin, col_finish, col_nobody, body_kind.
  unfold interp in I. cbn [r_ty r_hdr r_body] in I.
  destruct (ty =? tok_ERROR) eqn:E0.
  { apply Z.eqb_eq in E0. subst ty. cbn in I. inversion I; subst tk. discriminate. }
  destruct (ty =? tok_STRING) eqn:E1; [|destruct (ty =? tok_LONGINT) eqn:E2; [|destruct (ty =? tok_LONGNEG) eqn:E3;
    [|destruct (ty =? tok_FLOAT) eqn:E4]]].
  1-4: (match goal with E : (?x =? _) = true |- _ => apply Z.eqb_eq in E; subst x end;
        cbn in BL, I |- *; inversion BL; subst n; rewrite LT; unfold interp; cbn; inversion I; reflexivity).
  cbn [orb] in BL |- *.
  assert (N0 : n = 0 /\ ((ty =? tok_INT) || (ty =? tok_NEG) || (ty =? tok_VOCAB) || (ty =? tok_OPEN) || (ty =? tok_CLOSE)
          || (ty =? tok_ABORT) || (ty =? tok_PING) || (ty =? tok_PONG)) = true).
  { destruct ((ty =? tok_INT) || (ty =? tok_NEG) || (ty =? tok_VOCAB) || (ty =? tok_OPEN) || (ty =? tok_CLOSE)
          || (ty =? tok_ABORT) || (ty =? tok_PING) || (ty =? tok_PONG)); [inversion BL; split; reflexivity|discriminate]. }
  destruct N0 as [N0 NB]. subst n. rewrite NB. cbn [Z.to_nat firstn skipn] in *.
  unfold interp. cbn [r_ty r_hdr r_body]. rewrite ?E0, ?E1, ?E2, ?E3, ?E4. cbv iota. cbv iota in I. rewrite I. reflexivity.
Qed.

Lemma cloop_decode : forall fuel bs ts, decode_all fuel bs = (ts, EndClean) -> forallb no_err ts = true ->
  cloop fuel tt bs = (Recv.mk tt [] 0 false, ts).
Proof.
  induction fuel as [|f IH]; intros bs ts D NE; [discriminate|]. cbn [decode_all] in D. unfold cloop. cbn [loop]. fold cloop.
  destruct bs as [|b0 bs']; [inversion D; reflexivity|].
  destruct (scan_token (b0 :: bs')) as [| |t rest] eqn:S; try discriminate.
  destruct (interp t) as [tk|] eqn:I; [|discriminate].
  destruct (decode_all f rest) as [ts' e] eqn:D'. inversion D; subst ts e; clear D.
  cbn [forallb] in NE. apply andb_true_iff in NE as [N1 N2].
  fold ctok_step. rewrite (tok_step_scan _ _ _ _ S I N1). fold cloop. rewrite (IH _ _ D' N2). reflexivity.
Qed.

(* on a byte string that `decode` reads cleanly the incremental receiver, fed the whole string, emits decode's tokens *)
Lemma crun_decode bs ts : decode bs = (ts, EndClean) -> forallb no_err ts = true -> snd (crun tt bs) = ts.
Proof.
  intros D NE. unfold crun, Recv.run, feed. cbn [Recv.init Recv.mk r_dead r_skip r_buf r_ctx]. cbn [Z.ltb andb Z.to_nat skipn app].
  fold cloop. unfold decode in D. rewrite (cloop_decode _ _ _ D NE). reflexivity.
Qed.

(* ... and, by C07's chunk independence, the same tokens however the string is split into packets *)
Theorem chunks_decode cs ts : decode (List.concat cs) = (ts, EndClean) -> forallb no_err ts = true -> tokens_of_chunks cs = ts.
Proof.
  intros D NE. unfold tokens_of_chunks, cfeed_all. rewrite feed_all_is_run. apply (crun_decode _ _ D NE).
Qed.

Lemma slice_no_err : forall t n, forallb no_err (slice n t) = true.
Proof. apply slice_forallb. intros [] E; try discriminate E; reflexivity. Qed.

Lemma chunks_slice n t bs cs : forallb wf_token (slice n t) = true -> encode_stream (slice n t) = Ok bs -> List.concat cs = bs ->
  tokens_of_chunks cs = slice n t.
Proof. intros T E <-. apply chunks_decode; [apply stream_roundtrip; assumption|apply slice_no_err]. Qed.

(* END TO END: object -> tokens -> bytes -> any packets -> tokens -> object *)
Theorem end_to_end_any_chunking scoped n t bs cs :
  wf_obj_wide scoped n t = true -> forallb wf_token (slice n t) = true -> encode_stream (slice n t) = Ok bs -> List.concat cs = bs ->
  unslice scoped n (tokens_of_chunks cs) = Some (heap_of n t, [val_of n t]).
Proof. intros W T E C. rewrite (chunks_slice _ _ _ _ T E C). apply slice_unslice_wide, W. Qed.

(* the same for the Deferred-level receiver and the wide guard (partial correctness, see ObjDeferProofs.deferred_sound) *)
Theorem end_to_end_any_chunking_deferred scoped n t bs cs r :
  wf_obj_wide scoped n t = true -> forallb wf_token (slice n t) = true -> encode_stream (slice n t) = Ok bs -> List.concat cs = bs ->
  dunslice scoped n (tokens_of_chunks cs) = Some r -> r = (heap_of n t, [val_of n t]).
Proof. intros W T E C. rewrite (chunks_slice _ _ _ _ T E C). apply deferred_sound, W. Qed.

(* non-vacuity: [1, "é", (2,)] with a self-reference, three different packetisations of its bytes *)
Example ex_chunks :
  let t := OList [OInt 1; OText [195; 169]; OTuple [OInt 2]; ORef 0] in
  match encode_stream (slice 0 t) with
  | Ok bs => wf_obj true 0 t = true /\ forallb wf_token (slice 0 t) = true /\
             tokens_of_chunks [bs] = slice 0 t /\ tokens_of_chunks (map (fun b => [b]) bs) = slice 0 t /\
             tokens_of_chunks [firstn 7 bs; []; skipn 7 bs] = slice 0 t
  | Exc _ => False
  end.
Proof. vm_compute. repeat split; reflexivity. Qed.
