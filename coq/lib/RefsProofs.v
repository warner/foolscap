(* C08 / C09: proofs about lib/Refs.v (one connection, one direction) with the translated pieces of gen/RefsGen.v.
   One step is described once, branch by branch, as a relation (stepv) with the deletion rule of freeYourReferenceTracker
   as a parameter; `step` is the instance with the source's rule (step_k_current).  Five invariants of the reachable states
   (Inv, OwnWf, Attached, ProxWf, UrlWf) are proved on that description, for every rule at once, and the property theorems
   are read off them. *)
From Coq Require Import ZArith List Bool Lia Arith String.
Import ListNotations.
Require Import Verif.lib.PyLite Verif.gen.RefsGen Verif.lib.Refs.
Local Open Scope Z_scope.
Notation length := List.length.

Lemma send_spec r : send r = Ok (r + 1 =? 1, r + 1).
Proof. unfold send. cbv zeta. destruct (r + 1 =? 1); reflexivity. Qed.

Lemma decref_spec n r :
  decref n r = if r >=? n then Ok (r - n =? 0, r - n) else Exc "AssertionError"%string.
Proof. unfold decref. cbv zeta. destruct (r >=? n); [destruct (r - n =? 0); reflexivity | reflexivity]. Qed.

Lemma getRef_incr_spec r : getRef_incr r = r + 1.
Proof. reflexivity. Qed.

(* D15 regression: bound-method references count like ordinary ones *)
Lemma getRef_incr_method_spec r : getRef_incr_method r = getRef_incr r.
Proof. reflexivity. Qed.

Lemma handleRefLost_assign_spec r : handleRefLost_assign r = (r, 0).
Proof. reflexivity. Qed.

Lemma handleRefLost_skip_spec c : handleRefLost_skip c = (c =? 0).
Proof. reflexivity. Qed.

Lemma freeTracker_keeps_spec r : freeTracker_keeps r = negb (r =? 0).
Proof. reflexivity. Qed.

(* (how freeYourReferenceTracker deletes the import-table entry, freeTracker_delkey, is not characterised here: the
   development is generic in the rule -- step_k -- and `same_proxy` below is where the source's rule is used: fix ab72d65) *)

(* finish() forgets the inbound calls that were parsed but never run (fix 30b3768): not in lib/Refs.v; lib/Conn.v (qfinish)
   has the queue, ConnProofs.sym_loss_forgets the theorem *)
Lemma finish_drops_undelivered_calls_spec : finish_drops_undelivered_calls = true.
Proof. reflexivity. Qed.

Lemma finish_clears_spec :
  finish_clears_myReferenceByCLID && finish_clears_myReferenceByPUID = true /\ finish_clears_yourReferenceByCLID = true.
Proof. split; reflexivity. Qed.

Lemma find_clid_some tab c e : find_clid tab c = Some e -> In e tab /\ oe_clid e = c.
Proof. unfold find_clid. intros H. apply find_some in H. destruct H as [H1 H2]. apply Z.eqb_eq in H2. auto. Qed.

Lemma find_clid_none tab c : find_clid tab c = None -> forall e, In e tab -> oe_clid e <> c.
Proof. unfold find_clid. intros H e He E. pose proof (find_none _ _ H e He) as F. cbn in F. apply Z.eqb_neq in F. auto. Qed.

Lemma find_clid_in tab e : In e tab -> exists e', find_clid tab (oe_clid e) = Some e'.
Proof.
  intros H. destruct (find_clid tab (oe_clid e)) as [e'|] eqn:F; [eauto|].
  exfalso. exact (find_clid_none _ _ F e H eq_refl).
Qed.

Lemma rc_cons e tab k : rc (e :: tab) k = if oe_clid e =? k then oe_rc e else rc tab k.
Proof. unfold rc, find_clid. cbn [find]. destruct (oe_clid e =? k); reflexivity. Qed.

Lemma rc_none tab c : find_clid tab c = None -> rc tab c = 0.
Proof. unfold rc. intros ->. reflexivity. Qed.

Lemma rc_found tab c e : find_clid tab c = Some e -> rc tab c = oe_rc e.
Proof. unfold rc. intros ->. reflexivity. Qed.

Lemma rc_pos_found tab c : 0 < rc tab c -> exists e, find_clid tab c = Some e /\ oe_rc e = rc tab c.
Proof. unfold rc. destruct (find_clid tab c) as [e|]; [eauto | lia]. Qed.

Lemma In_set_rc tab c v a :
  In a (set_rc tab c v) ->
  exists b, In b tab /\ oe_clid a = oe_clid b /\ oe_obj a = oe_obj b /\ (oe_clid b <> c /\ oe_rc a = oe_rc b \/ oe_clid b = c /\ oe_rc a = v).
Proof.
  unfold set_rc. intros H. apply in_map_iff in H as (b & <- & Hb). exists b.
  destruct (Z.eqb_spec (oe_clid b) c); cbn [oe_clid oe_obj oe_rc]; auto 6.
Qed.

Definition upd_entry (c v : Z) (e : oentry) : oentry :=
  if oe_clid e =? c then {| oe_obj := oe_obj e; oe_clid := oe_clid e; oe_rc := v |} else e.

Lemma find_clid_set_rc tab c v k : find_clid (set_rc tab c v) k = option_map (upd_entry c v) (find_clid tab k).
Proof.
  unfold find_clid, set_rc. induction tab as [|e tab IH]; cbn [map find option_map]; [reflexivity|]. fold (upd_entry c v e).
  assert (E : oe_clid (upd_entry c v e) = oe_clid e) by (unfold upd_entry; destruct (oe_clid e =? c); reflexivity).
  rewrite E. destruct (oe_clid e =? k); [reflexivity | exact IH].
Qed.

Lemma rc_set_rc tab c v e : find_clid tab c = Some e -> forall k, rc (set_rc tab c v) k = if k =? c then v else rc tab k.
Proof.
  intros F k. unfold rc. rewrite find_clid_set_rc. destruct (Z.eqb_spec k c) as [->|N].
  - rewrite F. cbn [option_map]. unfold upd_entry. rewrite (proj2 (find_clid_some _ _ _ F)), Z.eqb_refl. reflexivity.
  - destruct (find_clid tab k) as [a|] eqn:Fk; cbn [option_map]; [|reflexivity].
    unfold upd_entry. rewrite (proj2 (find_clid_some _ _ _ Fk)). destruct (Z.eqb_spec k c); [contradiction | reflexivity].
Qed.

Lemma rc_del tab c k : rc (del_clid tab c) k = if k =? c then 0 else rc tab k.
Proof.
  induction tab as [|e tab IH].
  - cbn. destruct (k =? c); reflexivity.
  - unfold del_clid. cbn [filter]. fold (del_clid tab c). destruct (Z.eqb_spec (oe_clid e) c) as [Ec|Ec]; cbn [negb].
    + rewrite IH, rc_cons. destruct (Z.eqb_spec k c); [reflexivity|]. destruct (Z.eqb_spec (oe_clid e) k); [congruence | reflexivity].
    + rewrite !rc_cons, IH. destruct (Z.eqb_spec k c) as [E|E]; [|reflexivity]. rewrite E. destruct (Z.eqb_spec (oe_clid e) c); [congruence | reflexivity].
Qed.

Lemma map_clid_set_rc tab c v : map oe_clid (set_rc tab c v) = map oe_clid tab.
Proof. unfold set_rc. rewrite map_map. apply map_ext. intros e. destruct (oe_clid e =? c); reflexivity. Qed.

Lemma map_obj_set_rc tab c v : map oe_obj (set_rc tab c v) = map oe_obj tab.
Proof. unfold set_rc. rewrite map_map. apply map_ext. intros e. destruct (oe_clid e =? c); reflexivity. Qed.

Lemma NoDup_map_filter {A B} (f : A -> B) (p : A -> bool) l : NoDup (map f l) -> NoDup (map f (filter p l)).
Proof.
  induction l as [|a l IH]; cbn; [auto|]. intros H. inversion H as [|? ? Hn Hd]; subst.
  destruct (p a); cbn; [constructor; [|auto] | auto].
  intros Hin. apply Hn. apply in_map_iff in Hin as (x & E & Hx). apply filter_In in Hx as [Hx _].
  apply in_map_iff. eauto.
Qed.

Lemma NoDup_fst_functional {A B} (l : list (A * B)) a x y : NoDup (map fst l) -> In (a, x) l -> In (a, y) l -> x = y.
Proof.
  induction l as [|[a0 x0] l IH]; cbn [map fst In]; [tauto|]. intros N. inversion N as [|? ? Hn Hd]; subst.
  intros [E1|H1] [E2|H2]; [congruence | | | auto]; exfalso; apply Hn; apply in_map_iff.
  - inversion E1; subst. exists (a, y). auto.
  - inversion E2; subst. exists (a, x). auto.
Qed.

Lemma nth_error_upd_nth {A} (l : list A) i f j :
  nth_error (upd_nth l i f) j = if Nat.eqb j i then option_map f (nth_error l j) else nth_error l j.
Proof.
  revert i j; induction l as [|a l IH]; intros i j.
  - destruct i, j; cbn; try reflexivity; destruct (Nat.eqb _ _); reflexivity.
  - destruct i, j; cbn; try reflexivity. apply IH.
Qed.

Lemma nth_error_upd_nth_inv {A} (l : list A) i f j u :
  nth_error (upd_nth l i f) j = Some u ->
  j <> i /\ nth_error l j = Some u \/ j = i /\ exists t, nth_error l i = Some t /\ u = f t.
Proof.
  rewrite nth_error_upd_nth. destruct (Nat.eqb_spec j i) as [->|N]; [|auto].
  destruct (nth_error l i) as [t|]; cbn [option_map]; [|discriminate]. intros E; inversion E. eauto.
Qed.

Lemma nth_error_app_last {A} (l : list A) a : nth_error (l ++ [a]) (length l) = Some a.
Proof. induction l as [|b l IH]; cbn; auto. Qed.

Lemma nth_error_snoc {A} (l : list A) a j u :
  nth_error (l ++ [a]) j = Some u -> nth_error l j = Some u \/ j = length l /\ u = a.
Proof.
  intros H. destruct (Nat.lt_ge_cases j (length l)) as [L|L].
  - left. rewrite nth_error_app1 in H by exact L. exact H.
  - right. rewrite nth_error_app2 in H by exact L. destruct (j - length l)%nat as [|n] eqn:E.
    + inversion H. split; [lia | reflexivity].
    + destruct n; discriminate.
Qed.

Lemma Forall_upd_nth {A} (P : A -> Prop) l i f :
  Forall P l -> (forall a, nth_error l i = Some a -> P a -> P (f a)) -> Forall P (upd_nth l i f).
Proof.
  revert i; induction l as [|a l IH]; intros [|i] H Hf; cbn; auto; inversion H; subst; constructor; auto.
Qed.

Lemma Forall_snoc {A} (P : A -> Prop) l a : Forall P l -> P a -> Forall P (l ++ [a]).
Proof. intros H Ha. apply Forall_app. auto. Qed.

Lemma Forall_nth_error {A} (P : A -> Prop) l i a : Forall P l -> nth_error l i = Some a -> P a.
Proof. intros H E. rewrite Forall_forall in H. exact (H a (nth_error_In _ _ E)). Qed.

Lemma upd_nth_app_last {A} (l : list A) a f : upd_nth (l ++ [a]) (length l) f = l ++ [f a].
Proof. induction l as [|b l IH]; cbn; [reflexivity | rewrite IH; reflexivity]. Qed.

Lemma recv_sum_app trk t c : recv_sum (trk ++ [t]) c = recv_sum trk c + contrib t c.
Proof. induction trk as [|a l IH]; cbn [app recv_sum]; lia. Qed.

Lemma recv_sum_upd trk i f t c :
  nth_error trk i = Some t -> recv_sum (upd_nth trk i f) c = recv_sum trk c - contrib t c + contrib (f t) c.
Proof.
  revert i; induction trk as [|a l IH]; intros [|i]; cbn [nth_error upd_nth recv_sum]; try discriminate.
  - intros E; inversion E; subst. lia.
  - intros E. rewrite (IH _ E). lia.
Qed.

Lemma contrib_nonneg t c : 0 <= t_recv t -> 0 <= contrib t c.
Proof. unfold contrib. destruct (_ =? _); lia. Qed.

Lemma recv_sum_nonneg trk c : Forall (fun t => 0 <= t_recv t) trk -> 0 <= recv_sum trk c.
Proof. induction 1 as [|t l Ht _ IH]; cbn [recv_sum]; [lia|]. pose proof (contrib_nonneg t c Ht). lia. Qed.

Lemma recv_sum_ge trk i t :
  Forall (fun t => 0 <= t_recv t) trk -> nth_error trk i = Some t -> t_recv t <= recv_sum trk (t_clid t).
Proof.
  intros H; revert i; induction H as [|a l Ha Hl IH]; intros [|i]; cbn [nth_error recv_sum]; try discriminate.
  - intros E; inversion E; subst. pose proof (recv_sum_nonneg l (t_clid t) Hl). unfold contrib. rewrite Z.eqb_refl. lia.
  - intros E. pose proof (IH _ E). pose proof (contrib_nonneg a (t_clid t) Ha). lia.
Qed.

Lemma recv_sum_zero trk c : Forall (fun t => t_recv t = 0) trk -> recv_sum trk c = 0.
Proof. induction 1 as [|t l Ht _ IH]; cbn [recv_sum]; [reflexivity|]. unfold contrib. rewrite Ht, IH. destruct (_ =? _); reflexivity. Qed.

Lemma inflight_app ch m c :
  inflight (ch ++ [m]) c = inflight ch c + match m with MyRef k _ _ => if k =? c then 1 else 0 | Ack _ => 0 end.
Proof. induction ch as [|a l IH]; cbn [app inflight]; [destruct m; lia|]. destruct a; rewrite IH; lia. Qed.

Lemma inflight_nonneg ch c : 0 <= inflight ch c.
Proof. induction ch as [|a l IH]; cbn [inflight]; [lia|]. destruct a; [destruct (_ =? _)|]; lia. Qed.

Lemma decs_app ch m c :
  decs (ch ++ [m]) c = decs ch c + match m with Decref k n _ => if k =? c then n else 0 | ToOwner _ _ => 0 end.
Proof. induction ch as [|a l IH]; cbn [app decs]; [destruct m; lia|]. destruct a; rewrite IH; lia. Qed.

Definition dpos (m : msgHO) : Prop := match m with Decref _ n _ => 0 < n | ToOwner _ _ => True end.

Lemma decs_nonneg ch c : Forall dpos ch -> 0 <= decs ch c.
Proof. induction 1 as [|a l Ha _ IH]; cbn [decs]; [lia|]. destruct a; cbn in Ha; [destruct (_ =? _)|]; lia. Qed.

Lemma cnt_nonneg l c : 0 <= cnt l c.
Proof. induction l as [|a l IH]; cbn [cnt]; [lia|]. destruct (_ =? _); lia. Qed.

Lemma cnt_in l c : In c l -> 1 <= cnt l c.
Proof.
  induction l as [|a l IH]; cbn [In cnt]; [tauto|]. intros [->|H].
  - rewrite Z.eqb_refl. pose proof (cnt_nonneg l c). lia.
  - specialize (IH H). destruct (a =? c); lia.
Qed.

Lemma inflight_in ch c d w : In (MyRef c d w) ch -> 1 <= inflight ch c.
Proof.
  induction ch as [|a l IH]; cbn [In inflight]; [tauto|]. intros [->|H].
  - rewrite Z.eqb_refl. pose proof (inflight_nonneg l c). lia.
  - specialize (IH H). destruct a; [destruct (_ =? _)|]; lia.
Qed.

Lemma tab_get_del tab c k : tab_get (tab_del tab c) k = if k =? c then None else tab_get tab k.
Proof.
  induction tab as [|[a i] tab IH]; cbn [tab_del filter tab_get fst]; [destruct (k =? c); reflexivity|].
  fold (tab_del tab c). destruct (Z.eqb_spec a c) as [Ea|Ea]; cbn [negb].
  - rewrite IH. destruct (Z.eqb_spec k c); [reflexivity|]. destruct (Z.eqb_spec a k); [congruence | reflexivity].
  - cbn [tab_get]. rewrite IH. destruct (Z.eqb_spec k c) as [E|E]; [|reflexivity]. rewrite E. destruct (Z.eqb_spec a c); [congruence | reflexivity].
Qed.

Lemma find_proxy_some trk p i : find_proxy trk p = Some i -> exists t, nth_error trk i = Some t /\ t_proxy t = Some p.
Proof.
  revert i; induction trk as [|t l IH]; intros i; cbn [find_proxy]; [discriminate|].
  assert (Tail : option_map S (find_proxy l p) = Some i -> exists t', nth_error (t :: l) i = Some t' /\ t_proxy t' = Some p).
  { destruct (find_proxy l p) as [j|]; cbn [option_map]; [|discriminate]. intros E; inversion E; subst. exact (IH j eq_refl). }
  destruct (t_proxy t) as [q|] eqn:Eq; [|exact Tail]. destruct (Z.eqb_spec q p) as [->|]; [|exact Tail].
  intros E; inversion E; subst. exists t. auto.
Qed.

Lemma find_proxy_complete trk p : forall i t, nth_error trk i = Some t -> t_proxy t = Some p -> exists j, find_proxy trk p = Some j.
Proof.
  induction trk as [|a l IH]; intros [|i] t; cbn [nth_error find_proxy]; try discriminate.
  - intros E Hp; inversion E; subst a. rewrite Hp, Z.eqb_refl. eauto.
  - intros Ht Hp. destruct (IH _ _ Ht Hp) as (j & ->). destruct (t_proxy a) as [q|]; [destruct (q =? p)|]; cbn [option_map]; eauto.
Qed.

Lemma get_ref_facts t np :
  let '(t', p, np') := get_ref t np in
  t_clid t' = t_clid t /\ t_recv t' = t_recv t + 1 /\ t_proxy t' = Some p /\
  (t_proxy t = Some p \/ (t_proxy t = None /\ p = np)).
Proof. unfold get_ref. destruct (t_proxy t) as [q|] eqn:E; cbn; rewrite getRef_incr_spec; auto 6. Qed.

Lemma home_ok_mono f g ch : (forall c, f c <= g c) -> home_ok f ch -> home_ok g ch.
Proof.
  revert f g; induction ch as [|m ch IH]; intros f g Hfg; cbn [home_ok]; [auto|].
  destruct m as [c n r|c k].
  - apply IH. intros k. cbv beta. destruct (k =? c); [specialize (Hfg k); lia | apply Hfg].
  - intros [H1 H2]. split; [specialize (Hfg c); lia | eapply IH; eauto].
Qed.

Lemma home_ok_app_decref f ch c n r : home_ok f ch -> home_ok f (ch ++ [Decref c n r]).
Proof.
  revert f; induction ch as [|m ch IH]; intros f; cbn [app home_ok]; [auto|].
  destruct m as [c' n' r'|c' k']; [apply IH | intros [H1 H2]; split; [exact H1 | apply IH; exact H2]].
Qed.

Lemma home_ok_app_home f ch c k : home_ok f ch -> decs ch c < f c -> home_ok f (ch ++ [ToOwner c k]).
Proof.
  revert f; induction ch as [|m ch IH]; intros f; cbn [app home_ok decs].
  - intros _ H. split; [lia | exact I].
  - destruct m as [c' n' r'|c' k'].
    + intros H1 H2. apply IH; [exact H1|]. cbv beta. rewrite (Z.eqb_sym c c'). destruct (c' =? c); lia.
    + intros [H1 H2] H3. split; [exact H1 | apply IH; assumption].
Qed.

Lemma home_ok_in f ch c k : Forall dpos ch -> home_ok f ch -> In (ToOwner c k) ch -> 0 < f c.
Proof.
  intros Hd; revert f; induction Hd as [|m ch Hm _ IH]; intros f; cbn [home_ok In]; [tauto|].
  destruct m as [c' n' r'|c' k'].
  - intros H [E|Hin]; [discriminate|]. specialize (IH _ H Hin). cbv beta in IH. cbn in Hm. destruct (c =? c'); lia.
  - intros [H1 H2] [E|Hin]; [inversion E; subst; exact H1 | eapply IH; eauto].
Qed.

Definition ack_frees (k : delkey) (h : holder) (rid : Z) (tab : list (Z * nat)) : Prop :=
  tab = h_tab h \/
  exists i t, acks_get (h_acks h) rid = Some i /\ nth_error (h_trk h) i = Some t /\ t_recv t = 0 /\
              tab = tab_del (h_tab h) (t_clid t) /\ (k = DelByIdentity -> tab_get (h_tab h) (t_clid t) = Some i).

Inductive stepv (k : delkey) (s : state) : op -> state * list event -> Prop :=
| V_idle o : stepv k s o (s, [])          (* connection lost, empty queue, or no such proxy / tracker *)
| V_send_known x d e (Hobj : find_obj (o_tab (ow s)) x = Some e) :
    stepv k s (Send x d)
      ({| ow := {| o_tab := set_rc (o_tab (ow s)) (oe_clid e) (rc (o_tab (ow s)) (oe_clid e) + 1);
                   o_next := o_next (ow s); o_alloc := o_alloc (ow s); o_failed := o_failed (ow s) |};
          hd := hd s;
          ch_oh := ch_oh s ++ [MyRef (oe_clid e) d (myref_url (rc (o_tab (ow s)) (oe_clid e) + 1 =? 1) x)];
          ch_ho := ch_ho s; lost := lost s; leaked := leaked s |}, [])
| V_send_new x d (Hobj : find_obj (o_tab (ow s)) x = None) :
    stepv k s (Send x d)
      ({| ow := {| o_tab := set_rc ({| oe_obj := x; oe_clid := new_clid x (o_next (ow s)); oe_rc := 0 |} :: o_tab (ow s))
                                   (new_clid x (o_next (ow s))) 1;
                   o_next := o_next (ow s) + 1; o_alloc := (new_clid x (o_next (ow s)), x) :: o_alloc (ow s);
                   o_failed := o_failed (ow s) |};
          hd := hd s; ch_oh := ch_oh s ++ [MyRef (new_clid x (o_next (ow s))) d (myref_url true x)];
          ch_ho := ch_ho s; lost := lost s; leaked := leaked s |}, [])
| V_discard c u rest (Hch : ch_oh s = MyRef c true u :: rest) :
    stepv k s RecvOH
      ({| ow := ow s; hd := hd s; ch_oh := rest; ch_ho := ch_ho s; lost := lost s; leaked := c :: leaked s |}, [])
| V_myref_known c u rest i t p np
    (Hch : ch_oh s = MyRef c false u :: rest) (Htab : tab_get (h_tab (hd s)) c = Some i) (Hnth : nth_error (h_trk (hd s)) i = Some t)
    (Hprox : t_proxy t = Some p /\ np = h_nextpid (hd s) \/ t_proxy t = None /\ p = h_nextpid (hd s) /\ np = h_nextpid (hd s) + 1) :
    stepv k s RecvOH
      ({| ow := ow s;
          hd := {| h_trk := upd_nth (h_trk (hd s)) i
                              (fun _ => {| t_clid := t_clid t; t_recv := t_recv t + 1; t_proxy := Some p; t_url := t_url t |});
                   h_tab := h_tab (hd s); h_nextpid := np; h_nextrid := h_nextrid (hd s);
                   h_pend := h_pend (hd s); h_acks := h_acks (hd s) |};
          ch_oh := rest; ch_ho := ch_ho s; lost := lost s; leaked := leaked s |}, [EvDelivered p])
| V_myref_new c u rest (Hch : ch_oh s = MyRef c false u :: rest) (Htab : tab_get (h_tab (hd s)) c = None) :
    stepv k s RecvOH
      ({| ow := ow s;
          hd := {| h_trk := h_trk (hd s) ++ [{| t_clid := c; t_recv := 1; t_proxy := Some (h_nextpid (hd s)); t_url := u |}];
                   h_tab := (c, length (h_trk (hd s))) :: h_tab (hd s); h_nextpid := h_nextpid (hd s) + 1;
                   h_nextrid := h_nextrid (hd s); h_pend := h_pend (hd s); h_acks := h_acks (hd s) |};
          ch_oh := rest; ch_ho := ch_ho s; lost := lost s; leaked := leaked s |}, [EvDelivered (h_nextpid (hd s))])
| V_ack rid rest tab (Hch : ch_oh s = Ack rid :: rest) (Hfree : ack_frees k (hd s) rid tab) :
    stepv k s RecvOH
      ({| ow := ow s;
          hd := {| h_trk := h_trk (hd s); h_tab := tab; h_nextpid := h_nextpid (hd s); h_nextrid := h_nextrid (hd s);
                   h_pend := h_pend (hd s); h_acks := acks_del (h_acks (hd s)) rid |};
          ch_oh := rest; ch_ho := ch_ho s; lost := lost s; leaked := leaked s |}, [])
| V_decref_gone c n rid rest (Hch : ch_ho s = Decref c n rid :: rest) (Hfind : find_clid (o_tab (ow s)) c = None) :
    stepv k s RecvHO
      ({| ow := ow s; hd := hd s; ch_oh := ch_oh s ++ [Ack rid]; ch_ho := rest; lost := lost s; leaked := leaked s |}, [])
| V_decref_ok c n rid rest e
    (Hch : ch_ho s = Decref c n rid :: rest) (Hfind : find_clid (o_tab (ow s)) c = Some e) (Hle : n <= oe_rc e) :
    stepv k s RecvHO
      ({| ow := {| o_tab := if oe_rc e - n =? 0 then del_clid (o_tab (ow s)) c else set_rc (o_tab (ow s)) c (oe_rc e - n);
                   o_next := o_next (ow s); o_alloc := o_alloc (ow s); o_failed := o_failed (ow s) |};
          hd := hd s; ch_oh := ch_oh s ++ [Ack rid]; ch_ho := rest; lost := lost s; leaked := leaked s |}, [])
| V_decref_fail c n rid rest e
    (Hch : ch_ho s = Decref c n rid :: rest) (Hfind : find_clid (o_tab (ow s)) c = Some e) (Hlt : oe_rc e < n) :
    stepv k s RecvHO
      ({| ow := {| o_tab := o_tab (ow s); o_next := o_next (ow s); o_alloc := o_alloc (ow s); o_failed := true |};
          hd := hd s; ch_oh := ch_oh s; ch_ho := rest; lost := lost s; leaked := leaked s |}, [EvAssert])
| V_toowner c b rest (Hch : ch_ho s = ToOwner c b :: rest) :
    stepv k s RecvHO
      ({| ow := ow s; hd := hd s; ch_oh := ch_oh s; ch_ho := rest; lost := lost s; leaked := leaked s |},
       [EvHome b (option_map oe_obj (find_clid (o_tab (ow s)) c))])
| V_drop p i (Hfp : find_proxy (h_trk (hd s)) p = Some i) :
    stepv k s (DropProxy p)
      ({| ow := ow s;
          hd := {| h_trk := upd_nth (h_trk (hd s)) i
                              (fun t => {| t_clid := t_clid t; t_recv := t_recv t; t_proxy := None; t_url := t_url t |});
                   h_tab := h_tab (hd s); h_nextpid := h_nextpid (hd s); h_nextrid := h_nextrid (hd s);
                   h_pend := h_pend (hd s) ++ [i]; h_acks := h_acks (hd s) |};
          ch_oh := ch_oh s; ch_ho := ch_ho s; lost := lost s; leaked := leaked s |}, [])
| V_resurrected i pend t
    (Hpend : h_pend (hd s) = i :: pend) (Hnth : nth_error (h_trk (hd s)) i = Some t) (Hlive : t_proxy t <> None) :
    stepv k s HandleRefLost
      ({| ow := ow s;
          hd := {| h_trk := h_trk (hd s); h_tab := h_tab (hd s); h_nextpid := h_nextpid (hd s); h_nextrid := h_nextrid (hd s);
                   h_pend := pend; h_acks := h_acks (hd s) |};
          ch_oh := ch_oh s; ch_ho := ch_ho s; lost := lost s; leaked := leaked s |}, [])
| V_reflost i pend t rid acks ho
    (Hpend : h_pend (hd s) = i :: pend) (Hnth : nth_error (h_trk (hd s)) i = Some t) (Hdead : t_proxy t = None)
    (Hrel : t_recv t = 0 /\ rid = h_nextrid (hd s) /\ acks = h_acks (hd s) /\ ho = ch_ho s \/
            t_recv t <> 0 /\ rid = h_nextrid (hd s) + 1 /\ acks = h_acks (hd s) ++ [(h_nextrid (hd s), i)] /\
              ho = ch_ho s ++ [Decref (t_clid t) (t_recv t) (h_nextrid (hd s))]) :
    stepv k s HandleRefLost
      ({| ow := ow s;
          hd := {| h_trk := upd_nth (h_trk (hd s)) i
                              (fun t => {| t_clid := t_clid t; t_recv := 0; t_proxy := t_proxy t; t_url := t_url t |});
                   h_tab := h_tab (hd s); h_nextpid := h_nextpid (hd s); h_nextrid := rid;
                   h_pend := pend; h_acks := acks |};
          ch_oh := ch_oh s; ch_ho := ho; lost := lost s; leaked := leaked s |}, [])
| V_home p b i t (Hfp : find_proxy (h_trk (hd s)) p = Some i) (Hnth : nth_error (h_trk (hd s)) i = Some t) :
    stepv k s (SendHome p b)
      ({| ow := ow s; hd := hd s; ch_oh := ch_oh s; ch_ho := ch_ho s ++ [ToOwner (t_clid t) b];
          lost := lost s; leaked := leaked s |}, [])
| V_lost :
    stepv k s ConnLost
      ({| ow := {| o_tab := []; o_next := o_next (ow s); o_alloc := o_alloc (ow s); o_failed := o_failed (ow s) |};
          hd := {| h_trk := []; h_tab := []; h_nextpid := h_nextpid (hd s); h_nextrid := h_nextrid (hd s);
                   h_pend := []; h_acks := [] |};
          ch_oh := []; ch_ho := []; lost := true; leaked := [] |}, []).

Lemma do_ack_k_frees k s rid rest :
  exists tab, ack_frees k (hd s) rid tab /\
    do_ack_k k s rid rest =
      ({| ow := ow s;
          hd := {| h_trk := h_trk (hd s); h_tab := tab; h_nextpid := h_nextpid (hd s); h_nextrid := h_nextrid (hd s);
                   h_pend := h_pend (hd s); h_acks := acks_del (h_acks (hd s)) rid |};
          ch_oh := rest; ch_ho := ch_ho s; lost := lost s; leaked := leaked s |}, []).
Proof.
  unfold do_ack_k, ack_frees. eexists. split; [|reflexivity].
  destruct (acks_get (h_acks (hd s)) rid) as [i|] eqn:Ea; [|auto]. destruct (nth_error (h_trk (hd s)) i) as [t|] eqn:Ht; [|auto].
  rewrite freeTracker_keeps_spec. destruct (Z.eqb_spec (t_recv t) 0) as [Ez|]; cbn [negb]; [|auto].
  destruct k.
  - right. exists i, t. repeat split; auto. discriminate.
  - destruct (tab_get (h_tab (hd s)) (t_clid t)) as [j|] eqn:G; [|auto]. destruct (Nat.eqb_spec i j) as [<-|]; [|auto].
    right. exists i, t. repeat split; auto.
Qed.

Lemma step_k_view k s o : stepv k s o (step_k k s o).
Proof.
  unfold step_k. destruct (lost s); [constructor|]. destruct o.
  - unfold do_send. destruct (find_obj (o_tab (ow s)) x) as [e|] eqn:F.
    + rewrite send_spec. exact (V_send_known k s x disc e F).
    + rewrite rc_cons. cbn [oe_clid oe_rc]. rewrite Z.eqb_refl, send_spec. exact (V_send_new k s x disc F).
  - unfold do_recv_oh_k. destruct (ch_oh s) as [|[c [|] u|rid] rest] eqn:Hch; [constructor | | |].
    + exact (V_discard k s c u rest Hch).
    + unfold do_myref. destruct (tab_get (h_tab (hd s)) c) as [i|] eqn:G.
      * destruct (nth_error (h_trk (hd s)) i) as [t|] eqn:Ht; [|constructor].
        unfold get_ref. destruct (t_proxy t) as [q|] eqn:Hq; eapply (V_myref_known k s c u rest i t); eauto.
      * rewrite nth_error_app_last. unfold get_ref. cbn [t_proxy t_clid t_recv t_url]. rewrite upd_nth_app_last.
        exact (V_myref_new k s c u rest Hch G).
    + destruct (do_ack_k_frees k s rid rest) as (tab & Hf & ->). exact (V_ack k s rid rest tab Hch Hf).
  - unfold do_recv_ho. destruct (ch_ho s) as [|[c n rid|c b] rest] eqn:Hch; [constructor | |].
    + destruct (find_clid (o_tab (ow s)) c) as [e|] eqn:F; [|exact (V_decref_gone k s c n rid rest Hch F)].
      rewrite decref_spec. destruct (Z.geb_spec (oe_rc e) n) as [L|L].
      * apply (V_decref_ok k s c n rid rest e Hch F). lia.
      * exact (V_decref_fail k s c n rid rest e Hch F L).
    + exact (V_toowner k s c b rest Hch).
  - unfold do_drop. destruct (find_proxy (h_trk (hd s)) p) as [i|] eqn:F; [|constructor]. exact (V_drop k s p i F).
  - unfold do_reflost. destruct (h_pend (hd s)) as [|i pend] eqn:Hp; [constructor|].
    destruct (nth_error (h_trk (hd s)) i) as [t|] eqn:Ht; [|constructor].
    destruct (t_proxy t) as [q|] eqn:Hq; [apply (V_resurrected k s i pend t Hp Ht); congruence|].
    rewrite handleRefLost_assign_spec, handleRefLost_skip_spec. destruct (Z.eqb_spec (t_recv t) 0) as [Ez|Ez].
    + apply (V_reflost k s i pend t _ _ _ Hp Ht Hq). auto.
    + apply (V_reflost k s i pend t _ _ _ Hp Ht Hq). auto.
  - unfold do_home. destruct (find_proxy (h_trk (hd s)) p) as [i|] eqn:F; [|constructor].
    destruct (nth_error (h_trk (hd s)) i) as [t|] eqn:Ht; [|constructor]. exact (V_home k s p iscall i t F Ht).
  - unfold do_lost. destruct finish_clears_spec as [-> ->]. exact (V_lost k s).
Qed.

Lemma step_k_current s o : step_k freeTracker_delkey s o = step s o.
Proof. unfold step_k, step. destruct (lost s); [reflexivity|]. destruct o; reflexivity. Qed.

Lemma run_k_current ops : forall s, run_k freeTracker_delkey s ops = run s ops.
Proof. induction ops as [|o r IH]; intros s; cbn [run_k run]; [reflexivity | rewrite step_k_current; apply IH]. Qed.

Lemma step_view s o : stepv freeTracker_delkey s o (step s o).
Proof. rewrite <- step_k_current. apply step_k_view. Qed.

Lemma run_k_invariant k (P : state -> Prop) :
  (forall s o r, stepv k s o r -> P s -> P (fst r)) -> forall ops s, P s -> P (run_k k s ops).
Proof.
  intros Hstep. induction ops as [|o r IH]; intros s H; cbn [run_k]; [exact H|].
  apply IH. exact (Hstep s o _ (step_k_view k s o) H).
Qed.

Lemma run_invariant (P : state -> Prop) :
  (forall s o r, stepv freeTracker_delkey s o r -> P s -> P (fst r)) -> forall ops s, P s -> P (run s ops).
Proof. intros Hstep ops s H. rewrite <- run_k_current. exact (run_k_invariant _ P Hstep ops s H). Qed.

Lemma run_app ops1 ops2 s : run s (ops1 ++ ops2) = run (run s ops1) ops2.
Proof. revert s; induction ops1 as [|o r IH]; intros s; cbn [app run]; [reflexivity | apply IH]. Qed.

(* the invariant of every reachable state (ALL histories, including the D9 and D16 ones) *)

Record Inv (s : state) : Prop := {
  (* refcount = received + my-references in flight + releases in flight (+ my-references the holder threw away) *)
  inv_count : forall c, rc (o_tab (ow s)) c
                        = recv_sum (h_trk (hd s)) c + inflight (ch_oh s) c + decs (ch_ho s) c + cnt (leaked s) c;
  inv_recv : Forall (fun t => 0 <= t_recv t) (h_trk (hd s));
  inv_dpos : Forall dpos (ch_ho s);
  inv_own : Forall (fun e => 1 <= oe_rc e /\ Z.abs (oe_clid e) < o_next (ow s)) (o_tab (ow s));
  inv_tab : forall c i, tab_get (h_tab (hd s)) c = Some i ->
                        exists t, nth_error (h_trk (hd s)) i = Some t /\ t_clid t = c;
  inv_alive : Forall (fun t => t_proxy t <> None -> 1 <= t_recv t) (h_trk (hd s));
  inv_pend : forall i t, nth_error (h_trk (hd s)) i = Some t -> 1 <= t_recv t ->
                         t_proxy t <> None \/ In i (h_pend (hd s));
  inv_home : home_ok (rc (o_tab (ow s))) (ch_ho s);
  inv_nofail : o_failed (ow s) = false;
  inv_next : 0 < o_next (ow s)
}.

Lemma Inv_init : Inv init.
Proof.
  constructor; cbn; auto; try (intros; discriminate); try reflexivity.
  intros i t H. destruct i; discriminate.
Qed.

Lemma count_parts_nonneg s c :
  Inv s -> 0 <= recv_sum (h_trk (hd s)) c /\ 0 <= inflight (ch_oh s) c /\ 0 <= decs (ch_ho s) c /\ 0 <= cnt (leaked s) c.
Proof.
  intros I. split; [apply recv_sum_nonneg, I|]. split; [apply inflight_nonneg|]. split; [apply decs_nonneg, I | apply cnt_nonneg].
Qed.

Lemma rc_nonneg s c : Inv s -> 0 <= rc (o_tab (ow s)) c.
Proof. intros I. rewrite (inv_count s I). pose proof (count_parts_nonneg s c I). lia. Qed.

Lemma rc_ge_recv s i t : Inv s -> nth_error (h_trk (hd s)) i = Some t -> t_recv t <= rc (o_tab (ow s)) (t_clid t).
Proof.
  intros I Ht. rewrite (inv_count s I). pose proof (recv_sum_ge _ _ _ (inv_recv s I) Ht).
  pose proof (count_parts_nonneg s (t_clid t) I). lia.
Qed.

Lemma new_clid_abs x n : 0 < n -> Z.abs (new_clid x n) = n.
Proof. intros H. unfold new_clid, callable_clid. destruct (x <? 0); lia. Qed.

Lemma fresh_clid s x : Inv s -> find_clid (o_tab (ow s)) (new_clid x (o_next (ow s))) = None.
Proof.
  intros I. destruct (find_clid _ _) as [e|] eqn:F; [|reflexivity].
  apply find_clid_some in F as [Hin E]. pose proof (inv_own s I) as O. rewrite Forall_forall in O. specialize (O e Hin).
  pose proof (new_clid_abs x _ (inv_next s I)). rewrite E in O. lia.
Qed.

Lemma decref_head_bound s c n rid rest :
  Inv s -> ch_ho s = Decref c n rid :: rest ->
  0 < n /\ exists e, find_clid (o_tab (ow s)) c = Some e /\ n <= oe_rc e /\ oe_rc e = rc (o_tab (ow s)) c.
Proof.
  intros I Hch. pose proof (inv_dpos s I) as D. rewrite Hch in D. inversion D as [|? ? Dn Dr]; subst. cbn in Dn.
  pose proof (inv_count s I c) as E. pose proof (count_parts_nonneg s c I) as (P1 & P2 & P3 & P4).
  rewrite Hch in E, P3. cbn [decs] in E. rewrite Z.eqb_refl in E. pose proof (decs_nonneg _ c Dr).
  split; [exact Dn|]. destruct (rc_pos_found (o_tab (ow s)) c) as (e & F & R); [lia|].
  exists e. split; [exact F|]. split; lia.
Qed.

Lemma Inv_stepv k s o r : stepv k s o r -> Inv s -> Inv (fst r).
Proof.
  intros V I. destruct V; cbn [fst].
  - exact I.
  - (* Send, the object already has an entry *)
    apply find_some in Hobj as [Hin _]. destruct (find_clid_in _ _ Hin) as [e' Fe'].
    pose proof (rc_set_rc _ _ (rc (o_tab (ow s)) (oe_clid e) + 1) _ Fe') as R.
    constructor; cbn [ow hd ch_oh ch_ho leaked o_tab o_next o_failed]; try apply I.
    + intros c. pose proof (inv_count s I c) as E. rewrite R, inflight_app, (Z.eqb_sym c).
      destruct (Z.eqb_spec (oe_clid e) c) as [<-|]; lia.
    + pose proof (inv_own s I) as O. rewrite Forall_forall in *. intros a Ha. apply In_set_rc in Ha as (b & Hb & -> & _ & Hrc).
      specialize (O b Hb). pose proof (rc_nonneg s (oe_clid e) I). lia.
    + eapply home_ok_mono; [|apply (inv_home s I)]. intros c. cbv beta. rewrite R.
      pose proof (rc_nonneg s (oe_clid e) I). destruct (Z.eqb_spec c (oe_clid e)) as [->|]; lia.
  - (* Send, first transmission: a fresh clid *)
    pose proof (rc_none _ _ (fresh_clid s x I)) as Fr. pose proof (new_clid_abs x _ (inv_next s I)) as Ab.
    set (c := new_clid x (o_next (ow s))) in *.
    assert (R : forall c', rc (set_rc ({| oe_obj := x; oe_clid := c; oe_rc := 0 |} :: o_tab (ow s)) c 1) c'
                           = rc (o_tab (ow s)) c' + if c =? c' then 1 else 0).
    { intros c'. rewrite rc_set_rc with (e := {| oe_obj := x; oe_clid := c; oe_rc := 0 |}), rc_cons, (Z.eqb_sym c').
      - cbn [oe_clid oe_rc]. destruct (Z.eqb_spec c c') as [<-|]; lia.
      - unfold find_clid. cbn [find oe_clid]. rewrite Z.eqb_refl. reflexivity. }
    constructor; cbn [ow hd ch_oh ch_ho leaked o_tab o_next o_failed]; try apply I.
    + intros c'. rewrite R, inflight_app, (inv_count s I c'). lia.
    + pose proof (inv_own s I) as O. rewrite Forall_forall in *. intros a Ha.
      apply In_set_rc in Ha as (b & [<-|Hb] & -> & _ & Hrc); cbn [oe_clid oe_rc] in *; [lia|]. specialize (O b Hb). lia.
    + eapply home_ok_mono; [|apply (inv_home s I)]. intros c'. cbv beta. rewrite R. destruct (c =? c'); lia.
    + pose proof (inv_next s I). lia.
  - (* a discarded my-reference: the holder never counts it *)
    constructor; cbn [ow hd ch_oh ch_ho leaked]; try apply I.
    intros c'. pose proof (inv_count s I c') as E. rewrite Hch in E. cbn [inflight] in E. cbn [cnt]. lia.
  - (* a my-reference for a clid in the table *)
    destruct (inv_tab s I _ _ Htab) as (t0 & Ht0 & Hc). rewrite Hnth in Ht0. inversion Ht0; subst t0.
    pose proof (Forall_nth_error _ _ _ _ (inv_recv s I) Hnth) as Hr. cbv beta in Hr.
    constructor; cbn [ow hd ch_oh ch_ho leaked h_trk h_tab h_pend]; try apply I.
    + intros c'. rewrite (recv_sum_upd _ _ _ t c' Hnth). pose proof (inv_count s I c') as E. rewrite Hch in E.
      cbn [inflight] in E. unfold contrib. cbn [t_clid t_recv]. rewrite Hc. destruct (c =? c'); lia.
    + apply Forall_upd_nth; [apply I | intros a _ _; cbn; lia].
    + intros c' j Hj. apply (inv_tab s I) in Hj as (u' & Hu & Hcu). rewrite nth_error_upd_nth.
      destruct (Nat.eqb_spec j i) as [->|]; [|eauto]. rewrite Hu. cbn [option_map]. eexists. split; [reflexivity|].
      cbn [t_clid]. congruence.
    + apply Forall_upd_nth; [apply I | intros a _ _ _; cbn; lia].
    + intros j u' Hu. apply nth_error_upd_nth_inv in Hu as [[_ Hu]|[_ (t1 & _ & ->)]]; [exact (inv_pend s I j u' Hu)|].
      intros _. left. discriminate.
  - (* a my-reference for an unknown clid: a new tracker *)
    constructor; cbn [ow hd ch_oh ch_ho leaked h_trk h_tab h_pend]; try apply I.
    + intros c'. rewrite recv_sum_app. pose proof (inv_count s I c') as E. rewrite Hch in E. cbn [inflight] in E.
      unfold contrib. cbn [t_clid t_recv]. destruct (c =? c'); lia.
    + apply Forall_snoc; [apply I | cbn; lia].
    + intros c' j. cbn [tab_get]. destruct (Z.eqb_spec c c') as [<-|].
      * intros E; inversion E. eexists. split; [apply nth_error_app_last | reflexivity].
      * intros Hj. apply (inv_tab s I) in Hj as (t & Ht & Hc). exists t. split; [|exact Hc].
        rewrite nth_error_app1; [exact Ht | apply nth_error_Some; congruence].
    + apply Forall_snoc; [apply I | cbn; lia].
    + intros j t Ht. apply nth_error_snoc in Ht as [Ht|[_ ->]]; [exact (inv_pend s I j t Ht)|]. intros _. left. discriminate.
  - (* the answer to a decref: table entries only go *)
    constructor; cbn [ow hd ch_oh ch_ho leaked h_trk h_tab h_pend]; try apply I.
    + intros c. pose proof (inv_count s I c) as E. rewrite Hch in E. exact E.
    + intros c j. destruct Hfree as [->|(i & t & _ & _ & _ & -> & _)]; [apply I|].
      rewrite tab_get_del. destruct (c =? t_clid t); [discriminate | apply I].
  - (* decref for a clid the owner does not have: excluded by the count *)
    destruct (decref_head_bound s c n rid rest I Hch) as (_ & e & F & _). congruence.
  - (* decref *)
    destruct (decref_head_bound s c n rid rest I Hch) as (Hn & e0 & F & _ & Hrc). rewrite Hfind in F. inversion F; subst e0.
    pose proof (inv_dpos s I) as D. rewrite Hch in D. inversion D as [|? ? _ Dr]; subst.
    set (tab' := if oe_rc e - n =? 0 then del_clid (o_tab (ow s)) c else set_rc (o_tab (ow s)) c (oe_rc e - n)).
    assert (R : forall c', rc tab' c' = if c' =? c then rc (o_tab (ow s)) c' - n else rc (o_tab (ow s)) c').
    { intros c'. subst tab'. destruct (Z.eqb_spec (oe_rc e - n) 0) as [Ez|Ez].
      - rewrite rc_del. destruct (Z.eqb_spec c' c) as [->|]; [lia | reflexivity].
      - rewrite (rc_set_rc _ _ _ _ Hfind). destruct (Z.eqb_spec c' c) as [->|]; [lia | reflexivity]. }
    constructor; cbn [ow hd ch_oh ch_ho leaked o_tab o_next o_failed]; try apply I.
    + intros c'. rewrite R, inflight_app. pose proof (inv_count s I c') as E. rewrite Hch in E. cbn [decs] in E.
      rewrite (Z.eqb_sym c' c). destruct (c =? c'); lia.
    + exact Dr.
    + pose proof (inv_own s I) as O. rewrite Forall_forall in *. subst tab'. intros a Ha.
      destruct (Z.eqb_spec (oe_rc e - n) 0) as [Ez|Ez].
      * apply filter_In in Ha as [Ha _]. auto.
      * apply In_set_rc in Ha as (b & Hb & -> & _ & Hrb). specialize (O b Hb). lia.
    + pose proof (inv_home s I) as Hh. rewrite Hch in Hh. cbn [home_ok] in Hh.
      eapply home_ok_mono; [|exact Hh]. intros c'. cbv beta. rewrite R. lia.
  - (* a failing decref: excluded by the count *)
    destruct (decref_head_bound s c n rid rest I Hch) as (_ & e0 & F & Hle & _). rewrite Hfind in F. inversion F; subst e0. lia.
  - (* a your-reference arrives *)
    constructor; cbn [ow hd ch_oh ch_ho leaked]; try apply I.
    + intros c'. pose proof (inv_count s I c') as E. rewrite Hch in E. exact E.
    + pose proof (inv_dpos s I) as D. rewrite Hch in D. inversion D; assumption.
    + pose proof (inv_home s I) as Hh. rewrite Hch in Hh. apply Hh.
  - (* the proxy dies: its tracker keeps its count and is queued *)
    apply find_proxy_some in Hfp as (t & Ht & Hp).
    constructor; cbn [ow hd ch_oh ch_ho leaked h_trk h_tab h_pend]; try apply I.
    + intros c. rewrite (recv_sum_upd _ _ _ t c Ht). unfold contrib. cbn [t_clid t_recv]. rewrite (inv_count s I c). lia.
    + apply Forall_upd_nth; [apply I | intros a _ Ha; exact Ha].
    + intros c j Hj. apply (inv_tab s I) in Hj as (u & Hu & Hc). rewrite nth_error_upd_nth.
      destruct (Nat.eqb j i); [rewrite Hu; cbn; eauto | eauto].
    + apply Forall_upd_nth; [apply I | intros a _ _ Hn; cbn in Hn; congruence].
    + intros j u Hu Hr. rewrite in_app_iff. apply nth_error_upd_nth_inv in Hu as [[_ Hu]|[-> _]]; [|cbn; auto].
      destruct (inv_pend s I _ _ Hu Hr); auto.
  - (* _handleRefLost finds the proxy alive again *)
    constructor; cbn [ow hd ch_oh ch_ho leaked h_trk h_tab h_pend]; try apply I.
    intros j u Hu Hr. destruct (inv_pend s I _ _ Hu Hr) as [P|P]; [auto|]. rewrite Hpend in P. destruct P as [<-|P]; [|auto].
    left. congruence.
  - (* _handleRefLost releases what the tracker has counted, if anything *)
    pose proof (Forall_nth_error _ _ _ _ (inv_recv s I) Hnth) as Hr0. cbv beta in Hr0.
    constructor; cbn [ow hd ch_oh ch_ho leaked h_trk h_tab h_pend]; try apply I.
    + intros c. rewrite (recv_sum_upd _ _ _ t c Hnth). unfold contrib. cbn [t_clid t_recv]. rewrite (inv_count s I c).
      destruct Hrel as [(Ez & _ & _ & ->)|(_ & _ & _ & ->)]; [rewrite Ez | rewrite decs_app]; destruct (_ =? _); lia.
    + apply Forall_upd_nth; [apply I | intros a _ _; cbn; lia].
    + destruct Hrel as [(_ & _ & _ & ->)|(Ez & _ & _ & ->)]; [apply I | apply Forall_snoc; [apply I | cbn; lia]].
    + intros c j Hj. apply (inv_tab s I) in Hj as (u & Hu & Hc). rewrite nth_error_upd_nth.
      destruct (Nat.eqb j i); [rewrite Hu; cbn; eauto | eauto].
    + apply Forall_upd_nth; [apply I | intros a Ha _ Hn; cbn in Hn; congruence].
    + intros j u Hu Hr. apply nth_error_upd_nth_inv in Hu as [[N Hu]|[_ (t1 & _ & ->)]]; [|cbn in Hr; lia].
      destruct (inv_pend s I _ _ Hu Hr) as [P|P]; [auto|]. rewrite Hpend in P. destruct P as [<-|P]; [contradiction | auto].
    + destruct Hrel as [(_ & _ & _ & ->)|(_ & _ & _ & ->)]; [apply I | apply home_ok_app_decref, I].
  - (* a proxy is sent home / called through: its tracker counts at least one reference the decrefs under way do not cover *)
    constructor; cbn [ow hd ch_oh ch_ho leaked]; try apply I.
    + intros c. rewrite decs_app, (inv_count s I c). lia.
    + apply Forall_snoc; [apply I | exact Logic.I].
    + apply home_ok_app_home; [apply I|]. apply find_proxy_some in Hfp as (t' & Ht' & Hp). rewrite Hnth in Ht'. inversion Ht'; subst t'.
      pose proof (Forall_nth_error _ _ _ _ (inv_alive s I) Hnth) as A. cbv beta in A.
      pose proof (recv_sum_ge _ _ _ (inv_recv s I) Hnth). pose proof (count_parts_nonneg s (t_clid t) I).
      rewrite (inv_count s I (t_clid t)). assert (1 <= t_recv t) by (apply A; congruence). lia.
  - (* connection loss *)
    constructor; cbn; auto; try (intros; discriminate); try apply I.
    intros i t H. destruct i; discriminate.
Qed.

Theorem Inv_step s o : Inv s -> Inv (fst (step s o)).
Proof. exact (Inv_stepv _ s o _ (step_view s o)). Qed.

Theorem Inv_step_k k s o : Inv s -> Inv (fst (step_k k s o)).
Proof. exact (Inv_stepv k s o _ (step_k_view k s o)). Qed.

Theorem Inv_run_k k ops : forall s, Inv s -> Inv (run_k k s ops).
Proof. exact (run_k_invariant k Inv (Inv_stepv k) ops). Qed.

Theorem Inv_run ops : forall s, Inv s -> Inv (run s ops).
Proof. exact (run_invariant Inv (Inv_stepv _) ops). Qed.

Corollary Inv_reachable ops : Inv (run init ops).
Proof. apply Inv_run, Inv_init. Qed.

Theorem count_invariant ops c :
  let s := run init ops in
  rc (o_tab (ow s)) c = recv_sum (h_trk (hd s)) c + inflight (ch_oh s) c + decs (ch_ho s) c + cnt (leaked s) c.
Proof. exact (inv_count _ (Inv_reachable ops) c). Qed.

(* the counting invariant does not depend on the deletion rule *)
Theorem count_invariant_k k ops c :
  let s := run_k k init ops in
  rc (o_tab (ow s)) c = recv_sum (h_trk (hd s)) c + inflight (ch_oh s) c + decs (ch_ho s) c + cnt (leaked s) c.
Proof. exact (inv_count _ (Inv_run_k k ops init Inv_init) c). Qed.

(* the owner's ids: never reused; the table is a partial bijection object <-> clid *)

Record OwnWf (w : owner) : Prop := {
  ow_alloc_nodup : NoDup (map fst (o_alloc w));
  ow_alloc_lt : Forall (fun a => Z.abs (fst a) < o_next w) (o_alloc w);
  ow_next_pos : 0 < o_next w;
  ow_clids : NoDup (map oe_clid (o_tab w));
  ow_objs : NoDup (map oe_obj (o_tab w));
  ow_logged : Forall (fun e => In (oe_clid e, oe_obj e) (o_alloc w)) (o_tab w)
}.

Lemma OwnWf_init : OwnWf (ow init).
Proof. constructor; cbn; try constructor. Qed.

Lemma logged_set_rc al tab c v :
  Forall (fun e => In (oe_clid e, oe_obj e) al) tab -> Forall (fun e => In (oe_clid e, oe_obj e) al) (set_rc tab c v).
Proof. rewrite !Forall_forall. intros H a Ha. apply In_set_rc in Ha as (b & Hb & -> & -> & _). exact (H b Hb). Qed.

Lemma OwnWf_stepv k s o r : stepv k s o r -> OwnWf (ow s) -> OwnWf (ow (fst r)).
Proof.
  intros V W. destruct V; cbn [fst ow]; try exact W.
  - (* Send, the object has an entry: only its count changes *)
    constructor; cbn [o_tab o_next o_alloc]; try apply W.
    + rewrite map_clid_set_rc. apply W.
    + rewrite map_obj_set_rc. apply W.
    + apply logged_set_rc, W.
  - (* a new entry: its clid is above everything allocated, its object was not in the table *)
    pose proof (new_clid_abs x _ (ow_next_pos _ W)) as Ab. pose proof (ow_alloc_lt _ W) as L. rewrite Forall_forall in L.
    constructor; cbn [o_tab o_next o_alloc].
    + cbn [map fst]. constructor; [|apply W]. intros Hin. apply in_map_iff in Hin as (a & Ea & Ha).
      specialize (L a Ha). rewrite Ea in L. lia.
    + constructor; [cbn [fst]; lia|]. rewrite Forall_forall. intros a Ha. specialize (L a Ha). lia.
    + pose proof (ow_next_pos _ W). lia.
    + rewrite map_clid_set_rc. cbn [map oe_clid]. constructor; [|apply W].
      intros Hin. apply in_map_iff in Hin as (a & Ea & Ha).
      pose proof (ow_logged _ W) as G. rewrite Forall_forall in G. specialize (L _ (G a Ha)). cbn [fst] in L. rewrite Ea in L. lia.
    + rewrite map_obj_set_rc. cbn [map oe_obj]. constructor; [|apply W].
      intros Hin. apply in_map_iff in Hin as (a & Ea & Ha).
      pose proof (find_none _ _ Hobj a Ha) as N. cbn in N. apply Z.eqb_neq in N. congruence.
    + apply logged_set_rc. constructor; [cbn; left; reflexivity|].
      apply Forall_impl with (2 := ow_logged _ W). intros a Ha. right. exact Ha.
  - (* decref: the entry goes, or its count changes *)
    constructor; cbn [o_tab o_next o_alloc]; try apply W.
    + destruct (_ =? 0); [apply NoDup_map_filter | rewrite map_clid_set_rc]; apply W.
    + destruct (_ =? 0); [apply NoDup_map_filter | rewrite map_obj_set_rc]; apply W.
    + destruct (_ =? 0); [|apply logged_set_rc, W].
      pose proof (ow_logged _ W) as G. rewrite Forall_forall in *. intros a Ha. apply filter_In in Ha as [Ha _]. auto.
  - (* a failing decref: only o_failed changes *)
    constructor; cbn [o_tab o_next o_alloc]; apply W.
  - (* connection loss: the table is emptied, the log stays *)
    constructor; cbn [o_tab o_next o_alloc]; try apply W; constructor.
Qed.

Lemma OwnWf_reachable ops : OwnWf (ow (run init ops)).
Proof. exact (run_invariant (fun s => OwnWf (ow s)) (OwnWf_stepv _) ops init OwnWf_init). Qed.

Lemma find_clid_logged w c e : OwnWf w -> find_clid (o_tab w) c = Some e -> In (c, oe_obj e) (o_alloc w).
Proof.
  intros W F. apply find_clid_some in F as [Hin <-]. pose proof (ow_logged _ W) as G. rewrite Forall_forall in G. exact (G e Hin).
Qed.

Lemma find_obj_logged w x e : OwnWf w -> find_obj (o_tab w) x = Some e -> In (oe_clid e, x) (o_alloc w).
Proof.
  intros W F. apply find_some in F as [Hin Ex]. apply Z.eqb_eq in Ex. subst x.
  pose proof (ow_logged _ W) as G. rewrite Forall_forall in G. exact (G e Hin).
Qed.

(* the log only grows: what a clid was allocated for never changes *)
Lemma alloc_grows_v k s o r a : stepv k s o r -> In a (o_alloc (ow s)) -> In a (o_alloc (ow (fst r))).
Proof. intros V H. destruct V; cbn [fst ow o_alloc In]; auto. Qed.

Lemma alloc_grows s o a : In a (o_alloc (ow s)) -> In a (o_alloc (ow (fst (step s o)))).
Proof. exact (alloc_grows_v _ s o _ a (step_view s o)). Qed.

Lemma alloc_run ops : forall s a, In a (o_alloc (ow s)) -> In a (o_alloc (ow (run s ops))).
Proof. intros s a. exact (run_invariant (fun s => In a (o_alloc (ow s))) (fun s o r => alloc_grows_v _ s o r a) ops s). Qed.

Lemma step_lost_id s o : lost s = true -> step s o = (s, []).
Proof. intros H. unfold step. rewrite H. reflexivity. Qed.

Lemma run_lost_id ops s : lost s = true -> run s ops = s.
Proof. induction ops as [|o r IH]; cbn [run]; [reflexivity|]. intros H. rewrite step_lost_id by exact H. cbn [fst]. apply IH, H. Qed.

Lemma lost_preserved s o : lost s = false -> o <> ConnLost -> lost (fst (step s o)) = false.
Proof. intros H N. destruct (step_view s o); cbn [fst lost]; congruence. Qed.

Lemma lost_after_connlost s : lost (fst (step s ConnLost)) = true.
Proof. unfold step. destruct (lost s) eqn:H; [exact H | reflexivity]. Qed.

Lemma lost_run_false ops : forall s, lost (run s ops) = false -> lost s = false.
Proof.
  induction ops as [|o r IH]; intros s H; cbn [run] in H; [exact H|]. specialize (IH _ H).
  destruct (lost s) eqn:E; [|reflexivity]. rewrite step_lost_id in IH by exact E. cbn in IH. congruence.
Qed.

Definition LostEmpty (s : state) : Prop :=
  lost s = true -> o_tab (ow s) = [] /\ h_tab (hd s) = [] /\ ch_oh s = [] /\ ch_ho s = [].

Lemma LostEmpty_step s o : LostEmpty s -> LostEmpty (fst (step s o)).
Proof.
  intros L. destruct (lost s) eqn:Hl; [rewrite step_lost_id by exact Hl; exact L|].
  destruct (step_view s o); unfold LostEmpty; cbn [fst lost]; try congruence. cbn. auto.
Qed.

Lemma LostEmpty_run ops : forall s, LostEmpty s -> LostEmpty (run s ops).
Proof. induction ops as [|o r IH]; intros s L; cbn [run]; [exact L | apply IH, LostEmpty_step, L]. Qed.

Theorem loss_forgets ops1 ops2 :
  let s := run init (ops1 ++ ConnLost :: ops2) in
  lost s = true /\ o_tab (ow s) = [] /\ h_tab (hd s) = [] /\ ch_oh s = [] /\ ch_ho s = [].
Proof.
  cbv zeta. rewrite run_app. cbn [run]. set (s1 := run init ops1).
  assert (L1 : LostEmpty s1) by (apply LostEmpty_run; intros H; discriminate).
  pose proof (lost_after_connlost s1) as Hl. rewrite run_lost_id by exact Hl.
  split; [exact Hl|]. exact (LostEmpty_step s1 ConnLost L1 Hl).
Qed.

(* C08: every tracker that counts references -- in particular every tracker with a live proxy -- is the one registered
   for its clid.  The answer to a decref is the one step that can break this: it holds under the identity rule, and under
   deletion by clid as long as no answer frees another tracker's table entry (safe_op) *)

Definition Attached (s : state) : Prop :=
  forall i t, nth_error (h_trk (hd s)) i = Some t -> 1 <= t_recv t -> tab_get (h_tab (hd s)) (t_clid t) = Some i.

Lemma Attached_init : Attached init.
Proof. intros i t H. destruct i; discriminate. Qed.

Lemma Attached_step_k k s o :
  Inv s -> Attached s -> k = DelByIdentity \/ safe_op s o = true -> Attached (fst (step_k k s o)).
Proof.
  intros I A G. destruct (lost s) eqn:Hl; [unfold step_k; rewrite Hl; exact A|].
  destruct (step_k_view k s o); unfold Attached in *; cbn [fst hd h_trk h_tab]; try exact A.
  - (* a my-reference for a clid in the table: the tracker that counts it is the registered one *)
    destruct (inv_tab s I _ _ Htab) as (t0 & Ht0 & Hc). rewrite Hnth in Ht0. inversion Ht0; subst t0.
    intros j v Hv Hr. apply nth_error_upd_nth_inv in Hv as [[_ Hv]|[-> (t1 & _ & ->)]]; [exact (A _ _ Hv Hr)|].
    cbn [t_clid]. congruence.
  - (* a new tracker is registered as it is made *)
    intros j v Hv Hr. cbn [tab_get]. apply nth_error_snoc in Hv as [Hv|[-> ->]].
    + specialize (A _ _ Hv Hr). destruct (Z.eqb_spec c (t_clid v)); [congruence | exact A].
    + cbn [t_clid]. rewrite Z.eqb_refl. reflexivity.
  - (* the entry that goes is registered for a tracker that counts nothing *)
    destruct Hfree as [->|(i & t & Ea & Ht & Ez & -> & Hid)]; [exact A|].
    intros j v Hv Hr. rewrite tab_get_del. pose proof (A _ _ Hv Hr) as Aj.
    destruct (Z.eqb_spec (t_clid v) (t_clid t)) as [Ec|]; [exfalso | exact Aj]. rewrite Ec in Aj.
    assert (j = i).
    { destruct G as [->|G]; [rewrite (Hid eq_refl) in Aj; congruence|].
      cbn [safe_op] in G. rewrite Hl, Hch, Ea, Ht, freeTracker_keeps_spec, Ez, Aj in G. symmetry. apply Nat.eqb_eq, G. }
    subst j. rewrite Ht in Hv. inversion Hv; subst v. lia.
  - (* the proxy dies: clid and count stay *)
    intros j v Hv Hr. apply nth_error_upd_nth_inv in Hv as [[_ Hv]|[-> (t1 & Ht1 & ->)]]; [exact (A _ _ Hv Hr)|].
    exact (A _ _ Ht1 Hr).
  - (* _handleRefLost: the tracker counts nothing afterwards *)
    intros j v Hv Hr. apply nth_error_upd_nth_inv in Hv as [[_ Hv]|[_ (t1 & _ & ->)]]; [exact (A _ _ Hv Hr) | cbn in Hr; lia].
  - (* connection loss: no trackers *)
    intros j v Hv. destruct j; discriminate.
Qed.

Lemma Attached_run_k k ops :
  forall s, Inv s -> Attached s -> k = DelByIdentity \/ safe_run_k k s ops -> Attached (run_k k s ops).
Proof.
  induction ops as [|o r IH]; intros s I A G; cbn [run_k]; [exact A|].
  apply IH; [exact (Inv_step_k k s o I) | apply Attached_step_k; [exact I | exact A |] |];
    (destruct G as [E|[G1 G2]]; [left; exact E | right; assumption]).
Qed.

Lemma safe_run_k_current ops : forall s, safe_run s ops -> safe_run_k freeTracker_delkey s ops.
Proof.
  induction ops as [|o r IH]; intros s G; [exact G|]. cbn [safe_run safe_run_k] in *.
  rewrite step_k_current. split; [apply G | apply IH, G].
Qed.

Lemma Attached_run ops : forall s, Inv s -> Attached s -> safe_run s ops -> Attached (run s ops).
Proof.
  intros s I A G. rewrite <- run_k_current. apply Attached_run_k; [exact I | exact A | right; apply safe_run_k_current, G].
Qed.

Lemma myref_delivers k s c w rest :
  Inv s -> lost s = false -> ch_oh s = MyRef c false w :: rest ->
  exists p i t, snd (step_k k s RecvOH) = [EvDelivered p] /\ nth_error (h_trk (hd (fst (step_k k s RecvOH)))) i = Some t /\
    t_proxy t = Some p /\ t_clid t = c /\
    t_url t = match tab_get (h_tab (hd s)) c with
              | Some i => match nth_error (h_trk (hd s)) i with Some t => t_url t | None => None end
              | None => w
              end /\
    forall j t0 q, tab_get (h_tab (hd s)) c = Some j -> nth_error (h_trk (hd s)) j = Some t0 -> t_proxy t0 = Some q -> p = q.
Proof.
  intros I Hl Hch. unfold step_k. rewrite Hl. unfold do_recv_oh_k. rewrite Hch. unfold do_myref.
  destruct (tab_get (h_tab (hd s)) c) as [i|] eqn:G.
  - destruct (inv_tab s I _ _ G) as (t & Ht & Hc). rewrite Ht. unfold get_ref.
    destruct (t_proxy t) as [q|] eqn:Hq; cbn [fst snd hd h_trk]; eexists; exists i; eexists;
      rewrite nth_error_upd_nth, Nat.eqb_refl, Ht; cbn [option_map t_proxy t_clid t_url];
      (split; [reflexivity|]); (split; [reflexivity|]); (split; [reflexivity|]); (split; [exact Hc|]); (split; [reflexivity|]);
      intros; congruence.
  - rewrite nth_error_app_last. unfold get_ref. cbn [t_proxy fst snd hd h_trk]. rewrite upd_nth_app_last.
    eexists. exists (length (h_trk (hd s))). eexists. rewrite nth_error_app_last. cbn [t_proxy t_clid t_url].
    repeat (split; [reflexivity|]). intros; discriminate.
Qed.

(* C08, first sentence: in a history of the identity rule, or of any rule that satisfies the guard, a my-reference whose
   clid has a live proxy delivers that very proxy, and no clid has two live proxies *)
Theorem same_proxy_k k ops :
  k = DelByIdentity \/ safe_run_k k init ops ->
  let s := run_k k init ops in
  forall i t p w rest,
    lost s = false -> nth_error (h_trk (hd s)) i = Some t -> t_proxy t = Some p ->
    ch_oh s = MyRef (t_clid t) false w :: rest ->
    snd (step_k k s RecvOH) = [EvDelivered p].
Proof.
  intros G s i t p w rest Hl Ht Hp Hch.
  pose proof (Inv_run_k k ops init Inv_init) as I. fold s in I.
  pose proof (Attached_run_k k ops init Inv_init Attached_init G) as A. fold s in A.
  assert (Hr : 1 <= t_recv t) by (apply (Forall_nth_error _ _ _ _ (inv_alive s I) Ht); congruence).
  destruct (myref_delivers k s _ w rest I Hl Hch) as (q & _ & _ & -> & _ & _ & _ & _ & Same).
  rewrite (Same _ _ _ (A _ _ Ht Hr) Ht Hp). reflexivity.
Qed.

Theorem one_proxy_per_clid_k k ops :
  k = DelByIdentity \/ safe_run_k k init ops ->
  let s := run_k k init ops in
  forall i j ti tj, nth_error (h_trk (hd s)) i = Some ti -> nth_error (h_trk (hd s)) j = Some tj ->
                    t_proxy ti <> None -> t_proxy tj <> None -> t_clid ti = t_clid tj -> i = j.
Proof.
  intros G s i j ti tj Hi Hj Pi Pj Ec.
  pose proof (Inv_run_k k ops init Inv_init) as I. fold s in I.
  pose proof (Attached_run_k k ops init Inv_init Attached_init G) as A. fold s in A.
  pose proof (A _ _ Hi (Forall_nth_error _ _ _ _ (inv_alive s I) Hi Pi)) as E1.
  pose proof (A _ _ Hj (Forall_nth_error _ _ _ _ (inv_alive s I) Hj Pj)) as E2. congruence.
Qed.

Theorem same_proxy_with_identity_rule ops :
  let s := run_k DelByIdentity init ops in
  forall i t p w rest,
    lost s = false -> nth_error (h_trk (hd s)) i = Some t -> t_proxy t = Some p ->
    ch_oh s = MyRef (t_clid t) false w :: rest ->
    snd (step_k DelByIdentity s RecvOH) = [EvDelivered p].
Proof. exact (same_proxy_k DelByIdentity ops (or_introl eq_refl)). Qed.

Theorem one_proxy_per_clid_with_identity_rule ops :
  let s := run_k DelByIdentity init ops in
  forall i j ti tj, nth_error (h_trk (hd s)) i = Some ti -> nth_error (h_trk (hd s)) j = Some tj ->
                    t_proxy ti <> None -> t_proxy tj <> None -> t_clid ti = t_clid tj -> i = j.
Proof. exact (one_proxy_per_clid_k DelByIdentity ops (or_introl eq_refl)). Qed.

Theorem same_proxy_if_identity_rule :
  freeTracker_delkey = DelByIdentity ->
  forall ops, let s := run init ops in
  forall i t p w rest,
    lost s = false -> nth_error (h_trk (hd s)) i = Some t -> t_proxy t = Some p ->
    ch_oh s = MyRef (t_clid t) false w :: rest ->
    snd (step s RecvOH) = [EvDelivered p].
Proof.
  intros E ops. cbv zeta. rewrite <- run_k_current, <- step_k_current. exact (same_proxy_k _ ops (or_introl E)).
Qed.

(* C08, first sentence, at full strength: every history (the rule is re-read from freeYourReferenceTracker on every
   run; `eq_refl` stops type-checking the moment the source deletes by anything but identity) *)
Theorem same_proxy ops :
  let s := run init ops in
  forall i t p w rest,
    lost s = false -> nth_error (h_trk (hd s)) i = Some t -> t_proxy t = Some p ->
    ch_oh s = MyRef (t_clid t) false w :: rest ->
    snd (step s RecvOH) = [EvDelivered p].
Proof. exact (same_proxy_if_identity_rule eq_refl ops). Qed.

Theorem one_proxy_per_clid ops :
  let s := run init ops in
  forall i j ti tj, nth_error (h_trk (hd s)) i = Some ti -> nth_error (h_trk (hd s)) j = Some tj ->
                    t_proxy ti <> None -> t_proxy tj <> None -> t_clid ti = t_clid tj -> i = j.
Proof. cbv zeta. rewrite <- run_k_current. exact (one_proxy_per_clid_k _ ops (or_introl eq_refl)). Qed.

(* D16 (repaired by ab72d65), the history of notes/e9.py.  Object 1 is sent; proxy dropped (decref#1); sent again before the
   owner sees decref#1; the owner answers decref#1; the holder gets my-reference#2, drops the proxy (decref#2), THEN gets answer#1 with
   received_count == 0 and forgets the tracker; the object is sent a third time before the owner sees decref#2: a NEW
   tracker and proxy; answer#2 then deletes the NEW tracker's table entry by clid; fourth send. *)
Definition d16_ops : list op :=
  [Send 1 false; RecvOH; DropProxy 0; HandleRefLost; Send 1 false; RecvHO; RecvOH; DropProxy 1; HandleRefLost; RecvOH;
   Send 1 false; RecvOH; RecvHO; RecvOH; Send 1 false].

(* the D16 history itself: under the identity rule the fourth send arrives as the proxy that is held (2), under deletion
   by clid as a new one (3) *)
Example d16_repaired :
  snd (step_k DelByIdentity (run_k DelByIdentity init d16_ops) RecvOH) = [EvDelivered 2] /\
  snd (step_k DelByClid (run_k DelByClid init d16_ops) RecvOH) = [EvDelivered 3].
Proof. vm_compute. split; reflexivity. Qed.

(* deletion by clid (what freeYourReferenceTracker did before ab72d65): under it the statement holds for the histories in
   which no decref answer frees a table entry that belongs to another tracker (safe_op), and the D16 history refutes it *)
Theorem same_proxy_guarded k ops :
  safe_run_k k init ops ->
  let s := run_k k init ops in
  forall i t p w rest,
    lost s = false -> nth_error (h_trk (hd s)) i = Some t -> t_proxy t = Some p ->
    ch_oh s = MyRef (t_clid t) false w :: rest ->
    snd (step_k k s RecvOH) = [EvDelivered p].
Proof. intros G. exact (same_proxy_k k ops (or_intror G)). Qed.

Theorem same_proxy_refuted_under_clid_rule :
  exists ops, let s := run_k DelByClid init ops in
  exists i t p w rest,
    lost s = false /\ nth_error (h_trk (hd s)) i = Some t /\ t_proxy t = Some p /\
    ch_oh s = MyRef (t_clid t) false w :: rest /\ snd (step_k DelByClid s RecvOH) <> [EvDelivered p].
Proof.
  exists d16_ops. cbv zeta.
  exists 1%nat, {| t_clid := 1; t_recv := 1; t_proxy := Some 2; t_url := None |}, 2, None, [].
  vm_compute. repeat split; discriminate.
Qed.

Example safe_run_example :
  safe_run_k DelByClid init [Send 1 false; RecvOH; DropProxy 0; HandleRefLost; Send 1 false; RecvHO; RecvOH; RecvOH; DropProxy 1;
                             HandleRefLost; RecvHO; RecvOH; Send 1 false; RecvOH; Send 1 false; RecvOH].
Proof. vm_compute. repeat split. Qed.

Example d16_not_safe : ~ safe_run_k DelByClid init d16_ops.
Proof. vm_compute. intuition discriminate. Qed.

(* a your-reference / call target in flight finds its entry even after the decrefs queued ahead of it (inv_home), and the
   entry's object is the one the clid was allocated for (OwnWf) *)
Theorem home_original ops :
  let s := run init ops in
  forall c k rest, lost s = false -> ch_ho s = ToOwner c k :: rest ->
  exists x, In (c, x) (o_alloc (ow s)) /\ snd (step s RecvHO) = [EvHome k (Some x)].
Proof.
  intros s c k rest Hl Hch. pose proof (inv_home s (Inv_reachable ops)) as H. rewrite Hch in H. destruct H as [H _].
  destruct (rc_pos_found _ _ H) as (e & F & _). exists (oe_obj e). split; [exact (find_clid_logged _ _ _ (OwnWf_reachable ops) F)|].
  unfold step. rewrite Hl. unfold do_recv_ho. rewrite Hch. cbn [snd]. rewrite F. reflexivity.
Qed.

(* what the owner puts on the wire for object x is a clid allocated for x (and for nothing else: alloc_functional) *)
Theorem send_names_object ops x d :
  let s := run init ops in lost s = false ->
  exists c w, ch_oh (fst (step s (Send x d))) = ch_oh s ++ [MyRef c d w] /\ In (c, x) (o_alloc (ow (fst (step s (Send x d))))).
Proof.
  intros s Hl. unfold step. rewrite Hl. unfold do_send.
  destruct (find_obj (o_tab (ow s)) x) as [e|] eqn:F; rewrite send_spec; cbn [fst ch_oh ow o_alloc]; eexists; eexists.
  - split; [reflexivity | exact (find_obj_logged _ _ _ (OwnWf_reachable ops) F)].
  - split; [reflexivity | left; reflexivity].
Qed.

Theorem alloc_functional ops :
  let s := run init ops in
  forall c x y, In (c, x) (o_alloc (ow s)) -> In (c, y) (o_alloc (ow s)) -> x = y.
Proof. intros s c x y. exact (NoDup_fst_functional _ c x y (ow_alloc_nodup _ (OwnWf_reachable ops))). Qed.

Theorem alloc_monotone ops o a :
  In a (o_alloc (ow (run init ops))) -> In a (o_alloc (ow (run init (ops ++ [o])))).
Proof. rewrite run_app. apply alloc_run. Qed.

(* proxies have identity: a proxy id is handed out once, to one tracker *)

Definition PW (np : Z) (trk : list tracker) : Prop :=
  (forall i t p, nth_error trk i = Some t -> t_proxy t = Some p -> p < np) /\
  (forall i j ti tj p, nth_error trk i = Some ti -> nth_error trk j = Some tj -> t_proxy ti = Some p -> t_proxy tj = Some p -> i = j).

Lemma PW_extend np np' trk trk' i :
  PW np trk -> np <= np' ->
  (forall j u p, nth_error trk' j = Some u -> t_proxy u = Some p ->
                 (exists u0, nth_error trk j = Some u0 /\ t_proxy u0 = Some p) \/ j = i /\ np <= p < np') ->
  PW np' trk'.
Proof.
  intros [H1 H2] L Hx. split.
  - intros j u p Hu Hp. destruct (Hx _ _ _ Hu Hp) as [(u0 & A & B)|[_ B]]; [specialize (H1 _ _ _ A B)|]; lia.
  - intros j1 j2 u1 u2 p Hu1 Hu2 Hp1 Hp2.
    destruct (Hx _ _ _ Hu1 Hp1) as [(a & A1 & A2)|[-> B1]], (Hx _ _ _ Hu2 Hp2) as [(b & B1' & B2)|[-> B2]].
    + eapply H2; eauto.
    + specialize (H1 _ _ _ A1 A2). lia.
    + specialize (H1 _ _ _ B1' B2). lia.
    + reflexivity.
Qed.

Lemma PW_mono np np' trk : PW np trk -> np <= np' -> PW np' trk.
Proof. intros W L. apply (PW_extend np np' trk trk O W L). intros j u p Hu Hp. left. eauto. Qed.

Definition ProxWf (s : state) : Prop := PW (h_nextpid (hd s)) (h_trk (hd s)).

Lemma ProxWf_init : ProxWf init.
Proof. split; intros i; destruct i; discriminate. Qed.

(* trackers keep their clid, and a live proxy stays with its tracker *)
Lemma live_proxies_stepv k s o r :
  stepv k s o r ->
  h_nextpid (hd s) <= h_nextpid (hd (fst r)) /\
  exists i, forall j v q, nth_error (h_trk (hd (fst r))) j = Some v -> t_proxy v = Some q ->
    (exists v0, nth_error (h_trk (hd s)) j = Some v0 /\ t_proxy v0 = Some q /\ t_clid v0 = t_clid v) \/
    j = i /\ h_nextpid (hd s) <= q < h_nextpid (hd (fst r)).
Proof.
  intros V.
  assert (Same : exists i : nat, forall j v q, nth_error (h_trk (hd s)) j = Some v -> t_proxy v = Some q ->
            (exists v0, nth_error (h_trk (hd s)) j = Some v0 /\ t_proxy v0 = Some q /\ t_clid v0 = t_clid v) \/
            j = i /\ h_nextpid (hd s) <= q < h_nextpid (hd s)) by (exists O; eauto 6).
  destruct V; cbn [fst hd h_trk h_nextpid]; try (split; [apply Z.le_refl | exact Same]); clear Same.
  - (* a my-reference for a clid in the table: the tracker's proxy, or a newly numbered one at that index *)
    assert (h_nextpid (hd s) <= np) by lia. split; [assumption|]. exists i. intros j v q Hv Hq.
    apply nth_error_upd_nth_inv in Hv as [[_ Hv]|[-> (t1 & _ & ->)]]; [eauto 6|]. cbn [t_proxy t_clid] in *. inversion Hq; subst q.
    destruct Hprox as [[Hp _]|(_ & -> & ->)]; [left; eauto | right; lia].
  - (* a new tracker, at the end of the list, with a newly numbered proxy *)
    split; [lia|]. exists (length (h_trk (hd s))). intros j v q Hv Hq.
    apply nth_error_snoc in Hv as [Hv|[-> ->]]; [eauto 6|]. cbn [t_proxy] in Hq. inversion Hq. right. lia.
  - (* the proxy dies *)
    split; [lia|]. exists O. intros j v q Hv Hq.
    apply nth_error_upd_nth_inv in Hv as [[_ Hv]|[_ (t1 & _ & ->)]]; [eauto 6 | discriminate].
  - (* _handleRefLost: only the count changes *)
    split; [lia|]. exists O. intros j v q Hv Hq.
    apply nth_error_upd_nth_inv in Hv as [[_ Hv]|[-> (t1 & Ht1 & ->)]]; left; eauto.
  - (* connection loss *)
    split; [lia|]. exists O. intros j v q Hv. destruct j; discriminate.
Qed.

Lemma ProxWf_stepv k s o r : stepv k s o r -> ProxWf s -> ProxWf (fst r).
Proof.
  intros V W. destruct (live_proxies_stepv _ _ _ _ V) as (L & i & Hx). apply (PW_extend _ _ _ _ i W L).
  intros j v q Hv Hq. destruct (Hx _ _ _ Hv Hq) as [(v0 & A & B & _)|F]; eauto.
Qed.

Lemma ProxWf_reachable ops : ProxWf (run init ops).
Proof. exact (run_invariant ProxWf (ProxWf_stepv _) ops init ProxWf_init). Qed.

Lemma find_proxy_unique np trk i t p :
  PW np trk -> nth_error trk i = Some t -> t_proxy t = Some p -> find_proxy trk p = Some i.
Proof.
  intros [_ W] Ht Hp. destruct (find_proxy_complete _ _ _ _ Ht Hp) as (j & F). rewrite F.
  destruct (find_proxy_some _ _ _ F) as (u & Hu & Hpu). f_equal. exact (W _ _ _ _ _ Hu Ht Hpu Hp).
Qed.

(* "proxy p designates object x": some tracker of the holder has the live proxy p, and its clid was allocated for x *)
Definition denotes (s : state) (p x : Z) : Prop :=
  exists i t, nth_error (h_trk (hd s)) i = Some t /\ t_proxy t = Some p /\ In (t_clid t, x) (o_alloc (ow s)).
Definition holds (s : state) (p : Z) : Prop := exists i t, nth_error (h_trk (hd s)) i = Some t /\ t_proxy t = Some p.

Lemma holds_back_run p ops : forall s, p < h_nextpid (hd s) -> holds (run s ops) p -> holds s p.
Proof.
  induction ops as [|o r IH]; intros s L Hh; [exact Hh|]. cbn [run] in Hh.
  destruct (live_proxies_stepv _ _ _ _ (step_view s o)) as (M & i & Hx).
  assert (L' : p < h_nextpid (hd (fst (step s o)))) by lia.
  destruct (IH _ L' Hh) as (j & v & Hv & Hq). destruct (Hx _ _ _ Hv Hq) as [(v0 & A & B & _)|[_ F]]; [|lia].
  exists j, v0. auto.
Qed.

Lemma denotes_step s o p x : ProxWf s -> denotes s p x -> holds (fst (step s o)) p -> denotes (fst (step s o)) p x.
Proof.
  intros W (i & t & Ht & Hp & Ha) (j & v & Hv & Hq).
  destruct (live_proxies_stepv _ _ _ _ (step_view s o)) as (_ & i0 & Hx).
  destruct (Hx _ _ _ Hv Hq) as [(v0 & A & B & C)|[_ F]]; [|pose proof (proj1 W _ _ _ Ht Hp); lia].
  assert (j = i) by exact (proj2 W _ _ _ _ _ A Ht B Hp). subst j. rewrite Ht in A. inversion A; subst v0.
  exists i, v. repeat split; auto. rewrite <- C. exact (alloc_grows s o _ Ha).
Qed.

Lemma denotes_run p x ops : forall s, ProxWf s -> denotes s p x -> holds (run s ops) p -> denotes (run s ops) p x.
Proof.
  induction ops as [|o r IH]; intros s W D Hh; [exact D|]. cbn [run] in *.
  assert (L : p < h_nextpid (hd (fst (step s o)))).
  { destruct D as (i & t & Ht & Hp & _). pose proof (proj1 W _ _ _ Ht Hp).
    pose proof (proj1 (live_proxies_stepv _ s o _ (step_view s o))). lia. }
  apply IH; [exact (ProxWf_stepv _ _ _ _ (step_view s o) W) | | exact Hh].
  apply denotes_step; [exact W | exact D | exact (holds_back_run p r _ L Hh)].
Qed.

(* the interface the three-party model relies on (lib/Gifts.v, composed in GiftsCompose.v), proved of the two-party model *)

(* (I1) delivery: a my-reference whose clid was allocated for x is delivered as a proxy that designates x *)
Theorem delivery_denotes ops c x w rest :
  let s := run init ops in
  lost s = false -> ch_oh s = MyRef c false w :: rest -> In (c, x) (o_alloc (ow s)) ->
  exists p, snd (step s RecvOH) = [EvDelivered p] /\ denotes (fst (step s RecvOH)) p x /\ lost (fst (step s RecvOH)) = false.
Proof.
  intros s Hl Hch Ha. destruct (myref_delivers freeTracker_delkey s c w rest (Inv_reachable ops) Hl Hch) as (p & i & t & Hev & Ht & Hp & Hc & _).
  rewrite step_k_current in Hev, Ht.
  exists p. split; [exact Hev|]. split; [|apply lost_preserved; [exact Hl | discriminate]].
  exists i, t. split; [exact Ht|]. split; [exact Hp|]. rewrite Hc. exact (alloc_grows s RecvOH _ Ha).
Qed.

(* (I2) the proxy keeps designating x for as long as it is held and the connection lives *)
Theorem denotes_persists ops ops2 p x :
  let s := run init ops in
  denotes s p x -> lost (run s ops2) = false -> holds (run s ops2) p -> denotes (run s ops2) p x.
Proof. intros s D _. exact (denotes_run p x ops2 s (ProxWf_reachable ops) D). Qed.

(* (I3) a call through (k = true) / a your-reference for (k = false) a proxy that designates x is put on the wire with a
   clid allocated for x ... *)
Theorem call_names_object ops p x k :
  let s := run init ops in
  lost s = false -> denotes s p x ->
  exists c, ch_ho (fst (step s (SendHome p k))) = ch_ho s ++ [ToOwner c k] /\ In (c, x) (o_alloc (ow (fst (step s (SendHome p k))))) /\
            lost (fst (step s (SendHome p k))) = false.
Proof.
  intros s Hl (i & t & Ht & Hp & Ha). pose proof (ProxWf_reachable ops) as W. fold s in W.
  unfold step. rewrite Hl. unfold do_home. rewrite (find_proxy_unique _ _ _ _ _ W Ht Hp), Ht.
  cbn [fst ch_ho ow lost]. exists (t_clid t). auto.
Qed.

(* ... and whenever a message with a clid allocated for x is processed by the owner, it is resolved to x itself *)
Theorem call_reaches_object ops c x k rest :
  let s := run init ops in
  lost s = false -> ch_ho s = ToOwner c k :: rest -> In (c, x) (o_alloc (ow s)) -> snd (step s RecvHO) = [EvHome k (Some x)].
Proof.
  intros s Hl Hch Ha. destruct (home_original ops c k rest Hl Hch) as (x' & Ha' & E).
  rewrite (alloc_functional ops c x x' Ha Ha'). exact E.
Qed.

Theorem no_early_release ops :
  let s := run init ops in
  forall c, lost s = false ->
    (exists i t, nth_error (h_trk (hd s)) i = Some t /\ t_proxy t <> None /\ t_clid t = c) \/
    (exists d w, In (MyRef c d w) (ch_oh s)) \/ (exists k, In (ToOwner c k) (ch_ho s)) ->
    exists e, find_clid (o_tab (ow s)) c = Some e /\ 1 <= oe_rc e /\ In (c, oe_obj e) (o_alloc (ow s)).
Proof.
  intros s c Hl H. pose proof (Inv_reachable ops) as I. fold s in I.
  assert (P : 0 < rc (o_tab (ow s)) c).
  { destruct H as [(i & t & Ht & Hp & <-)|[(d & w & Hin)|(k & Hin)]].
    - pose proof (rc_ge_recv s i t I Ht). pose proof (Forall_nth_error _ _ _ _ (inv_alive s I) Ht Hp). lia.
    - rewrite (inv_count s I c). pose proof (count_parts_nonneg s c I). pose proof (inflight_in _ _ _ _ Hin). lia.
    - exact (home_ok_in _ _ _ _ (inv_dpos s I) (inv_home s I) Hin). }
  destruct (rc_pos_found _ _ P) as (e & F & R). exists e. split; [exact F|]. split; [lia|].
  exact (find_clid_logged _ _ _ (OwnWf_reachable ops) F).
Qed.

Theorem decref_bounded ops :
  let s := run init ops in
  o_failed (ow s) = false /\
  forall c n rid rest, ch_ho s = Decref c n rid :: rest ->
    exists e, find_clid (o_tab (ow s)) c = Some e /\ 0 < n <= oe_rc e /\ snd (step s RecvHO) = [].
Proof.
  intros s. pose proof (Inv_reachable ops) as I. fold s in I. split; [apply (inv_nofail s I)|].
  intros c n rid rest Hch. destruct (decref_head_bound s c n rid rest I Hch) as (Hn & e & F & Hle & _).
  exists e. split; [exact F|]. split; [lia|]. unfold step. destruct (lost s); [reflexivity|].
  unfold do_recv_ho. rewrite Hch, F, decref_spec.
  assert (G : oe_rc e >=? n = true) by (apply Z.geb_le; lia). rewrite G. reflexivity.
Qed.

Theorem no_reuse ops :
  let s := run init ops in
  NoDup (map fst (o_alloc (ow s))) /\ NoDup (map oe_clid (o_tab (ow s))) /\ NoDup (map oe_obj (o_tab (ow s))) /\
  Forall (fun e => In (oe_clid e, oe_obj e) (o_alloc (ow s))) (o_tab (ow s)).
Proof. intros s. pose proof (OwnWf_reachable ops) as W. split; [apply W|]. split; [apply W|]. split; apply W. Qed.

(* bound methods and Referenceables side by side: one counter, one table, negated numbers for the methods; a re-send uses
   the clid on file *)
Example method_clids_example :
  let s := run init [Send (-1) false; Send 1 false; Send (-2) false; Send (-1) false] in
  map (fun e => (oe_obj e, oe_clid e, oe_rc e)) (o_tab (ow s)) = [(-2, -3, 1); (1, 2, 1); (-1, -1, 2)] /\ o_next (ow s) = 4.
Proof. vm_compute. split; reflexivity. Qed.

Lemma quiescent_recv_zero s : Inv s -> quiescent s -> no_proxy s -> Forall (fun t => t_recv t = 0) (h_trk (hd s)).
Proof.
  intros I (Q1 & Q2 & Q3) Np. rewrite Forall_forall. intros t Hin. apply In_nth_error in Hin as (i & Hi).
  pose proof (Forall_nth_error _ _ _ _ (inv_recv s I) Hi) as R. pose proof (Forall_nth_error _ _ _ _ Np Hi) as N. cbv beta in R, N.
  destruct (Z.eq_dec (t_recv t) 0) as [E|E]; [exact E|]. exfalso.
  destruct (inv_pend s I i t Hi) as [H|H]; [lia | exact (H N) | rewrite Q3 in H; exact H].
Qed.

(* the EXACT account of what is left at quiescence, in every history: the owner's refcount of a clid is the number of
   my-references with that clid that travelled in calls the receiver discarded -- nothing else is ever left *)
Theorem leak_exact ops :
  let s := run init ops in
  quiescent s -> no_proxy s -> forall c, rc (o_tab (ow s)) c = cnt (leaked s) c.
Proof.
  intros s Q Np c. pose proof (Inv_reachable ops) as I. fold s in I.
  pose proof (quiescent_recv_zero s I Q Np) as Z0. destruct Q as (Q1 & Q2 & Q3).
  rewrite (inv_count s I c), (recv_sum_zero _ _ Z0), Q1, Q2. cbn. lia.
Qed.

Theorem no_leak ops :
  let s := run init ops in
  quiescent s -> no_proxy s -> leaked s = [] -> o_tab (ow s) = [].
Proof.
  intros s Q Np Lk. destruct (o_tab (ow s)) as [|e tab] eqn:Et; [reflexivity|]. exfalso.
  pose proof (leak_exact ops Q Np (oe_clid e)) as C. cbv zeta in C. fold s in C. rewrite Et, rc_cons, Z.eqb_refl, Lk in C.
  pose proof (inv_own s (Inv_reachable ops)) as O. rewrite Et in O. inversion O; subst. cbn in C. lia.
Qed.

(* D9: a call whose my-reference the receiver throws away leaks the owner's entry until the connection ends *)
Theorem no_leak_refuted :
  exists ops, let s := run init ops in quiescent s /\ no_proxy s /\ o_tab (ow s) <> [].
Proof.
  exists [Send 1 true; RecvOH]. vm_compute. split; [repeat split|]. split; [constructor | discriminate].
Qed.

Lemma cnt_all_zero l : (forall c, cnt l c = 0) -> l = [].
Proof. destruct l as [|a l]; [reflexivity|]. intros H. pose proof (cnt_in (a :: l) a (or_introl eq_refl)). specialize (H a). lia. Qed.

(* the guard of no_leak is necessary and sufficient: the table drains iff no call carrying a reference was discarded *)
Theorem no_leak_iff ops :
  let s := run init ops in
  quiescent s -> no_proxy s -> (o_tab (ow s) = [] <-> leaked s = []).
Proof.
  intros s Q Np. split.
  - intros E. apply cnt_all_zero. intros c. pose proof (leak_exact ops Q Np c) as L. cbv zeta in L. fold s in L.
    rewrite E in L. cbn in L. lia.
  - intros E. apply (no_leak ops Q Np E).
Qed.

(* ... and every discarded my-reference does pin its object: the entry is there, for the object the clid was allocated for *)
Theorem discarded_reference_pins ops :
  let s := run init ops in
  forall c, In c (leaked s) ->
  exists e, find_clid (o_tab (ow s)) c = Some e /\ cnt (leaked s) c <= oe_rc e /\ In (c, oe_obj e) (o_alloc (ow s)).
Proof.
  intros s c Hin. pose proof (Inv_reachable ops) as I. fold s in I.
  pose proof (cnt_in _ _ Hin). pose proof (inv_count s I c) as C. pose proof (count_parts_nonneg s c I).
  destruct (rc_pos_found (o_tab (ow s)) c) as (e & F & R); [lia|].
  exists e. split; [exact F|]. split; [lia|]. exact (find_clid_logged _ _ _ (OwnWf_reachable ops) F).
Qed.

Example leak_exact_example :
  let s := run init [Send 1 true; Send 1 true; Send 2 false; RecvOH; RecvOH; RecvOH; DropProxy 0; HandleRefLost; RecvHO; RecvOH] in
  quiescent s /\ no_proxy s /\ leaked s = [1; 1] /\ rc (o_tab (ow s)) 1 = 2 /\ rc (o_tab (ow s)) 2 = 0.
Proof. vm_compute. repeat split; repeat constructor. Qed.

(* non-vacuity of no_leak: a history with re-sends racing releases that ends quiescent with an empty table *)
Example no_leak_example :
  let s := run init [Send 1 false; Send 2 false; RecvOH; DropProxy 0; HandleRefLost; Send 1 false; RecvHO; RecvOH; RecvOH;
                     RecvOH; DropProxy 1; DropProxy 2; HandleRefLost; HandleRefLost; RecvHO; RecvHO; RecvOH; RecvOH] in
  quiescent s /\ no_proxy s /\ leaked s = [] /\ o_tab (ow s) = [] /\ o_next (ow s) = 3.
Proof. vm_compute. repeat split; repeat constructor. Qed.

(* C08, several connections: a bare clid only ever travels on the connection whose table gives it its meaning *)

Lemma yourref_homekey_spec : yourref_homekey = HomeSameConnection.
Proof. reflexivity. Qed.

Theorem bare_clid_stays_on_its_connection pc oc c u c' :
  slice_proxy pc oc c u = WYourRef c' -> conn_id pc = conn_id oc /\ c' = c.
Proof.
  unfold slice_proxy. rewrite yourref_homekey_spec. cbn [goes_home].
  destruct (conn_id pc =? conn_id oc) eqn:E; [|discriminate].
  intros H. inversion H. apply Z.eqb_eq in E. auto.
Qed.

Theorem other_connection_is_a_gift pc oc c u :
  conn_id pc <> conn_id oc -> slice_proxy pc oc c u = WTheirRef u.
Proof.
  intros H. unfold slice_proxy. rewrite yourref_homekey_spec. cbn [goes_home].
  apply Z.eqb_neq in H. rewrite H. reflexivity.
Qed.

(* the statement discriminates: deciding by the peer Tub instead would put the stale clid of an EARLIER connection to the
   same Tub on the new connection (reconnection: same peer, different Broker) *)
Example same_peer_test_would_leak_stale_clids :
  exists pc oc, conn_id pc <> conn_id oc /\ conn_peer pc = conn_peer oc /\ goes_home HomeSamePeerTub pc oc = true /\
                goes_home HomeSameConnection pc oc = false.
Proof. exists {| conn_id := 1; conn_peer := 7 |}, {| conn_id := 2; conn_peer := 7 |}. cbn. repeat split; discriminate. Qed.

(* C08, gifts inside containers: the container is released exactly when every introduction it waits for is complete *)

Lemma asyncand_init_spec : asyncand_init = CountBeforeSubscribing.
Proof. reflexivity. Qed.

(* from remaining R the counter passes through 0 during n decrements iff 1 <= R <= n *)
Lemma aand_complete_spec n : forall s,
  aa_remaining (aand_complete s n) = aa_remaining s - Z.of_nat n /\
  (aa_fired (aand_complete s n) = true <-> aa_fired s = true \/ 1 <= aa_remaining s <= Z.of_nat n).
Proof.
  induction n as [|n IH]; intros s; cbn [aand_complete].
  - split; [lia|]. split; [auto|]. intros [F|H]; [exact F|lia].
  - destruct (IH (aand_cb s)) as [I1 I2]. rewrite I1, I2. unfold aand_cb. cbn [aa_remaining aa_fired].
    split; [lia|]. rewrite Bool.orb_true_iff, Z.eqb_eq, or_assoc. apply or_iff_compat_l. lia.
Qed.

Lemma aand_complete_add i : forall s j, aand_complete (aand_complete s i) j = aand_complete s (i + j).
Proof. induction i as [|i IH]; intros s j; cbn [aand_complete Nat.add]; [reflexivity|apply IH]. Qed.

Definition nfired (inputs : list bool) : nat := List.length (filter (fun b => b) inputs).

Lemma aand_subscribe_before inputs : forall s,
  aand_subscribe CountBeforeSubscribing s inputs = aand_complete s (nfired inputs).
Proof.
  unfold nfired. induction inputs as [|b r IH]; intros s; [reflexivity|].
  destruct b; cbn [aand_subscribe filter List.length aand_complete]; apply IH.
Qed.

Lemma length_split_fired inputs : List.length inputs = (nfired inputs + npending inputs)%nat.
Proof.
  unfold nfired, npending. induction inputs as [|b r IH]; [reflexivity|].
  destruct b; cbn [filter negb List.length]; lia.
Qed.

(* whatever mixture of already-introduced and pending gifts a container holds, and however many of the pending
   introductions have completed so far (j), the container is released iff ALL of them have completed *)
Theorem container_waits_for_all_gifts inputs j :
  (j <= npending inputs)%nat ->
  aa_fired (aand_complete (aand_new asyncand_init inputs) j) = Nat.eqb j (npending inputs).
Proof.
  intros Hj. rewrite asyncand_init_spec. destruct inputs as [|b r].
  - cbn in *. assert (j = 0)%nat by lia. subst. reflexivity.
  - unfold aand_new. set (inp := b :: r) in *. rewrite aand_subscribe_before, aand_complete_add.
    apply Bool.eq_iff_eq_true. rewrite (proj2 (aand_complete_spec _ _)), Nat.eqb_eq. cbn [aa_remaining aa_fired].
    pose proof (length_split_fired inp) as L. assert (P : (0 < List.length inp)%nat) by apply Nat.lt_0_succ.
    split; [intros [F|H]; [discriminate F|lia]|intros ->; right; lia].
Qed.

(* the statement discriminates: counting the inputs while subscribing releases a container holding an already-introduced
   gift followed by a pending one at once *)
Example counting_while_subscribing_releases_early :
  aa_fired (aand_new CountWhileSubscribing [true; false]) = true /\ npending [true; false] = 1%nat.
Proof. split; reflexivity. Qed.

Lemma fire_with_none passes : forall ps, fire_with passes None ps = map (fun _ => None) ps.
Proof.
  induction ps as [|k r IH]; cbn [fire_with map]; [reflexivity|].
  destruct (passes k); rewrite IH; reflexivity.
Qed.

Lemma fire_with_all passes : (forall k, passes k = true) ->
  forall ps cur, fire_with passes cur ps = map (fun _ => cur) ps.
Proof.
  intros H. induction ps as [|k r IH]; intros cur; cbn [fire_with map]; [reflexivity|].
  rewrite (H k), IH. reflexivity.
Qed.

(* every update callback of the source passes the object on (each of the five facts is re-read on every run; the proof is
   `reflexivity` on them and stops type-checking as soon as one callback can end without returning its argument) *)
Lemma place_passes_all : forall k, place_passes k = true.
Proof. destruct k; reflexivity. Qed.

Theorem shared_placeholder_reaches_every_place : forall v ps,
  fire (Some v) ps = map (fun _ => Some v) ps.
Proof. intros v ps. unfold fire. apply fire_with_all. exact place_passes_all. Qed.

(* the statement discriminates, for any table of callbacks: after the first place whose callback does not return its
   argument, every later place is left with nothing *)
Theorem shared_placeholder_lost_after_nonpassing : forall passes ps1 k ps2 v,
  (forall x, In x ps1 -> passes x = true) -> passes k = false ->
  fire_with passes (Some v) (ps1 ++ k :: ps2) = map (fun _ => Some v) (ps1 ++ [k]) ++ map (fun _ => None) ps2.
Proof.
  intros passes ps1. induction ps1 as [|a r IH]; intros k ps2 v H1 Hk.
  - cbn [app fire_with map]. rewrite Hk, fire_with_none. reflexivity.
  - cbn [app fire_with map]. rewrite (H1 a (or_introl eq_refl)). f_equal. apply IH; [|exact Hk].
    intros x Hx. apply H1. right. exact Hx.
Qed.

Example shared_placeholder_three_places :
  fire (Some 7) [PArg; PArg; PList; PDict] = [Some 7; Some 7; Some 7; Some 7].
Proof. reflexivity. Qed.

Example shared_placeholder_second_argument_lost :
  fire_with (fun k => match k with PArg => false | _ => true end) (Some 7) [PArg; PArg] = [Some 7; None].
Proof. reflexivity. Qed.

(* the FURL a holder knows for a proxy (interface between this model and the three-party model lib/Gifts.v: the giver can
   hand a proxy on only by the FURL its tracker carries).
   A my-reference carries the object's FURL (and interface name) only when ReferenceableTracker.send() reports "first";
   the holder's tracker takes the URL of the message that CREATES it and never changes it. *)
Definition url_ok (al : list (Z * Z)) (c : Z) (u : option Z) : Prop := forall x, u = Some x -> In (c, x) al.
Definition msg_url_ok (al : list (Z * Z)) (m : msgOH) : Prop :=
  match m with MyRef c _ u => url_ok al c u | Ack _ => True end.

Record UrlWf (s : state) : Prop := {
  uw_ch : Forall (msg_url_ok (o_alloc (ow s))) (ch_oh s);
  uw_trk : Forall (fun t => url_ok (o_alloc (ow s)) (t_clid t) (t_url t)) (h_trk (hd s))
}.

Lemma UrlWf_init : UrlWf init.
Proof. constructor; cbn; constructor. Qed.

Lemma url_ok_mono al al' c u : (forall a, In a al -> In a al') -> url_ok al c u -> url_ok al' c u.
Proof. intros H K x E. apply H, K, E. Qed.

Lemma msg_url_ok_mono al al' m : (forall a, In a al -> In a al') -> msg_url_ok al m -> msg_url_ok al' m.
Proof. intros H. destruct m; cbn [msg_url_ok]; [apply url_ok_mono; exact H | auto]. Qed.

Lemma myref_url_ok al c b x : In (c, x) al -> url_ok al c (myref_url b x).
Proof. intros H y E. unfold myref_url in E. destruct myref_long_form; [destruct b|]; inversion E; subst y; exact H. Qed.

Lemma UrlWf_stepv k s o r : stepv k s o r -> OwnWf (ow s) -> UrlWf s -> UrlWf (fst r).
Proof.
  intros V W U. pose proof (uw_ch s U) as C.
  destruct V; cbn [fst]; try exact U; constructor; cbn [ow o_alloc ch_oh hd h_trk]; try apply U;
    try (rewrite Hch in C; exact (Forall_inv_tail C)); try (apply Forall_snoc; [exact C | exact I]).
  - (* Send: the URL on the wire names the object the clid was (or is now) allocated for *)
    apply Forall_snoc; [exact C|]. exact (myref_url_ok _ _ _ _ (find_obj_logged _ _ _ W Hobj)).
  - apply Forall_snoc; [|apply myref_url_ok; left; reflexivity].
    apply Forall_impl with (2 := C). intros m. apply msg_url_ok_mono. intros a Ha. right. exact Ha.
  - apply Forall_impl with (2 := uw_trk s U). intros t. apply url_ok_mono. intros a Ha. right. exact Ha.
  - apply Forall_upd_nth; [apply U|]. intros a Ha Pa. rewrite Hnth in Ha. inversion Ha; subst a. exact Pa.
  - (* a new tracker takes the URL of the message that creates it *)
    apply Forall_snoc; [apply U|]. rewrite Hch in C. exact (Forall_inv C).
  - apply Forall_upd_nth; [apply U | intros a _ Pa; exact Pa].
  - apply Forall_upd_nth; [apply U | intros a _ Pa; exact Pa].
  - constructor.
  - constructor.
Qed.

Lemma UrlWf_reachable ops : UrlWf (run init ops).
Proof.
  apply (run_invariant (fun s => OwnWf (ow s) /\ UrlWf s)) with (ops := ops) (s := init); [|split; [apply OwnWf_init | apply UrlWf_init]].
  intros s o r V [W U]. split; [exact (OwnWf_stepv _ _ _ _ V W) | exact (UrlWf_stepv _ _ _ _ V W U)].
Qed.

(* "the FURL a proxy's tracker carries": None = the tracker knows none *)
Definition proxy_url (s : state) (p : Z) : option Z :=
  match find_proxy (h_trk (hd s)) p with
  | Some i => match nth_error (h_trk (hd s)) i with Some t => t_url t | None => None end
  | None => None
  end.

(* (U1) soundness, every history: a FURL a tracker carries names the very object the proxy designates -- the object its
   clid was allocated for (and no other: alloc_functional) *)
Theorem tracker_url_names_object ops :
  let s := run init ops in
  forall i t x, nth_error (h_trk (hd s)) i = Some t -> t_url t = Some x -> In (t_clid t, x) (o_alloc (ow s)).
Proof. intros s i t x Ht. exact (Forall_nth_error _ _ _ _ (uw_trk s (UrlWf_reachable ops)) Ht x). Qed.

(* proxy_url is the URL of THE tracker that has the live proxy (there is exactly one: ProxWf) *)
Lemma proxy_url_of_tracker ops p i t :
  let s := run init ops in
  nth_error (h_trk (hd s)) i = Some t -> t_proxy t = Some p -> proxy_url s p = t_url t.
Proof.
  intros s Ht Hp. pose proof (ProxWf_reachable ops) as W. fold s in W.
  unfold proxy_url. rewrite (find_proxy_unique _ _ _ _ _ W Ht Hp), Ht. reflexivity.
Qed.

Theorem proxy_url_names_designated_object ops p x y :
  let s := run init ops in
  denotes s p x -> proxy_url s p = Some y -> y = x.
Proof.
  cbv zeta. intros (i & t & Ht & Hp & Ha) Hy. rewrite (proxy_url_of_tracker ops p i t Ht Hp) in Hy.
  exact (alloc_functional ops _ y x (tracker_url_names_object ops i t y Ht Hy) Ha).
Qed.

(* (U2) where a URL comes from: the first my-reference of an object carries it ... *)
Theorem first_reference_carries_url ops x d :
  let s := run init ops in lost s = false -> find_obj (o_tab (ow s)) x = None ->
  exists c, ch_oh (fst (step s (Send x d))) = ch_oh s ++ [MyRef c d (Some x)].
Proof.
  intros s Hl F. unfold step. rewrite Hl. unfold do_send. rewrite F.
  rewrite rc_cons. cbn [oe_clid oe_rc]. rewrite Z.eqb_refl, send_spec. cbn [fst ch_oh]. eexists. reflexivity.
Qed.

(* ... a re-send of an object the owner still counts does not (refcount >= 1 before the send) ... *)
Theorem resend_carries_no_url ops x d e :
  let s := run init ops in lost s = false -> find_obj (o_tab (ow s)) x = Some e ->
  ch_oh (fst (step s (Send x d))) = ch_oh s ++ [MyRef (oe_clid e) d None].
Proof.
  intros s Hl F. unfold step. rewrite Hl. unfold do_send. rewrite F. rewrite send_spec. cbn [fst ch_oh].
  assert (P : 1 <= rc (o_tab (ow s)) (oe_clid e)).
  { apply find_some in F as [Hin _]. destruct (find_clid_in _ _ Hin) as (e' & Fe'). rewrite (rc_found _ _ _ Fe').
    apply find_clid_some in Fe' as [Hin' _]. pose proof (inv_own s (Inv_reachable ops)) as H. rewrite Forall_forall in H.
    apply (H e' Hin'). }
  unfold myref_url. assert (E : myref_long_form = LongWhenFirst) by reflexivity. rewrite E.
  replace (rc (o_tab (ow s)) (oe_clid e) + 1 =? 1) with false by (symmetry; apply Z.eqb_neq; lia). reflexivity.
Qed.

(* the exact condition under which a freshly delivered proxy knows its FURL: its tracker was in the table (and had one), or
   the my-reference was a first one *)
Theorem delivered_proxy_url ops c w rest :
  let s := run init ops in lost s = false -> ch_oh s = MyRef c false w :: rest ->
  exists p, snd (step s RecvOH) = [EvDelivered p] /\
    proxy_url (fst (step s RecvOH)) p =
      match tab_get (h_tab (hd s)) c with
      | Some i => match nth_error (h_trk (hd s)) i with Some t => t_url t | None => None end
      | None => w
      end.
Proof.
  intros s Hl Hch. destruct (myref_delivers freeTracker_delkey s c w rest (Inv_reachable ops) Hl Hch) as (p & i & t & Hev & Ht & Hp & _ & Hu & _).
  rewrite step_k_current in Hev, Ht.
  exists p. split; [exact Hev|].
  assert (E : fst (step s RecvOH) = run init (ops ++ [RecvOH])) by (rewrite run_app; reflexivity).
  rewrite E in *. rewrite (proxy_url_of_tracker (ops ++ [RecvOH]) p i t Ht Hp). exact Hu.
Qed.

(* ... and a tracker made for a my-reference takes exactly the URL of that message *)
Theorem new_tracker_takes_url_of_message ops c w rest :
  let s := run init ops in lost s = false -> ch_oh s = MyRef c false w :: rest -> tab_get (h_tab (hd s)) c = None ->
  exists p, snd (step s RecvOH) = [EvDelivered p] /\ proxy_url (fst (step s RecvOH)) p = w.
Proof.
  intros s Hl Hch G. destruct (delivered_proxy_url ops c w rest Hl Hch) as (p & Hev & Hu). fold s in Hu. rewrite G in Hu. eauto.
Qed.

(* (U3) ... and that is why NOT every live proxy has one: when the holder has forgotten the tracker (its count reached 0 and the
   answer to its decref arrived) while the owner still counts a reference (a later decref is still under way), the next
   my-reference is not a first one; the tracker it creates knows no FURL.  The history is the decref window of D16; the
   proxy delivered at the end is live, designates the object, calls through it reach the object -- but it cannot be
   handed to a third party. *)
Definition urlless_ops : list op :=
  [Send 5 false; RecvOH; DropProxy 0; HandleRefLost; Send 5 false; RecvHO; RecvOH; DropProxy 1; HandleRefLost; RecvOH;
   Send 5 false; RecvOH].

Theorem live_proxy_without_url :
  exists ops p x, let s := run init ops in
    lost s = false /\ holds s p /\ denotes s p x /\ proxy_url s p = None /\
    (* the owner does count it, and a call through it reaches x (after the decref that is still under way) *)
    ch_ho s = [Decref 1 1 2] /\
    snd (step (run s [SendHome p true; RecvHO]) RecvHO) = [EvHome true (Some x)].
Proof.
  exists urlless_ops, 2, 5. cbv zeta. split; [vm_compute; reflexivity|]. split.
  { exists 1%nat. eexists. split; vm_compute; reflexivity. }
  split.
  { exists 1%nat. eexists. split; [vm_compute; reflexivity|]. split; [vm_compute; reflexivity|]. vm_compute. left. reflexivity. }
  split; [vm_compute; reflexivity|]. split; vm_compute; reflexivity.
Qed.
