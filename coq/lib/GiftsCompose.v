(* C08, fourth sentence for gift proxies: ONE theorem across the two models.
   lib/Gifts.v (three parties) abstracts the connection owner <-> recipient: an answer `Some (o, x)` stands for "the owner
   serialises x on that connection; what arrives is a proxy for x; calls through it reach x".  That is exactly what
   lib/Refs.v PROVES of one connection (interface lemmas delivery_denotes, denotes_persists, call_names_object,
   call_reaches_object in RefsProofs.v).  Here the two are composed: Gifts decides WHICH object the owner answers with,
   Refs carries it from the owner's slicer to the method call. *)
From Coq Require Import ZArith List Bool Lia.
Import ListNotations.
Require Import Verif.lib.PyLite Verif.gen.RefsGen Verif.lib.Refs Verif.lib.RefsProofs Verif.lib.Gifts Verif.lib.GiftsProofs.
Local Open Scope Z_scope.

(* the theorems of RefsProofs.v speak of states `run init ops`: every state below is brought into that form *)
Lemma step_run ops o : fst (step (run init ops) o) = run init (ops ++ [o]).
Proof. rewrite run_app. reflexivity. Qed.

Theorem gift_proxy_calls_reach_original_partial :
  forall gops i m,
    faithful_run tinit gops ->
    let g := trun tinit gops in
    nth_error (lookups g) i = Some m ->
    let x := snd (tr_want m) in
    (* three-party model: the owner resolves the gift's name to the object the giver's proxy designates *)
    resolve_opt g (tr_url m) = Some (tr_want m) /\
    (* two-party model of the connection owner <-> recipient, in ANY reachable state s of it: the owner answers with a
       my-reference for x ... *)
    forall rops, let s := run init rops in lost s = false ->
    exists c w, ch_oh (fst (step s (Send x false))) = ch_oh s ++ [MyRef c false w] /\
    (* ... whenever a my-reference with that clid is delivered, the recipient gets a proxy p ... *)
    forall ops2 w2 rest, let s2 := run (fst (step s (Send x false))) ops2 in
      lost s2 = false -> ch_oh s2 = MyRef c false w2 :: rest ->
      exists p, snd (step s2 RecvOH) = [EvDelivered p] /\
      (* ... and every call through p (k = true) or p sent home (k = false), at any later time while p is held, ... *)
      forall ops3 k, let s3 := run (fst (step s2 RecvOH)) ops3 in
        lost s3 = false -> holds s3 p ->
        exists c', ch_ho (fst (step s3 (SendHome p k))) = ch_ho s3 ++ [ToOwner c' k] /\
        (* ... is resolved, whenever the owner processes it, to the original object x itself *)
        forall ops4 rest', let s4 := run (fst (step s3 (SendHome p k))) ops4 in
          lost s4 = false -> ch_ho s4 = ToOwner c' k :: rest' -> snd (step s4 RecvHO) = [EvHome k (Some x)].
Proof.
  intros gops i m Gf g Hn x. split.
  { exact (lookup_resolves g m (TInv_reachable gops) (TFaith_reachable gops Gf) (nth_error_In _ _ Hn)). }
  intros rops s Hl. destruct (send_names_object rops x false Hl) as (c & w & Hch & Ha). exists c, w. split; [exact Hch|].
  subst s. rewrite step_run in Ha |- *. intros ops2 w2 rest. apply (alloc_run ops2) in Ha. rewrite <- run_app in Ha |- *.
  intros s2 Hl2 Hch2. destruct (delivery_denotes _ c x w2 rest Hl2 Hch2 Ha) as (p & Hev & D & _). exists p. split; [exact Hev|].
  subst s2. rewrite step_run in D |- *. intros ops3 k. pose proof (denotes_persists _ ops3 p x D) as D3. rewrite <- run_app in D3 |- *.
  intros s3 Hl3 Hh3. destruct (call_names_object _ p x k Hl3 (D3 Hl3 Hh3)) as (c' & Hho & Ha3 & _). exists c'. split; [exact Hho|].
  subst s3. rewrite step_run in Ha3 |- *. intros ops4 rest'. apply (alloc_run ops4) in Ha3. rewrite <- run_app in Ha3 |- *.
  intros s4 Hl4 Hch4. exact (call_reaches_object _ c' x k rest' Hl4 Hch4 Ha3).
Qed.

(* non-vacuity: a gift of object 10 is looked up; on a connection owner <-> recipient that already carries another object
   and a release in flight, the answer is delivered as proxy 1 and a call through it reaches 10 *)
Example gift_call_example :
  let g := trun tinit [TExport 0 10 2 true; TGive (0, 2); TAppDrop (0, 2); TRecvBC] in
  (exists m, nth_error (lookups g) 0 = Some m /\ tr_want m = (0, 10)) /\
  let s := run init [Send 7 false; RecvOH; DropProxy 0; HandleRefLost] in
  let s2 := run (fst (step s (Send 10 false))) [RecvHO] in
  lost s2 = false /\ ch_oh s2 = [MyRef 2 false (Some 10); Ack 1] /\ snd (step s2 RecvOH) = [EvDelivered 1] /\
  let s3 := fst (step s2 RecvOH) in
  holds s3 1 /\ snd (step (fst (step s3 (SendHome 1 true))) RecvHO) = [EvHome true (Some 10)].
Proof.
  cbv zeta. split; [eexists; split; vm_compute; reflexivity|].
  split; [vm_compute; reflexivity|]. split; [vm_compute; reflexivity|]. split; [vm_compute; reflexivity|].
  split; [|vm_compute; reflexivity].
  exists 1%nat. eexists. split; vm_compute; reflexivity.
Qed.

(* the interface lib/Gifts.v ASSUMES of the connection owner <-> giver, stated explicitly and PROVED of lib/Refs.v.
   A `TExport o x c withurl` of the three-party model stands for: on the
   connection owner o <-> B (any reachable state of the two-party model) a my-reference whose clid c was allocated for x is
   delivered; B's proxy is p.  Gifts then records bp_key = (o, c), bp_obj = x, bp_url = the FURL the proxy's tracker
   carries.  What it relies on:
     (E1) p designates x, and keeps designating it while held;                                    -- delivery_denotes, denotes_persists
     (E2) a FURL the tracker carries is x's own (so the name in it was assigned to x);            -- proxy_url_names_designated_object
     (E3) NOT that there is a FURL: `withurl` is an input of the three-party model, and the two-party model says exactly
          when it is true (delivered_proxy_url) and that it can be false for a live proxy (live_proxy_without_url). *)
Theorem export_interface ops c x w rest :
  let s := run init ops in
  lost s = false -> ch_oh s = MyRef c false w :: rest -> In (c, x) (o_alloc (ow s)) ->
  exists p, snd (step s RecvOH) = [EvDelivered p] /\
    let s' := fst (step s RecvOH) in
    denotes s' p x /\
    (forall ops2, lost (run s' ops2) = false -> holds (run s' ops2) p ->
       denotes (run s' ops2) p x /\ forall y, proxy_url (run s' ops2) p = Some y -> y = x).
Proof.
  intros s Hl Hch Ha. destruct (delivery_denotes ops c x w rest Hl Hch Ha) as (p & Hev & D & _). exists p. split; [exact Hev|].
  subst s. rewrite step_run in D |- *. split; [exact D|]. intros ops2 Hl2 Hh.
  pose proof (denotes_persists _ ops2 p x D Hl2 Hh) as D2. split; [exact D2|].
  intros y Hy. rewrite <- run_app in D2, Hy. exact (proxy_url_names_designated_object _ p x y D2 Hy).
Qed.

(* the two models composed on the history that breaks the introduction: on the connection owner <-> giver the 12-op history
   leaves the giver with a LIVE proxy that designates object 5 and has no FURL; handed to the third party (the export flag of
   the three-party model is computed from the two-party state) the introduction fails *)
Theorem gift_of_recreated_proxy_refuted :
  let s := run init urlless_ops in
  exists p, holds s p /\ denotes s p 5 /\ proxy_url s p = None /\
    trun_events tinit [TExport 0 5 1 (match proxy_url s p with Some _ => true | None => false end); TGive (0, 1); TRecvBC; TAnswer 0]
      = [EvIntro 1 None (0, 5)].
Proof.
  cbv zeta. exists 2. split.
  { exists 1%nat. eexists. split; vm_compute; reflexivity. }
  split.
  { exists 1%nat. eexists. split; [vm_compute; reflexivity|]. split; [vm_compute; reflexivity|]. vm_compute. left. reflexivity. }
  split; vm_compute; reflexivity.
Qed.
