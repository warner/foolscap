(* C08 / C09: proofs about the three-party introduction model lib/Gifts.v (translated pieces: gen/RefsGen.v).
   TInv holds in EVERY history: the count of a gift-table entry is what is outstanding for it, every entry and every
   their-reference under way has its proxy at the giver; the C09 theorems and "remote_decgift never fails" are read off it.
   TFaith holds in the histories that satisfy the guard faithful_run; the `_partial` theorems of C08 are read off
   TInv + TFaith, and each clause of the guard has its refuting history. *)
From Coq Require Import ZArith List Bool Lia Arith.
Import ListNotations.
Require Import Verif.lib.PyLite Verif.gen.RefsGen Verif.lib.RefsProofs Verif.lib.Gifts.
Local Open Scope Z_scope.

Lemma gift_key_spec k : gift_key k = k.
Proof. reflexivity. Qed.
Lemma makeGift_again_spec c : makeGift_again c = c + 1.
Proof. reflexivity. Qed.
Lemma makeGift_first_spec : makeGift_first = 1.
Proof. reflexivity. Qed.
Lemma decgift_sub_spec g n : decgift_sub g n = g - n.
Proof. reflexivity. Qed.
Lemma decgift_done_spec g : decgift_done g = (g =? 0).
Proof. reflexivity. Qed.
Lemma gift_ack_point_spec : gift_ack_point = AckAfterLookup.
Proof. reflexivity. Qed.
Lemma ack_msgs_spec id : first_giftid <= id -> ack_msgs id = [(id, 1)].
Proof.
  intros H. unfold ack_msgs. assert (E : ackGift_sends id = true).
  { unfold ackGift_sends. apply Bool.negb_true_iff. apply Z.eqb_neq. unfold first_giftid in H. lia. }
  rewrite E. reflexivity.
Qed.
Lemma pins_spec : gift_table_pins_proxy = true.
Proof. reflexivity. Qed.
Lemma assign_existing_spec : assign_existing = KeepName.
Proof. reflexivity. Qed.

Lemma key_eqb_eq a b : key_eqb a b = true <-> a = b.
Proof.
  unfold key_eqb. destruct a as [a1 a2], b as [b1 b2]. cbn [fst snd]. rewrite Bool.andb_true_iff, !Z.eqb_eq.
  split; [intros [-> ->]; reflexivity | intros E; inversion E; auto].
Qed.
Lemma key_eqb_refl a : key_eqb a a = true.
Proof. apply key_eqb_eq. reflexivity. Qed.
Lemma objid_eqb_eq a b : objid_eqb a b = true <-> a = b.
Proof. apply key_eqb_eq. Qed.

Lemma occ_tr_app l m id : occ_tr (l ++ [m]) id = occ_tr l id + (if tr_id m =? id then 1 else 0).
Proof. induction l as [|a l IH]; cbn [app occ_tr]; lia. Qed.
Lemma occ_an_app l a id : occ_an (l ++ [a]) id = occ_an l id + (if an_id a =? id then 1 else 0).
Proof. induction l as [|b l IH]; cbn [app occ_an]; lia. Qed.
Lemma occ_cb_app l m id : occ_cb (l ++ [m]) id = occ_cb l id + (if fst m =? id then snd m else 0).
Proof. induction l as [|[k n] l IH]; cbn [app occ_cb]; [destruct m; cbn; lia | lia]. Qed.
Lemma occ_tr_nonneg l id : 0 <= occ_tr l id.
Proof. induction l as [|a l IH]; cbn [occ_tr]; [lia | destruct (_ =? _); lia]. Qed.
Lemma occ_an_nonneg l id : 0 <= occ_an l id.
Proof. induction l as [|a l IH]; cbn [occ_an]; [lia | destruct (_ =? _); lia]. Qed.
Lemma occ_cb_nonneg l id : Forall (fun m => snd m = 1) l -> 0 <= occ_cb l id.
Proof. induction 1 as [|[k n] l H _ IH]; cbn [occ_cb]; [lia|]. cbn in H. destruct (_ =? _); lia. Qed.
Lemma occ_tr_remove l : forall i m id, nth_error l i = Some m ->
  occ_tr (remove_nth l i) id = occ_tr l id - (if tr_id m =? id then 1 else 0).
Proof.
  induction l as [|a l IH]; intros [|i] m id; cbn [nth_error remove_nth occ_tr]; try discriminate.
  - intros E; inversion E; subst. lia.
  - intros E. rewrite (IH _ _ _ E). lia.
Qed.
Lemma occ_an_remove l : forall i a id, nth_error l i = Some a ->
  occ_an (remove_nth l i) id = occ_an l id - (if an_id a =? id then 1 else 0).
Proof.
  induction l as [|b l IH]; intros [|i] a id; cbn [nth_error remove_nth occ_an]; try discriminate.
  - intros E; inversion E; subst. lia.
  - intros E. rewrite (IH _ _ _ E). lia.
Qed.
Lemma occ_tr_nth l i m : nth_error l i = Some m -> 1 <= occ_tr l (tr_id m).
Proof. intros H. pose proof (occ_tr_nonneg (remove_nth l i) (tr_id m)) as R. rewrite (occ_tr_remove _ _ _ _ H), Z.eqb_refl in R. lia. Qed.
Lemma occ_an_nth l i a : nth_error l i = Some a -> 1 <= occ_an l (an_id a).
Proof. intros H. pose proof (occ_an_nonneg (remove_nth l i) (an_id a)) as R. rewrite (occ_an_remove _ _ _ _ H), Z.eqb_refl in R. lia. Qed.
Lemma incl_remove_nth {A} (l : list A) : forall i, incl (remove_nth l i) l.
Proof.
  induction l as [|a l IH]; intros [|i]; cbn [remove_nth]; auto using incl_refl, incl_tl, incl_cons, in_eq.
Qed.

Lemma find_gift_id_some g id e : find_gift_id g id = Some e -> In e g /\ ge_id e = id.
Proof. unfold find_gift_id. intros H. apply find_some in H as [H1 H2]. apply Z.eqb_eq in H2. auto. Qed.
Lemma find_gift_id_none g id : find_gift_id g id = None -> forall e, In e g -> ge_id e <> id.
Proof. unfold find_gift_id. intros H e He E. pose proof (find_none _ _ H e He) as F. cbn in F. apply Z.eqb_neq in F. auto. Qed.
Lemma find_gift_id_in g e : NoDup (map ge_id g) -> In e g -> find_gift_id g (ge_id e) = Some e.
Proof.
  unfold find_gift_id. induction g as [|a g IH]; cbn [map In find]; [tauto|]. intros N. inversion N as [|? ? Hn Hd]; subst.
  intros [->|H]; [rewrite Z.eqb_refl; reflexivity|].
  destruct (ge_id a =? ge_id e) eqn:E; [|auto]. apply Z.eqb_eq in E. exfalso. apply Hn. rewrite E. apply in_map. exact H.
Qed.
Lemma gcount_cons e g id : gcount (e :: g) id = if ge_id e =? id then ge_count e else gcount g id.
Proof. unfold gcount, find_gift_id. cbn [find]. destruct (ge_id e =? id); reflexivity. Qed.
Lemma gcount_fresh g id : (forall e, In e g -> ge_id e <> id) -> gcount g id = 0.
Proof.
  intros H. unfold gcount. destruct (find_gift_id g id) as [e|] eqn:F; [|reflexivity].
  apply find_gift_id_some in F as [He E]. destruct (H e He E).
Qed.

Definition upd_gift (id v : Z) (e : gentry) : gentry :=
  if ge_id e =? id then {| ge_key := ge_key e; ge_pin := ge_pin e; ge_id := ge_id e; ge_count := v |} else e.
Lemma upd_gift_id id v e : ge_id (upd_gift id v e) = ge_id e.
Proof. unfold upd_gift. destruct (_ =? _); reflexivity. Qed.
Lemma upd_gift_pin id v e : ge_pin (upd_gift id v e) = ge_pin e.
Proof. unfold upd_gift. destruct (_ =? _); reflexivity. Qed.
Lemma upd_gift_key id v e : ge_key (upd_gift id v e) = ge_key e.
Proof. unfold upd_gift. destruct (_ =? _); reflexivity. Qed.
Lemma set_gift_count_eq g id v : set_gift_count g id v = map (upd_gift id v) g.
Proof. reflexivity. Qed.
Lemma find_gift_id_set g id v k : find_gift_id (set_gift_count g id v) k = option_map (upd_gift id v) (find_gift_id g k).
Proof.
  unfold find_gift_id. rewrite set_gift_count_eq. induction g as [|e g IH]; cbn [map find option_map]; [reflexivity|].
  rewrite upd_gift_id. destruct (ge_id e =? k); [reflexivity | exact IH].
Qed.
Lemma set_gift_count_ids g id v : map ge_id (set_gift_count g id v) = map ge_id g.
Proof. rewrite set_gift_count_eq, map_map. apply map_ext, upd_gift_id. Qed.
Lemma Forall_set_count (P : gentry -> Prop) g id v :
  (forall e, P e -> P (upd_gift id v e)) -> Forall P g -> Forall P (set_gift_count g id v).
Proof. intros H F. rewrite set_gift_count_eq. apply Forall_map. exact (Forall_impl _ H F). Qed.
Lemma gcount_set g id v k :
  gcount (set_gift_count g id v) k = if k =? id then match find_gift_id g id with Some _ => v | None => 0 end else gcount g k.
Proof.
  unfold gcount. rewrite find_gift_id_set. destruct (k =? id) eqn:Ek.
  - apply Z.eqb_eq in Ek. subst k. destruct (find_gift_id g id) as [e|] eqn:F; cbn [option_map]; [|reflexivity].
    apply find_gift_id_some in F as [_ F]. unfold upd_gift. rewrite F, Z.eqb_refl. reflexivity.
  - destruct (find_gift_id g k) as [e|] eqn:F; cbn [option_map]; [|reflexivity].
    apply find_gift_id_some in F as [_ F]. unfold upd_gift. rewrite F, Ek. reflexivity.
Qed.
Lemma gcount_del g id k : gcount (del_gift_id g id) k = if k =? id then 0 else gcount g k.
Proof.
  induction g as [|e g IH].
  - cbn. destruct (k =? id); reflexivity.
  - unfold del_gift_id. cbn [filter]. fold (del_gift_id g id). destruct (ge_id e =? id) eqn:Ec; cbn [negb].
    + rewrite IH, gcount_cons. destruct (k =? id) eqn:Ek; [reflexivity|].
      destruct (ge_id e =? k) eqn:E2; [|reflexivity]. apply Z.eqb_eq in E2, Ec. apply Z.eqb_neq in Ek. congruence.
    + rewrite !gcount_cons, IH. destruct (k =? id) eqn:Ek; [|reflexivity]. apply Z.eqb_eq in Ek. subst. rewrite Ec. reflexivity.
Qed.

Lemma find_obj_of_in n u x : NoDup (map fst n) -> In (u, x) n -> find_obj_of n u = Some x.
Proof.
  unfold find_obj_of. induction n as [|[u0 x0] n IH]; cbn [map In find fst snd option_map]; [tauto|]. intros N.
  apply NoDup_cons_iff in N as [Hn Hd]. intros [[= -> ->]|H].
  - rewrite !Z.eqb_refl. reflexivity.
  - destruct (_ && _) eqn:E; [|auto]. apply (key_eqb_eq u0 u) in E. subst u0. destruct Hn. exact (in_map fst _ _ H).
Qed.
Lemma find_name_of_some n o x nm : find_name_of n o x = Some nm -> In ((o, nm), x) n.
Proof.
  unfold find_name_of. match goal with |- context [find ?f n] => destruct (find f n) as [[[o0 n0] x0]|] eqn:F end; cbn [option_map fst snd]; [|discriminate].
  intros [= <-]. apply find_some in F as [H1 H2]. apply (objid_eqb_eq (o0, x0) (o, x)) in H2 as [= <- <-]. exact H1.
Qed.

(* B's proxies.  Holding a proxy again and letting go of it only flip bp_app; the invariants below speak of key, object
   and FURL alone. *)
Definition set_app (c : bproxy -> bool) (v : bool) (b : bproxy) : bproxy :=
  if c b then {| bp_key := bp_key b; bp_obj := bp_obj b; bp_url := bp_url b; bp_app := v |} else b.
Lemma set_app_same c v b :
  bp_key (set_app c v b) = bp_key b /\ bp_obj (set_app c v b) = bp_obj b /\ bp_url (set_app c v b) = bp_url b.
Proof. unfold set_app. destruct (c b); auto. Qed.

Lemma pinned_alive g e b : In e g -> bp_key b = ge_pin e -> bp_alive g b = true.
Proof.
  intros He Hk. unfold bp_alive, pinned. rewrite pins_spec. apply Bool.orb_true_iff. right. apply existsb_exists.
  exists e. split; [exact He|]. rewrite Hk. apply key_eqb_refl.
Qed.
(* an entry that holds proxy b keeps b through a purge *)
Lemma purge_keeps g bp e b : In e g -> In b bp -> bp_key b = ge_pin e -> In b (purge g bp).
Proof. intros He Hb Hk. apply filter_In. split; [exact Hb | exact (pinned_alive g e b He Hk)]. Qed.

Lemma bprox_obj_alive s b : In b (bprox s) -> obj_alive s (fst (bp_key b), bp_obj b) = true.
Proof.
  intros Hb. unfold obj_alive. rewrite !Bool.orb_true_iff. left. left. apply existsb_exists. exists b.
  split; [exact Hb | apply objid_eqb_eq; reflexivity].
Qed.

Definition msg_ok (s : tstate) (m : tref) : Prop :=
  exists e b, In e (gifts s) /\ ge_id e = tr_id m /\ In b (bprox s) /\ bp_key b = ge_pin e /\
              (fst (bp_key b), bp_obj b) = tr_want m /\ bp_url b = tr_url m.

Record TInv (s : tstate) : Prop := {
  (* the count of a gift-table entry = their-references not yet acknowledged + acknowledgements on their way *)
  ti_count : forall id, gcount (gifts s) id = outstanding s id;
  ti_pos : Forall (fun e => 1 <= ge_count e /\ first_giftid <= ge_id e < nextgift s) (gifts s);
  ti_ng : first_giftid <= nextgift s;
  ti_ids : NoDup (map ge_id (gifts s));
  ti_keys : Forall (fun e => ge_key e = gift_key (ge_pin e)) (gifts s);
  ti_cb : Forall (fun m => snd m = 1) (ch_cb s);
  ti_pin : Forall (fun e => exists b, In b (bprox s) /\ bp_key b = ge_pin e) (gifts s);
  ti_msg : forall m, In m (ch_bc s) \/ In m (lookups s) -> msg_ok s m;
  ti_nn : Forall (fun e => snd (fst e) < nextname s) (names s);
  ti_nofail : gfail s = false
}.

Ltac fields I :=
  constructor; cbn [upd names nextname bprox gifts nextgift ch_bc lookups answers ch_cb cprox gfail];
  try first [exact (ti_pos _ I) | exact (ti_ng _ I) | exact (ti_ids _ I) | exact (ti_keys _ I) | exact (ti_cb _ I)
            | exact (ti_pin _ I) | exact (ti_nn _ I) | exact (ti_nofail _ I) | exact (ti_count _ I) | exact (ti_msg _ I)].

Lemma TInv_init : TInv tinit.
Proof.
  constructor; try (constructor; fail); [apply Z.le_refl | intros m [[]|[]]].
Qed.

Lemma outstanding_nonneg s id : TInv s -> 0 <= outstanding s id.
Proof.
  intros I. unfold outstanding. pose proof (occ_tr_nonneg (ch_bc s) id). pose proof (occ_tr_nonneg (lookups s) id).
  pose proof (occ_an_nonneg (answers s) id). pose proof (occ_cb_nonneg _ id (ti_cb s I)). lia.
Qed.

Lemma outstanding_has_entry s id : TInv s -> 1 <= outstanding s id ->
  exists e, find_gift_id (gifts s) id = Some e /\ ge_count e = outstanding s id /\ first_giftid <= id.
Proof.
  intros I H. pose proof (ti_count s I id) as C. unfold gcount in C.
  destruct (find_gift_id (gifts s) id) as [e|] eqn:F; [|lia]. apply find_gift_id_some in F as [Hin Hid].
  exists e. destruct (proj1 (Forall_forall _ _) (ti_pos s I) e Hin) as [_ P]. repeat split; auto; lia.
Qed.

Lemma decgift_entry s id n rest : TInv s -> ch_cb s = (id, n) :: rest ->
  n = 1 /\ Forall (fun m => snd m = 1) rest /\
  exists e, find_gift_id (gifts s) id = Some e /\ ge_count e = outstanding s id /\
            0 <= occ_tr (ch_bc s) id + occ_tr (lookups s) id <= ge_count e - 1.
Proof.
  intros I Hch. pose proof (ti_cb s I) as Cb. rewrite Hch in Cb. apply Forall_cons_iff in Cb as [Hn Cb']. cbn [snd] in Hn.
  pose proof (occ_tr_nonneg (ch_bc s) id). pose proof (occ_tr_nonneg (lookups s) id).
  pose proof (occ_an_nonneg (answers s) id). pose proof (occ_cb_nonneg _ id Cb').
  assert (Out : outstanding s id = occ_tr (ch_bc s) id + occ_tr (lookups s) id + occ_an (answers s) id + n + occ_cb rest id).
  { unfold outstanding. rewrite Hch. cbn [occ_cb]. rewrite Z.eqb_refl. lia. }
  destruct (outstanding_has_entry s id I) as (e & Fe & Ec & _); [lia|].
  split; [exact Hn|]. split; [exact Cb'|]. exists e. split; [exact Fe|]. lia.
Qed.

Lemma msgs_snoc (P : tref -> Prop) bc lk m0 :
  (forall m, In m bc \/ In m lk -> P m) -> P m0 -> forall m, In m (bc ++ [m0]) \/ In m lk -> P m.
Proof. intros H H0 m [Hm|Hm]; [apply in_app_or in Hm as [Hm|[<-|[]]]|]; auto. Qed.

Lemma msg_in_flight s m : In m (ch_bc s) \/ In m (lookups s) -> 1 <= occ_tr (ch_bc s) (tr_id m) + occ_tr (lookups s) (tr_id m).
Proof.
  pose proof (occ_tr_nonneg (ch_bc s) (tr_id m)). pose proof (occ_tr_nonneg (lookups s) (tr_id m)).
  intros [Hm|Hm]; apply In_nth_error in Hm as (i & Hm); apply occ_tr_nth in Hm; lia.
Qed.

(* as far as TInv is concerned a step has one of three shapes: proxies and names change (f: what becomes of a proxy that an
   entry holds); messages move; messages move and the count of one entry is set *)
Lemma TInv_proxies s f nm nn bp cp :
  TInv s -> Forall (fun e => snd (fst e) < nn) nm ->
  (forall b, bp_key (f b) = bp_key b /\ bp_obj (f b) = bp_obj b /\ bp_url (f b) = bp_url b) ->
  (forall e b, In e (gifts s) -> In b (bprox s) -> bp_key b = ge_pin e -> In (f b) bp) ->
  TInv (upd s nm nn bp (gifts s) (nextgift s) (ch_bc s) (lookups s) (answers s) (ch_cb s) cp (gfail s)).
Proof.
  intros I N Hf Hin. fields I.
  - apply Forall_forall. intros e He. destruct (proj1 (Forall_forall _ _) (ti_pin s I) e He) as (b & Hb & Hk).
    exists (f b). split; [exact (Hin e b He Hb Hk) | rewrite (proj1 (Hf b)); exact Hk].
  - intros m Hm. destruct (ti_msg s I m Hm) as (e & b & H1 & H2 & H3 & H4 & H5 & H6).
    exists e, (f b). destruct (Hf b) as (-> & -> & ->). repeat split; auto. exact (Hin e b H1 H3 H4).
  - exact N.
Qed.

Lemma TInv_more_proxies s nm nn bp cp :
  TInv s -> Forall (fun e => snd (fst e) < nn) nm ->
  (forall e b, In e (gifts s) -> In b (bprox s) -> bp_key b = ge_pin e -> In b bp) ->
  TInv (upd s nm nn bp (gifts s) (nextgift s) (ch_bc s) (lookups s) (answers s) (ch_cb s) cp (gfail s)).
Proof. intros I N H. apply (TInv_proxies s (fun b => b)); auto. Qed.

Lemma TInv_channels s bc lk an cb cp :
  TInv s -> (forall id, occ_tr bc id + occ_tr lk id + occ_an an id + occ_cb cb id = outstanding s id) ->
  (forall m, In m bc \/ In m lk -> msg_ok s m) -> Forall (fun m => snd m = 1) cb ->
  TInv (upd s (names s) (nextname s) (bprox s) (gifts s) (nextgift s) bc lk an cb cp (gfail s)).
Proof.
  intros I C M Cb. fields I; [|exact Cb|exact M]. intros id. rewrite (ti_count s I id). symmetry. apply C.
Qed.

(* an entry comes or goes only in TInv_give and TInv_recv_cb *)
Lemma TInv_set_count s e v bc lk an cb cp :
  TInv s -> In e (gifts s) -> 1 <= v ->
  (forall id, occ_tr bc id + occ_tr lk id + occ_an an id + occ_cb cb id
              = outstanding s id + if id =? ge_id e then v - ge_count e else 0) ->
  (forall m, In m bc \/ In m lk -> msg_ok s m) -> Forall (fun m => snd m = 1) cb ->
  TInv (upd s (names s) (nextname s) (bprox s) (set_gift_count (gifts s) (ge_id e) v) (nextgift s) bc lk an cb cp (gfail s)).
Proof.
  intros I He Hv C M Cb. pose proof (find_gift_id_in _ _ (ti_ids s I) He) as Fe. fields I.
  - intros id. rewrite gcount_set, Fe. unfold outstanding. cbn [upd ch_bc lookups answers ch_cb]. rewrite C, <- (ti_count s I id).
    destruct (id =? ge_id e) eqn:E; [|lia]. apply Z.eqb_eq in E. subst id. unfold gcount. rewrite Fe. lia.
  - apply Forall_set_count with (2 := ti_pos s I). intros a Ha. unfold upd_gift. destruct (_ =? _); cbn [ge_count ge_id]; lia.
  - rewrite set_gift_count_ids. exact (ti_ids s I).
  - apply Forall_set_count with (2 := ti_keys s I). intros a Ha. rewrite upd_gift_key, upd_gift_pin. exact Ha.
  - exact Cb.
  - apply Forall_set_count with (2 := ti_pin s I). intros a Ha. rewrite upd_gift_pin. exact Ha.
  - intros m Hm. destruct (M m Hm) as (e0 & b0 & H1 & H2 & H3 & H4 & H5 & H6). exists (upd_gift (ge_id e) v e0), b0.
    rewrite upd_gift_id, upd_gift_pin. repeat split; auto. apply in_map. exact H1.
Qed.

Lemma TInv_export s o x c w : TInv s -> TInv (do_export s o x c w).
Proof.
  intros I. unfold do_export. destruct (find _ (bprox s)) as [b0|].
  - (* B holds a proxy of the object: held again *)
    apply (TInv_proxies s (set_app (fun b => objid_eqb (fst (bp_key b), bp_obj b) (o, x)) true));
      [exact I | exact (ti_nn s I) | apply set_app_same | intros e b _ Hb _; apply in_map; exact Hb].
  - destruct (_ || _); [exact I|].
    destruct w; [destruct (if assign_reuses_name then find_name_of (names s) o x else None)|];
      (apply TInv_more_proxies; [exact I | | intros e b _ Hb _; right; exact Hb]); try exact (ti_nn s I).
    (* a fresh name *)
    constructor; [cbn; lia | apply Forall_impl with (2 := ti_nn s I); intros e He; lia].
Qed.

Lemma TInv_give s k : TInv s -> TInv (do_give s k).
Proof.
  intros I. unfold do_give. destruct (find_bp (bprox s) k) as [b|] eqn:Fb; [|exact I].
  apply find_some in Fb as [Hb Kb]. apply key_eqb_eq in Kb.
  destruct (find_gift (gifts s) (gift_key k)) as [e|] eqn:Fg.
  - (* the entry exists: count + 1 *)
    apply find_some in Fg as [He Ke]. apply key_eqb_eq in Ke.
    rewrite (proj1 (Forall_forall _ _) (ti_keys s I) e He), !gift_key_spec in Ke.
    destruct (proj1 (Forall_forall _ _) (ti_pos s I) e He) as [P _]. rewrite makeGift_again_spec.
    apply TInv_set_count; [exact I | exact He | lia | | | exact (ti_cb s I)].
    + intros id. unfold outstanding. rewrite occ_tr_app. cbn [tr_id]. rewrite (Z.eqb_sym id). destruct (_ =? _); lia.
    + apply msgs_snoc; [exact (ti_msg s I)|]. exists e, b. cbn [tr_id tr_want tr_url]. rewrite Ke, Kb. repeat split; auto.
  - (* a new entry *)
    assert (Fresh : forall a, In a (gifts s) -> ge_id a <> nextgift s).
    { intros a Ha. destruct (proj1 (Forall_forall _ _) (ti_pos s I) a Ha) as [_ P]. lia. }
    pose proof (ti_ng s I) as Ng. rewrite makeGift_first_spec. fields I.
    + intros id. rewrite gcount_cons. cbn [ge_id ge_count]. unfold outstanding. cbn [upd ch_bc lookups answers ch_cb].
      rewrite occ_tr_app. cbn [tr_id]. pose proof (ti_count s I id) as C. unfold outstanding in C.
      destruct (nextgift s =? id) eqn:E; [|lia]. apply Z.eqb_eq in E. subst id. rewrite (gcount_fresh _ _ Fresh) in C. lia.
    + constructor; [cbn [ge_count ge_id]; lia | apply Forall_impl with (2 := ti_pos s I); intros a Ha; lia].
    + lia.
    + cbn [map ge_id]. constructor; [|exact (ti_ids s I)]. intros Hin. apply in_map_iff in Hin as (a & Ea & Ha).
      exact (Fresh a Ha Ea).
    + constructor; [reflexivity | exact (ti_keys s I)].
    + constructor; [exists b; auto | exact (ti_pin s I)].
    + apply msgs_snoc.
      * intros m Hm. destruct (ti_msg s I m Hm) as (e0 & b0 & H1 & H). exists e0, b0. split; [right; exact H1 | exact H].
      * eexists; exists b. split; [left; reflexivity|]. cbn [ge_id ge_pin tr_id tr_want tr_url]. rewrite Kb. repeat split; auto.
Qed.

Lemma TInv_recv_bc s : TInv s -> TInv (do_recv_bc s).
Proof.
  intros I. unfold do_recv_bc. destruct (ch_bc s) as [|m rest] eqn:Hch; [exact I|]. rewrite gift_ack_point_spec, !app_nil_r.
  destruct (tr_url m) as [u|]; (apply TInv_channels; [exact I | intros id; unfold outstanding; rewrite Hch | | exact (ti_cb s I)]).
  - rewrite occ_tr_app. cbn [occ_tr]. lia.
  - intros m0 Hm. apply (ti_msg s I). rewrite Hch. destruct Hm as [Hm|Hm]; [left; right; exact Hm|].
    apply in_app_or in Hm as [Hm|[<-|[]]]; [right; exact Hm | left; left; reflexivity].
  - (* the empty FURL: getReference fails at once, the failure is queued like an answer *)
    rewrite occ_an_app. cbn [occ_tr an_id]. lia.
  - intros m0 Hm. apply (ti_msg s I). rewrite Hch. destruct Hm as [Hm|Hm]; [left; right; exact Hm | right; exact Hm].
Qed.

Lemma TInv_lookup s i : TInv s -> TInv (do_lookup s i).
Proof.
  intros I. unfold do_lookup. destruct (nth_error (lookups s) i) as [m|] eqn:Hn; [|exact I].
  apply TInv_channels; [exact I | | | exact (ti_cb s I)].
  - intros id. unfold outstanding. rewrite (occ_tr_remove _ _ _ id Hn), occ_an_app. cbn [an_id]. lia.
  - intros m0 Hm. apply (ti_msg s I). destruct Hm as [Hm|Hm]; [left; exact Hm | right; exact (incl_remove_nth _ _ _ Hm)].
Qed.

Lemma TInv_answer s i : TInv s -> TInv (fst (do_answer s i)).
Proof.
  intros I. unfold do_answer. destruct (nth_error (answers s) i) as [a|] eqn:Hn; [|exact I]. cbn [fst].
  rewrite gift_ack_point_spec, ack_msgs_spec.
  - apply TInv_channels; [exact I | | exact (ti_msg s I) | apply Forall_snoc; [exact (ti_cb s I) | reflexivity]].
    intros id. unfold outstanding. rewrite (occ_an_remove _ _ _ id Hn), occ_cb_app. cbn [fst snd]. lia.
  - destruct (outstanding_has_entry s (an_id a) I) as (_ & _ & _ & H); [|exact H].
    unfold outstanding. pose proof (occ_an_nth _ _ _ Hn). pose proof (occ_tr_nonneg (ch_bc s) (an_id a)).
    pose proof (occ_tr_nonneg (lookups s) (an_id a)). pose proof (occ_cb_nonneg _ (an_id a) (ti_cb s I)). lia.
Qed.

Lemma TInv_recv_cb s : TInv s -> TInv (fst (do_recv_cb s)).
Proof.
  intros I. unfold do_recv_cb. destruct (ch_cb s) as [|[id n] rest] eqn:Hch; [exact I|].
  destruct (decgift_entry s id n rest I Hch) as (-> & Cb & e & Fe & Ec & Hv). rewrite Fe. cbn [fst].
  apply find_gift_id_some in Fe as [He <-]. rewrite decgift_sub_spec, decgift_done_spec.
  assert (C : forall k, occ_tr (ch_bc s) k + occ_tr (lookups s) k + occ_an (answers s) k + occ_cb rest k
                        = outstanding s k + if k =? ge_id e then ge_count e - 1 - ge_count e else 0).
  { intros k. unfold outstanding. rewrite Hch. cbn [occ_cb]. rewrite (Z.eqb_sym k). destruct (_ =? _); lia. }
  set (g := if ge_count e - 1 =? 0 then del_gift_id (gifts s) (ge_id e) else set_gift_count (gifts s) (ge_id e) (ge_count e - 1)).
  enough (I' : TInv (upd s (names s) (nextname s) (bprox s) g (nextgift s) (ch_bc s) (lookups s) (answers s) rest (cprox s) (gfail s))).
  { apply (TInv_more_proxies _ _ _ _ _ I'); [exact (ti_nn s I) | intros a b Ha Hb Hk; exact (purge_keeps _ _ a b Ha Hb Hk)]. }
  subst g. destruct (ge_count e - 1 =? 0) eqn:Ez.
  - apply Z.eqb_eq in Ez. fields I.
    + intros k. rewrite gcount_del. unfold outstanding. cbn [upd ch_bc lookups answers ch_cb]. rewrite C, <- (ti_count s I k).
      destruct (k =? ge_id e) eqn:E; [|lia]. apply Z.eqb_eq in E. subst k.
      unfold gcount. rewrite (find_gift_id_in _ _ (ti_ids s I) He). lia.
    + exact (incl_Forall (incl_filter _ _) (ti_pos s I)).
    + exact (NoDup_map_filter _ _ _ (ti_ids s I)).
    + exact (incl_Forall (incl_filter _ _) (ti_keys s I)).
    + exact Cb.
    + exact (incl_Forall (incl_filter _ _) (ti_pin s I)).
    + (* no their-reference of this gift is under way: the count that remains covers them *)
      intros m Hm. destruct (ti_msg s I m Hm) as (e0 & b0 & H1 & H2 & H). exists e0, b0. split; [|exact (conj H2 H)].
      apply filter_In. split; [exact H1|]. apply Bool.negb_true_iff, Z.eqb_neq. intros E.
      pose proof (msg_in_flight s m Hm) as F. rewrite <- H2, E in F. lia.
  - apply Z.eqb_neq in Ez. apply TInv_set_count; [exact I | exact He | lia | exact C | exact (ti_msg s I) | exact Cb].
Qed.

Lemma TInv_appdrop s k : TInv s -> TInv (do_appdrop s k).
Proof.
  intros I. apply (TInv_proxies s (set_app (fun b => key_eqb (bp_key b) k) false)); [exact I | exact (ti_nn s I) | apply set_app_same|].
  intros e b He Hb Hk. apply (purge_keeps _ _ e); [exact He | apply in_map; exact Hb | rewrite (proj1 (set_app_same _ _ b)); exact Hk].
Qed.

Lemma TInv_cdrop s ox : TInv s -> TInv (do_cdrop s ox).
Proof. intros I. apply TInv_more_proxies; [exact I | exact (ti_nn s I) | auto]. Qed.

Lemma TInv_register s o x n : TInv s -> TInv (do_register s o x n).
Proof.
  intros I. unfold do_register. destruct (n <? nextname s) eqn:Hn; cbn [negb]; [|exact I]. apply Z.ltb_lt in Hn.
  destruct (find_name_of (names s) o x); [rewrite assign_existing_spec; exact I|].
  apply TInv_more_proxies; [exact I | constructor; [exact Hn | exact (ti_nn s I)] | auto].
Qed.

Theorem TInv_step s o : TInv s -> TInv (fst (tstep s o)).
Proof.
  intros I. destruct o; cbn [tstep fst];
    [apply TInv_export | apply TInv_give | apply TInv_recv_bc | apply TInv_lookup | apply TInv_answer | apply TInv_recv_cb
     | apply TInv_appdrop | apply TInv_cdrop | apply TInv_register]; exact I.
Qed.

Theorem TInv_run ops : forall s, TInv s -> TInv (trun s ops).
Proof. induction ops as [|o r IH]; intros s I; cbn [trun]; [exact I | apply IH, TInv_step, I]. Qed.

Corollary TInv_reachable ops : TInv (trun tinit ops).
Proof. apply TInv_run, TInv_init. Qed.

(* B's remote_decgift never meets an unknown giftID *)
Lemma recv_cb_quiet s : TInv s -> snd (do_recv_cb s) = [].
Proof.
  intros I. unfold do_recv_cb. destruct (ch_cb s) as [|[id n] rest] eqn:Hch; [reflexivity|].
  destruct (decgift_entry s id n rest I Hch) as (_ & _ & e & -> & _). reflexivity.
Qed.

(* the part of the invariant that needs the guard (faithful_op): names are unambiguous, every proxy's FURL (if it has one)
   names its object, every gift under way has a FURL, every answer under way is the object the giver meant *)
Definition named (nm : list (url * Z)) (b : bproxy) : Prop :=
  forall u, bp_url b = Some u -> In (u, bp_obj b) nm /\ fst u = fst (bp_key b).

Record TFaith (s : tstate) : Prop := {
  tf_names : Forall (named (names s)) (bprox s);
  tf_nodup : NoDup (map fst (names s));
  tf_ans : Forall (fun a => an_got a = Some (an_want a)) (answers s);
  tf_bc : Forall (fun m => tr_url m <> None) (ch_bc s);
  tf_lk : Forall (fun m => tr_url m <> None) (lookups s)
}.
(* the state is read off the goal, so that the fields of a successor state can be given as terms *)
Arguments Build_TFaith s & _ _ _ _ _.

Lemma TFaith_init : TFaith tinit.
Proof. constructor; constructor. Qed.

Lemma named_set_app nm c v bp : Forall (named nm) bp -> Forall (named nm) (map (set_app c v) bp).
Proof.
  intros H. apply Forall_map. apply Forall_impl with (2 := H). intros b Hb. unfold named.
  destruct (set_app_same c v b) as (-> & -> & ->). exact Hb.
Qed.
Lemma named_more nm e bp : Forall (named nm) bp -> Forall (named (e :: nm)) bp.
Proof. apply Forall_impl. intros b H u Eu. destruct (H u Eu). split; [right|]; assumption. Qed.

(* the owner answers a lookup: the name resolves, to the object the giver's proxy designates *)
Lemma lookup_resolves s m : TInv s -> TFaith s -> In m (lookups s) -> resolve_opt s (tr_url m) = Some (tr_want m).
Proof.
  intros I T Hm. destruct (ti_msg s I m (or_intror Hm)) as (e & b & _ & _ & Hb & _ & H5 & H6).
  destruct (tr_url m) as [u|] eqn:Eu; [|destruct (proj1 (Forall_forall _ _) (tf_lk s T) m Hm Eu)]. cbn [resolve_opt].
  destruct (proj1 (Forall_forall _ _) (tf_names s T) b Hb u H6) as [P1 P2].
  unfold resolve. rewrite (find_obj_of_in _ _ _ (tf_nodup s T) P1), P2, (bprox_obj_alive s b Hb), H5. reflexivity.
Qed.

Lemma name_used_in nm o n : In (o, n) (map fst nm) -> name_used nm o n = true.
Proof.
  intros H. apply in_map_iff in H as (e & E & He). apply existsb_exists. exists e. split; [exact He|].
  rewrite E. cbn [fst snd]. rewrite !Z.eqb_refl. reflexivity.
Qed.

Lemma TFaith_step s o : TInv s -> TFaith s -> faithful_op s o = true -> TFaith (fst (tstep s o)).
Proof.
  intros I T G. pose proof T as [Tn Td Ta Tb Tl]. destruct o as [o x c w|k| |i|i| |k|ox|o x n]; cbn [tstep fst].
  - (* Export *)
    unfold do_export. destruct (find _ (bprox s)) as [b0|]; [exact (Build_TFaith _ (named_set_app _ _ _ _ Tn) Td Ta Tb Tl)|].
    destruct (_ || _); [exact T|]. destruct w; [|refine (Build_TFaith _ (Forall_cons _ _ Tn) Td Ta Tb Tl); intros u [=]].
    destruct (if assign_reuses_name then find_name_of (names s) o x else None) as [n|] eqn:Fn.
    + refine (Build_TFaith _ (Forall_cons _ _ Tn) Td Ta Tb Tl). intros u [= <-]. split; [|reflexivity].
      destruct assign_reuses_name; [exact (find_name_of_some _ _ _ _ Fn) | discriminate].
    + (* a fresh name: all names in use are below nextname *)
      refine (Build_TFaith _ (Forall_cons _ _ (named_more _ _ _ Tn)) (NoDup_cons _ _ Td) Ta Tb Tl).
      * intros u [= <-]. split; [left|]; reflexivity.
      * intros Hin. apply in_map_iff in Hin as ([[o' n'] x'] & [= -> ->] & He).
        pose proof (proj1 (Forall_forall _ _) (ti_nn s I) _ He) as N. cbn [fst snd] in N. lia.
  - (* Give: the proxy has a FURL *)
    cbn [faithful_op] in G. unfold do_give. destruct (find_bp (bprox s) k) as [b|]; [|exact T].
    destruct (bp_url b) as [u|]; [|discriminate].
    destruct (find_gift (gifts s) (gift_key k)) as [e|]; refine (Build_TFaith _ Tn Td Ta (Forall_snoc _ _ _ Tb _) Tl); discriminate.
  - (* RecvBC: the gift has a FURL, a lookup goes out *)
    unfold do_recv_bc. destruct (ch_bc s) as [|m rest]; [exact T|]. apply Forall_cons_iff in Tb as [Um Tb].
    destruct (tr_url m) as [u|] eqn:Eu; [|destruct (Um eq_refl)].
    refine (Build_TFaith _ Tn Td Ta Tb (Forall_snoc _ _ _ Tl _)). rewrite Eu. exact Um.
  - (* Lookup *)
    unfold do_lookup. destruct (nth_error (lookups s) i) as [m|] eqn:Hn; [|exact T].
    refine (Build_TFaith _ Tn Td (Forall_snoc _ _ _ Ta _) Tb (incl_Forall (incl_remove_nth _ _) Tl)).
    exact (lookup_resolves s m I T (nth_error_In _ _ Hn)).
  - (* Answer *)
    unfold do_answer. destruct (nth_error (answers s) i) as [a|]; [|exact T].
    exact (Build_TFaith _ Tn Td (incl_Forall (incl_remove_nth _ _) Ta) Tb Tl).
  - (* RecvCB *)
    unfold do_recv_cb. destruct (ch_cb s) as [|[id n] rest]; [exact T|].
    destruct (find_gift_id (gifts s) id) as [e|]; [|exact (Build_TFaith _ Tn Td Ta Tb Tl)].
    exact (Build_TFaith _ (incl_Forall (incl_filter _ _) Tn) Td Ta Tb Tl).
  - (* AppDrop *)
    exact (Build_TFaith _ (incl_Forall (incl_filter _ _) (named_set_app _ _ _ _ Tn)) Td Ta Tb Tl).
  - exact (Build_TFaith _ Tn Td Ta Tb Tl).
  - (* Register: the name is not in use *)
    cbn [faithful_op] in G. unfold do_register. destruct (n <? nextname s); cbn [negb orb] in G |- *; [|exact T].
    destruct (find_name_of (names s) o x); [rewrite assign_existing_spec; exact T|].
    refine (Build_TFaith _ (named_more _ _ _ Tn) (NoDup_cons _ _ Td) Ta Tb Tl).
    intros Hin. rewrite (name_used_in _ _ _ Hin) in G. discriminate.
Qed.

Lemma TFaith_run ops : forall s, TInv s -> TFaith s -> faithful_run s ops -> TFaith (trun s ops).
Proof.
  induction ops as [|o r IH]; intros s I T G; cbn [trun]; [exact T|]. destruct G as [G1 G2].
  apply IH; [apply TInv_step, I | apply TFaith_step; assumption | exact G2].
Qed.

Corollary TFaith_reachable ops : faithful_run tinit ops -> TFaith (trun tinit ops).
Proof. apply TFaith_run; [apply TInv_init | apply TFaith_init]. Qed.

(* what B puts on the wire for its proxy: the gift's FURL is the proxy's (the empty one if its tracker has none), the (ghost)
   intention is the object the proxy's (connection, clid) was allocated for *)
Theorem give_names_object ops k b :
  let s := trun tinit ops in
  find_bp (bprox s) k = Some b ->
  exists id, ch_bc (fst (tstep s (TGive k))) = ch_bc s ++ [{| tr_id := id; tr_url := bp_url b; tr_want := (fst k, bp_obj b) |}].
Proof.
  intros s F. cbn [tstep fst]. unfold do_give. rewrite F. destruct (find_gift _ _); eexists; reflexivity.
Qed.

(* GUARDED (faithful_run): every lookup of a gift's name, whenever the owner processes it, resolves -- to the object the giver's
   proxy designates *)
Theorem lookup_finds_original ops i m :
  faithful_run tinit ops ->
  let s := trun tinit ops in
  nth_error (lookups s) i = Some m ->
  exists rest, answers (fst (tstep s (TLookup i))) = rest ++ [{| an_id := tr_id m; an_got := Some (tr_want m); an_want := tr_want m |}].
Proof.
  intros G s Hn. cbn [tstep fst]. unfold do_lookup. rewrite Hn. cbn [upd answers].
  rewrite (lookup_resolves s m (TInv_reachable ops) (TFaith_reachable ops G) (nth_error_In _ _ Hn)). eexists; reflexivity.
Qed.

(* GUARDED: every introduction completes with a proxy for the object the giver meant *)
Theorem intro_same_object ops i a :
  faithful_run tinit ops ->
  let s := trun tinit ops in
  nth_error (answers s) i = Some a ->
  snd (tstep s (TAnswer i)) = [EvIntro (an_id a) (Some (an_want a)) (an_want a)] /\
  In (an_want a) (cprox (fst (tstep s (TAnswer i)))).
Proof.
  intros G s Hn. pose proof (TFaith_reachable ops G) as T. fold s in T.
  pose proof (tf_ans s T) as P. rewrite Forall_forall in P. specialize (P a (nth_error_In _ _ Hn)).
  cbn [tstep]. unfold do_answer. rewrite Hn. cbn [fst snd upd cprox]. rewrite P. split; [reflexivity|].
  destruct (existsb (objid_eqb (an_want a)) (cprox s)) eqn:E; [|left; reflexivity].
  apply existsb_exists in E as (y & Hy & Ey). apply objid_eqb_eq in Ey. subst y. exact Hy.
Qed.

Definition good_event (e : tevent) : Prop := exists id w, e = EvIntro id (Some w) w.

Lemma step_events_good s o : TInv s -> TFaith s -> Forall good_event (snd (tstep s o)).
Proof.
  intros I T. destruct o; cbn [tstep snd]; try constructor.
  - unfold do_answer. destruct (nth_error (answers s) i) as [a|] eqn:Hn; cbn [snd]; repeat constructor.
    exists (an_id a), (an_want a). rewrite (proj1 (Forall_forall _ _) (tf_ans s T) a (nth_error_In _ _ Hn)). reflexivity.
  - rewrite (recv_cb_quiet s I). constructor.
Qed.

Lemma events_good ops : forall s, TInv s -> TFaith s -> faithful_run s ops -> Forall good_event (trun_events s ops).
Proof.
  induction ops as [|o r IH]; intros s I T G; cbn [trun_events]; [constructor|]. destruct G as [G1 G2].
  apply Forall_app. split; [exact (step_events_good s o I T) | apply IH; [apply TInv_step, I | apply TFaith_step; assumption | exact G2]].
Qed.

(* PARTIAL.  Full statement: in EVERY history no introduction fails or yields another object.  Proved under the guard
   faithful_run: every proxy the giver hands on has a FURL, and no owner registers a second object under a name in use.
   What is missing is refuted below, once per clause of the guard. *)
Theorem all_introductions_faithful_partial ops : faithful_run tinit ops -> Forall good_event (trun_events tinit ops).
Proof. apply events_good; [apply TInv_init | apply TFaith_init]. Qed.

(* REFUTED without the first clause: the giver's proxy has no FURL (its tracker was re-created from the short form of a
   my-reference: RefsProofs.live_proxy_without_url); what it sends is `their-reference <id> ""`, the recipient's getReference
   fails, the call carrying the gift is flunked *)
Definition urlless_gift_ops : list top := [TExport 0 5 1 false; TGive (0, 1); TRecvBC; TAnswer 0].

Theorem all_introductions_faithful_refuted :
  exists ops, ~ Forall good_event (trun_events tinit ops) /\ trun_events tinit ops = [EvIntro 1 None (0, 5)].
Proof.
  assert (E : trun_events tinit urlless_gift_ops = [EvIntro 1 None (0, 5)]) by (vm_compute; reflexivity).
  exists urlless_gift_ops. split; [rewrite E | exact E]. intros H. apply Forall_inv in H as (id & w & [=]).
Qed.

(* REFUTED without the second clause: the owner's application registers object 20 under the name object 10 is known by; the
   giver's proxy of 10 carries that name; the introduction yields a proxy of 20 *)
Definition name_takeover_ops : list top :=
  [TExport 0 10 1 true; TExport 0 20 2 false; TRegister 0 20 0; TGive (0, 1); TRecvBC; TLookup 0; TAnswer 0].

Theorem introduction_refuted_by_name_takeover :
  trun_events tinit name_takeover_ops = [EvIntro 1 (Some (0, 20)) (0, 10)] /\ ~ faithful_run tinit name_takeover_ops.
Proof. split; [vm_compute; reflexivity|]. vm_compute. intuition discriminate. Qed.

(* the guard is satisfiable by non-trivial histories (two_owner_ops below), and the counting theorems (C09) need no guard *)

Theorem gift_count_invariant ops id :
  let s := trun tinit ops in gcount (gifts s) id = outstanding s id.
Proof. intros s. apply (ti_count s (TInv_reachable ops)). Qed.

(* a release of the giver's pin is never for more than was given: remote_decgift finds its entry, with a sufficient count *)
Theorem decgift_bounded ops :
  let s := trun tinit ops in
  gfail s = false /\
  forall id n rest, ch_cb s = (id, n) :: rest ->
    exists e, find_gift_id (gifts s) id = Some e /\ 0 < n <= ge_count e /\ snd (tstep s TRecvCB) = [].
Proof.
  intros s. pose proof (TInv_reachable ops) as I. fold s in I. split; [exact (ti_nofail s I)|].
  intros id n rest Hch. destruct (decgift_entry s id n rest I Hch) as (-> & _ & e & Fe & _ & Hv).
  exists e. split; [exact Fe|]. split; [lia | exact (recv_cb_quiet s I)].
Qed.

(* while a their-reference or its lookup is on the way: the giver's table entry exists, the proxy it holds is
   alive at the giver, and the owner's object lives (so the lookup will find it) *)
Theorem gift_in_flight_pins ops m :
  let s := trun tinit ops in
  In m (ch_bc s) \/ In m (lookups s) ->
  exists e b, find_gift_id (gifts s) (tr_id m) = Some e /\ In b (bprox s) /\ bp_key b = ge_pin e /\ bp_alive (gifts s) b = true /\
              (fst (bp_key b), bp_obj b) = tr_want m /\ obj_alive s (tr_want m) = true.
Proof.
  intros s Hm. pose proof (TInv_reachable ops) as I. fold s in I.
  destruct (ti_msg s I m Hm) as (e & b & H1 & H2 & H3 & H4 & H5 & H6). exists e, b.
  split; [rewrite <- H2; exact (find_gift_id_in _ _ (ti_ids s I) H1)|]. repeat split; auto.
  - exact (pinned_alive _ e b H1 H4).
  - rewrite <- H5. exact (bprox_obj_alive s b H3).
Qed.

(* every entry of the gift table holds a living proxy of the giver, whatever the giver's application dropped *)
Theorem gift_entry_holds_proxy ops e :
  let s := trun tinit ops in In e (gifts s) -> exists b, In b (bprox s) /\ bp_key b = ge_pin e /\ 1 <= ge_count e.
Proof.
  intros s He. pose proof (TInv_reachable ops) as I. fold s in I.
  destruct (proj1 (Forall_forall _ _) (ti_pin s I) e He) as (b & Hb & Hk).
  destruct (proj1 (Forall_forall _ _) (ti_pos s I) e He) as [P _]. exists b. auto.
Qed.

(* the statement is about REACHABLE states: an arbitrary state record may well have an entry without a proxy *)
Example entry_without_proxy_is_not_reachable :
  exists s e, In e (gifts s) /\ ~ (exists b, In b (bprox s) /\ bp_key b = ge_pin e).
Proof.
  exists (upd tinit [] 0 [] [{| ge_key := (0, 1); ge_pin := (0, 1); ge_id := 1; ge_count := 1 |}] 2 [] [] [] [] [] false).
  eexists. split; [left; reflexivity|]. intros (b & H & _). destruct H.
Qed.

(* no leak: once every their-reference has been resolved and acknowledged, the gift table is empty *)
Theorem no_gift_leak ops :
  let s := trun tinit ops in tquiescent s -> gifts s = [].
Proof.
  intros s (Q1 & Q2 & Q3 & Q4). pose proof (TInv_reachable ops) as I. fold s in I.
  destruct (gifts s) as [|e g] eqn:Eg; [reflexivity|]. exfalso.
  pose proof (ti_count s I (ge_id e)) as C. unfold outstanding in C. rewrite Q1, Q2, Q3, Q4, Eg, gcount_cons, Z.eqb_refl in C. cbn in C.
  pose proof (ti_pos s I) as P. rewrite Eg in P. inversion P; subst. lia.
Qed.

(* non-vacuity: two owners whose proxies carry the SAME clid, both given in one call, the giver drops both at once,
   lookups answered in the opposite order; then everything drains *)
Definition two_owner_ops : list top :=
  [TExport 0 10 2 true; TExport 1 20 2 true; TRegister 0 10 (-1); TRegister 1 30 (-1); TGive (0, 2); TGive (1, 2); TGive (0, 2); TAppDrop (0, 2); TAppDrop (1, 2);
   TRecvBC; TRecvBC; TRecvBC; TLookup 1; TLookup 0; TLookup 0; TAnswer 0; TAnswer 0; TAnswer 0].

Example two_owner_events :
  trun_events tinit two_owner_ops = [EvIntro 2 (Some (1, 20)) (1, 20); EvIntro 1 (Some (0, 10)) (0, 10); EvIntro 1 (Some (0, 10)) (0, 10)].
Proof. vm_compute. reflexivity. Qed.

Example two_owner_midway :
  let s := trun tinit [TExport 0 10 2 true; TExport 1 20 2 true; TRegister 0 10 (-1); TRegister 1 30 (-1); TGive (0, 2); TGive (1, 2); TGive (0, 2);
                       TAppDrop (0, 2); TAppDrop (1, 2); TRecvBC] in
  map (fun e => (ge_key e, ge_id e, ge_count e)) (gifts s) = [((1, 2), 2, 1); ((0, 2), 1, 2)] /\
  List.length (bprox s) = 2%nat /\ List.length (ch_bc s) = 2%nat /\ List.length (lookups s) = 1%nat /\
  names s = [((1, -1), 30); ((1, 1), 20); ((0, 0), 10)].
Proof. vm_compute. repeat split. Qed.

Example two_owner_drains :
  let s := trun tinit (two_owner_ops ++ [TRecvCB; TRecvCB; TRecvCB]) in
  tquiescent s /\ gifts s = [] /\ bprox s = [] /\ cprox s = [(0, 10); (1, 20)] /\ gfail s = false.
Proof. vm_compute. repeat split. Qed.

Example two_owner_faithful : faithful_run tinit (two_owner_ops ++ [TRecvCB; TRecvCB; TRecvCB]).
Proof. vm_compute. repeat split. Qed.

