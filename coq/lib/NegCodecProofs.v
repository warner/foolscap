(* C13: the negotiation message codec.  Theorems about the TRANSLATED Negotiation.parseLines / sendBlock of
   gen/NegCodecGen.v: every block that sendBlock can emit (keys lower-case without ':' / CR, values without CR and without
   leading blanks, all valid UTF-8) is framed by the FIRST terminator of the byte stream, whatever follows it, and parses back
   to exactly the block that was sent. *)
From Coq Require Import ZArith List String Bool Lia Arith.
Import ListNotations.
Require Import Verif.lib.PyLite Verif.gen.NegotiateGen Verif.lib.Negotiate Verif.lib.NegotiateProofs Verif.lib.NegCodec
  Verif.gen.NegCodecGen Verif.lib.NegSplit.
Local Open Scope Z_scope.

Definition nocr (l : bytes) : Prop := Forall (fun c => c <> 13) l.

Definition wf_key (k : bytes) : Prop :=
  Forall (fun c => c <> 13 /\ c <> 58) k /\ bytes_lower k = k /\ ensure_str k = Ok k.
Definition wf_val (v : bytes) : Prop :=
  nocr v /\ bytes_lstrip v = v /\ ensure_str v = Ok v.
Definition wf_pair (kv : bytes * bytes) : Prop := wf_key (fst kv) /\ wf_val (snd kv).

(* a Python dict with str keys in canonical form: keys strictly ascending *)
Fixpoint canonical (d : dict) : Prop :=
  match d with
  | [] => True
  | kv :: r => Forall (fun kv' => str_ltb (fst kv) (fst kv') = true) r /\ canonical r
  end.

Definition line_of (kv : bytes * bytes) : bytes := fst kv ++ 58 :: 32 :: snd kv.

Fixpoint join_lines (ls : list bytes) : bytes :=
  match ls with
  | [] => []
  | l :: r => match r with [] => l | _ => l ++ 13 :: 10 :: join_lines r end
  end.

Definition header_of (d : dict) : bytes := join_lines (map line_of d).

Lemma join_lines_cons l l2 r : join_lines (l :: l2 :: r) = l ++ 13 :: 10 :: join_lines (l2 :: r).
Proof. reflexivity. Qed.

Lemma list_eqb_refl a : list_eqb a a = true.
Proof. apply list_eqb_eq. reflexivity. Qed.

Lemma ltb_neq a b : str_ltb a b = true -> list_eqb b a = false /\ str_ltb b a = false.
Proof.
  intros H. split; [|apply str_ltb_asym; exact H].
  destruct (list_eqb b a) eqn:E; [|reflexivity]. apply list_eqb_eq in E. subst. rewrite str_ltb_irrefl in H. discriminate.
Qed.

Lemma dset_snoc d : forall k v, Forall (fun kv => str_ltb (fst kv) k = true) d -> dset d k v = d ++ [(k, v)].
Proof.
  induction d as [|[k' v'] r IH]; intros k v H; [reflexivity|].
  inversion H as [|? ? H1 H2]; subst. cbn [fst] in H1. destruct (ltb_neq _ _ H1) as [E1 E3].
  cbn [dset app]. rewrite E1. unfold bytes_ltb. rewrite E3. rewrite (IH k v H2). reflexivity.
Qed.

Lemma dget_dset_same d : forall k v, dget (dset d k v) k = Some v.
Proof.
  induction d as [|[k' v'] r IH]; intros k v; cbn [dset dget]; [rewrite list_eqb_refl; reflexivity|].
  destruct (list_eqb k k') eqn:E; [cbn [dget]; rewrite list_eqb_refl; reflexivity|].
  destruct (bytes_ltb k k'); cbn [dget]; [rewrite list_eqb_refl; reflexivity|]. rewrite E. apply IH.
Qed.

Lemma dget_dset_other d : forall k v k2, list_eqb k2 k = false -> dget (dset d k v) k2 = dget d k2.
Proof.
  induction d as [|[k' v'] r IH]; intros k v k2 N; cbn [dset dget]; [rewrite N; reflexivity|].
  destruct (list_eqb k k') eqn:E.
  - apply list_eqb_eq in E. subst k'. cbn [dget]. rewrite N. reflexivity.
  - destruct (bytes_ltb k k'); cbn [dget]; [rewrite N; reflexivity|].
    destruct (list_eqb k2 k'); [reflexivity|]. apply IH. exact N.
Qed.

Lemma canonical_mid l1 : forall kv l2, canonical (l1 ++ kv :: l2) -> Forall (fun kv' => str_ltb (fst kv') (fst kv) = true) l1 /\ canonical l2.
Proof.
  induction l1 as [|x l1 IH]; intros kv l2 H.
  - cbn in H. destruct H as [_ H]. split; [constructor|exact H].
  - cbn [app canonical] in H. destruct H as [H1 H2]. destruct (IH kv l2 H2) as [I1 I2]. split; [|exact I2].
    constructor; [|exact I1]. rewrite Forall_forall in H1. apply H1. apply in_or_app. right. left. reflexivity.
Qed.

Lemma dget_canonical d : canonical d -> Forall (fun kv => dget d (fst kv) = Some (snd kv)) d.
Proof.
  induction d as [|[k v] r IH]; intros C; [constructor|]. destruct C as [C1 C2]. constructor.
  - cbn [dget fst snd]. rewrite list_eqb_refl. reflexivity.
  - specialize (IH C2). rewrite Forall_forall in *. intros kv Hin. cbn [dget].
    destruct (ltb_neq _ _ (C1 kv Hin)) as [E _]. cbn [fst] in E. rewrite E. apply IH. exact Hin.
Qed.

Lemma sort_canonical d : canonical d -> sort_keys (dict_keys d) = dict_keys d.
Proof.
  induction d as [|[k v] r IH]; intros C; [reflexivity|]. destruct C as [C1 C2].
  unfold dict_keys in *. cbn [map sort_keys fst]. rewrite (IH C2).
  destruct r as [|[k2 v2] r2]; [reflexivity|]. cbn [map fst insert_sorted].
  inversion C1 as [|? ? H1 _]; subst. cbn [fst] in H1. destruct (ltb_neq _ _ H1) as [_ E]. unfold bytes_ltb. rewrite E. reflexivity.
Qed.

Lemma find_colon k r : Forall (fun c => c <> 13 /\ c <> 58) k -> bytes_find [58] (k ++ 58 :: r) = Some (List.length k).
Proof.
  induction k as [|x k IH]; intros H; [cbn; reflexivity|].
  inversion H as [|? ? [_ Hx] Hk]; subst. change ((x :: k) ++ 58 :: r) with (x :: (k ++ 58 :: r)).
  cbn [bytes_find starts_with]. destruct (Z.eqb_spec 58 x); [lia|]. cbn [andb]. rewrite (IH Hk). reflexivity.
Qed.

Lemma py_slice_to {A} (l : list A) i : 0 <= i <= Z.of_nat (List.length l) -> py_slice l None (Some i) = firstn (Z.to_nat i) l.
Proof.
  intros H. unfold py_slice, norm_idx. cbv zeta. destruct (Z.ltb_spec i 0); [lia|].
  rewrite Z.min_r, Z.max_r, Z.sub_0_r by lia. reflexivity.
Qed.

Lemma py_slice_from {A} (l : list A) i : 0 <= i <= Z.of_nat (List.length l) -> py_slice l (Some i) None = skipn (Z.to_nat i) l.
Proof.
  intros H. unfold py_slice, norm_idx. cbv zeta. destruct (Z.ltb_spec i 0); [lia|].
  rewrite Z.min_r, Z.max_r by lia. apply firstn_all2. rewrite skipn_length. lia.
Qed.

Lemma firstn_length_app {A} (k r : list A) : firstn (List.length k) (k ++ r) = k.
Proof. rewrite firstn_app, Nat.sub_diag, firstn_all. apply app_nil_r. Qed.

Lemma skipn_length_app {A} (k r : list A) n : skipn (List.length k + n) (k ++ r) = skipn n r.
Proof. rewrite skipn_app, skipn_all2 by lia. replace (List.length k + n - List.length k)%nat with n by lia. reflexivity. Qed.

Lemma parse_line block kv : wf_pair kv -> parseLines_body1 block (line_of kv) = Ok (dset block (fst kv) (snd kv)).
Proof.
  destruct kv as [k v]. intros [(K1 & K2 & K3) (V1 & V2 & V3)]. cbn [fst snd] in *.
  unfold parseLines_body1, line_of, bind, bytes_index. cbn [fst snd]. rewrite (find_colon k (32 :: v) K1).
  cbv beta zeta iota. rewrite py_slice_to, py_slice_from by (rewrite app_length; cbn [List.length]; lia).
  rewrite Z2Nat.inj_add, Nat2Z.id, firstn_length_app, skipn_length_app by lia.
  change (Z.to_nat 1) with 1%nat. cbn [skipn bytes_lstrip]. change (is_space 32) with true. cbv iota.
  rewrite K2, V2, V3, K3. reflexivity.
Qed.

Lemma parse_fold l2 : forall l1, canonical (l1 ++ l2) -> Forall wf_pair l2 ->
  for_res (map line_of l2) l1 parseLines_body1 = Ok (l1 ++ l2).
Proof.
  induction l2 as [|kv l2 IH]; intros l1 C W; [cbn; rewrite app_nil_r; reflexivity|].
  inversion W as [|? ? W1 W2]; subst. cbn [map for_res]. rewrite (parse_line l1 kv W1).
  destruct (canonical_mid l1 kv l2 C) as [B _]. rewrite (dset_snoc l1 _ _ B).
  replace ((fst kv, snd kv)) with kv by (destruct kv; reflexivity).
  rewrite (IH (l1 ++ [kv])); [rewrite <- app_assoc; reflexivity | rewrite <- app_assoc; exact C | exact W2].
Qed.

Lemma split_line a : forall cur rest, nocr a -> split_go [13; 10] 0 cur (a ++ rest) = split_go [13; 10] 0 (rev a ++ cur) rest.
Proof.
  induction a as [|x a IH]; intros cur rest H; [reflexivity|]. inversion H as [|? ? Hx Ha]; subst.
  change ((x :: a) ++ rest) with (x :: (a ++ rest)). cbn [split_go starts_with].
  destruct (Z.eqb_spec 13 x); [lia|]. cbn [andb]. rewrite (IH (x :: cur) rest Ha). cbn [rev]. rewrite <- app_assoc. reflexivity.
Qed.

Lemma split_join ls : forall cur, ls <> [] -> Forall nocr ls ->
  split_go [13; 10] 0 cur (join_lines ls) = (rev cur ++ hd [] ls) :: tl ls.
Proof.
  induction ls as [|l r IH]; intros cur NE H; [congruence|]. inversion H as [|? ? Hl Hr]; subst.
  destruct r as [|l2 r2].
  - cbn [join_lines hd tl]. rewrite <- (app_nil_r l) at 1. rewrite (split_line l cur [] Hl). cbn [split_go].
    rewrite rev_app_distr, rev_involutive. reflexivity.
  - rewrite join_lines_cons, (split_line l cur _ Hl). cbn [split_go starts_with List.length Nat.sub]. cbn [Z.eqb Pos.eqb andb].
    rewrite (IH [] ltac:(discriminate) Hr). rewrite rev_app_distr, rev_involutive. cbn [rev app hd tl]. reflexivity.
Qed.

Theorem split_joined ls : ls <> [] -> Forall nocr ls -> bytes_split [13; 10] (join_lines ls) = ls.
Proof.
  intros NE H. unfold bytes_split. rewrite (split_join ls [] NE H). destruct ls; [congruence|reflexivity].
Qed.

Lemma line_nocr kv : wf_pair kv -> nocr (line_of kv).
Proof.
  destruct kv as [k v]. intros [(K1 & _) (V1 & _)]. unfold nocr, line_of in *. cbn [fst snd] in *. apply Forall_app. split.
  - eapply Forall_impl; [|exact K1]. intros c [Hc _]; exact Hc.
  - constructor; [lia|]. constructor; [lia|exact V1].
Qed.

Theorem parse_header d : d <> [] -> canonical d -> Forall wf_pair d -> parseLines (header_of d) = Ok d.
Proof.
  intros NE C W. unfold parseLines, header_of. cbv zeta.
  rewrite split_joined; [|destruct d; [congruence|discriminate]|].
  - rewrite (parse_fold d [] C W). reflexivity.
  - rewrite Forall_map. eapply Forall_impl; [|exact W]. intros kv; apply line_nocr.
Qed.

Definition enc_line (kv : bytes * bytes) : bytes := line_of kv ++ [13; 10].
Definition wire_of (d : dict) : bytes := flat_map enc_line d ++ [13; 10].

Lemma send_fold d l : forall w, Forall (fun kv => dget d (fst kv) = Some (snd kv) /\ bytes_lower (fst kv) = fst kv) l ->
  for_res (map fst l) w (sendBlock_body1 d) = Ok (w ++ flat_map enc_line l).
Proof.
  induction l as [|kv l IH]; intros w H; [cbn; rewrite app_nil_r; reflexivity|].
  inversion H as [|? ? [H1 H2] H3]; subst. cbn [map for_res flat_map].
  unfold sendBlock_body1 at 1. unfold bind, dget_res. rewrite H1, H2. cbv beta zeta iota.
  rewrite (IH _ H3). unfold enc_line, line_of. f_equal. rewrite <- !app_assoc. cbn [app]. reflexivity.
Qed.

Theorem send_canonical d : canonical d -> Forall wf_pair d -> sendBlock d = Ok (wire_of d).
Proof.
  intros C W. unfold sendBlock, bind. cbv zeta. rewrite (sort_canonical d C). unfold dict_keys.
  rewrite (send_fold d d []).
  - reflexivity.
  - pose proof (dget_canonical d C) as G. rewrite Forall_forall in *. intros kv Hin. split; [apply G; exact Hin|].
    destruct (W kv Hin) as [(_ & L & _) _]. exact L.
Qed.

Lemma wire_header d : d <> [] -> wire_of d = header_of d ++ [13; 10; 13; 10].
Proof.
  unfold wire_of, header_of. induction d as [|kv [|kv2 r] IH]; intros NE; [congruence|cbn; unfold enc_line; rewrite <- !app_assoc; reflexivity|].
  cbn [map]. rewrite join_lines_cons. cbn [flat_map map] in *. rewrite <- (app_assoc (enc_line kv)), IH by discriminate.
  unfold enc_line. rewrite <- !app_assoc. reflexivity.
Qed.

(* framing: the first terminator of the stream is the one that ends the block.  No line contains CR, and no line is empty
   (it holds at least ": "), so the CR LF between two lines is followed by a byte that is not CR and cannot begin CR LF CR LF *)

Lemma starts_term_head x l : x <> 13 -> starts_term (x :: l) = false.
Proof.
  intros H. destruct l as [|b [|c [|d r]]]; cbn [starts_term]; try reflexivity.
  destruct (Z.eqb_spec x 13); [lia|reflexivity].
Qed.

Lemma find_term_skip a : forall rest, nocr a -> find_term (a ++ rest) = option_map (Nat.add (List.length a)) (find_term rest).
Proof.
  induction a as [|x a IH]; intros rest H; [cbn; destruct (find_term rest); reflexivity|].
  inversion H as [|? ? Hx Ha]; subst. change ((x :: a) ++ rest) with (x :: (a ++ rest)).
  cbn [find_term]. rewrite (starts_term_head x _ Hx). rewrite (IH rest Ha). destruct (find_term rest); reflexivity.
Qed.

Lemma find_term_cons x l : find_term (x :: l) = if starts_term (x :: l) then Some 0%nat else option_map S (find_term l).
Proof. reflexivity. Qed.

Lemma find_term_crlf c rest : c <> 13 -> find_term (13 :: 10 :: c :: rest) = option_map (Nat.add 2) (find_term (c :: rest)).
Proof.
  intros H. rewrite (find_term_cons 13), (find_term_cons 10).
  assert (E : starts_term (13 :: 10 :: c :: rest) = false).
  { destruct rest as [|d r]; cbn [starts_term]; [reflexivity|]. destruct (Z.eqb_spec c 13); [lia|reflexivity]. }
  rewrite E. rewrite (starts_term_head 10 (c :: rest)) by lia. destruct (find_term (c :: rest)); reflexivity.
Qed.

Definition good_line (l : bytes) : Prop := nocr l /\ exists c t, l = c :: t.

Lemma join_head l r : good_line l -> exists c t, join_lines (l :: r) = c :: t /\ c <> 13.
Proof.
  intros [N (c & t & ->)]. inversion N; subst. destruct r; cbn [join_lines]; [exists c, t; auto|].
  eexists c, _. split; [reflexivity|assumption].
Qed.

Lemma find_term_joined ls : forall rest, ls <> [] -> Forall good_line ls ->
  find_term (join_lines ls ++ 13 :: 10 :: 13 :: 10 :: rest) = Some (List.length (join_lines ls)).
Proof.
  induction ls as [|l r IH]; intros rest NE H; [congruence|]. inversion H as [|? ? Hl Hr]; subst.
  destruct r as [|l2 r2].
  - cbn [join_lines]. rewrite (find_term_skip l _ (proj1 Hl)). cbn. f_equal. lia.
  - rewrite join_lines_cons, <- app_assoc, (find_term_skip l _ (proj1 Hl)). cbn [app].
    inversion Hr as [|? ? Hl2 _]; subst. destruct (join_head l2 r2 Hl2) as (c & t & E & Hc).
    specialize (IH rest ltac:(discriminate) Hr). rewrite E in IH |- *. cbn [app] in IH |- *.
    rewrite (find_term_crlf c _ Hc). rewrite IH. cbn [option_map]. f_equal. rewrite app_length. cbn [List.length]. lia.
Qed.

Lemma line_good kv : wf_pair kv -> good_line (line_of kv).
Proof.
  intros W. split; [apply line_nocr; exact W|]. destruct kv as [[|c k] v]; unfold line_of; cbn [fst snd app]; eauto.
Qed.

(* C13: a block written by sendBlock, followed by ANY bytes (the next block, the first Banana tokens), is cut by the
   receiver exactly at its end, and what is cut off parses back to the block *)
Theorem block_round_trip d rest :
  d <> [] -> canonical d -> Forall wf_pair d ->
  exists wire, sendBlock d = Ok wire /\
    find_term (wire ++ rest) = Some (List.length (header_of d)) /\
    firstn (List.length (header_of d)) (wire ++ rest) = header_of d /\
    skipn (List.length (header_of d) + 4) (wire ++ rest) = rest /\
    parseLines (header_of d) = Ok d.
Proof.
  intros NE C W. exists (wire_of d). split; [apply send_canonical; assumption|].
  rewrite (wire_header d NE). rewrite <- app_assoc. cbn [app]. split; [|split; [|split]].
  - unfold header_of. apply find_term_joined; [destruct d; [congruence|discriminate]|].
    rewrite Forall_map. eapply Forall_impl; [|exact W]. intros kv; apply line_good.
  - apply firstn_length_app.
  - apply skipn_length_app.
  - apply parse_header; assumption.
Qed.

Lemma for_res_tags {A S} (xs : list A) (body : S -> A -> res S) (P : string -> Prop) :
  (forall s x t, body s x = Exc t -> P t) -> forall s t, for_res xs s body = Exc t -> P t.
Proof.
  intros Hb. induction xs as [|x r IH]; intros s t H; [discriminate|]. cbn [for_res] in H.
  destruct (body s x) eqn:E; [eapply IH; exact H|]. inversion H; subst. eapply Hb; exact E.
Qed.

Lemma ensure_str_tag l t : ensure_str l = Exc t -> t = "UnicodeDecodeError"%string.
Proof. unfold ensure_str. destruct (utf8_valid _ l); [discriminate|intros [= <-]; reflexivity]. Qed.

Lemma parse_line_tags block line t :
  parseLines_body1 block line = Exc t -> t = "ValueError"%string \/ t = "UnicodeDecodeError"%string.
Proof.
  unfold parseLines_body1, bind, bytes_index.
  destruct (bytes_find [58] line) as [c|]; [cbv beta iota zeta|intros [= <-]; left; reflexivity].
  destruct (ensure_str (bytes_lstrip _)) eqn:E1; [|intros [= <-]; right; exact (ensure_str_tag _ _ E1)].
  destruct (ensure_str (bytes_lower _)) eqn:E2; [intros [=]|intros [= <-]; right; exact (ensure_str_tag _ _ E2)].
Qed.

(* C13, "malformed": whatever bytes arrive, parseLines returns a block or raises one of two exceptions -- both are caught by the
   catch-all of dataReceived (it catches Exception), which records the failure and drops this connection *)
Theorem parse_total header :
  (exists d, parseLines header = Ok d) \/ parseLines header = Exc "ValueError" \/ parseLines header = Exc "UnicodeDecodeError".
Proof.
  unfold parseLines, bind. cbv zeta. destruct (for_res _ _ _) as [d|t] eqn:F; [left; eauto|right].
  destruct (for_res_tags _ _ _ parse_line_tags _ _ F) as [-> | ->]; auto.
Qed.

(* non-vacuity: a hello-like block *)
Definition ex_block : dict := [([97; 45; 98], [49; 32; 51]); ([109; 121], [120])].
Example ex_block_ok : ex_block <> [] /\ canonical ex_block /\ Forall wf_pair ex_block.
Proof.
  split; [discriminate|]. split; [cbn; repeat constructor|].
  repeat constructor; cbn; try lia; try reflexivity.
Qed.
Example ex_block_wire : sendBlock ex_block = Ok [97; 45; 98; 58; 32; 49; 32; 51; 13; 10; 109; 121; 58; 32; 120; 13; 10; 13; 10].
Proof. vm_compute. reflexivity. Qed.
