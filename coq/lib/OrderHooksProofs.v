(* C04: calls issued from INSIDE the serialization of a call (the hook table of lib/Order.v: pump_h / issue_h / release_h / nrun)
   are calls of the flat ordering model: every history with hooks is the history `run` of its flat op list n_flat.
   A call issued from inside is only put on the queue (RootSlicer.send sees a busy sender), whereas the same call written as an
   Issue op after the enclosing op meets whatever sender that op left.  The two agree because of one commutation:
   putting calls on the queue of a producer that is about to run = letting the producer run, then issuing them
   (enqueue_many_then_pump). *)
From Coq Require Import List Bool Arith ZArith Lia Sorted.
Import ListNotations.
Require Import Verif.gen.OrderGen Verif.lib.Order Verif.lib.OrderProofs.

Lemma issue_busy i s p : cur s = Some p -> issue1 s i = enqueue i s.
Proof. intros H. unfold issue1, issue, enqueue. rewrite H. cbn [is_none andb]. reflexivity. Qed.

Lemma fold_issue_busy inner : forall s p, cur s = Some p -> fold_left issue1 inner s = fold_left enqueue1 inner s.
Proof.
  induction inner as [|i r IH]; intros s p H; cbn [fold_left]; [reflexivity|].
  rewrite (issue_busy i s p H). unfold enqueue1 at 2. apply (IH _ p). exact H.
Qed.

Lemma fold_enqueue_cur inner : forall s, cur (fold_left enqueue1 inner s) = cur s.
Proof. induction inner as [|i r IH]; intros s; cbn [fold_left]; [reflexivity|]. rewrite IH. reflexivity. Qed.

(* for g = with_cur p and g = wrote c, which touch neither the queue nor the counter *)
Lemma fold_enqueue_comm (g : state -> state) inner : (forall i s, g (enqueue i s) = enqueue i (g s)) ->
  forall s, g (fold_left enqueue1 inner s) = fold_left enqueue1 inner (g s).
Proof. intros G. induction inner as [|i r IH]; intros s; cbn [fold_left]; [reflexivity|]. rewrite IH. unfold enqueue1. rewrite G. reflexivity. Qed.

Lemma fold_enqueue_len inner : forall s, List.length (sendq (fold_left enqueue1 inner s)) = List.length (sendq s) + List.length inner.
Proof.
  induction inner as [|i r IH]; intros s; cbn [fold_left List.length]; [lia|].
  rewrite IH. unfold enqueue1, enqueue. cbn [sendq]. rewrite sendq_put, app_length. cbn [List.length]. lia.
Qed.

Lemma pumped_snoc q : forall w c,
  pumped (q ++ [c]) w = match pumped q w with (q', Some p, w') => (q' ++ [c], Some p, w') | (_, None, w') => pumped [c] w' end.
Proof.
  induction q as [|x q IH]; intros w c; cbn [app pumped]; [reflexivity|]. destruct (stalls x); [apply IH | reflexivity].
Qed.

Lemma enqueue_then_pump i s : cur s = None ->
  pump (S (S (List.length (sendq s)))) (enqueue i s) = issue1 (pump (S (List.length (sendq s))) s) i.
Proof.
  intros Ec. unfold issue1. rewrite issue_spec, !pump_spec; [|apply Nat.lt_succ_diag_r|].
  2: { unfold enqueue. cbn [sendq]. rewrite sendq_put, app_length. cbn [List.length]. lia. }
  unfold enqueue. cbn [cur sendq wire next_id]. rewrite Ec, sendq_put, pumped_snoc.
  destruct (pumped (sendq s) (wire s)) as [[q [p|]] w] eqn:Ep; [reflexivity|].
  pose proof (pumped_sinv 0 s (sendq s) (wire s)) as I. rewrite Ep in I. rewrite (I eq_refl : q = []). cbn [with_sender cur sendq wire next_id is_none is_nil andb app]. reflexivity.
Qed.

Lemma enqueue_many_then_pump inner : forall s, cur s = None ->
  pump (S (List.length (sendq s) + List.length inner)) (fold_left enqueue1 inner s)
  = fold_left issue1 inner (pump (S (List.length (sendq s))) s).
Proof.
  induction inner as [|i r IH]; intros s Ec; cbn [fold_left List.length].
  - rewrite Nat.add_0_r. reflexivity.
  - unfold enqueue1 at 2.
    assert (El : List.length (sendq (enqueue i s)) = S (List.length (sendq s))).
    { unfold enqueue. cbn [sendq]. rewrite sendq_put, app_length. cbn [List.length]. lia. }
    specialize (IH (enqueue i s) Ec). rewrite El in IH.
    replace (S (List.length (sendq s) + S (List.length r))) with (S (S (List.length (sendq s)) + List.length r)) by lia.
    rewrite IH, (enqueue_then_pump i s Ec). reflexivity.
Qed.

(* with enough fuel the producer runs to the end of what it can do: more fuel changes nothing *)
Lemma pump_enough f : forall s, List.length (sendq s) < f -> pump f s = pump (S (List.length (sendq s))) s.
Proof. intros s Hl. rewrite (pump_spec f s Hl), (pump_spec _ s (Nat.lt_succ_diag_r _)). reflexivity. Qed.

Lemma h_size_cons h r : h_size (h :: r) = List.length (snd h) + h_size r.
Proof. reflexivity. Qed.

Lemma h_size_filter p H : h_size (filter p H) <= h_size H.
Proof.
  induction H as [|x r IH]; [cbn; lia|]. cbn [filter]. destruct (p x); rewrite ?h_size_cons; lia.
Qed.

Lemma h_size_drop k left H : h_size (h_drop k left H) + List.length (h_find k left H) <= h_size H.
Proof.
  unfold h_find, h_drop. induction H as [|h r IH]; [cbn; lia|].
  cbn [find filter]. destruct (h_is k left h) eqn:E; cbn [negb]; rewrite ?h_size_cons.
  - pose proof (h_size_filter (fun h0 => negb (h_is k left h0)) r). lia.
  - lia.
Qed.

(* THE PRODUCER WITH HOOKS: running it (calls issued from inside the serializations it performs, at their control points) leaves
   the sender where the plain producer followed by those calls, issued one after the other from ordinary code, leaves it *)
Lemma pump_h_flat fuel : forall H s, cur s = None -> List.length (sendq s) + h_size H < fuel ->
  fst (fst (pump_h fuel H s)) = fold_left issue1 (snd (pump_h fuel H s)) (pump (S (List.length (sendq s))) s).
Proof.
  induction fuel as [|f IH]; intros H s Ec Hf; [lia|].
  cbn [pump_h pump]. rewrite Ec, sendq_take.
  destruct (sendq s) as [|c rest] eqn:Eq; [reflexivity|].
  set (inner := h_find (cid c) (stalls c) H). set (H' := h_drop (cid c) (stalls c) H).
  set (s0 := mk (next_id s) rest None (wire s) (inq s) (waiting s) (evq s) (trace s) (lost s) (dropped s) (early s) (cut s)).
  pose proof (h_size_drop (cid c) (stalls c) H) as HS. fold inner H' in HS.
  destruct (stalls c) as [|k] eqn:Es.
  - (* written out at once: the producer goes on *)
    rewrite (fold_enqueue_comm (wrote c)) by reflexivity.
    assert (Ec' : cur (fold_left enqueue1 inner (wrote c s0)) = None).
    { rewrite fold_enqueue_cur. reflexivity. }
    assert (El : List.length (sendq (fold_left enqueue1 inner (wrote c s0))) = List.length rest + List.length inner).
    { rewrite fold_enqueue_len. reflexivity. }
    specialize (IH H' (fold_left enqueue1 inner (wrote c s0)) Ec').
    cbn [List.length] in Hf.
    assert (Hf' : List.length (sendq (fold_left enqueue1 inner (wrote c s0))) + h_size H' < f) by (rewrite El; lia).
    specialize (IH Hf').
    destruct (pump_h f H' (fold_left enqueue1 inner (wrote c s0))) as [[s2 H2] iss]. cbn [fst snd] in IH |- *.
    rewrite IH, El, fold_left_app. f_equal.
    pose proof (enqueue_many_then_pump inner (wrote c s0) eq_refl) as P.
    change (sendq (wrote c s0)) with rest in P. rewrite P. f_equal.
  - (* pauses on its first Deferred *)
    cbn [fst snd].
    change (mk (next_id s) rest (Some (c, S k)) (wire s) (inq s) (waiting s) (evq s) (trace s) (lost s) (dropped s) (early s) (cut s))
      with (with_cur (Some (c, S k)) s0).
    rewrite (fold_enqueue_comm (with_cur _)) by reflexivity. symmetry. apply (fold_issue_busy inner _ (c, S k)). reflexivity.
Qed.

Theorem issue_h_is_sequence st f H s :
  fst (fst (issue_h st f H s)) = fold_left issue1 (snd (issue_h st f H s)) (issue st f s).
Proof.
  unfold issue_h, issue. rewrite idle_test_before_enqueue.
  destruct (is_none (cur s) && is_nil (sendq s)) eqn:Ei; [|reflexivity].
  apply andb_true_iff in Ei as [E1 E2].
  destruct (cur s) as [p|] eqn:Ec; [discriminate|]. destruct (sendq s) as [|x r] eqn:Eq; [|discriminate].
  rewrite sendq_put. cbn [app List.length].
  set (s1 := mk (S (next_id s)) [ {| cid := next_id s; stalls := st; cfate := f |} ] None (wire s) (inq s) (waiting s) (evq s)
                (trace s) (lost s) (dropped s) (early s) (cut s)).
  apply (pump_h_flat (nfuel H s1) H s1 eq_refl). unfold nfuel. lia.
Qed.

Theorem release_h_is_sequence H s :
  fst (fst (release_h H s)) = fold_left issue1 (snd (release_h H s)) (release s).
Proof.
  unfold release_h, release. destruct (cur s) as [[c n]|] eqn:Ec; [|reflexivity].
  assert (W : forall inner H',
    let s' := wrote c (with_cur None (fold_left enqueue1 inner s)) in
    fst (fst (let '(s2, H2, iss) := pump_h (nfuel H' s') H' s' in (s2, H2, inner ++ iss))) =
    fold_left issue1 (snd (let '(s2, H2, iss) := pump_h (nfuel H' s') H' s' in (s2, H2, inner ++ iss)))
      (pump (S (List.length (sendq s)))
         (mk (next_id s) (sendq s) None (wire s ++ [c]) (inq s) (waiting s) (evq s) (trace s) (lost s) (dropped s) (early s) (cut s)))).
  { intros inner H' s'.
    assert (Es : s' = fold_left enqueue1 inner (wrote c (with_cur None s))).
    { subst s'. rewrite (fold_enqueue_comm (with_cur None)), (fold_enqueue_comm (wrote c)) by reflexivity. reflexivity. }
    assert (Ec' : cur s' = None) by (rewrite Es, fold_enqueue_cur; reflexivity).
    pose proof (pump_h_flat (nfuel H' s') H' s' Ec') as P. unfold nfuel in P at 1. specialize (P ltac:(lia)).
    destruct (pump_h (nfuel H' s') H' s') as [[s2 H2] iss]. cbn [fst snd] in P |- *.
    rewrite P, fold_left_app. f_equal. rewrite Es, fold_enqueue_len.
    pose proof (enqueue_many_then_pump inner (wrote c (with_cur None s)) eq_refl) as Q.
    change (sendq (wrote c (with_cur None s))) with (sendq s) in Q |- *. exact Q. }
  destruct n as [|[|m]].
  - apply W.
  - apply W.
  - cbn [fst snd].
    change (mk (next_id s) (sendq s) (Some (c, S m)) (wire s) (inq s) (waiting s) (evq s) (trace s) (lost s) (dropped s) (early s) (cut s))
      with (with_cur (Some (c, S m)) s).
    symmetry. apply (fold_issue_busy _ _ (c, S m)). reflexivity.
Qed.

Lemma fold_issue_ops inner : forall s, fold_left step (issue_ops inner) s = fold_left issue1 inner s.
Proof. induction inner as [|i r IH]; intros s; cbn [issue_ops map fold_left]; [reflexivity|]. apply IH. Qed.

Lemma nstep_flat n o : n_state n = run (n_flat n) -> n_state (nstep n o) = run (n_flat (nstep n o)).
Proof.
  intros Hn. unfold run in *.
  destruct o; cbn [nstep]; try (cbn [n_state n_flat]; rewrite fold_left_app, <- Hn; reflexivity).
  - pose proof (issue_h_is_sequence stalls f (n_hooks n) (n_state n)) as P.
    destruct (issue_h stalls f (n_hooks n) (n_state n)) as [[s H] iss]. cbn [fst snd n_state n_flat] in P |- *.
    rewrite fold_left_app, <- Hn. cbn [fold_left step]. rewrite fold_issue_ops. exact P.
  - pose proof (release_h_is_sequence (n_hooks n) (n_state n)) as P.
    destruct (release_h (n_hooks n) (n_state n)) as [[s H] iss]. cbn [fst snd n_state n_flat] in P |- *.
    rewrite fold_left_app, <- Hn. cbn [fold_left step]. rewrite fold_issue_ops. exact P.
Qed.

(* RE-ENTRANT SEND, for every hook table, every history and EVERY state of the sender (idle, paused, with calls queued, with hooked
   calls queued behind a paused one): the history with hooks is the flat history n_flat *)
Theorem hooks_run_is_history H ops : n_state (nrun H ops) = run (n_flat (nrun H ops)).
Proof.
  apply (fold_left_invariant nstep (fun n => n_state n = run (n_flat n)) nstep_flat). reflexivity.
Qed.

(* one more op on top of any history with hooks: the two single-step statements, on every reachable state *)
Theorem reentrant_issue_is_history H ops st f :
  let n := nrun H ops in
  fst (fst (issue_h st f (n_hooks n) (n_state n))) = run (n_flat n ++ Issue st f :: issue_ops (snd (issue_h st f (n_hooks n) (n_state n)))).
Proof.
  intros n. rewrite issue_h_is_sequence. unfold n. rewrite hooks_run_is_history.
  unfold run. rewrite fold_left_app. cbn [fold_left step]. rewrite fold_issue_ops. reflexivity.
Qed.

Theorem reentrant_issue_after_pause_is_history H ops :
  let n := nrun H ops in
  fst (fst (release_h (n_hooks n) (n_state n))) = run (n_flat n ++ StallRelease :: issue_ops (snd (release_h (n_hooks n) (n_state n)))).
Proof.
  intros n. rewrite release_h_is_sequence. unfold n. rewrite hooks_run_is_history.
  unfold run. rewrite fold_left_app. cbn [fold_left step]. rewrite fold_issue_ops. reflexivity.
Qed.

(* the hooks DO run, also on a busy sender: a hooked call that is queued behind a paused one issues its calls when the producer
   gets to it, and they are numbered (and sent) after everything issued meanwhile *)
Theorem hooks_of_a_queued_call_run_when_it_is_dequeued H s c0 c rest :
  cur s = Some (c0, 1) -> h_find (cid c0) 0 H = [] -> sendq s = c :: rest -> stalls c = S (pred (stalls c)) ->
  let H' := h_drop (cid c0) 0 H in
  release_h H s =
    (with_cur (Some (c, stalls c)) (fold_left enqueue1 (h_find (cid c) (stalls c) H') (wrote c0
        (mk (next_id s) rest None (wire s) (inq s) (waiting s) (evq s) (trace s) (lost s) (dropped s) (early s) (cut s)))),
     h_drop (cid c) (stalls c) H', h_find (cid c) (stalls c) H').
Proof.
  intros Ec Eh Eq Es H'. unfold release_h. rewrite Ec, Eh. fold H'. cbn [fold_left app].
  unfold nfuel. cbn [pump_h]. cbn [cur wrote with_cur sendq]. rewrite sendq_take, Eq. rewrite Es. cbn [pred].
  rewrite <- Es. cbn [next_id wire inq waiting evq trace lost dropped early cut].
  reflexivity.
Qed.

(* non-vacuity.  Call 0 pauses; call 1, whose slicer issues two calls as it starts, is queued behind it (BUSY sender) and so is call 2
   from ordinary code; the pause ends: 0 is written, 1 is taken off the queue, its hook issues 3 and 4, 1 pauses; its pause ends and
   its last control point issues 5: everything leaves in issue order, and the flat history is the one a caller would write down *)
Example hooks_example :
  let H := [((1, 1), [(0, FPlain); (0, FPlain)]); ((1, 0), [(0, FPlain)])] in
  let n := nrun H [Issue 1 FPlain; Issue 1 FPlain; Issue 0 FPlain; StallRelease] in
  (ids (wire (n_state n)), cur_ids (n_state n), ids (sendq (n_state n)), h_size (n_hooks n)) = ([0], [1], [2; 3; 4], 1) /\
  n_flat n = [Issue 1 FPlain; Issue 1 FPlain; Issue 0 FPlain; StallRelease; Issue 0 FPlain; Issue 0 FPlain] /\
  let n' := nrun H [Issue 1 FPlain; Issue 1 FPlain; Issue 0 FPlain; StallRelease; StallRelease] in
  (ids (wire (n_state n')), cur_ids (n_state n'), ids (sendq (n_state n')), h_size (n_hooks n')) = ([0; 1; 2; 3; 4; 5], [], [], 0).
Proof. vm_compute. repeat split; reflexivity. Qed.

(* ... on an idle sender the hook runs inside the issuing send() itself *)
Example hooks_example_idle :
  let n := nrun [((0, 1), [(0, FPlain); (1, FPlain)])] [Issue 1 FPlain; Issue 0 FPlain; StallRelease] in
  (ids (wire (n_state n)), cur_ids (n_state n), ids (sendq (n_state n))) = ([0; 1], [2], [3]) /\
  n_flat n = [Issue 1 FPlain; Issue 0 FPlain; Issue 1 FPlain; Issue 0 FPlain; StallRelease].
Proof. vm_compute. split; reflexivity. Qed.

Example hooks_example_entered :
  let H := [((1, 1), [(0, FPlain); (0, FPlain)]); ((1, 0), [(0, FPlain)])] in
  entered (run (n_flat (nrun H [Issue 1 FPlain; Issue 1 FPlain; Issue 0 FPlain; StallRelease; StallRelease]) ++
                [Deliver; Deliver; Deliver; Deliver; Deliver; Deliver; Turn; Turn; Turn; Turn; Turn; Turn])) = [0; 1; 2; 3; 4; 5].
Proof. vm_compute. reflexivity. Qed.
