(* C15, byte level: a PING / PONG written by the peer's (translated) sendPING / sendPONG between any two tokens
   of ANY inbound byte stream, under EVERY chunking, is answered by exactly one PONG with the same number /
   by nothing, and leaves the decoding of the stream untouched.  Composition of
     - lib/RecvProofs.v feed_app and lib/BananaRecvProofs.v banana_feed_is_run (C07: chunk independence of the
       byte-level receiver),
     - lib/TokenProofs.v hdr_tok_scan (translated int2b128 is read back by the header scan),
     - the PING / PONG clauses of BananaRecv.step_nobody_hr. *)
From Coq Require Import ZArith List Bool Lia.
Import ListNotations.
Require Import Verif.lib.PyLite Verif.gen.BananaGen Verif.gen.TimersGen Verif.lib.BytesProofs
               Verif.lib.Token Verif.lib.TokenProofs Verif.lib.Recv Verif.lib.RecvProofs
               Verif.lib.BananaRecv Verif.lib.BananaRecvProofs Verif.lib.TimersWire.
Require Verif.lib.Timers.
Local Open Scope Z_scope.

(* token level, every receiver context: discarding or not, inside an OPEN's index phase or not, any stack *)

Lemma ping_step c n : step_nobody_hr c tok_PING n = Ok' c [EPong n].
Proof. unfold step_nobody_hr. destruct (0 <? discard c); reflexivity. Qed.

Lemma pong_step c n : step_nobody_hr c tok_PONG n = Ok' c [].
Proof. unfold step_nobody_hr. destruct (0 <? discard c); reflexivity. Qed.

(* the receiver model's PING / PONG behaviour is the one the generator reads off the current source: if PING or PONG leaves
   the exemption tuple of handleData, or a clause stops being `sendPONG(header); continue` / `continue`, this stops holding *)
Theorem source_shape_is_model c n :
  keepalive_clause_of_source c tok_PING n = Some (step_nobody_hr c tok_PING n) /\
  keepalive_clause_of_source c tok_PONG n = Some (step_nobody_hr c tok_PONG n).
Proof. rewrite ping_step, pong_step. split; reflexivity. Qed.

Theorem ping_tok_apply c n body : tok_apply c tok_PING n body = Ok' c [EPong n].
Proof. unfold tok_apply. change (has_body tok_PING) with false. cbv iota. apply ping_step. Qed.

Theorem pong_tok_apply c n body : tok_apply c tok_PONG n body = Ok' c [].
Proof. unfold tok_apply. change (has_body tok_PONG) with false. cbv iota. apply pong_step. Qed.

(* the bytes of sendPING n / sendPONG n are one header + type byte that the scanner reads back *)

Lemma send_wire (send : Z -> list Z -> res (list Z)) ty n :
  (forall w, send n w = match (if negb (n =? 0) then int2b128 n w else Ok w) with Exc t => Exc t | Ok w => Ok (w ++ [ty]) end) ->
  128 <= ty -> 0 <= n < 2 ^ 448 ->
  exists ds, send n [] = Ok (ds ++ [ty]) /\ le128 ds = n /\
             forall rest, scan_header 64 [] (ds ++ ty :: rest) = HOk ds ty rest.
Proof.
  intros Hs Hty Hn. rewrite Hs. destruct (Z.eqb_spec n 0) as [Ez|Hnz]; cbn [negb].
  - exists []. split; [reflexivity|]. split; [symmetry; exact Ez|]. intros rest. cbn [app scan_header rev].
    destruct (Z.leb_spec 128 ty); [reflexivity|lia].
  - assert (H : hdr_ok n = true) by (unfold hdr_ok; rewrite andb_true_iff, Z.leb_le, Z.ltb_lt; lia).
    destruct (hdr_tok_scan n ty [] [] H Hty) as (ds & E & _ & V).
    exists ds. split; [exact E|]. split; [exact V|]. intros rest.
    destruct (hdr_tok_scan n ty [] rest H Hty) as (ds' & E' & S' & _).
    rewrite E in E'. injection E' as E'. apply app_inv_tail in E'. subst ds'. exact S'.
Qed.

Lemma ge_ping : 128 <= tok_PING. Proof. unfold tok_PING. lia. Qed.
Lemma ge_pong : 128 <= tok_PONG. Proof. unfold tok_PONG. lia. Qed.

Lemma scan_is_scan_header l : forall room acc,
  Timers.scan room acc l = match scan_header room acc l with
                           | HOk ds ty rest => Timers.HTok (Timers.hdr_of (rev ds)) ty rest
                           | HNeed => Timers.HNeed
                           | HBad => Timers.HBad
                           end.
Proof.
  induction l as [|b r IH]; intros room acc; cbn [Timers.scan scan_header]; [reflexivity|].
  destruct (128 <=? b); [rewrite rev_involutive; reflexivity|]. destruct room; [reflexivity|apply IH].
Qed.

Lemma send_scan (send : Z -> list Z -> res (list Z)) ty n :
  (forall w, send n w = match (if negb (n =? 0) then int2b128 n w else Ok w) with Exc t => Exc t | Ok w => Ok (w ++ [ty]) end) ->
  128 <= ty -> 0 <= n < 2 ^ 448 ->
  exists bs, send n [] = Ok bs /\ Timers.scan_token bs = Timers.HTok n ty [].
Proof.
  intros Hs Hty Hn. destruct (send_wire send ty n Hs Hty Hn) as (ds & E & _ & S). exists (ds ++ [ty]).
  split; [exact E|].
  unfold Timers.scan_token. change (Z.to_nat header_limit) with 64%nat. rewrite scan_is_scan_header.
  change (ds ++ [ty]) with (ds ++ ty :: []). rewrite S. f_equal.
  rewrite Hs in E. destruct (b128_roundtrip n (proj1 Hn)) as (ds0 & E0 & V & _ & NE).
  destruct (Z.eqb_spec n 0) as [Z0|_]; cbn [negb] in E.
  - injection E as E. apply (app_inv_tail [ty] [] ds) in E. subst ds. symmetry. exact Z0.
  - rewrite E0 in E. injection E as E. apply app_inv_tail in E. subst ds0.
    unfold Timers.hdr_of. rewrite rev_involutive, V. destruct ds; [contradiction|].
    destruct (rev (z :: ds)) eqn:R; [|reflexivity]. apply (f_equal (@List.length Z)) in R. rewrite rev_length in R.
    discriminate.
Qed.

(* C15, sentence 4: for every ping number that fits the 64-digit header, the bytes of sendPING n are read
   as the token (n, PING); the reply to it is sendPONG n, whose bytes are read as (n, PONG) by the other
   side; and a received PONG is answered with nothing *)
Theorem pong_echo n : 0 <= n < 2 ^ 448 ->
  exists ping pong,
    sendPING n [] = Ok ping /\ Timers.scan_token ping = Timers.HTok n tok_PING [] /\
    Timers.reply_bytes n tok_PING = Ok pong /\ Timers.scan_token pong = Timers.HTok n tok_PONG [] /\
    Timers.reply_bytes n tok_PONG = Ok [].
Proof.
  intros Hn.
  destruct (send_scan sendPING tok_PING n (fun w => eq_refl) ge_ping Hn) as (ping & E1 & S1).
  destruct (send_scan sendPONG tok_PONG n (fun w => eq_refl) ge_pong Hn) as (pong & E2 & S2).
  exists ping, pong. repeat split; auto.
Qed.

(* numbers that need more than 64 header digits are refused by the receiver (BananaError) *)
Lemma scan_too_long ds : digits_ok 128 ds -> forall n acc rest, (n < List.length ds)%nat ->
  Timers.scan n acc (ds ++ rest) = Timers.HBad.
Proof.
  induction 1 as [|d ds Hd _ IH]; intros n acc rest Hl; [cbn in Hl; lia|].
  cbn [app Timers.scan]. destruct (Z.leb_spec 128 d); [lia|]. destruct n as [|n]; [reflexivity|]. apply IH. cbn in Hl. lia.
Qed.

Theorem ping_number_too_big n : 2 ^ 448 <= n ->
  exists bs, sendPING n [] = Ok bs /\ Timers.scan_token bs = Timers.HBad.
Proof.
  intros Hn. change (2 ^ 448) with (128 ^ 64) in Hn.
  destruct (int2b128_spec n [] ltac:(lia)) as (ds & E & V & Dg & NE). cbn [app] in E.
  pose proof (le_val_bound 128 ds ltac:(lia) Dg) as B. rewrite V in B.
  assert (L : (64 < List.length ds)%nat).
  { destruct (Nat.lt_ge_cases 64 (List.length ds)) as [|Hle]; [assumption|exfalso].
    assert (128 ^ Z.of_nat (List.length ds) <= 128 ^ 64) by (apply Z.pow_le_mono_r; lia). lia. }
  unfold sendPING. destruct (Z.eqb_spec n 0) as [Hz|_]; [lia|]. cbn [negb]. rewrite E.
  eexists. split; [reflexivity|]. apply scan_too_long; assumption.
Qed.

(* one keepalive token fed to a receiver that is between two tokens *)

Lemma boundary_spec s : boundary s = true -> s = mk (r_ctx s) [] 0 false.
Proof.
  unfold boundary. intros H. apply andb_true_iff in H as [H H3]. apply andb_true_iff in H as [H1 H2].
  destruct s as [c b k d]. cbn in *. apply Z.eqb_eq in H2. destruct b; [|discriminate]. destruct d; [discriminate|].
  subst. reflexivity.
Qed.

Lemma boundary_stable s : boundary s = true -> stable bctx event begin_body finish_body step_nobody (fatal 0) (fatal 0) (fun _ => [ELose]) s.
Proof. intros H. rewrite (boundary_spec s H). right; right. cbn. auto. Qed.

Lemma feed_keepalive_token s ds ty n es :
  boundary s = true -> le128 ds = n -> ty <> tok_ERROR -> has_body ty = false ->
  (forall rest, scan_header 64 [] (ds ++ ty :: rest) = HOk ds ty rest) ->
  step_nobody_hr (r_ctx s) ty n = Ok' (r_ctx s) es ->
  bfeed s (ds ++ [ty]) = (s, es).
Proof.
  intros B V NE NB Sc St. rewrite (boundary_spec s B) at 1. unfold bfeed. rewrite feed_fresh. cbn [app].
  assert (L : exists f, S (List.length (ds ++ [ty])) = S (S f)).
  { rewrite app_length. cbn [List.length]. exists (List.length ds). lia. }
  destruct L as [f ->]. destruct (ds ++ [ty]) as [|x l] eqn:El; [destruct ds; discriminate|].
  rewrite loop_cons. rewrite <- El. unfold tok_step. rewrite (Sc []), V.
  destruct (Z.eqb_spec ty tok_ERROR) as [|_]; [contradiction|]. rewrite NB.
  unfold step_nobody. rewrite St. cbn [to_generic]. destruct f; cbn [loop]; rewrite app_nil_r; rewrite <- (boundary_spec s B); reflexivity.
Qed.

Theorem feed_ping s n bs : boundary s = true -> 0 <= n < 2 ^ 448 -> sendPING n [] = Ok bs -> bfeed s bs = (s, [EPong n]).
Proof.
  intros B Hn E. destruct (send_wire sendPING tok_PING n (fun w => eq_refl) ge_ping Hn) as (ds & E' & V & S).
  rewrite E in E'. inversion E'; subst bs.
  apply (feed_keepalive_token s ds tok_PING n); auto; [discriminate|apply ping_step].
Qed.

Theorem feed_pong s n bs : boundary s = true -> 0 <= n < 2 ^ 448 -> sendPONG n [] = Ok bs -> bfeed s bs = (s, []).
Proof.
  intros B Hn E. destruct (send_wire sendPONG tok_PONG n (fun w => eq_refl) ge_pong Hn) as (ds & E' & V & S).
  rewrite E in E'. inversion E'; subst bs.
  apply (feed_keepalive_token s ds tok_PONG n); auto; [discriminate|apply pong_step].
Qed.

Theorem ping_bytes_answered s n bs : boundary s = true -> 0 <= n < 2 ^ 448 ->
  (sendPING n [] = Ok bs -> bfeed s bs = (s, [EPong n])) /\ (sendPONG n [] = Ok bs -> bfeed s bs = (s, [])).
Proof. intros B H. split; [apply feed_ping|apply feed_pong]; assumption. Qed.

Theorem ping_any_context c n body :
  tok_apply c tok_PING n body = Ok' c [EPong n] /\ tok_apply c tok_PONG n body = Ok' c [].
Proof. split; [apply ping_tok_apply|apply pong_tok_apply]. Qed.

(* any number of keepalive tokens woven into any byte stream, one pass *)

Notation bstable := (stable bctx event begin_body finish_body step_nobody (fatal 0) (fatal 0) (fun _ => [ELose])).

Lemma bfeed_app s x y : bstable s ->
  bfeed s (x ++ y) = let '(s1, e1) := bfeed s x in let '(s2, e2) := bfeed s1 y in (s2, e1 ++ e2).
Proof. apply feed_app. Qed.

Lemma bfeed_stable s y : bstable s -> bstable (fst (bfeed s y)).
Proof. apply feed_stable. Qed.

Lemma placed_keepalive s n r : boundary s && (0 <=? n) && (n <? 2 ^ 448) && placed s r = true ->
  boundary s = true /\ 0 <= n < 2 ^ 448 /\ placed s r = true.
Proof. rewrite !andb_true_iff, Z.leb_le, Z.ltb_lt. tauto. Qed.

Theorem woven_one_pass items : forall s bs, bstable s -> placed s items = true -> wire items = Ok bs ->
  bfeed s bs = (fst (expect s items), map snd (snd (expect s items))).
Proof.
  induction items as [|i r IH]; intros s bs St P W.
  - cbn in W. inversion W; subst. cbn [expect fst snd map]. apply (feed_nil _ _ _ _ _ _ _ _ s St).
  - cbn [wire] in W. destruct (item_bytes i) as [b|t] eqn:Eb; [|discriminate].
    destruct (wire r) as [br|t] eqn:Er; [|discriminate]. inversion W; subst bs. clear W.
    rewrite (bfeed_app s b br St). destruct i as [b0|n|n]; cbn [item_bytes] in Eb; cbn [placed] in P; cbn [expect].
    + inversion Eb; subst b0. pose proof (bfeed_stable s b St) as St1. destruct (bfeed s b) as [s1 e1]. cbn [fst] in *.
      rewrite (IH s1 br St1 P eq_refl). destruct (expect s1 r) as [s2 e2]. cbn [fst snd]. rewrite map_app, map_map. cbn [snd].
      rewrite map_id. reflexivity.
    + destruct (placed_keepalive s n r P) as (P1 & Hn & P4).
      rewrite (feed_ping s n b P1 Hn Eb), (IH s br St P4 eq_refl). destruct (expect s r) as [s2 e2]. reflexivity.
    + destruct (placed_keepalive s n r P) as (P1 & Hn & P4).
      rewrite (feed_pong s n b P1 Hn Eb), (IH s br St P4 eq_refl). destruct (expect s r) as [s2 e2]. reflexivity.
Qed.

(* what `expect` says: the ordinary stream is decoded as if the keepalive tokens were not there,
   and the PONGs answer the PINGs one for one, in order *)

Theorem expect_undisturbed items : forall s, bstable s ->
  let '(s', es) := expect s items in
  bfeed s (plain items) = (s', map snd (filter (fun e => negb (fst e)) es)) /\
  map snd (filter fst es) = map EPong (ping_numbers items).
Proof.
  induction items as [|i r IH]; intros s St.
  - cbn [expect plain filter map ping_numbers flat_map]. split; [apply (feed_nil _ _ _ _ _ _ _ _ s St)|reflexivity].
  - destruct i as [b|n|n]; cbn [expect plain ping_numbers flat_map app].
    + rewrite (bfeed_app s b (plain r) St). pose proof (bfeed_stable s b St) as St1. destruct (bfeed s b) as [s1 e1]. cbn [fst] in St1.
      specialize (IH s1 St1). destruct (expect s1 r) as [s2 e2]. destruct IH as [I1 I2]. rewrite I1.
      rewrite !filter_app, !map_app.
      assert (F1 : filter (fun e : bool * event => negb (fst e)) (map (pair false) e1) = map (pair false) e1).
      { clear. induction e1 as [|e l IHl]; [reflexivity|]. cbn. rewrite IHl. reflexivity. }
      assert (F2 : filter (@fst bool event) (map (pair false) e1) = []).
      { clear. induction e1 as [|e l IHl]; [reflexivity|]. cbn. exact IHl. }
      rewrite F1, F2, map_map. cbn [snd app]. rewrite map_id. split; [reflexivity|exact I2].
    + specialize (IH s St). destruct (expect s r) as [s2 e2]. destruct IH as [I1 I2]. cbn [filter fst negb map snd].
      split; [exact I1|]. rewrite I2. reflexivity.
    + apply (IH s St).
Qed.

(* C15 sentence 4, byte level, every chunking *)

Theorem woven_any_chunking c items bs cs :
  placed (init c) items = true -> wire items = Ok bs -> concat cs = bs ->
  let '(s', es) := expect (init c) items in
  bfeed_all (init c) cs = (s', map snd es) /\
  (forall cs', concat cs' = plain items -> bfeed_all (init c) cs' = (s', map snd (filter (fun e => negb (fst e)) es))) /\
  map snd (filter fst es) = map EPong (ping_numbers items).
Proof.
  intros P W C. pose proof (init_stable bctx event begin_body finish_body step_nobody (fatal 0) (fatal 0) (fun _ => [ELose]) c) as St.
  pose proof (woven_one_pass items (init c) bs St P W) as O.
  pose proof (expect_undisturbed items (init c) St) as U.
  destruct (expect (init c) items) as [s' es]. cbn [fst snd] in O. destruct U as [U1 U2].
  split; [|split; [|exact U2]].
  - rewrite banana_feed_is_run, C. exact O.
  - intros cs' C'. rewrite banana_feed_is_run, C'. exact U1.
Qed.

Lemma pong_bytes_app a b : pong_bytes (a ++ b) =
  match pong_bytes a, pong_bytes b with Ok x, Ok y => Ok (x ++ y) | Exc t, _ => Exc t | _, Exc t => Exc t end.
Proof.
  induction a as [|e a IH]; cbn [app pong_bytes].
  - destruct (pong_bytes b); reflexivity.
  - destruct e; try exact IH. rewrite IH. destruct (sendPONG n []); [|reflexivity].
    destruct (pong_bytes a); [|reflexivity]. destruct (pong_bytes b); [rewrite app_assoc|]; reflexivity.
Qed.

(* `placed` is satisfiable: PINGs and a PONG inside a nested list, inside the index phase of an OPEN, inside a message
   that is being discarded after a violation *)

Definition demo_items : list item :=
  [Ping 0; Bytes [0; 136]; Ping 5; Bytes [1; 130; 76]; Pong 9; Bytes [7; 129]; Ping (2 ^ 447); Bytes [0; 137];
   Bytes [1; 136; 2; 130; 73; 48]; Ping 300; Bytes [1; 130; 120]; Ping 7; Bytes [3; 129; 1; 137]; Ping 1].

Example ex_woven :
  placed (init (ctx0 0 [])) demo_items = true /\
  (exists bs, wire demo_items = Ok bs /\ (List.length bs = 99)%nat) /\
  ping_numbers demo_items = [0; 5; 2 ^ 447; 300; 7; 1] /\
  In (false, EDeliver (VList 76 [VInt 7])) (snd (expect (init (ctx0 0 [])) demo_items)) /\
  In (false, EViolation) (snd (expect (init (ctx0 0 [])) demo_items)).
Proof.
  split; [vm_compute; reflexivity|]. split; [eexists; split; [vm_compute; reflexivity|reflexivity]|].
  split; [reflexivity|]. split; vm_compute; tauto.
Qed.

(* a PING is NOT "between two tokens" while a rejected body is being skipped or a header is incomplete: `placed` says no *)
Example ex_not_placed :
  placed (init (ctx0 1 [])) [Bytes [5; 130; 1; 2]; Ping 3] = false /\ placed (init (ctx0 0 [])) [Bytes [5]; Ping 3] = false.
Proof. split; vm_compute; reflexivity. Qed.
