(* C01, object layer: object graphs in emission-order canonical form, the sender
   (BaseSlicer.slice / Banana.pushSlicer / popSlicer, ScopedSlicer) as `slice`, the
   receiver (Banana.handleOpen / handleToken / handleClose with the unslicer stack,
   ScopedUnslicer tables, Banana.setObject / getObject) as the stack machine `run`,
   the graph a canonical term denotes (`val_of`, `heap_of`), the read-back `canon`,
   and the vocabulary layer (`envocab` / `devocab`, in-band set-vocab).
   Opentype strings, trackReferences flags and "start registers the object" flags come
   from gen/SlicersGen.v (translated from the source on every run).
   Model only; proofs are in ObjProofs.v. *)
From Coq Require Import ZArith List String Bool Lia.
Import ListNotations.
Require Import Verif.lib.PyLite Verif.gen.BananaGen Verif.gen.SlicersGen Verif.lib.Token.
Local Open Scope Z_scope.

(* ------------------------------------------------------------------ object terms *)

(* containers: every one is OPEN(n) opentype.. children.. CLOSE(n) on the wire.
   CDict: children are key1, value1, key2, value2 ..   CCopy: children are
   OBytes attrname1, value1, ..   CScope: a scoped sequence of call.py
   (call / arguments / answer / error) with its own reference table. *)
Inductive ckind := CList | CTuple | CSet | CFrozen | CDict | CCopy (name : list Z) | CScope (name : list Z).

Inductive obj :=
| OInt (z : Z)                (* int of any magnitude: one INT/NEG/LONGINT/LONGNEG token *)
| OFloat (b8 : list Z)        (* float: its 8 bytes struct.pack("!d") *)
| OBytes (bs : list Z)        (* bytes: one STRING token *)
| OText (u : list Z)          (* str, as its UTF-8 encoding: OPEN unicode STRING CLOSE *)
| OBool (b : bool)
| ONone
| ODecimal (s : list Z)       (* Decimal, as str(d) *)
| ORef (k : Z)                (* back-reference to the container whose OPEN had number k *)
| OCont (c : ckind) (xs : list obj).

Definition OList := OCont CList.
Definition OTuple := OCont CTuple.
Definition OSet := OCont CSet.
Definition OFrozen := OCont CFrozen.
Definition ODict (kvs : list (obj * obj)) := OCont CDict (flat_map (fun kv => [fst kv; snd kv]) kvs).
Definition OCopy (name : list Z) (attrs : list (list Z * obj)) :=
  OCont (CCopy name) (flat_map (fun kv => [OBytes (fst kv); snd kv]) attrs).

Definition opentype_of (c : ckind) : list (list Z) :=
  match c with
  | CList => ot_list | CTuple => ot_tuple | CSet => ot_set | CFrozen => ot_frozen | CDict => ot_dict
  | CCopy name => [ot_copyable_head; name]
  | CScope name => [name]
  end.

(* sender: pushSlicer registers the object under its OPEN number iff slicer.trackReferences *)
Definition tracked (c : ckind) : bool :=
  match c with
  | CList => tr_list | CTuple => tr_tuple | CSet => tr_set | CFrozen => tr_frozen | CDict => tr_dict
  | CCopy _ => tr_copyable | CScope _ => false
  end.

(* receiver: <Unslicer>.start calls protocol.setObject(count, ..) *)
Definition registers (c : ckind) : bool :=
  match c with
  | CList => reg_list | CTuple => reg_tuple | CSet => reg_set | CFrozen => reg_frozen | CDict => reg_dict
  | CCopy _ => reg_copyable | CScope _ => false
  end.

Definition is_scope (c : ckind) : bool := match c with CScope _ => true | _ => false end.

(* number of OPEN tokens an object consumes *)
Fixpoint opens (t : obj) : Z :=
  match t with
  | OInt _ | OFloat _ | OBytes _ => 0
  | OText _ | OBool _ | ONone | ODecimal _ | ORef _ => 1
  | OCont _ xs => 1 + (fix go (l : list obj) : Z := match l with [] => 0 | x :: r => opens x + go r end) xs
  end.
Definition opens_list := fix go (l : list obj) : Z := match l with [] => 0 | x :: r => opens x + go r end.

(* ------------------------------------------------------------------ sender *)

Definition strs (l : list (list Z)) : list token := map TString l.

(* the tokens Banana.produce emits for an object when Banana.openCount = n *)
Fixpoint slice (n : Z) (t : obj) : list token :=
  match t with
  | OInt z => [TInt z]
  | OFloat b => [TFloat b]
  | OBytes bs => [TString bs]
  | OText u => TOpen n :: strs ot_unicode ++ [TString u; TClose n]
  | OBool b => TOpen n :: strs ot_boolean ++ [TInt (if b then bool_true_tok else bool_false_tok); TClose n]
  | ONone => TOpen n :: strs ot_none ++ [TClose n]
  | ODecimal s => TOpen n :: strs ot_decimal ++ [TString s; TClose n]
  | ORef k => TOpen n :: strs ot_reference ++ [TInt k; TClose n]
  | OCont c xs =>
    TOpen n :: strs (opentype_of c)
      ++ (fix go (m : Z) (l : list obj) : list token :=
            match l with [] => [] | x :: r => slice m x ++ go (m + opens x) r end) (n + 1) xs
      ++ [TClose n]
  end.
Definition slice_list := fix go (m : Z) (l : list obj) : list token :=
  match l with [] => [] | x :: r => slice m x ++ go (m + opens x) r end.

(* ------------------------------------------------------------------ receiver *)

Inductive value :=
| VInt (z : Z) | VFloat (b8 : list Z) | VBytes (bs : list Z) | VText (u : list Z) | VBool (b : bool) | VNone
| VDecimal (s : list Z) | VPtr (k : Z).   (* VPtr k: the container created at the OPEN numbered k *)

Record node := { n_kind : ckind; n_items : list value }.
Definition heap := list (Z * node).

Inductive kind := KRoot (scoped : bool) | KC (c : ckind) | KText | KBool | KNone | KDecimal | KRef
  | KVocab.   (* ReplaceVocabUnslicer: top level only (BananaUnslicerRegistry), its result is dropped by the root *)

Record frame := { f_kind : kind; f_open : Z; f_count : Z; f_items : list value (* newest first *); f_refs : list Z }.

Record mstate := {
  s_stack : list frame;                           (* receiveStack, top first; the root unslicer is the last element *)
  s_inopen : option (Z * Z * list (list Z));      (* index phase: OPEN header, object count, index tokens so far *)
  s_counter : Z;                                  (* Banana.objectCounter *)
  s_heap : heap }.                                (* containers completed so far *)

Definition is_scope_frame (f : frame) : bool :=
  match f_kind f with KRoot b => b | KC c => is_scope c | _ => false end.

Fixpoint mem (k : Z) (l : list Z) : bool := match l with [] => false | x :: r => (k =? x) || mem k r end.

(* Banana.setObject: every unslicer on the stack is told; only scoped ones remember *)
Definition reg1 (ids : list Z) (f : frame) : frame :=
  if is_scope_frame f then {| f_kind := f_kind f; f_open := f_open f; f_count := f_count f; f_items := f_items f;
                              f_refs := f_refs f ++ ids |} else f.
Definition reg_many (ids : list Z) (s : list frame) : list frame := map (reg1 ids) s.

(* Banana.getObject: first unslicer (from the top) that knows the number *)
Definition lookup (k : Z) (s : list frame) : bool := existsb (fun f => is_scope_frame f && mem k (f_refs f)) s.
Definition has_scope (s : list frame) : bool := existsb is_scope_frame s.

Fixpoint assoc_ot (idx : list (list Z)) (tbl : list (list (list Z) * Z)) : option Z :=
  match tbl with
  | [] => None
  | (k, v) :: r => if (Nat.eqb (List.length k) (List.length idx)) && forallb (fun p => list_eqb (fst p) (snd p)) (combine k idx)
                   then Some v else assoc_ot idx r
  end.

Definition kind_of_code (c : Z) : option kind :=
  if c =? 1 then Some (KC CList) else if c =? 2 then Some (KC CTuple) else if c =? 3 then Some (KC CSet)
  else if c =? 4 then Some (KC CFrozen) else if c =? 5 then Some (KC CDict) else if c =? 6 then Some KText
  else if c =? 7 then Some KBool else if c =? 8 then Some KNone else if c =? 9 then Some KDecimal
  else if c =? 10 then Some KRef else None.

(* RootUnslicer.open / doOpen on the index tokens received so far:
   None = Violation, Some None = wants more index tokens, Some (Some k) = child unslicer *)
Definition open_kind (top : bool) (idx : list (list Z)) : option (option kind) :=
  match idx with
  | [] => None
  | a :: rest =>
    if top && list_eqb a (hd [] ot_set_vocab) then
      match rest with [] => Some (Some KVocab) | _ => None end
    else if list_eqb a ot_copyable_head then
      match rest with [] => Some None | [name] => Some (Some (KC (CCopy name))) | _ => None end
    else match assoc_ot idx unslicer_table with
         | Some c => match kind_of_code c with Some k => Some (Some k) | None => None end
         | None => match rest with
                   | [] => if existsb (list_eqb a) scoped_opentypes then Some (Some (KC (CScope a))) else None
                   | _ => None
                   end
         end
  end.

Definition kind_registers (k : kind) : bool := match k with KC c => registers c | _ => false end.

Definition is_bytes (v : value) := match v with VBytes _ => true | _ => false end.
Definition is_int (v : value) := match v with VInt _ => true | _ => false end.

(* ReplaceVocabUnslicer.checkToken: valueConstraint = ByteStringConstraint(vocab_word_limit) on the STRING header of a table word
   (translated); a longer word is a Violation: the rest of the set-vocab sequence is discarded and the OLD table stays *)
Definition word_ok (s : list Z) : bool :=
  match vocab_word_limit with Some m => Z.of_nat (List.length s) <=? m | None => true end.

Definition push_item (v : value) (f : frame) : frame :=
  {| f_kind := f_kind f; f_open := f_open f; f_count := f_count f; f_items := v :: f_items f; f_refs := f_refs f |}.

(* <top unslicer>.receiveChild(v) *)
Definition recv (s : list frame) (v : value) : option (list frame) :=
  match s with
  | [] => None
  | f :: r =>
    match f_kind f with
    | KRoot _ | KC _ => Some (push_item v f :: r)
    | KText | KDecimal => match f_items f, v with [], VBytes _ => Some (push_item v f :: r) | _, _ => None end
    | KBool => match f_items f, v with [], VInt _ => Some (push_item v f :: r) | _, _ => None end
    | KNone => None
    | KVocab => match v with
                | VInt _ => Some (push_item v f :: r)
                | VBytes s => if word_ok s then Some (push_item v f :: r) else None     (* Violation: the clean run ends *)
                | _ => None
                end
    | KRef => match f_items f, v with
              | [], VInt k => if lookup k s then Some (push_item (VPtr k) f :: r) else None   (* dangling reference *)
              | _, _ => None
              end
    end
  end.

Fixpoint even_bytes (l : list value) : bool :=    (* attrname, value, attrname, value .. *)
  match l with
  | [] => true
  | a :: _ :: r => is_bytes a && even_bytes r
  | _ => false
  end.
Fixpoint even_len {A} (l : list A) : bool := match l with [] => true | _ :: _ :: r => even_len r | _ => false end.

(* receiveClose: a leaf yields a value, a container yields a node stored under its object count *)
Definition seal (f : frame) : option (value * option node) :=
  let items := rev (f_items f) in
  match f_kind f with
  | KRoot _ => None          (* "top-level should never receive CLOSE tokens" *)
  | KText => match items with [VBytes u] => Some (VText u, None) | _ => None end
  | KDecimal => match items with [VBytes s] => Some (VDecimal s, None) | _ => None end
  | KBool => match items with [VInt z] => Some (VBool (negb (z =? 0)), None) | _ => None end
  | KNone => match items with [] => Some (VNone, None) | _ => None end
  | KRef => match items with [VPtr k] => Some (VPtr k, None) | _ => None end
  | KVocab => None           (* handled in step: nothing is handed to the parent *)
  | KC c =>
    let ok := match c with CDict => even_len items | CCopy _ => even_bytes items | _ => true end in
    if ok then Some (VPtr (f_count f), Some {| n_kind := c; n_items := items |}) else None
  end.

(* Places that cannot take a not-yet-complete object (a Deferred in the implementation): the value of a
   Copyable attribute (RemoteCopyUnslicer.receiveChild asserts) and a dict key (DictUnslicer.receiveKey raises).
   A reference to a tuple / frozenset / Copyable whose unslicer is still on the stack is such an object. *)
Definition is_imm_c (c : ckind) : bool := match c with CTuple | CFrozen | CCopy _ => true | _ => false end.
Definition is_imm (k : kind) : bool := match k with KC c => is_imm_c c | _ => false end.
Definition open_imm (s : list frame) (k : Z) : bool := existsb (fun f => is_imm (f_kind f) && (f_count f =? k)) s.

Fixpoint hazard_pos (c : ckind) (odd : bool) (items : list value) (P : Z -> bool) : bool :=
  match items with
  | [] => false
  | v :: r =>
    (match c, odd, v with
     | CCopy _, true, VPtr k => P k
     | CDict, false, VPtr k => P k
     | _, _, _ => false
     end) || hazard_pos c (negb odd) r P
  end.

Definition frame_hazard (f : frame) (below : list frame) : bool :=
  match f_kind f with KC c => hazard_pos c false (rev (f_items f)) (open_imm (f :: below)) | _ => false end.

Definition step (st : mstate) (t : token) : option mstate :=
  match s_inopen st with
  | Some (hdr, cnt, idx) =>
    match t with
    | TString bs =>
      let idx' := idx ++ [bs] in
      match open_kind (match s_stack st with [_] => true | _ => false end) idx' with
      | None => None
      | Some None => Some {| s_stack := s_stack st; s_inopen := Some (hdr, cnt, idx'); s_counter := s_counter st; s_heap := s_heap st |}
      | Some (Some k) =>
        let child := {| f_kind := k; f_open := hdr; f_count := cnt; f_items := []; f_refs := [] |} in
        let stk := child :: s_stack st in
        Some {| s_stack := if kind_registers k then reg_many [cnt] stk else stk;
                s_inopen := None; s_counter := s_counter st; s_heap := s_heap st |}
      end
    | TPing _ | TPong _ => if keepalive_tokens_ignored then Some st else None     (* keepalive tokens are dealt with in Banana.handleData (`continue`) before handleOpen sees
                                          anything: legal between OPEN and its index tokens too *)
    | _ => None
    end
  | None =>
    match t with
    | TOpen n => Some {| s_stack := s_stack st; s_inopen := Some (n, s_counter st, []); s_counter := s_counter st + 1; s_heap := s_heap st |}
    | TInt z => match recv (s_stack st) (VInt z) with
                | Some s' => Some {| s_stack := s'; s_inopen := None; s_counter := s_counter st; s_heap := s_heap st |} | None => None end
    | TFloat b => match recv (s_stack st) (VFloat b) with
                  | Some s' => Some {| s_stack := s'; s_inopen := None; s_counter := s_counter st; s_heap := s_heap st |} | None => None end
    | TString b => match recv (s_stack st) (VBytes b) with
                   | Some s' => Some {| s_stack := s'; s_inopen := None; s_counter := s_counter st; s_heap := s_heap st |} | None => None end
    | TClose n =>
      match s_stack st with
      | f :: r =>
        if f_open f =? n then
          match f_kind f with
          | KVocab => if even_len (f_items f)
                      then Some {| s_stack := r; s_inopen := None; s_counter := s_counter st; s_heap := s_heap st |} else None
          | _ =>
          match (if frame_hazard f r then None else seal f) with
          | Some (v, nd) =>
            match recv r v with
            | Some r' => Some {| s_stack := r'; s_inopen := None; s_counter := s_counter st;
                                 s_heap := match nd with Some x => s_heap st ++ [(f_count f, x)] | None => s_heap st end |}
            | None => None
            end
          | None => None
          end
          end
        else None     (* lost sync *)
      | [] => None
      end
    | TPing _ | TPong _ => if keepalive_tokens_ignored then Some st else None
    | TVocab _ | TAbort _ | TError _ => None     (* VOCAB is expanded below this layer; ABORT/ERROR end the clean run *)
    end
  end.

Fixpoint run (ts : list token) (st : mstate) : option mstate :=
  match ts with
  | [] => Some st
  | t :: r => match step st t with Some st' => run r st' | None => None end
  end.

Definition root_frame (scoped : bool) : frame := {| f_kind := KRoot scoped; f_open := -1; f_count := -1; f_items := []; f_refs := [] |}.
Definition init (scoped : bool) (n : Z) : mstate :=
  {| s_stack := [root_frame scoped]; s_inopen := None; s_counter := n; s_heap := [] |}.

(* what the root unslicer was handed, oldest first *)
Definition delivered (st : mstate) : list value :=
  match s_stack st with [f] => rev (f_items f) | _ => [] end.

(* the whole receiver: Some (heap, top-level values) when the stream was consumed cleanly *)
Definition unslice (scoped : bool) (n : Z) (ts : list token) : option (heap * list value) :=
  match run ts (init scoped n) with
  | Some st => match s_stack st, s_inopen st with [f], None => Some (s_heap st, rev (f_items f)) | _, _ => None end
  | None => None
  end.

(* ------------------------------------------------------------------ discarding a rejected sequence *)
(* Banana.handleData while discardCount = d > 0 (an unslicer raised a Violation: the rest of its sequence is dropped):
   every OPEN still takes an object number (the counter is advanced before the rejection test) and deepens the
   discard, CLOSE ends one level, every other token is dropped.  Result: discardCount, objectCounter, unread tokens. *)
Fixpoint discard (ts : list token) (d : Z) (cnt : Z) : Z * Z * list token :=
  match ts with
  | [] => (d, cnt, [])
  | t :: r =>
    if d <=? 0 then (d, cnt, ts)
    else match t with
         | TOpen _ => discard r (d + 1) (if open_counts_when_discarded then cnt + 1 else cnt)
         | TClose _ => discard r (d - 1) cnt
         | _ => discard r d cnt
         end
  end.

Fixpoint count_opens (ts : list token) : Z :=
  match ts with [] => 0 | TOpen _ :: r => 1 + count_opens r | _ :: r => count_opens r end.

(* ------------------------------------------------------------------ the graph a canonical term denotes *)

Definition val_of (n : Z) (t : obj) : value :=
  match t with
  | OInt z => VInt z | OFloat b => VFloat b | OBytes b => VBytes b | OText u => VText u
  | OBool b => VBool (negb ((if b then bool_true_tok else bool_false_tok) =? 0))
  | ONone => VNone | ODecimal s => VDecimal s
  | ORef k => VPtr k
  | OCont _ _ => VPtr n
  end.
Definition vals_list := fix go (m : Z) (l : list obj) : list value :=
  match l with [] => [] | x :: r => val_of m x :: go (m + opens x) r end.

(* nodes in completion (CLOSE) order *)
Fixpoint heap_of (n : Z) (t : obj) : heap :=
  match t with
  | OCont c xs =>
    (fix go (m : Z) (l : list obj) : heap := match l with [] => [] | x :: r => heap_of m x ++ go (m + opens x) r end) (n + 1) xs
      ++ [(n, {| n_kind := c; n_items := vals_list (n + 1) xs |})]
  | _ => []
  end.
Definition heap_list := fix go (m : Z) (l : list obj) : heap :=
  match l with [] => [] | x :: r => heap_of m x ++ go (m + opens x) r end.

(* the object counts the receiver registers while the object goes by, in OPEN order *)
Fixpoint regs_of (n : Z) (t : obj) : list Z :=
  match t with
  | OCont c xs =>
    (if registers c then [n] else [])
      ++ (fix go (m : Z) (l : list obj) : list Z := match l with [] => [] | x :: r => regs_of m x ++ go (m + opens x) r end) (n + 1) xs
  | _ => []
  end.
Definition regs_list := fix go (m : Z) (l : list obj) : list Z :=
  match l with [] => [] | x :: r => regs_of m x ++ go (m + opens x) r end.

(* ------------------------------------------------------------------ well-formed canonical terms *)

(* what a sender can produce when Banana.openCount = n, `sc` says whether a ScopedSlicer is on the slicer
   stack and `vis` lists the OPEN numbers its tables answer for.  Result: the visible numbers afterwards.
   - ORef k needs k visible;
   - a tracked container becomes visible (to its own children too) when a scope exists;
   - what is registered inside a nested scope is forgotten when that scope is popped;
   - dict: key/value pairs; copyable: attribute name (bytes) / value pairs; scope names are call.py's. *)
Fixpoint even_attr (l : list obj) : bool :=
  match l with
  | [] => true
  | OBytes _ :: _ :: r => even_attr r
  | _ => false
  end.

Definition shape_ok (c : ckind) (xs : list obj) : bool :=
  match c with
  | CDict => even_len xs
  | CCopy _ => even_attr xs
  | CScope name => existsb (list_eqb name) scoped_opentypes
  | _ => true
  end.

(* `imm`: the OPEN numbers of the tuples / frozensets / Copyables that are still open (ancestors).
   - a Copyable attribute value or a dict key must not be a reference to one of them (the implementation cannot
     take it: known findings, see the C01_refuted theorems);
   - (strict guard only) a tuple / frozenset must not directly contain such a reference either: its completion would be
     deferred, which `run` does not represent (ObjDefer.v does). *)
Definition ref_into (imm : list Z) (x : obj) : bool := match x with ORef k => mem k imm | _ => false end.

(* `strict` = true: the guard of the pointer-machine theorems (third clause included); `strict` = false: the third clause
   is dropped -- every graph the sender can emit except the known-defective region (used with the Deferred-level
   machine of ObjDefer.v, which represents deferred completion). *)
Fixpoint wf_gen (strict : bool) (sc : bool) (vis imm : list Z) (n : Z) (t : obj) : option (list Z) :=
  match t with
  | ORef k => if sc && mem k vis then Some vis else None
  | OCont c xs =>
    let imm' := if is_imm_c c then n :: imm else imm in
    if shape_ok c xs
       && negb (hazard_pos c false (vals_list (n + 1) xs) (fun k => mem k imm'))
       && negb (strict && match c with CTuple | CFrozen => existsb (ref_into imm') xs | _ => false end) then
      let sc' := sc || is_scope c in
      let vis1 := if sc' && tracked c then n :: vis else vis in
      match (fix go (v : list Z) (m : Z) (l : list obj) : option (list Z) :=
               match l with
               | [] => Some v
               | x :: r => match wf_gen strict sc' v imm' m x with Some v' => go v' (m + opens x) r | None => None end
               end) vis1 (n + 1) xs with
      | Some v => Some (if is_scope c then vis else v)
      | None => None
      end
    else None
  | _ => Some vis
  end.
Definition wf_list_gen (strict : bool) (sc : bool) (imm : list Z) := fix go (v : list Z) (m : Z) (l : list obj) : option (list Z) :=
  match l with
  | [] => Some v
  | x :: r => match wf_gen strict sc v imm m x with Some v' => go v' (m + opens x) r | None => None end
  end.
Definition wf_at := wf_gen true.
Definition wf_list := wf_list_gen true.
Definition wf_wide := wf_gen false.
Definition wf_list_wide := wf_list_gen false.

(* a term is a complete message for a receiver whose counter is n: top level of a connection
   (no scope: storage's root is scoped, a Broker's is not) *)
Definition wf_obj (scoped_root : bool) (n : Z) (t : obj) : bool :=
  match wf_at scoped_root [] [] n t with Some _ => true | None => false end.
Definition wf_obj_wide (scoped_root : bool) (n : Z) (t : obj) : bool :=
  match wf_wide scoped_root [] [] n t with Some _ => true | None => false end.

(* no references at all: plain trees *)
Fixpoint noref (t : obj) : bool :=
  match t with
  | ORef _ => false
  | OCont c xs => shape_ok c xs && (fix go (l : list obj) : bool := match l with [] => true | x :: r => noref x && go r end) xs
  | _ => true
  end.
Definition noref_list := fix go (l : list obj) : bool := match l with [] => true | x :: r => noref x && go r end.

(* ------------------------------------------------------------------ read-back: heap -> canonical term *)

Fixpoint find (k : Z) (h : heap) : option node :=
  match h with [] => None | (i, nd) :: r => if i =? k then Some nd else find k r end.

(* canon fuel h m v: the term for value v when the next unused OPEN number is m; a pointer below m has been
   emitted already and becomes a reference, the pointer m is a container seen for the first time *)
Fixpoint canon (fuel : nat) (h : heap) (m : Z) (v : value) : option (obj * Z) :=
  match fuel with
  | O => None
  | S fu =>
    match v with
    | VInt z => Some (OInt z, m) | VFloat b => Some (OFloat b, m) | VBytes b => Some (OBytes b, m)
    | VText u => Some (OText u, m + 1) | VBool b => Some (OBool b, m + 1) | VNone => Some (ONone, m + 1)
    | VDecimal s => Some (ODecimal s, m + 1)
    | VPtr k =>
      if k <? m then Some (ORef k, m + 1)
      else if k =? m then
        match find k h with
        | Some nd =>
          match (fix go (m1 : Z) (l : list value) : option (list obj * Z) :=
                   match l with
                   | [] => Some ([], m1)
                   | x :: r => match canon fu h m1 x with
                               | Some (o, m2) => match go m2 r with Some (os, m3) => Some (o :: os, m3) | None => None end
                               | None => None
                               end
                   end) (m + 1) (n_items nd) with
          | Some (os, m') => Some (OCont (n_kind nd) os, m')
          | None => None
          end
        | None => None
        end
      else None
    end
  end.
Definition canon_list (fu : nat) (h : heap) := fix go (m1 : Z) (l : list value) : option (list obj * Z) :=
  match l with
  | [] => Some ([], m1)
  | x :: r => match canon fu h m1 x with
              | Some (o, m2) => match go m2 r with Some (os, m3) => Some (o :: os, m3) | None => None end
              | None => None
              end
  end.

Fixpoint size (t : obj) : nat :=
  match t with
  | OCont _ xs => S ((fix go (l : list obj) : nat := match l with [] => O | x :: r => (size x + go r)%nat end) xs)
  | _ => 1%nat
  end.
Definition size_list := fix go (l : list obj) : nat := match l with [] => O | x :: r => (size x + go r)%nat end.

(* ------------------------------------------------------------------ vocabulary *)

(* outgoingVocabulary: bytes -> index; incomingVocabulary: index -> bytes *)
Definition vtable := list (list Z * Z).

Fixpoint vfind (bs : list Z) (tbl : vtable) : option Z :=
  match tbl with [] => None | (s, i) :: r => if list_eqb s bs then Some i else vfind bs r end.
Fixpoint vfind_inv (i : Z) (tbl : vtable) : option (list Z) :=
  match tbl with [] => None | (s, j) :: r => if j =? i then Some s else vfind_inv i r end.

(* Banana.sendToken, bytes branch: a string that is in the table goes out as VOCAB *)
Definition envocab1 (tbl : vtable) (t : token) : token :=
  match t with TString bs => match vfind bs tbl with Some i => TVocab i | None => t end | _ => t end.
Definition envocab (tbl : vtable) (ts : list token) : list token := map (envocab1 tbl) ts.

(* Banana.handleData, VOCAB branch: the index is replaced by the string before handleToken / handleOpen *)
Definition devocab1 (tbl : vtable) (t : token) : option token :=
  match t with TVocab i => match vfind_inv i tbl with Some s => Some (TString s) | None => None end | _ => Some t end.
Fixpoint devocab (tbl : vtable) (ts : list token) : option (list token) :=
  match ts with
  | [] => Some []
  | t :: r => match devocab1 tbl t, devocab tbl r with Some t', Some r' => Some (t' :: r') | _, _ => None end
  end.

(* in-band table switch.  The sender's queue holds objects' tokens and table replacements
   (Banana.setOutgoingVocabulary); ReplaceVocabSlicer sends OPEN set-vocab (index string)* CLOSE with the
   table set to {} and installs the new table when it is done. *)
Inductive item := ITok (t : token) | ISetVocab (n : Z) (tbl : vtable).

Fixpoint table_tokens (tbl : vtable) : list token :=
  match tbl with [] => [] | (s, i) :: r => TInt i :: TString s :: table_tokens r end.

Definition setvocab_tokens (n : Z) (tbl : vtable) : list token :=
  TOpen n :: strs ot_set_vocab ++ table_tokens tbl ++ [TClose n].

Fixpoint sender_wire (cur : vtable) (items : list item) : list token :=
  match items with
  | [] => []
  | ITok t :: r => envocab1 cur t :: sender_wire cur r
  | ISetVocab n tbl :: r => setvocab_tokens n tbl ++ sender_wire tbl r
  end.

(* receiver: ReplaceVocabUnslicer collects (INT, STRING) pairs until its CLOSE, then replaceIncomingVocabulary.
   Some (Some tbl, rest): the new table;  Some (None, rest): a word longer than the receiver's limit -- Violation, the rest of
   the sequence up to its CLOSE is discarded (no OPEN can follow inside a table), the table is NOT replaced;  None: malformed *)
Fixpoint skip_to_close (ts : list token) : option (list token) :=
  match ts with [] => None | TClose _ :: r => Some r | _ :: r => skip_to_close r end.
Fixpoint parse_table (ts : list token) (acc : vtable) : option (option vtable * list token) :=
  match ts with
  | TInt i :: TString s :: r =>
    if word_ok s then parse_table r (acc ++ [(s, i)])
    else match skip_to_close r with Some r' => Some (None, r') | None => None end
  | TClose _ :: r => Some (Some acc, r)
  | _ => None
  end.

(* the tokens the object layer sees (after VOCAB expansion), with the set-vocab sequences consumed;
   fuel = number of wire tokens *)
Fixpoint receiver_view (fuel : nat) (cur : vtable) (ts : list token) : option (list token) :=
  match fuel with
  | O => match ts with [] => Some [] | _ => None end
  | S fu =>
    match ts with
    | [] => Some []
    | TOpen n :: TString s :: r =>
      if list_eqb s (hd [] ot_set_vocab) then
        match parse_table r [] with
        | Some (Some tbl, r') =>
          match receiver_view fu tbl r' with
          | Some out => Some (setvocab_tokens n tbl ++ out)
          | None => None
          end
        | _ => None       (* malformed, or a Violation: not a clean run (what the code does then: receiver_view_v) *)
        end
      else match receiver_view fu cur (TString s :: r) with Some out => Some (TOpen n :: out) | None => None end
    | t :: r =>
      match devocab1 cur t, receiver_view fu cur r with Some t', Some out => Some (t' :: out) | _, _ => None end
    end
  end.

(* the same receiver, Violations included: a set-vocab sequence with a word over the limit is dropped as a whole (the root
   is handed nothing for it), the table in force stays, and the stream goes on -- every later VOCAB token is expanded with
   the OLD table.  Result: the object tokens seen (set-vocab sequences that were accepted still in place) and the number of
   rejected table replacements.  A rejected sequence is shown to the object layer as an EMPTY set-vocab sequence: it hands the root
   nothing and installs nothing there, but its OPEN took an object number (Banana.handleData counts every OPEN, discarded or
   not: open_counts_when_discarded), so later references stay in step. *)
Fixpoint receiver_view_v (fuel : nat) (cur : vtable) (ts : list token) : option (list token * Z) :=
  match fuel with
  | O => match ts with [] => Some ([], 0) | _ => None end
  | S fu =>
    match ts with
    | [] => Some ([], 0)
    | TOpen n :: TString s :: r =>
      if list_eqb s (hd [] ot_set_vocab) then
        match parse_table r [] with
        | Some (Some tbl, r') =>
          match receiver_view_v fu tbl r' with
          | Some (out, k) => Some (setvocab_tokens n tbl ++ out, k)
          | None => None
          end
        | Some (None, r') =>
          match receiver_view_v fu cur r' with
          | Some (out, k) => Some (setvocab_tokens n [] ++ out, k + 1)   (* the rejected sequence still took its OPEN number *)
          | None => None
          end
        | None => None
        end
      else match receiver_view_v fu cur (TString s :: r) with Some (out, k) => Some (TOpen n :: out, k) | None => None end
    | t :: r =>
      match devocab1 cur t, receiver_view_v fu cur r with Some t', Some (out, k) => Some (t' :: out, k) | _, _ => None end
    end
  end.

(* what the object layer sees: every string in plain form, the set-vocab sequences still in place *)
Fixpoint plain_tokens (items : list item) : list token :=
  match items with [] => [] | ITok t :: r => t :: plain_tokens r | ISetVocab n tbl :: r => setvocab_tokens n tbl ++ plain_tokens r end.

(* ------------------------------------------------------------------ decidable equality on terms (used by the correspondence) *)
Definition ckind_eqb (a b : ckind) : bool :=
  match a, b with
  | CList, CList | CTuple, CTuple | CSet, CSet | CFrozen, CFrozen | CDict, CDict => true
  | CCopy x, CCopy y | CScope x, CScope y => list_eqb x y
  | _, _ => false
  end.
Fixpoint obj_eqb (a b : obj) : bool :=
  match a, b with
  | OInt x, OInt y => x =? y
  | OFloat x, OFloat y | OBytes x, OBytes y | OText x, OText y | ODecimal x, ODecimal y => list_eqb x y
  | OBool x, OBool y => Bool.eqb x y
  | ONone, ONone => true
  | ORef x, ORef y => x =? y
  | OCont c xs, OCont d ys =>
    ckind_eqb c d && (fix go (l : list obj) (m : list obj) : bool :=
                        match l, m with [], [] => true | x :: r, y :: q => obj_eqb x y && go r q | _, _ => false end) xs ys
  | _, _ => false
  end.
Definition objs_eqb := fix go (l : list obj) (m : list obj) : bool :=
  match l, m with [], [] => true | x :: r, y :: q => obj_eqb x y && go r q | _, _ => false end.
