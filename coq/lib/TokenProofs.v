(* Round trip between the sender's token encoding (translated send_int / int2b128) and the
   receiver's scanner of lib/Token.v. *)
From Coq Require Import ZArith List String Bool Lia.
Import ListNotations.
Require Import Verif.lib.PyLite Verif.gen.BananaGen Verif.lib.BytesProofs Verif.lib.Token.
Local Open Scope Z_scope.

Lemma le128_le_val ds : le128 ds = le_val 128 ds.
Proof. induction ds as [|d ds IH]; cbn [le128 le_val]; [reflexivity|rewrite IH; reflexivity]. Qed.

Lemma scan_header_digits ds : forall room acc ty rest,
  digits_ok 128 ds -> (List.length ds <= room)%nat -> 128 <= ty ->
  scan_header room acc (ds ++ ty :: rest) = HOk (rev acc ++ ds) ty rest.
Proof.
  induction ds as [|d ds IH]; intros room acc ty rest D L T; cbn [app scan_header].
  - destruct (Z.leb_spec 128 ty); [|lia]. rewrite app_nil_r. reflexivity.
  - inversion D as [|? ? Hd D']; subst. destruct (Z.leb_spec 128 d); [lia|].
    destruct room as [|room]; [cbn in L; lia|].
    rewrite IH; [|assumption|cbn in L; lia|assumption].
    cbn [rev]. rewrite <- app_assoc. reflexivity.
Qed.

Lemma hdr_ok_spec n : hdr_ok n = true <-> 0 <= n < 2 ^ 448.
Proof. unfold hdr_ok. rewrite andb_true_iff, Z.leb_le, Z.ltb_lt. reflexivity. Qed.

(* a header is at most 64 base-128 digits: 2^448 = 128^64 *)
Lemma hdr_digits n acc : hdr_ok n = true ->
  exists ds, int2b128 n acc = Ok (acc ++ ds) /\ le128 ds = n /\ digits_ok 128 ds /\ (List.length ds <= 64)%nat.
Proof.
  intros H. apply hdr_ok_spec in H. destruct (int2b128_spec n acc (proj1 H)) as (ds & E & V & D & _).
  exists ds. split; [exact E|]. split; [rewrite le128_le_val; exact V|]. split; [exact D|].
  apply (int2b128_length n acc ds 64); [|lia|exact E].
  (* 2 ^ (7 * 64) against 2 ^ 448: only the exponents are compared, the power is never computed *)
  change 128 with (2 ^ 7). rewrite <- Z.pow_mul_r by lia. exact H.
Qed.

(* header digits + type byte, then anything: the scanner finds exactly that header *)
Lemma hdr_tok_scan n ty acc rest : hdr_ok n = true -> 128 <= ty ->
  exists ds, hdr_tok n ty acc = Ok (acc ++ ds ++ [ty]) /\
             scan_header 64 [] (ds ++ ty :: rest) = HOk ds ty rest /\ le128 ds = n.
Proof.
  intros H T. destruct (hdr_digits n acc H) as (ds & E & V & D & L).
  exists ds. unfold hdr_tok, bind. rewrite E, <- app_assoc.
  split; [reflexivity|]. split; [exact (scan_header_digits ds 64 [] ty rest D L T)|exact V].
Qed.

Lemma firstn_skipn_app_exact {A} (xs ys : list A) :
  firstn (List.length xs) (xs ++ ys) = xs /\ skipn (List.length xs) (xs ++ ys) = ys.
Proof.
  split.
  - rewrite firstn_app, Nat.sub_diag, firstn_all. cbn. apply app_nil_r.
  - rewrite skipn_app, Nat.sub_diag, skipn_all. reflexivity.
Qed.

Lemma scan_hdr_body n ty body rest ds :
  scan_header 64 [] (ds ++ ty :: body ++ rest) = HOk ds ty (body ++ rest) -> le128 ds = n ->
  body_len ty n = Some (Z.of_nat (List.length body)) ->
  scan_token (ds ++ ty :: body ++ rest) = STok {| r_ty := ty; r_hdr := n; r_body := body |} rest.
Proof.
  intros S V B. unfold scan_token. rewrite S, V, B, app_length.
  destruct (Z.ltb_spec (Z.of_nat (List.length body + List.length rest)) (Z.of_nat (List.length body))); [lia|].
  rewrite Nat2Z.id. destruct (firstn_skipn_app_exact body rest) as [-> ->]. reflexivity.
Qed.

Definition reads_back (e : res (list Z)) (acc rest : list Z) (t : token) : Prop :=
  exists bs r, e = Ok (acc ++ bs) /\ scan_token (bs ++ rest) = STok r rest /\ interp r = Some t.

(* the side conditions on the type byte are table look-ups, closed by evaluation at each use *)
Lemma bare_reads_back ty body acc rest t :
  128 <= ty -> body_len ty 0 = Some (Z.of_nat (List.length body)) ->
  interp {| r_ty := ty; r_hdr := 0; r_body := body |} = Some t ->
  reads_back (Ok (acc ++ ty :: body)) acc rest t.
Proof.
  intros T B I. exists (ty :: body), {| r_ty := ty; r_hdr := 0; r_body := body |}.
  split; [reflexivity|]. split; [|exact I].
  apply (scan_hdr_body 0 ty body rest []); [|reflexivity|exact B].
  cbn [app scan_header]. destruct (Z.leb_spec 128 ty); [reflexivity|lia].
Qed.

Lemma hdr_body_reads_back n ty body acc rest t :
  hdr_ok n = true -> 128 <= ty -> body_len ty n = Some (Z.of_nat (List.length body)) ->
  interp {| r_ty := ty; r_hdr := n; r_body := body |} = Some t ->
  reads_back (bind (hdr_tok n ty acc) (fun w => Ok (w ++ body))) acc rest t.
Proof.
  intros H T B I. destruct (hdr_tok_scan n ty acc (body ++ rest) H T) as (ds & E & S & V).
  exists (ds ++ ty :: body), {| r_ty := ty; r_hdr := n; r_body := body |}.
  rewrite E. cbn [bind]. rewrite <- !app_assoc. split; [reflexivity|]. split; [|exact I].
  exact (scan_hdr_body n ty body rest ds S V B).
Qed.

Lemma hdr_reads_back n ty acc rest t :
  hdr_ok n = true -> 128 <= ty -> body_len ty n = Some 0 -> interp {| r_ty := ty; r_hdr := n; r_body := [] |} = Some t ->
  reads_back (hdr_tok n ty acc) acc rest t.
Proof.
  intros H T B I. destruct (hdr_body_reads_back n ty [] acc rest t H T B I) as (bs & r & E & S).
  exists bs, r. split; [|exact S]. destruct (hdr_tok n ty acc); [|discriminate].
  cbn [bind] in E. rewrite app_nil_r in E. exact E.
Qed.

Lemma send_int_eq z acc : send_int z acc =
  let long ty n := bind (long_to_bytes n) (fun s => bind (hdr_tok (Z.of_nat (List.length s)) ty acc) (fun w => Ok (w ++ s))) in
  if z >=? 2 ^ 31 then long tok_LONGINT z
  else if z >=? 0 then hdr_tok z tok_INT acc
  else if - z >? 2 ^ 31 then long tok_LONGNEG (- z)
  else hdr_tok (- z) tok_NEG acc.
Proof.
  unfold send_int, hdr_tok, bind. cbv zeta.
  destruct (z >=? 2 ^ 31); [destruct (long_to_bytes z); [destruct (int2b128 _ acc)|]; reflexivity|].
  destruct (z >=? 0); [destruct (int2b128 z acc); reflexivity|].
  destruct (- z >? 2 ^ 31); [destruct (long_to_bytes (- z)); [destruct (int2b128 _ acc)|]; reflexivity|].
  destruct (int2b128 (- z) acc); reflexivity.
Qed.

Lemma bytes_to_long_be256 bs : bytes_to_long bs = Ok (be256 bs 0).
Proof.
  unfold bytes_to_long. cbv zeta. f_equal. generalize 0 as acc.
  induction bs as [|b bs IH]; intros acc; cbn [fold_left be256]; [reflexivity|]. rewrite IH, shiftl8. reflexivity.
Qed.

Lemma byte_count_bound p n k : 0 <= p -> 0 < n -> 256 ^ (k - 1) <= n -> Z.log2 n < 2 ^ (p + 3) -> k <= 2 ^ p.
Proof.
  intros Hp Hn Lo HL. rewrite Z.pow_add_r in HL by lia. pose proof (Z.pow_pos_nonneg 2 p ltac:(lia) Hp) as P.
  destruct (Z.le_gt_cases k 1) as [|Hk]; [lia|].
  change 256 with (2 ^ 8) in Lo. rewrite <- Z.pow_mul_r in Lo by lia.
  apply Z.log2_le_pow2 in Lo; [|exact Hn]. change (2 ^ 3) with 8 in HL. lia.
Qed.

(* Z.log2 n < 2 ^ 443: the wf_token bound *)
Lemma long_to_bytes_wire n : 0 < n -> Z.log2 n < 2 ^ 443 ->
  exists s, long_to_bytes n = Ok s /\ be256 s 0 = n /\ hdr_ok (Z.of_nat (List.length s)) = true.
Proof.
  intros Hn HL. destruct (longbytes_roundtrip n (Z.lt_le_incl _ _ Hn)) as (s & E & V & _).
  exists s. split; [exact E|]. rewrite bytes_to_long_be256 in V. split; [injection V as V; exact V|].
  apply hdr_ok_spec. split; [apply Nat2Z.is_nonneg|].
  apply Z.le_lt_trans with (2 ^ 440); [|apply Z.pow_lt_mono_r; lia].
  apply (byte_count_bound 440 n); [lia|exact Hn| |exact HL].
  exact (proj1 (long_to_bytes_length n s Hn E)).
Qed.

Lemma int_reads_back z acc rest : Z.log2 (Z.abs z) < 2 ^ 443 -> reads_back (send_int z acc) acc rest (TInt z).
Proof.
  intros W. rewrite send_int_eq. cbv zeta.
  assert (S31 : forall n, 0 <= n -> n <= 2 ^ 31 -> hdr_ok n = true).
  { intros n H0 H1. apply hdr_ok_spec. split; [exact H0|].
    apply Z.le_lt_trans with (2 ^ 31); [exact H1|apply Z.pow_lt_mono_r; lia]. }
  destruct (Z.geb_spec z (2 ^ 31)) as [Hbig|Hsmall]; [|destruct (Z.geb_spec z 0) as [Hnn|Hneg]; [|destruct (Z.gtb_spec (- z) (2 ^ 31)) as [Hbn|Hsn]]].
  - assert (Hp : 0 < z) by (clear - Hbig; lia). rewrite (Z.abs_eq z (Z.lt_le_incl _ _ Hp)) in W.
    destruct (long_to_bytes_wire z Hp W) as (s & -> & V & HO).
    apply hdr_body_reads_back; [exact HO|discriminate|reflexivity|cbn; rewrite V; reflexivity].
  - apply hdr_reads_back; [apply S31; clear - Hnn Hsmall; lia|discriminate|reflexivity|reflexivity].
  - assert (Hp : 0 < - z) by (clear - Hneg; lia). rewrite (Z.abs_neq z) in W by (clear - Hneg; lia).
    destruct (long_to_bytes_wire (- z) Hp W) as (s & -> & V & HO).
    apply hdr_body_reads_back; [exact HO|discriminate|reflexivity|cbn; rewrite V, Z.opp_involutive; reflexivity].
  - apply hdr_reads_back; [apply S31; clear - Hneg Hsn; lia|discriminate|reflexivity|cbn; rewrite Z.opp_involutive; reflexivity].
Qed.

Theorem token_roundtrip t acc rest : wf_token t = true ->
  exists bs r, encode_token t acc = Ok (acc ++ bs) /\ scan_token (bs ++ rest) = STok r rest /\ interp r = Some t.
Proof.
  intros W. change (reads_back (encode_token t acc) acc rest t).
  destruct t as [z|b8|bs|n|n|n|n|n|n|bs]; cbn [encode_token wf_token] in *.
  - apply int_reads_back, Z.ltb_lt, W.
  - apply andb_true_iff in W as [WL _]. apply Nat.eqb_eq in WL.
    apply bare_reads_back; [discriminate|rewrite WL; reflexivity|reflexivity].
  - apply andb_true_iff in W as [HO _]. apply hdr_body_reads_back; [exact HO|discriminate|reflexivity|reflexivity].
  - apply hdr_reads_back; [exact W|discriminate|reflexivity|reflexivity].
  - apply hdr_reads_back; [exact W|discriminate|reflexivity|reflexivity].
  - apply hdr_reads_back; [exact W|discriminate|reflexivity|reflexivity].
  - apply hdr_reads_back; [exact W|discriminate|reflexivity|reflexivity].
  - (* sendPING omits the header when the number is 0 *)
    unfold hdr_tok_opt. destruct (Z.eqb_spec n 0) as [->|_].
    + apply bare_reads_back; [discriminate|reflexivity|reflexivity].
    + apply hdr_reads_back; [exact W|discriminate|reflexivity|reflexivity].
  - unfold hdr_tok_opt. destruct (Z.eqb_spec n 0) as [->|_].
    + apply bare_reads_back; [discriminate|reflexivity|reflexivity].
    + apply hdr_reads_back; [exact W|discriminate|reflexivity|reflexivity].
  - apply andb_true_iff in W as [HO _]. apply hdr_body_reads_back; [exact HO|discriminate|reflexivity|reflexivity].
Qed.

Lemma scan_header_consumes l : forall room acc ds ty rest,
  scan_header room acc l = HOk ds ty rest -> (List.length rest < List.length l)%nat.
Proof.
  induction l as [|b l IH]; intros room acc ds ty rest S; cbn [scan_header] in S; [discriminate|].
  destruct (128 <=? b); [injection S as _ _ <-; apply Nat.lt_succ_diag_r|].
  destruct room; [discriminate|]. apply IH in S. cbn [List.length]. lia.
Qed.

Lemma scan_token_consumes l r rest : scan_token l = STok r rest -> (List.length rest < List.length l)%nat.
Proof.
  unfold scan_token. destruct (scan_header 64 [] l) as [| |ds ty rest0] eqn:S; try discriminate.
  apply scan_header_consumes in S.
  destruct (body_len ty (le128 ds)) as [n|]; [|discriminate].
  destruct (Z.of_nat (List.length rest0) <? n); [discriminate|].
  intros [= _ <-]. rewrite skipn_length. lia.
Qed.

Lemma decode_all_roundtrip ts : forall bs fuel, forallb wf_token ts = true -> encode_stream ts = Ok bs ->
  (List.length bs < fuel)%nat -> decode_all fuel bs = (ts, EndClean).
Proof.
  induction ts as [|t ts IH]; intros bs fuel W E F; (destruct fuel as [|fuel]; [inversion F|]).
  - injection E as <-. reflexivity.
  - cbn [forallb] in W. apply andb_true_iff in W as [Wt Wts]. cbn [encode_stream] in E.
    destruct (encode_token t []) as [b|] eqn:Et; [|discriminate].
    destruct (encode_stream ts) as [bs'|]; [|discriminate]. injection E as <-.
    destruct (token_roundtrip t [] bs' Wt) as (b0 & r & E0 & S & I). rewrite Et in E0. injection E0 as ->.
    pose proof (scan_token_consumes _ _ _ S) as C. cbn [app decode_all] in *.
    destruct (b0 ++ bs') as [|x xs] eqn:Eb; [inversion C|]. rewrite S, I, (IH bs' fuel Wts eq_refl); [reflexivity|].
    cbn [List.length] in C, F. lia.
Qed.

Theorem stream_roundtrip ts : forall bs, forallb wf_token ts = true -> encode_stream ts = Ok bs ->
  decode bs = (ts, EndClean).
Proof. intros bs W E. apply decode_all_roundtrip; [exact W|exact E|apply Nat.lt_succ_diag_r].
Qed.
