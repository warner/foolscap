(* C10: proofs about lib/Failure.v.
   Utf8Proofs.decode_prefix (decoding the first n bytes of a well-formed encoding keeps the whole characters that
   fit) gives a closed form `truncated` of the translated `truncate`; with it the translated getStateToCopy has the closed form
   `state_of` (get_state_cases), from which every theorem about the transmitted fields (`field_of`) and about what the caller
   sees (deliver / delivered_check / delivered_type) is read off. *)
From Coq Require Import ZArith List String Bool Lia.
Import ListNotations.
Require Import Verif.lib.PyLite Verif.lib.Utf8 Verif.lib.Utf8Proofs Verif.gen.FailureGen Verif.lib.Failure.
Local Open Scope Z_scope.

Lemma forallb_firstn {A} (f : A -> bool) n l : forallb f l = true -> forallb f (firstn n l) = true.
Proof.
  revert n. induction l as [|x l IH]; intros n H; [rewrite firstn_nil; reflexivity|].
  destruct n; [reflexivity|]. cbn [firstn forallb] in *. apply andb_true_iff in H as [H1 H2].
  rewrite H1. cbn. apply IH. exact H2.
Qed.

Definition fits (lim : Z) (b : list Z) : Prop := blen b <= lim.

Lemma py_slice_prefix (s : list Z) k : 0 <= k -> py_slice s None (Some k) = firstn (Z.to_nat k) s.
Proof.
  intros K. unfold py_slice, norm_idx.
  destruct (k <? 0) eqn:E; [apply Z.ltb_lt in E; lia|].
  rewrite Z.sub_0_r. cbn [skipn Z.to_nat].
  destruct (Z.le_ge_cases (Z.of_nat (List.length s)) k) as [L|L].
  - rewrite Z.min_l by lia. rewrite Z.max_r by lia. rewrite Nat2Z.id.
    rewrite firstn_all. symmetry. apply firstn_all2. lia.
  - rewrite Z.min_r by lia. rewrite Z.max_r by lia. reflexivity.
Qed.

Definition truncated (s : list Z) (lim : Z) : list Z :=
  if blen s <=? lim then s else utf8_decode_ignore (firstn (Z.to_nat (lim - 3)) s) ++ dots.

Lemma truncate_eq s lim : 3 < lim -> truncate s lim = Ok (truncated s lim).
Proof.
  intros L. unfold truncate, truncated, blen. cbv zeta. rewrite (proj2 (Z.gtb_lt lim 3) L), Z.gtb_ltb, Z.ltb_antisym.
  destruct (Z.leb_spec (Z.of_nat (List.length s)) lim) as [F|F]; [rewrite andb_false_r; reflexivity|].
  destruct s; [cbn [List.length Z.of_nat] in F; lia|]. cbn [list_is_nil negb andb]. rewrite py_slice_prefix by lia. reflexivity.
Qed.

Lemma truncated_short s lim : blen s <= lim -> truncated s lim = s.
Proof. intros F. unfold truncated. rewrite (proj2 (Z.leb_le _ _) F). reflexivity. Qed.

Lemma truncated_fits s lim : 3 < lim -> blen (truncated s lim) <= lim.
Proof.
  intros L. unfold truncated. destruct (Z.leb_spec (blen s) lim) as [F|F]; [exact F|].
  unfold blen, utf8_decode_ignore, dots. rewrite app_length.
  pose proof (dec_length [] 0 (firstn (Z.to_nat (lim - 3)) s)) as D. rewrite firstn_length in D. cbn [List.length] in *. lia.
Qed.

Definition wf_text (t : text) : Prop := forallb scalarb t = true.

Lemma truncated_long t lim : 3 < lim -> wf_text t -> lim < blen (utf8 t) ->
  truncated (utf8 t) lim = utf8 (take_fit (Z.to_nat (lim - 3)) t ++ dots) /\
  exists rest, t = take_fit (Z.to_nat (lim - 3)) t ++ rest /\ rest <> [].
Proof.
  intros L V F. unfold truncated. rewrite (proj2 (Z.leb_gt _ _) F), decode_prefix, utf8_app by exact V.
  split; [reflexivity|]. destruct (take_fit_prefix (Z.to_nat (lim - 3)) t) as [rest R]. exists rest. split; [exact R|].
  (* otherwise all of t, which is longer than lim, would have been decoded from lim - 3 bytes *)
  intros ->. rewrite app_nil_r in R.
  pose proof (dec_length [] 0 (firstn (Z.to_nat (lim - 3)) (utf8 t))) as D.
  fold (utf8_decode_ignore (firstn (Z.to_nat (lim - 3)) (utf8 t))) in D. rewrite decode_prefix, <- R, firstn_length in D by exact V.
  unfold blen in F. cbn [List.length] in D. lia.
Qed.

(* truncate never raises when limit > 3, and its result obeys the limit, for EVERY byte string *)
Theorem truncate_fits s lim : 3 < lim -> exists r, truncate s lim = Ok r /\ blen r <= lim.
Proof. intros L. exists (truncated s lim). split; [apply truncate_eq|apply truncated_fits]; exact L. Qed.

(* on the encoding of well-formed text: either unchanged, or a prefix of whole characters followed by ".." *)
Theorem truncate_text cps lim : 3 < lim -> forallb scalarb cps = true ->
  (blen (utf8 cps) <= lim /\ truncate (utf8 cps) lim = Ok (utf8 cps)) \/
  (lim < blen (utf8 cps) /\ exists p rest, cps = p ++ rest /\ rest <> [] /\
     truncate (utf8 cps) lim = Ok (utf8 (p ++ dots)) /\ p = take_fit (Z.to_nat (lim - 3)) cps).
Proof.
  intros L V. rewrite truncate_eq by exact L. destruct (Z.le_gt_cases (blen (utf8 cps)) lim) as [F|F].
  - left. rewrite truncated_short by exact F. split; [exact F|reflexivity].
  - right. destruct (truncated_long cps lim L V F) as (E & rest & R & N). rewrite E. split; [exact F|].
    exists (take_fit (Z.to_nat (lim - 3)) cps), rest. repeat split; assumption.
Qed.

Lemma truncate_repeat pre c k lim : wf_text pre -> scalarb c = true -> 3 < lim ->
  blen (utf8 pre) <= lim - 3 -> lim < blen (utf8 pre) + Z.of_nat k * blen (enc1 c) ->
  truncate (utf8 (pre ++ repeat c k)) lim =
  Ok (utf8 (pre ++ repeat c (Z.to_nat ((lim - 3 - blen (utf8 pre)) / blen (enc1 c))) ++ dots)).
Proof.
  unfold blen. intros P C L F G.
  assert (V : wf_text (pre ++ repeat c k)).
  { unfold wf_text. rewrite forallb_app, P. apply forallb_forall. intros x I. apply repeat_spec in I. subst x. exact C. }
  (* with p, w the byte lengths of pre and of c, the quotient j satisfies w * j <= lim - 3 - p < w * (j + 1); said of nat *)
  pose proof (enc1_nonempty c) as W. set (p := List.length (utf8 pre)) in *. set (w := List.length (enc1 c)) in *.
  assert (W' : 0 < Z.of_nat w) by lia.
  pose proof (Z.mul_div_le (lim - 3 - Z.of_nat p) _ W') as Q1. pose proof (Z.mul_succ_div_gt (lim - 3 - Z.of_nat p) _ W') as Q2.
  assert (Q0 : 0 <= (lim - 3 - Z.of_nat p) / Z.of_nat w) by (apply Z.div_pos; lia).
  rewrite <- (Z2Nat.id _ Q0) in Q1, Q2. set (j := Z.to_nat _) in *. clear Q0 P C W.
  rewrite truncate_eq by exact L. destruct (truncated_long _ lim L V) as [-> _].
  - unfold blen. rewrite utf8_app, app_length, utf8_repeat_length. fold p w. lia.
  - rewrite take_fit_app by (fold p; lia). fold p. rewrite (take_fit_repeat c j), app_assoc; [reflexivity|fold w; lia|].
    apply Nat2Z.inj_lt, (Z.mul_lt_mono_pos_l (Z.of_nat w)); lia.
Qed.

Example ex_truncated :
  truncate (utf8 (repeat 233 1000)) 1000 = Ok (utf8 (repeat 233 498 ++ dots)).
Proof.
  apply (truncate_repeat [] 233 1000 1000); [reflexivity|reflexivity|reflexivity|apply Z.leb_le; reflexivity|reflexivity].
Qed.

Example ex_cut_inside_char :       (* limit-3 falls inside a 4-byte character: it is dropped entirely *)
  truncate (utf8 (120 :: repeat 128512 300)) 1000 = Ok (utf8 (120 :: repeat 128512 249 ++ dots)).
Proof.
  apply (truncate_repeat [120] 128512 300 1000); [reflexivity|reflexivity|reflexivity|apply Z.leb_le; reflexivity|reflexivity].
Qed.

Lemma hexdigit_ascii d : 0 <= d < 16 -> 0 <= hexdigit d < 128.
Proof. intros H. unfold hexdigit. destruct (d <? 10); lia. Qed.

Lemma esc1_wf c : wf_text (esc1 c).
Proof.
  unfold esc1, wf_text. destruct (scalarb c) eqn:E; cbn [forallb]; [rewrite E; reflexivity|].
  rewrite !scalarb_ascii; try reflexivity; try lia; apply hexdigit_ascii; apply Z.mod_pos_bound; lia.
Qed.

(* whatever the text, its escaped form is well-formed: encoding with backslashreplace cannot fail *)
Lemma escape_wf t : wf_text (escape t).
Proof.
  unfold escape, wf_text. induction t as [|c t IH]; [reflexivity|].
  change (flat_map esc1 (c :: t)) with (esc1 c ++ flat_map esc1 t). rewrite forallb_app, IH.
  pose proof (esc1_wf c) as W. unfold wf_text in W. rewrite W. reflexivity.
Qed.

Lemma escape_id t : wf_text t -> escape t = t.
Proof.
  unfold escape, wf_text. induction t as [|c t IH]; intros H; [reflexivity|]. apply forallb_cons in H as [H1 H2].
  change (flat_map esc1 (c :: t)) with (esc1 c ++ flat_map esc1 t). rewrite IH by exact H2.
  unfold esc1. rewrite H1. reflexivity.
Qed.

Theorem escape_spec t : wf_text (escape t) /\ (wf_text t -> escape t = t).
Proof. split; [apply escape_wf|apply escape_id]. Qed.

(* what one transmitted field is, relative to the original text *)
Definition field_of (orig : text) (lim : Z) (b : list Z) : Prop :=
  (b = utf8 orig /\ blen (utf8 orig) <= lim) \/
  (lim < blen (utf8 orig) /\ exists p rest, orig = p ++ rest /\ rest <> [] /\ b = utf8 (p ++ dots)).

Lemma field_of_truncated t lim : 3 < lim -> wf_text t -> field_of t lim (truncated (utf8 t) lim).
Proof.
  intros L V. destruct (Z.le_gt_cases (blen (utf8 t)) lim) as [F|F].
  - left. split; [apply truncated_short|]; exact F.
  - right. destruct (truncated_long t lim L V F) as (E & rest & R & N). split; [exact F|].
    exists (take_fit (Z.to_nat (lim - 3)) t), rest. split; [exact R|]. split; [exact N|exact E].
Qed.

(* with the error handler the source uses, EVERY text gets through: the field is (a truncation of) its escaped form *)
Lemma trunc_field_eq t lim : 3 < lim -> trunc_field t lim = Ok (truncated (utf8 (escape t)) lim).
Proof. intros L. unfold trunc_field, encode_text, text_encode_errors. apply truncate_eq, L. Qed.

Lemma map_res_ok {A B} (f : A -> res B) g l : (forall x, f x = Ok (g x)) -> map_res f l = Ok (map g l).
Proof. intros H. induction l as [|x l IH]; [reflexivity|]. cbn [map_res map]. rewrite H, IH. reflexivity. Qed.

Lemma bytestring_ok_enc_of_le vocab lim b : blen b <= lim -> bytestring_ok_enc vocab lim b = true.
Proof.
  intros H. unfold bytestring_ok_enc, bytestring_taster_accepts_vocab, token_size_rejects, bytestring_object_rejects, rejects.
  rewrite Z.gtb_ltb, (proj2 (Z.ltb_ge _ _) H). destruct (vocab b); reflexivity.
Qed.

Lemma bytestring_ok_of_le lim b : blen b <= lim -> bytestring_ok lim b = true.
Proof. exact (bytestring_ok_enc_of_le (fun _ => false) lim b). Qed.

(* the text that becomes state['value']: with reflect.safe_str there always is one *)
Definition rendered (e : exc) : text := match e_str e with Ok v => v | Exc _ => e_fallback e end.

Lemma render_total e : render e = Ok (rendered e).
Proof. reflexivity. Qed.

Lemma nameable_inv e : nameable e = true -> exists ty pa, e_type e = Ok ty /\ e_parents e = Ok pa.
Proof. unfold nameable. destruct (e_type e) as [ty|]; [|discriminate]. destruct (e_parents e) as [pa|]; [|discriminate]. eauto. Qed.

Lemma nameable_intro e ty pa : e_type e = Ok ty -> e_parents e = Ok pa -> nameable e = true.
Proof. unfold nameable. intros -> ->. reflexivity. Qed.

Definition state_of (unsafe : bool) (e : exc) (ty : text) (pa : list text) : fstate :=
  {| s_type := truncated (utf8 (escape ty)) trunc_limit_type;
     s_value := truncated (utf8 (escape (rendered e))) trunc_limit_value;
     s_traceback := truncated (utf8 (escape (elide (if unsafe then e_stack e else default_traceback)))) trunc_limit_traceback;
     s_parents := map (fun p => truncated (utf8 (escape p)) trunc_limit_parents) pa |}.

(* the translated getStateToCopy, whatever the order of its statements: no truncation raises, so the function returns the
   record of the truncated fields if it can name the class and every ancestor, and raises if it cannot *)
Lemma get_state_cases unsafe e :
  match e_type e, e_parents e with
  | Ok ty, Ok pa => get_state unsafe e = Ok (state_of unsafe e ty pa)
  | _, _ => exists t, get_state unsafe e = Exc t
  end.
Proof.
  unfold get_state, get_state_src, render_safe. cbv zeta.
  destruct (e_type e) as [ty|t], (e_parents e) as [pa|t']; cbn [sbind]; rewrite ?trunc_field_eq by reflexivity; cbn [sbind]; eauto.
  rewrite (map_res_ok _ _ pa (fun p => trunc_field_eq p trunc_limit_parents eq_refl)). reflexivity.
Qed.

Lemma get_state_eq unsafe e ty pa : e_type e = Ok ty -> e_parents e = Ok pa -> get_state unsafe e = Ok (state_of unsafe e ty pa).
Proof. intros HT HP. pose proof (get_state_cases unsafe e) as C. rewrite HT, HP in C. exact C. Qed.

Lemma get_state_inv unsafe e s : get_state unsafe e = Ok s ->
  exists ty pa, e_type e = Ok ty /\ e_parents e = Ok pa /\ s = state_of unsafe e ty pa.
Proof.
  intros G. pose proof (get_state_cases unsafe e) as C. rewrite G in C.
  destruct (e_type e) as [ty|], (e_parents e) as [pa|]; try (destruct C; discriminate).
  injection C as ->. eauto.
Qed.

(* whatever the order of its statements: getStateToCopy returns only if it could name the class and every ancestor *)
Lemma get_state_ok_nameable unsafe e s : get_state unsafe e = Ok s -> nameable e = true.
Proof. intros G. destruct (get_state_inv _ _ _ G) as (ty & pa & HT & HP & _). exact (nameable_intro e ty pa HT HP). Qed.

(* getStateToCopy returns exactly for the nameable classes *)
Theorem get_state_returns_iff unsafe e : (exists s, get_state unsafe e = Ok s) <-> nameable e = true.
Proof.
  split; [intros (s & G); exact (get_state_ok_nameable _ _ _ G)|].
  intros N. destruct (nameable_inv e N) as (ty & pa & HT & HP). eexists. exact (get_state_eq unsafe e ty pa HT HP).
Qed.

(* the region C10_failure_fits excludes: a class that cannot be named (its own __module__, or an ancestor's, is not a string).
   getStateToCopy RAISES -- inside Banana.produce, where anything but a Violation means sendFailed: the connection is dropped
   (lib/Callee.v send_error; finding oracle/sibling-affected/exception-class-without-module) *)
Theorem failure_unnameable_raises unsafe e : nameable e = false -> exists t, get_state unsafe e = Exc t.
Proof.
  intros N. destruct (get_state unsafe e) as [s|t] eqn:G; [|eauto].
  rewrite (get_state_ok_nameable _ _ _ G) in N. discriminate N.
Qed.

(* the witness: type("NoMod", (Exception,), {"__module__": None}) -- qual(obj.type) raises TypeError; and a class WITH a module whose
   base class has none: obj.parents raises *)
Example ex_unnameable :
  get_state false {| e_type := Exc "TypeError"%string; e_str := Ok [109]; e_fallback := []; e_stack := []; e_parents := Exc "TypeError"%string |}
    = Exc "TypeError"%string /\
  get_state true {| e_type := Ok [109; 46; 69]; e_str := Ok [109]; e_fallback := []; e_stack := []; e_parents := Exc "TypeError"%string |}
    = Exc "TypeError"%string.
Proof. split; vm_compute; reflexivity. Qed.

(* every field of the state obeys the receiver's limit, whichever fields travel as VOCAB tokens (any negotiated table) *)
Lemma field_accepted vocab t tl fl : 3 < tl -> tl <= fl -> bytestring_ok_enc vocab fl (truncated (utf8 (escape t)) tl) = true.
Proof. intros L F. apply bytestring_ok_enc_of_le. pose proof (truncated_fits (utf8 (escape t)) tl L). lia. Qed.

Lemma state_accepted vocab unsafe e ty pa : failure_constraint_ok_enc vocab (state_of unsafe e ty pa) = true.
Proof.
  unfold failure_constraint_ok_enc, state_of. cbn [s_type s_value s_traceback s_parents].
  rewrite !field_accepted by (reflexivity || discriminate). cbn [andb fc_parents_maxlen]. rewrite andb_true_r.
  induction pa as [|p pa IH]; [reflexivity|]. cbn [map forallb]. rewrite field_accepted, IH by (reflexivity || discriminate). reflexivity.
Qed.

Lemma state_ok unsafe e ty pa : failure_constraint_ok (state_of unsafe e ty pa) = true.
Proof. exact (state_accepted (fun _ => false) unsafe e ty pa). Qed.

(* C10_failure_fits: the ONE hypothesis on the exception is that its class can be named -- reflect.qual returns for the class (ty)
   and for every class of its MRO (pa); nothing on the message, the rendering, the traceback.  Outside it: failure_unnameable_raises *)
Theorem failure_fits unsafe e ty pa : e_type e = Ok ty -> e_parents e = Ok pa ->
  exists s, get_state unsafe e = Ok s /\ failure_constraint_ok s = true /\
    field_of (escape (rendered e)) trunc_limit_value (s_value s) /\
    field_of (escape ty) trunc_limit_type (s_type s) /\
    field_of (escape (elide (if unsafe then e_stack e else default_traceback))) trunc_limit_traceback (s_traceback s) /\
    Forall2 (fun p b => field_of (escape p) trunc_limit_parents b) pa (s_parents s).
Proof.
  intros HT HP. exists (state_of unsafe e ty pa). split; [exact (get_state_eq unsafe e ty pa HT HP)|].
  clear HT HP. split; [apply state_ok|]. cbn [state_of s_type s_value s_traceback s_parents].
  repeat split; try (apply field_of_truncated; [reflexivity|apply escape_wf]).
  induction pa as [|p pa IH]; constructor; [apply field_of_truncated; [reflexivity|apply escape_wf]|exact IH].
Qed.

(* ... and that holds whichever fields travel as VOCAB tokens (any negotiated table) *)
Theorem failure_fits_any_encoding unsafe e vocab : nameable e = true ->
  exists s, get_state unsafe e = Ok s /\ failure_constraint_ok_enc vocab s = true.
Proof.
  intros N. destruct (nameable_inv e N) as (ty & pa & HT & HP). exists (state_of unsafe e ty pa).
  split; [exact (get_state_eq unsafe e ty pa HT HP)|apply state_accepted].
Qed.

Example ex_surrogate_and_badstr :
  get_state false {| e_type := Ok [86]; e_str := Exc "RuntimeError"%string; e_fallback := [60; 56580; 62]; e_stack := []; e_parents := Ok [[86; 55296]] |}
  = Ok {| s_type := [86]; s_value := [60; 92; 117; 100; 100; 48; 52; 62]; s_traceback := utf8 default_traceback;
          s_parents := [[86; 92; 117; 100; 56; 48; 48]] |}.
Proof. vm_compute. reflexivity. Qed.

(* every transmitted field is itself well-formed UTF-8 (so six.ensure_str on the receiving side cannot fail) *)
Lemma field_is_utf8 orig lim b : wf_text orig -> field_of orig lim b -> exists t, wf_text t /\ b = utf8 t.
Proof.
  intros V [[E _]|(_ & p & rest & E & _ & B)].
  - exists orig. split; assumption.
  - exists (p ++ dots). split; [|exact B]. subst orig. unfold wf_text in *. rewrite forallb_app in *.
    apply andb_true_iff in V as [-> _]. reflexivity.
Qed.

(* faithful delivery: the caller sees the transmitted fields, wrapped iff exception types are hidden *)
Theorem deliver_spec expose s :
  (expose = true -> deliver expose s = Copied s) /\ (expose = false -> deliver expose s = Wrapped s).
Proof. split; intros ->; reflexivity. Qed.

(* non-vacuity of "whatever its class": a failure that itself claims to be a RemoteException is wrapped like any other *)
Example ex_remote_exception_wrapped :
  let s := {| s_type := remote_exception_name; s_value := [120]; s_traceback := []; s_parents := [remote_exception_name; [111]] |} in
  claims_remote_exception s = true /\ deliver false s = Wrapped s.
Proof. split; reflexivity. Qed.

Lemma truncated_exact t lim : wf_text t -> blen (utf8 t) <= lim -> truncated (utf8 (escape t)) lim = utf8 t.
Proof. intros W F. rewrite escape_id by exact W. apply truncated_short, F. Qed.

(* "identifies the remote exception's type (by class name ...)" and "... carries a prefix of its message" *)
Theorem type_and_message_exact unsafe e s ty : get_state unsafe e = Ok s -> e_type e = Ok ty ->
  (wf_text ty -> blen (utf8 ty) <= trunc_limit_type -> s_type s = utf8 ty) /\
  (wf_text (rendered e) -> blen (utf8 (rendered e)) <= trunc_limit_value -> s_value s = utf8 (rendered e)).
Proof.
  intros G HT. destruct (get_state_inv _ _ _ G) as (ty' & pa & HT' & _ & ->). rewrite HT in HT'. injection HT' as <-.
  split; apply truncated_exact.
Qed.

Lemma existsb_list_eqb n l : existsb (list_eqb n) l = true <-> In n l.
Proof.
  rewrite existsb_exists. split.
  - intros (x & I & E). apply list_eqb_eq in E. subst. exact I.
  - intros I. exists n. split; [exact I|]. apply list_eqb_eq. reflexivity.
Qed.

(* "(... and ancestry)": the transmitted ancestry has the length of the original one (its order: failure_fits' Forall2);
   every ancestor whose name fits is found by check(), whatever happened to the other entries; and nothing is invented:
   every transmitted entry is the field of some original ancestor *)
Theorem ancestry_preserved unsafe e s pa : get_state unsafe e = Ok s -> e_parents e = Ok pa ->
  List.length (s_parents s) = List.length pa /\
  (forall n, In n pa -> wf_text n -> blen (utf8 n) <= trunc_limit_parents ->
             delivered_check (Copied s) (utf8 n) = true) /\
  (forall b, delivered_check (Copied s) b = true ->
             exists p, In p pa /\ field_of (escape p) trunc_limit_parents b).
Proof.
  intros G HP. destruct (get_state_inv _ _ _ G) as (ty & pa' & _ & HP' & ->). rewrite HP in HP'. injection HP' as <-.
  unfold delivered_check, check_names, state_of. cbn [s_parents]. split; [apply map_length|]. split.
  - intros n I W L. apply existsb_list_eqb, in_map_iff. exists n. split; [exact (truncated_exact n _ W L)|exact I].
  - intros b C. apply existsb_list_eqb, in_map_iff in C as (p & <- & I). exists p. split; [exact I|].
    apply field_of_truncated; [reflexivity|apply escape_wf].
Qed.

(* truncation keeps the ancestry a list of the same shape for EVERY prefix: cutting the original ancestry after k classes
   and transmitting gives the first k transmitted entries (no entry depends on another) *)
Theorem ancestry_prefix_closed unsafe e s k pa : get_state unsafe e = Ok s -> e_parents e = Ok pa ->
  exists s', get_state unsafe {| e_type := e_type e; e_str := e_str e; e_fallback := e_fallback e; e_stack := e_stack e;
                                 e_parents := Ok (firstn k pa) |} = Ok s' /\
             s_parents s' = firstn k (s_parents s) /\ s_type s' = s_type s /\ s_value s' = s_value s /\
             s_traceback s' = s_traceback s.
Proof.
  intros G HP. destruct (get_state_inv _ _ _ G) as (ty & pa' & HT & HP' & ->). rewrite HP in HP'. injection HP' as <-.
  eexists. split; [apply get_state_eq; [exact HT|reflexivity]|].
  split; [symmetry; apply firstn_map|repeat split].
Qed.

(* "or is uniformly wrapped when the Tub is configured to hide remote exception types": with types hidden, what the caller
   can learn from check()/trap() and from f.type is the same for EVERY transmitted failure -- a Violation, a
   RemoteException raised or relayed by the far side, anything -- namely RemoteException and its own ancestry *)
Theorem hidden_is_uniform s1 s2 n :
  delivered_check (deliver false s1) n = delivered_check (deliver false s2) n /\
  delivered_type (deliver false s1) = delivered_type (deliver false s2) /\
  delivered_check (deliver false s1) remote_exception_name = true /\
  delivered_type (deliver false s1) = remote_exception_name.
Proof. repeat split; reflexivity. Qed.

(* and with types exposed nothing is wrapped: the caller's view is the transmitted one *)
Theorem exposed_is_transparent s n :
  delivered_check (deliver true s) n = existsb (list_eqb n) (s_parents s) /\ delivered_type (deliver true s) = s_type s.
Proof. split; reflexivity. Qed.

(* the whole path, composed: for EVERY exception whose class can be named and both settings of both options the report reaches
   the caller's Deferred (never an exception in the callee's slicer, never a local Violation from the caller's FailureConstraint),
   wrapped iff types are hidden; when exposed, the type name and every ancestor that fit are identified *)
Theorem report_end_to_end unsafe expose e ty pa : e_type e = Ok ty -> e_parents e = Ok pa ->
  exists s, get_state unsafe e = Ok s /\
    report unsafe expose e = Ok (if expose then Copied s else Wrapped s) /\
    (expose = true -> wf_text ty -> blen (utf8 ty) <= trunc_limit_type ->
       delivered_type (deliver expose s) = utf8 ty) /\
    (expose = true -> forall n, In n pa -> wf_text n -> blen (utf8 n) <= trunc_limit_parents ->
       delivered_check (deliver expose s) (utf8 n) = true) /\
    (expose = false -> delivered_type (deliver expose s) = remote_exception_name /\
       forall n, delivered_check (deliver expose s) n = existsb (list_eqb n) remote_exception_parents).
Proof.
  intros HT HP. pose proof (get_state_eq unsafe e ty pa HT HP) as G. eexists. split; [exact G|].
  split; [unfold report; rewrite G, state_ok; destruct expose; reflexivity|].
  split; [intros -> W L; exact (truncated_exact ty _ W L)|].
  split; [intros -> n I W L; destruct (ancestry_preserved _ _ _ _ G HP) as (_ & A & _); exact (A n I W L)|].
  intros ->. split; reflexivity.
Qed.

Example ex_ancestry :
  let e := {| e_type := Ok [77; 46; 69]; e_str := Ok [109]; e_fallback := []; e_stack := [];
              e_parents := Ok [[77; 46; 69]; repeat 233 150; [111]] |} in
  exists s, get_state true e = Ok s /\ List.length (s_parents s) = 3%nat /\
    delivered_check (deliver true s) (utf8 [77; 46; 69]) = true /\ delivered_check (deliver true s) (utf8 [111]) = true /\
    delivered_check (deliver true s) (utf8 (repeat 233 150)) = false /\
    delivered_check (deliver false s) (utf8 [77; 46; 69]) = false /\
    delivered_check (deliver false s) remote_exception_name = true.
Proof. intros e. exists (state_of true e [77; 46; 69] [[77; 46; 69]; repeat 233 150; [111]]). split; [exact (get_state_eq true e _ _ eq_refl eq_refl)|]. vm_compute. auto 10. Qed.
