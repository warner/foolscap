(* C03 -- theorems about the byte-level receive path of lib/AnswerRecv.v.  Everything is proved for EVERY oracle
   (taste, after): whatever the result constraint and the unslicers below an answer / error do with a token. *)
From Coq Require Import ZArith List Bool Lia.
Import ListNotations.
Require Import Verif.lib.PyLite Verif.gen.BananaGen Verif.lib.Token Verif.lib.Recv Verif.lib.RecvProofs.
Require Import Verif.gen.RequestsGen Verif.lib.Requests Verif.lib.RequestsProofs Verif.lib.AnswerRecv.
Local Open Scope Z_scope.

Section Proofs.
Variable C : Type.
Variable taste : C -> utop -> bool -> Z -> Z -> ck.
Variable after : C -> utop -> bool -> Z -> Z -> list Z -> dres * C.

Notation actx := (actx C).
Notation violation := (violation C).
Notation fatal := (fatal C).
Notation emit := (emit C).
Notation oracle_open := (oracle_open C after).
Notation handle_open := (handle_open C after).
Notation handle_token := (handle_token C after).
Notation handle_close := (handle_close C after).
Notation deliver := (deliver C after).
Notation taste_of := (taste_of C taste).
Notation clauses := (clauses C after).
Notation abort_violation := (abort_violation C).
Notation step_nobody_a := (step_nobody_a C taste after).
Notation begin_body_a := (begin_body_a C taste).
Notation finish_body_a := (finish_body_a C after).
Notation afeed := (afeed C taste after).
Notation afeed_all := (afeed_all C taste after).
Notation jstep := (jstep C taste after).
Notation jrun := (jrun C taste after).
Notation jinit := (jinit C).
Notation jst := (jst C).
Notation japply := (japply C).
Notation fb := (fun c ty hdr body => to_h C (finish_body_a c ty hdr body)).
Notation sn := (fun c ty hdr => to_h C (step_nobody_a c ty hdr)).
Notation atok := (Recv.tok_step actx op begin_body_a fb sn [] [] (fun _ => [])).
Notation aloop := (Recv.loop actx op begin_body_a fb sn [] [] (fun _ => [])).

(* `acts` is proved once per handler; `coh` (the request state changes only through operations of lib/Requests.v) and
   `emits_ok` (a sequence fires nothing but the request whose id it carried, at most once) are read off it. *)
Definition coh (c : actx) (r : actx * list op) : Prop := a_st (fst r) = run_from (a_st c) (snd r).

Definition emits_ok (c : actx) (r : actx * list op) : Prop :=
  snd r = [] \/
  exists err h hv oc kids, a_top c = UBody err h hv oc kids /\ a_top (fst r) = URoot /\
    (snd r = [Complete h] \/ exists o, snd r = [Fail h o]).

Definition acts (c : actx) (r : actx * list op) : Prop :=
  (snd r = [] /\ a_st (fst r) = a_st c) \/
  exists err h hv oc kids x, a_top c = UBody err h hv oc kids /\ a_top (fst r) = URoot /\
    (x = Complete h \/ exists o, x = Fail h o) /\ snd r = [x] /\ a_st (fst r) = step (a_st c) x.

Lemma acts_coh c r : acts c r -> coh c r.
Proof. unfold coh. intros [[E S]|(err & h & hv & oc & kids & x & _ & _ & _ & E & S)]; rewrite E, S; reflexivity. Qed.

Lemma acts_emits_ok c r : acts c r -> emits_ok c r.
Proof.
  intros [[E _]|(err & h & hv & oc & kids & x & T & T' & X & E & _)]; [left; exact E|right].
  exists err, h, hv, oc, kids. rewrite E. split; [exact T|split; [exact T'|]].
  destruct X as [->|[o ->]]; [left|right; exists o]; reflexivity.
Qed.

Lemma acts_quiet c c' : a_st c' = a_st c -> acts c (c', []).
Proof. intros E. left. split; [reflexivity|exact E]. Qed.

Lemma acts_emit {c} c' {err h hv oc kids x} : a_top c = UBody err h hv oc kids -> a_st c' = a_st c -> a_top c' = URoot ->
  x = Complete h \/ (exists o, x = Fail h o) -> acts c (emit c' [x]).
Proof.
  intros T S T' X. right. exists err, h, hv, oc, kids, x. split; [exact T|]. split; [exact T'|]. split; [exact X|].
  split; [reflexivity|]. cbn [fst AnswerRecv.emit a_st set_st run_from fold_left]. rewrite S. reflexivity.
Qed.

Lemma acts_from c c' r : a_st c' = a_st c -> a_top c' = a_top c -> acts c' r -> acts c r.
Proof. unfold acts. intros <- <-. exact (fun H => H). Qed.

Lemma acts_then c r c2 : acts c r -> a_st c2 = a_st (fst r) -> a_top c2 = a_top (fst r) -> acts c (c2, snd r).
Proof. unfold acts. cbn [fst snd]. intros H -> ->. exact H. Qed.

Lemma coh_refl c : coh c (c, []).
Proof. reflexivity. Qed.

Lemma coh_emit c es : coh c (emit c es).
Proof. reflexivity. Qed.

Lemma coh_fatal c : coh c (fatal c).
Proof. reflexivity. Qed.

Lemma acts_violation c io ic : acts c (violation c io ic).
Proof.
  unfold AnswerRecv.violation. destruct (a_top c) as [|err oc|err h hv oc kids|oc kids] eqn:T; try (apply acts_quiet; reflexivity).
  unfold report_emits. destruct (if err then error_reportViolation else answer_reportViolation); [|apply acts_quiet; reflexivity].
  apply (acts_emit _ T); [reflexivity|reflexivity|right; eexists; reflexivity].
Qed.

Lemma top_violation c io ic : a_top (fst (violation c io ic)) = URoot.
Proof. unfold AnswerRecv.violation. destruct (a_top c) eqn:T; try reflexivity. exact T. Qed.

Lemma acts_oracle_open c ty hdr body : acts c (oracle_open c ty hdr body).
Proof.
  unfold AnswerRecv.oracle_open. destruct (after (a_cs c) (a_top c) true ty hdr body) as [[] cs'];
    try (apply acts_quiet; reflexivity); try (destruct (a_top c); apply acts_quiet; reflexivity).
  eapply acts_from; [| |apply acts_violation]; reflexivity.
Qed.

Lemma acts_handle_open c ty hdr body v : acts c (handle_open c ty hdr body v).
Proof.
  unfold AnswerRecv.handle_open.
  assert (O : acts c (oracle_open (set_first C c false) ty hdr body))
    by (eapply acts_from; [| |apply acts_oracle_open]; reflexivity).
  destruct (a_top c); try exact O. destruct v; try exact O.
  destruct (a_first c && list_eqb b answer_opentype); [apply acts_quiet; reflexivity|].
  destruct (a_first c && list_eqb b error_opentype); [apply acts_quiet; reflexivity|]. exact O.
Qed.

Lemma acts_handle_token c ty hdr body v : acts c (handle_token c ty hdr body v).
Proof.
  unfold AnswerRecv.handle_token.
  assert (O : acts c (let '(r, cs') := after (a_cs c) (a_top c) false ty hdr body in
                      let c2 := set_cs C c cs' in
                      match r with DViol => violation c2 false false | DBanana => fatal c2 | _ => (c2, []) end)).
  { destruct (after (a_cs c) (a_top c) false ty hdr body) as [[] cs']; try (apply acts_quiet; reflexivity).
    eapply acts_from; [| |apply acts_violation]; reflexivity. }
  destruct (a_top c) as [|err oc|err h hv oc kids|oc kids]; try exact O.
  - apply acts_quiet; reflexivity.
  - destruct v; try (apply acts_quiet; reflexivity).
    destruct (tbl_find z (table (a_st c))); [apply acts_quiet; reflexivity|apply acts_violation].
  - destruct kids; [apply acts_quiet; reflexivity|exact O].
Qed.

Lemma acts_deliver c ty hdr body v : acts c (deliver c ty hdr body v).
Proof. unfold AnswerRecv.deliver. destruct (a_inopen c); [apply acts_handle_open|apply acts_handle_token]. Qed.

Lemma acts_handle_close c n : acts c (handle_close c n).
Proof.
  unfold AnswerRecv.handle_close.
  destruct (a_top c) as [|err oc|err h hv oc kids|oc kids] eqn:T; try (apply acts_quiet; reflexivity).
  - destruct kids as [|k kids].
    + destruct (negb (oc =? n)); [apply acts_quiet; reflexivity|]. destruct (negb hv); [apply acts_quiet; reflexivity|].
      destruct err.
      * apply (acts_emit _ T); [reflexivity|reflexivity|right; eexists; reflexivity].
      * destruct (after _ _ _ _ _ _) as [[] cs']; try (apply acts_quiet; reflexivity);
          (apply (acts_emit _ T); [reflexivity|reflexivity|left; reflexivity]).
    + destruct (negb (k =? n)); [apply acts_quiet; reflexivity|].
      destruct (after _ _ _ _ _ _) as [[] cs']; try (apply acts_quiet; reflexivity).
      eapply acts_from; [| |apply acts_violation]; reflexivity.
  - destruct (negb (_ =? n)); [apply acts_quiet; reflexivity|].
    destruct (after _ _ _ _ _ _) as [[] cs']; try (apply acts_quiet; reflexivity).
    eapply acts_from; [| |apply acts_violation]; reflexivity.
Qed.

Lemma acts_abort_violation c : acts c (abort_violation c).
Proof.
  unfold AnswerRecv.abort_violation. destruct abort_in_index_phase_abandons_sequence; [|apply acts_violation].
  apply (acts_then c (violation c (a_inopen c) false)); [apply acts_violation|reflexivity|reflexivity].
Qed.

Lemma acts_clauses c rej ty hdr : acts c (clauses c [] rej ty hdr).
Proof.
  assert (K : forall r, acts c r -> acts c (fst r, [] ++ snd r)) by (intros [] H; exact H).
  unfold AnswerRecv.clauses.
  destruct (ty =? tok_OPEN). { destruct rej; [destruct (a_inopen _)|]; apply acts_quiet; reflexivity. }
  destruct (ty =? tok_CLOSE).
  { destruct (close_in_index_phase_is_fatal && a_inopen c && negb (0 <? a_disc c)); [apply acts_quiet; reflexivity|].
    destruct (0 <? a_disc c); [apply acts_quiet; reflexivity|]. apply K, acts_handle_close. }
  destruct (ty =? tok_ABORT). { destruct rej; [apply acts_quiet; reflexivity|]. apply K, acts_abort_violation. }
  destruct (ty =? tok_INT). { destruct rej; [apply acts_quiet; reflexivity|]. apply K, acts_deliver. }
  destruct (ty =? tok_NEG). { destruct rej; [apply acts_quiet; reflexivity|]. apply K, acts_deliver. }
  destruct (ty =? tok_VOCAB).
  { destruct (vocab_get (a_vocab c) hdr); [|apply acts_quiet; reflexivity].
    destruct rej; [apply acts_quiet; reflexivity|]. apply K, acts_deliver. }
  destruct ((ty =? tok_PING) || (ty =? tok_PONG)); apply acts_quiet; reflexivity.
Qed.

(* a token that was rejected by the taste does nothing more than the Violation already did; nor does any token while a
   sequence is being discarded *)
Lemma clauses_rejected c es ty hdr : (ty =? tok_CLOSE) = false \/ (0 <? a_disc c) = true ->
  exists c', clauses c es true ty hdr = (c', es) /\ a_st c' = a_st c /\ a_top c' = a_top c.
Proof.
  intros H. unfold AnswerRecv.clauses.
  destruct (ty =? tok_OPEN). { destruct (a_inopen _); eexists; repeat split. }
  destruct (ty =? tok_CLOSE). { destruct H as [H|H]; [discriminate|]. rewrite H, andb_false_r. eexists; repeat split. }
  destruct (ty =? tok_ABORT); [eexists; repeat split|].
  destruct (ty =? tok_INT); [eexists; repeat split|].
  destruct (ty =? tok_NEG); [eexists; repeat split|].
  destruct (ty =? tok_VOCAB). { destruct (vocab_get (a_vocab c) hdr); eexists; repeat split. }
  destruct ((ty =? tok_PING) || (ty =? tok_PONG)); eexists; repeat split.
Qed.

Lemma acts_step_nobody c ty hdr : acts c (step_nobody_a c ty hdr).
Proof.
  unfold AnswerRecv.step_nobody_a.
  destruct (a_dead c); [apply acts_quiet; reflexivity|].
  destruct ((ty =? tok_OPEN) && a_inopen c); [apply acts_quiet; reflexivity|].
  set (c1 := if ty =? tok_OPEN then set_inopen C c true else c).
  assert (F : forall r, acts c1 r -> acts c r) by (intros r; apply acts_from; unfold c1; destruct (ty =? tok_OPEN); reflexivity).
  destruct ((0 <? a_disc c) || _) eqn:RX; [apply F, acts_clauses|].
  destruct (taste_of c1 (a_inopen c) ty hdr).
  - apply F, acts_clauses.
  - apply orb_false_iff in RX as [_ RX]. apply orb_false_iff in RX as [_ NC].
    pose proof (acts_violation c1 (a_inopen c1) false) as V. destruct (violation c1 (a_inopen c1) false) as [c' es].
    destruct (clauses_rejected (set_inopen C c' false) es ty hdr (or_introl NC)) as (c3 & -> & St & T).
    apply F. exact (acts_then c1 (c', es) c3 V St T).
  - apply F, acts_quiet. reflexivity.
Qed.

Lemma begin_body_cases c ty hdr :
  begin_body_a c ty hdr = BAccept \/ exists c' es, begin_body_a c ty hdr = BReject c' es /\ acts c (c', es).
Proof.
  unfold AnswerRecv.begin_body_a.
  destruct (a_dead c); [right; eexists _, _; split; [reflexivity|apply acts_quiet; reflexivity]|].
  destruct (0 <? a_disc c); [right; eexists _, _; split; [reflexivity|apply acts_quiet; reflexivity]|].
  destruct (taste_of c (a_inopen c) ty hdr).
  - left; reflexivity.
  - pose proof (acts_violation c (a_inopen c) false) as V. destruct (violation c (a_inopen c) false) as [c' es].
    right. eexists _, _. split; [reflexivity|]. exact (acts_then c (c', es) _ V eq_refl eq_refl).
  - right; eexists _, _; split; [reflexivity|apply acts_quiet; reflexivity].
Qed.

Lemma begin_body_accept c ty hdr :
  begin_body_a c ty hdr = BAccept <-> a_dead c = false /\ (0 <? a_disc c) = false /\ taste_of c (a_inopen c) ty hdr = CkOk.
Proof.
  unfold AnswerRecv.begin_body_a.
  destruct (a_dead c); [split; [discriminate|intros (D & K & T); discriminate]|].
  destruct (0 <? a_disc c); [split; [discriminate|intros (D & K & T); discriminate]|].
  destruct (taste_of c (a_inopen c) ty hdr); [repeat split|destruct (violation c (a_inopen c) false)|];
    (split; [discriminate|intros (D & K & T); discriminate]).
Qed.

Theorem token_emits_at_most_one_nobody c ty hdr : emits_ok c (step_nobody_a c ty hdr).
Proof. apply acts_emits_ok, acts_step_nobody. Qed.

Theorem token_emits_at_most_one_body c ty hdr body : emits_ok c (finish_body_a c ty hdr body).
Proof. apply acts_emits_ok, acts_deliver. Qed.

Theorem token_emits_at_most_one_rejected c ty hdr c' es : begin_body_a c ty hdr = BReject c' es -> emits_ok c (c', es).
Proof.
  intros E. destruct (begin_body_cases c ty hdr) as [B|(c2 & es2 & B & H)]; rewrite B in E; [discriminate|].
  inversion E; subst. apply acts_emits_ok, H.
Qed.

Lemma atok_cases c b :
  match atok c b with
  | TNeed _ _ => True
  | TSkip _ _ c' es _ => coh c (c', es)
  | TCont _ _ c' es _ => coh c (c', es)
  | TDead _ _ es => es = []
  end.
Proof.
  unfold Recv.tok_step. destruct (scan_header 64 [] b) as [| |ds ty rest]; [exact I|reflexivity|].
  destruct (ty =? tok_ERROR).
  { destruct (SIZE_LIMIT <? le128 ds); [reflexivity|]. destruct (lenZ rest <? le128 ds); [exact I|reflexivity]. }
  destruct (has_body ty).
  - destruct (begin_body_cases c ty (le128 ds)) as [B|(c' & es & B & H)]; rewrite B.
    + destruct (lenZ rest <? _); [exact I|]. unfold to_h. apply acts_coh, acts_deliver.
    + destruct (lenZ rest <? _); exact (acts_coh _ _ H).
  - unfold to_h. apply acts_coh, acts_step_nobody.
Qed.

Lemma aloop_coh f : forall c b, coh c (r_ctx (fst (aloop f c b)), snd (aloop f c b)).
Proof.
  induction f as [|f IH]; intros c b; cbn [Recv.loop]; [reflexivity|].
  destruct b as [|x b]; [reflexivity|].
  pose proof (atok_cases c (x :: b)) as T.
  destruct (atok c (x :: b)) as [|c' es n|c' es rest|es]; try reflexivity.
  - exact T.
  - specialize (IH c' rest). destruct (aloop f c' rest) as [s es']. cbn [fst snd] in *.
    unfold coh in *. cbn [fst snd] in *. rewrite IH, T, run_from_app. reflexivity.
  - subst es. reflexivity.
Qed.

Lemma afeed_coh s ch : a_st (r_ctx (fst (afeed s ch))) = run_from (a_st (r_ctx s)) (snd (afeed s ch)).
Proof.
  unfold AnswerRecv.afeed, Recv.feed. destruct (r_dead s); [reflexivity|].
  destruct ((0 <? r_skip s) && _); [reflexivity|]. apply aloop_coh.
Qed.

(* REFINEMENT: the request state after any history of operations and received chunks is the state of lib/Requests.v
   after the operations the history performed (those issued from outside and those the bytes caused), in order *)
Lemma jstep_coh s j : jst (fst (jstep s j)) = run_from (jst s) (snd (jstep s j)).
Proof. destruct j as [x|ch]; [reflexivity|apply afeed_coh]. Qed.

Theorem jrun_coh js : forall s, jst (fst (jrun s js)) = run_from (jst s) (snd (jrun s js)).
Proof.
  induction js as [|j js IH]; intros s; cbn [AnswerRecv.jrun]; [reflexivity|].
  pose proof (jstep_coh s j) as H. destruct (jstep s j) as [s1 e1]. cbn [fst snd] in H.
  specialize (IH s1). destruct (jrun s1 js) as [s2 e2]. cbn [fst snd] in *.
  rewrite IH, H, run_from_app. reflexivity.
Qed.

Theorem bytes_refine_operations cs voc js :
  jst (fst (jrun (jinit cs voc) js)) = run (snd (jrun (jinit cs voc) js)).
Proof. apply jrun_coh. Qed.

Lemma jrun_app a : forall s b,
  jrun s (a ++ b) = let '(s1, e1) := jrun s a in let '(s2, e2) := jrun s1 b in (s2, e1 ++ e2).
Proof.
  induction a as [|j a IH]; intros s b; cbn [app AnswerRecv.jrun].
  - destruct (jrun s b). reflexivity.
  - destruct (jstep s j) as [s1 e1]. rewrite IH. destruct (jrun s1 a) as [s2 e2]. destruct (jrun s2 b) as [s3 e3].
    rewrite app_assoc. reflexivity.
Qed.

(* Each sentence of the property is reduced to its counterpart of lib/RequestsProofs.v by the refinement
   (bytes_refine_operations, jrun_coh). *)

(* "nothing fires twice", whatever bytes arrive in whatever chunks between whatever operations *)
Theorem bytes_at_most_once cs voc js h c :
  get (jst (fst (jrun (jinit cs voc) js))) h = Some c -> (List.length (c_fires c) <= 1)%nat.
Proof. rewrite bytes_refine_operations. apply at_most_once. Qed.

Theorem bytes_table_iff_pending cs voc js rid :
  In rid (map fst (table (jst (fst (jrun (jinit cs voc) js))))) <->
  exists h c, get (jst (fst (jrun (jinit cs voc) js))) h = Some c /\ c_tracked c = true /\ c_rid c = rid /\ c_fires c = [].
Proof. rewrite bytes_refine_operations. apply table_iff_pending. Qed.

(* the first outcome is final under every continuation, including any further bytes *)
Theorem bytes_first_outcome_is_final cs voc js1 js2 h c o :
  get (jst (fst (jrun (jinit cs voc) js1))) h = Some c -> c_fires c = [o] ->
  exists c', get (jst (fst (jrun (jinit cs voc) (js1 ++ js2)))) h = Some c' /\ c_fires c' = [o].
Proof.
  intros G F. rewrite jrun_app. pose proof (bytes_refine_operations cs voc js1) as R1.
  destruct (jrun (jinit cs voc) js1) as [s1 e1]. cbn [fst snd] in *.
  pose proof (jrun_coh js2 s1) as R2. destruct (jrun s1 js2) as [s2 e2]. cbn [fst snd] in *.
  rewrite R1 in G. destruct (first_outcome_is_final e1 e2 h c o G F) as [c' [G' [F' _]]].
  exists c'. split; [|exact F']. rewrite R2, R1, <- run_app. exact G'.
Qed.

(* "for every interleaving of calls, answers ... and connection loss at any byte position": after ANY history -- any
   operations interleaved with any received byte chunks, i.e. the answer stream cut after any number of bytes, with the
   parser and the unslicers in whatever state that leaves them -- connectionLost / shutdown followed by the turns of the
   eventual queue leaves no request pending and every callRemote fired exactly once *)
Theorem bytes_cut_anywhere_then_loss cs voc js r :
  let s1 := jst (fst (jrun (jinit cs voc) (js ++ [JOp (Finish r)]))) in
  let s2 := run_from s1 (repeat Turn (List.length (evq s1))) in
  disconnected s2 = true /\ evq s2 = [] /\ table s2 = [] /\
  forall h c, get s2 h = Some c -> c_twoway c = true -> List.length (c_fires c) = 1%nat.
Proof.
  assert (E : jst (fst (jrun (jinit cs voc) (js ++ [JOp (Finish r)]))) = run (snd (jrun (jinit cs voc) js) ++ [Finish r])).
  { rewrite bytes_refine_operations. rewrite jrun_app. destruct (jrun (jinit cs voc) js) as [s1 e1].
    cbn [AnswerRecv.jrun AnswerRecv.jstep snd]. rewrite app_nil_r. reflexivity. }
  cbv zeta. rewrite E.
  destruct (loss_then_drain (snd (jrun (jinit cs voc) js)) r) as (H1 & H2 & H3 & _ & H5).
  split; [exact H1|split; [exact H2|split; [exact H3|exact H5]]].
Qed.

(* ... and the bytes that arrive AFTER the loss (shutdown first, data later) change nothing about that: in every state in
   which the broker is disconnected and the eventual queue is empty, everything has fired exactly once *)
Theorem bytes_drained_after_loss cs voc js :
  let s := jst (fst (jrun (jinit cs voc) js)) in
  disconnected s = true -> evq s = [] ->
  table s = [] /\ forall h c, get s h = Some c -> c_twoway c = true -> List.length (c_fires c) = 1%nat.
Proof. cbv zeta. rewrite bytes_refine_operations. apply drained_after_loss. Qed.

(* Chunk independence of the whole caller: between two operations only the concatenation of the received chunks
   matters (generic theorem of lib/RecvProofs.v, instantiated), and an operation does not disturb a partly received
   token *)
Notation jstable := (RecvProofs.stable actx op begin_body_a fb sn [] [] (fun _ => [])).

Lemma atok_need_st c s' b : atok c b = TNeed _ _ -> atok (set_st C c s') b = TNeed _ _.
Proof.
  unfold Recv.tok_step. destruct (scan_header 64 [] b) as [| |ds ty rest]; try (intros; assumption).
  destruct (ty =? tok_ERROR); [intros; assumption|].
  destruct (has_body ty).
  - destruct (begin_body_cases c ty (le128 ds)) as [B|(c' & es & B & _)]; rewrite B.
    + rewrite (proj2 (begin_body_accept (set_st C c s') _ _) (proj1 (begin_body_accept c _ _) B)). destruct (lenZ rest <? _); [reflexivity|]. unfold to_h. discriminate.
    + destruct (lenZ rest <? _); discriminate.
  - unfold to_h. discriminate.
Qed.

Lemma japply_stable s x : jstable s -> jstable (japply s x).
Proof.
  unfold RecvProofs.stable, AnswerRecv.japply, Recv.mk. cbn [r_dead r_skip r_buf r_ctx].
  intros [D|[S|(D & K & [B|T])]]; [left; exact D|right; left; exact S|right; right|right; right].
  - split; [exact D|split; [exact K|left; exact B]].
  - split; [exact D|split; [exact K|right; apply atok_need_st; exact T]].
Qed.

Lemma jstep_stable s j : jstable s -> jstable (fst (jstep s j)).
Proof. destruct j as [x|ch]; [apply japply_stable|apply RecvProofs.feed_stable]. Qed.

Theorem jrun_stable js : forall s, jstable s -> jstable (fst (jrun s js)).
Proof.
  induction js as [|j js IH]; intros s St; cbn [AnswerRecv.jrun]; [exact St|].
  pose proof (jstep_stable s j St) as S1. destruct (jstep s j) as [s1 e1]. cbn [fst] in S1.
  specialize (IH s1 S1). destruct (jrun s1 js) as [s2 e2]. exact IH.
Qed.

Lemma jinit_stable cs voc : jstable (jinit cs voc).
Proof. apply RecvProofs.init_stable. Qed.

Lemma jrun_data s chunks : jrun s (map JData chunks) = afeed_all s chunks.
Proof.
  revert s; induction chunks as [|ch chunks IH]; intros s; cbn [map AnswerRecv.jrun AnswerRecv.jstep]; [reflexivity|].
  unfold AnswerRecv.afeed_all. cbn [Recv.feed_all]. fold (afeed s ch). destruct (afeed s ch) as [s1 e1].
  rewrite IH. reflexivity.
Qed.

(* after ANY history, a stretch of received data acts as its concatenation: where the transport cuts it is irrelevant *)
Theorem bytes_chunking_irrelevant cs voc js chunks :
  let s := fst (jrun (jinit cs voc) js) in
  jrun s (map JData chunks) = afeed s (concat chunks).
Proof.
  cbv zeta. rewrite jrun_data. apply RecvProofs.feed_all_concat. apply jrun_stable. apply jinit_stable.
Qed.

Corollary bytes_chunk_independent cs voc js chunks1 chunks2 :
  concat chunks1 = concat chunks2 ->
  let s := fst (jrun (jinit cs voc) js) in
  jrun s (map JData chunks1) = jrun s (map JData chunks2).
Proof. intros E. cbv zeta. rewrite !bytes_chunking_irrelevant, E. reflexivity. Qed.

(* While a sequence is being discarded (discardCount > 0), and once the connection is abandoned, tokens do nothing *)
Theorem discarding_emits_nothing c ty hdr : 0 < a_disc c ->
  snd (step_nobody_a c ty hdr) = [] /\ (forall c' es, begin_body_a c ty hdr = BReject c' es -> es = []) /\
  begin_body_a c ty hdr <> BAccept.
Proof.
  intros D. apply Z.ltb_lt in D. split; [|split].
  - unfold AnswerRecv.step_nobody_a. destruct (a_dead c); [reflexivity|].
    destruct ((ty =? tok_OPEN) && a_inopen c); [reflexivity|]. rewrite D. cbn [orb].
    destruct (clauses_rejected (if ty =? tok_OPEN then set_inopen C c true else c) [] ty hdr) as (c' & -> & _); [|reflexivity].
    right. destruct (ty =? tok_OPEN); exact D.
  - unfold AnswerRecv.begin_body_a. destruct (a_dead c); [intros ? ? E; inversion E; reflexivity|].
    rewrite D. intros ? ? E; inversion E; reflexivity.
  - unfold AnswerRecv.begin_body_a. destruct (a_dead c); [discriminate|]. rewrite D. discriminate.
Qed.

Theorem abandoned_connection_is_inert c ty hdr : a_dead c = true ->
  step_nobody_a c ty hdr = (c, []) /\ begin_body_a c ty hdr = BReject c [].
Proof. intros D. unfold AnswerRecv.step_nobody_a, AnswerRecv.begin_body_a. rewrite D. split; reflexivity. Qed.

(* a request is bound to an unslicer only by the request-id token, through the table (Broker.getRequest) *)
Theorem reqid_token_binds_through_table c ty hdr body rid err oc : a_top c = UWantId err oc ->
  match tbl_find rid (table (a_st c)) with
  | Some h => handle_token c ty hdr body (VInt rid) = (set_top C c (UBody err h false oc []), [])
  | None => snd (handle_token c ty hdr body (VInt rid)) = [] /\ a_top (fst (handle_token c ty hdr body (VInt rid))) = URoot /\
            a_disc (fst (handle_token c ty hdr body (VInt rid))) = a_disc c + 1
  end.
Proof.
  intros T. unfold AnswerRecv.handle_token. rewrite T.
  destruct (tbl_find rid (table (a_st c))); [reflexivity|].
  unfold AnswerRecv.violation. rewrite T. cbn [fst a_disc set_top set_disc]. repeat split; lia.
Qed.

Ltac toks := cbn [tok_OPEN tok_CLOSE tok_INT tok_PING tok_PONG tok_ABORT Z.eqb Pos.eqb andb orb Z.ltb Z.compare].

Lemma step_nobody_open c n : a_dead c = false -> a_disc c = 0 -> a_inopen c = false -> taste_of c false tok_OPEN n = CkOk ->
  step_nobody_a c tok_OPEN n = (set_first C (set_inopen C (set_inbopen C c n) true) true, []).
Proof.
  intros D K I T. unfold AnswerRecv.step_nobody_a. rewrite D, K, I. toks.
  rewrite (T : taste_of (set_inopen C c true) false tok_OPEN n = CkOk). reflexivity.
Qed.

Lemma step_nobody_close c n : a_dead c = false -> a_disc c = 0 -> a_inopen c = false ->
  step_nobody_a c tok_CLOSE n = handle_close c n.
Proof.
  intros D K I. unfold AnswerRecv.step_nobody_a. rewrite D, K. toks. unfold AnswerRecv.clauses. toks.
  rewrite K, I, andb_false_r. toks. destruct (handle_close c n). reflexivity.
Qed.

Lemma step_nobody_int c z : a_dead c = false -> a_disc c = 0 -> taste_of c (a_inopen c) tok_INT z = CkOk ->
  step_nobody_a c tok_INT z = deliver c tok_INT z [] (VInt z).
Proof.
  intros D K T. unfold AnswerRecv.step_nobody_a. rewrite D, K. toks. rewrite T. unfold AnswerRecv.clauses. toks.
  destruct (deliver c tok_INT z [] (VInt z)). reflexivity.
Qed.

Lemma handle_open_body c err h hv oc kids ty hdr body v : a_top c = UBody err h hv oc kids ->
  handle_open c ty hdr body v =
  let '(r, cs') := after (a_cs c) (a_top c) true ty hdr body in
  let c2 := set_cs C (set_first C c false) cs' in
  match r with
  | DMore => (c2, [])
  | DViol => violation (set_inopen C c2 false) true false
  | DBanana => fatal c2
  | DOk | DLate => (set_top C (set_inopen C c2 false) (UBody err h hv oc (a_inbopen c :: kids)), [])
  end.
Proof.
  intros T. unfold AnswerRecv.handle_open, AnswerRecv.oracle_open. rewrite T.
  cbn [a_top a_cs a_inbopen set_first]. rewrite T. reflexivity.
Qed.

Lemma handle_token_body c err h hv oc kids ty hdr body v : a_top c = UBody err h hv oc kids ->
  handle_token c ty hdr body v =
  match kids with
  | [] => (set_top C c (UBody err h true oc []), [])
  | _ => let '(r, cs') := after (a_cs c) (a_top c) false ty hdr body in
         let c2 := set_cs C c cs' in
         match r with DViol => violation c2 false false | DBanana => fatal c2 | _ => (c2, []) end
  end.
Proof. intros T. unfold AnswerRecv.handle_token. rewrite T. destruct kids; reflexivity. Qed.

Lemma handle_close_child c err h hv oc k kids : a_top c = UBody err h hv oc (k :: kids) ->
  handle_close c k =
  let '(r, cs') := after (a_cs c) (a_top c) false tok_CLOSE k [] in
  let c2 := set_cs C c cs' in
  match r with
  | DViol => violation c2 false true
  | DBanana => fatal c2
  | _ => (set_top C c2 (UBody err h (match kids with [] => true | _ => hv end) oc kids), [])
  end.
Proof. intros T. unfold AnswerRecv.handle_close. rewrite T, Z.eqb_refl. reflexivity. Qed.

Lemma handle_close_error c h oc : a_top c = UBody true h true oc [] ->
  handle_close c oc = (set_st C (set_top C c URoot) (step (a_st c) (Fail h ORemoteError)), [Fail h ORemoteError]).
Proof. intros T. unfold AnswerRecv.handle_close. rewrite T, Z.eqb_refl. reflexivity. Qed.

Lemma handle_close_answer c h oc : a_top c = UBody false h true oc [] ->
  fst (after (a_cs c) (a_top c) false tok_CLOSE oc []) <> DLate ->
  handle_close c oc =
  (set_st C (set_top C (set_cs C c (snd (after (a_cs c) (a_top c) false tok_CLOSE oc []))) URoot) (step (a_st c) (Complete h)), [Complete h]).
Proof.
  intros T. unfold AnswerRecv.handle_close. rewrite T, Z.eqb_refl.
  destruct (after (a_cs c) (UBody false h true oc []) false tok_CLOSE oc []) as [[] cs']; try reflexivity.
  intros NL. now destruct NL.
Qed.

(* What the tokens of an answer / error sequence DO (functional half): the CLOSE of a complete answer completes the
   bound request, the CLOSE of an error fails it with the remote failure, a Violation anywhere below fails exactly it. *)
Theorem close_of_answer_completes c h oc : a_top c = UBody false h true oc [] ->
  fst (after (a_cs c) (a_top c) false tok_CLOSE oc []) <> DLate ->
  snd (handle_close c oc) = [Complete h] /\ a_top (fst (handle_close c oc)) = URoot /\
  a_st (fst (handle_close c oc)) = step (a_st c) (Complete h).
Proof. intros T NL. rewrite (handle_close_answer c h oc T NL). repeat split; reflexivity. Qed.

Theorem close_of_error_fails c h oc : a_top c = UBody true h true oc [] ->
  snd (handle_close c oc) = [Fail h ORemoteError] /\ a_top (fst (handle_close c oc)) = URoot /\
  a_st (fst (handle_close c oc)) = step (a_st c) (Fail h ORemoteError).
Proof. intros T. rewrite (handle_close_error c h oc T). repeat split; reflexivity. Qed.

(* (uses the translated reportViolation of both unslicers: ReportFailsBound) *)
Theorem violation_fails_bound_request c err h hv oc kids io ic : a_top c = UBody err h hv oc kids ->
  snd (violation c io ic) = [Fail h OViolation] /\ a_top (fst (violation c io ic)) = URoot /\
  a_st (fst (violation c io ic)) = step (a_st c) (Fail h OViolation) /\
  a_disc (fst (violation c io ic)) = a_disc c + (if io then 1 else 0) + lenZ kids + 1 - (if ic then 1 else 0).
Proof.
  intros T. unfold AnswerRecv.violation. rewrite T.
  assert (R : report_emits err h = [Fail h OViolation]) by (destruct err; reflexivity).
  rewrite R. repeat split; reflexivity.
Qed.

(* a Violation before the request id is known fails nothing *)
Theorem violation_without_request_fails_nothing c err oc io ic : a_top c = UWantId err oc ->
  snd (violation c io ic) = [] /\ a_top (fst (violation c io ic)) = URoot.
Proof. intros T. unfold AnswerRecv.violation. rewrite T. split; reflexivity. Qed.

End Proofs.

(* Non-vacuity: concrete byte strings through the concrete oracle of the correspondence *)
Definition o0 (tasters : list (option taster)) : coracle :=
  {| co_tasters := tasters; co_max_index := 15; co_copyable := [99; 111; 112; 121; 97; 98; 108; 101];
     co_max_copyable := 30; co_second := false;
     co_known := [[108; 105; 115; 116]; [117; 110; 105; 99; 111; 100; 101]]; co_copyables := [[70]] |}.
Definition go0 tasters js := jrun coracle c_taste c_after (jinit coracle (o0 tasters) []) js.
Definition fires0 tasters js := map (fun c => map ocode (c_fires c)) (calls (jst coracle (fst (go0 tasters js)))).
(* OPEN(0) "answer" INT 1 INT 5 CLOSE(0) *)
Definition answer1 : list Z := [0; 136; 6; 130; 97; 110; 115; 119; 101; 114; 1; 129; 5; 129; 0; 137].
(* OPEN(0) "error" INT 1 OPEN(1) "copyable" "F" "value" "x" CLOSE(1) CLOSE(0) *)
Definition error1 : list Z := [0; 136; 5; 130; 101; 114; 114; 111; 114; 1; 129; 1; 136; 8; 130; 99; 111; 112; 121; 97; 98; 108; 101;
                               1; 130; 70; 5; 130; 118; 97; 108; 117; 101; 1; 130; 120; 1; 137; 0; 137].

(* the answer arrives byte by byte: the callRemote fires with the result, exactly when the CLOSE token arrives *)
Example ex_answer_bytewise :
  fires0 [None] (JOp (Call KTwoWay) :: map (fun b => JData [b]) answer1) = [[1]] /\
  fires0 [None] (JOp (Call KTwoWay) :: map (fun b => JData [b]) (removelast answer1)) = [[]] /\
  snd (go0 [None] (JOp (Call KTwoWay) :: [JData answer1])) = [Call KTwoWay; Complete 0%nat].
Proof. vm_compute. repeat split. Qed.

(* the same answer cut after 12 of its 16 bytes, then connectionLost and the turn of the eventual queue: DeadReferenceError, once;
   if the rest of the answer still arrives after a shutdown and before the queued failure runs, the request completes with the
   result and the queued failure fires nothing: once, either way *)
Example ex_cut_then_loss :
  fires0 [None] [JOp (Call KTwoWay); JData (firstn 12 answer1); JOp (Finish (RListed ConnectionLostC)); JOp Turn] = [[4]] /\
  fires0 [None] [JOp (Call KTwoWay); JData (firstn 12 answer1); JOp (Finish (RListed ConnectionLostC)); JData (skipn 12 answer1); JOp Turn] = [[1]].
Proof. vm_compute. split; reflexivity. Qed.

(* the result constraint (taster: STRING up to 10 bytes only) rejects the INT: the request fails with the Violation at that
   token, the rest of the sequence is discarded and the next answer is processed normally *)
Example ex_violation_then_next :
  fires0 [Some [(130, Some 10)]; None]
         [JOp (Call KTwoWay); JOp (Call KTwoWay); JData (answer1 ++ [1; 136; 6; 130; 97; 110; 115; 119; 101; 114; 2; 129; 7; 129; 1; 137])]
  = [[3]; [1]].
Proof. vm_compute. reflexivity. Qed.

(* an answer for a request id that is not pending fires nothing and is skipped; an error sequence fails its request *)
Example ex_unknown_id_and_error :
  fires0 [None] [JOp (Call KTwoWay); JData [0; 136; 6; 130; 97; 110; 115; 119; 101; 114; 9; 129; 5; 129; 0; 137]; JData error1] = [[2]].
Proof. vm_compute. reflexivity. Qed.

(* garbage: 65 header bytes without a type byte abandon the connection; later bytes are ignored; the loss still drains *)
Example ex_garbage :
  let js := [JOp (Call KTwoWay); JData (repeat 0 65); JData answer1] in
  jdead coracle (fst (go0 [None] js)) = true /\ fires0 [None] js = [[]] /\
  fires0 [None] (js ++ [JOp (Finish (RListed ConnectionDoneC)); JOp Turn]) = [[4]].
Proof. vm_compute. repeat split. Qed.
