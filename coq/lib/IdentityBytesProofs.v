(* C05: proofs about lib/IdentityBytes.v -- the receive loop of Negotiation over raw bytes.
   What handleENCRYPTED does with a header block depends on the block and the transport only, not on the state it finds:
   handle_encrypted_verdict computes that verdict once, and the invariant, the refusal theorem and memorylessness all read it.
   The theorems about brecv_all are projections of one invariant of the loop, binv; what a refusal changes is a property of one
   bhandle call and needs no invariant. *)
From Coq Require Import ZArith List String Bool.
Import ListNotations.
Require Import Verif.lib.PyLite Verif.gen.NegotiateGen Verif.lib.Negotiate Verif.lib.NegBytes
               Verif.gen.IdentityGen Verif.lib.NegSplit Verif.lib.Identity Verif.lib.IdentityProofs Verif.lib.IdentityBytes.
Local Open Scope Z_scope.

(* the TRANSLATED dispatch as a table, by evaluation on the finite phase x role space (independent of how the source spells
   the chain of tests) *)
Lemma dispatch_spec ph ic :
  dispatch ph ic = match ph with
                   | RPlaintext => if ic then HPlaintextClient else HPlaintextServer
                   | RP PhEncrypted => HEncrypted
                   | RP PhDeciding => HDeciding
                   | RP _ => HAssert
                   end.
Proof. destruct ph as [|[]], ic; reflexivity. Qed.

Lemma rphase_eqb_eq a b : rphase_eqb a b = true <-> a = b.
Proof. destruct a as [|[]], b as [|[]]; cbv; split; intros H; first [reflexivity | discriminate H]. Qed.

Lemma is_banana_false ph : is_banana ph = false -> ph <> RP PhBanana.
Proof. intros H ->. discriminate H. Qed.

Section BytesProofs.
Variable cert : Type.
Variable tubid_of : cert -> list Z.
Variable decode : list Z -> option (list Z).
Variable D : Type.
Variable parse : list Z -> res D.
Variable has_error : D -> bool.
Variable claimed_of : D -> option (list Z).
Variable pre_chk post_chk decision_chk : D -> res unit.
Variable redirect : list Z -> bool.

Notation handle_hello := (handle_hello cert tubid_of).
Notation handle_encrypted := (handle_encrypted cert tubid_of D parse has_error claimed_of pre_chk post_chk).
Notation handle_deciding := (handle_deciding D parse decision_chk).
Notation bhandle := (bhandle cert tubid_of decode D parse has_error claimed_of pre_chk post_chk decision_chk redirect).
Notation bdrain := (bdrain cert tubid_of decode D parse has_error claimed_of pre_chk post_chk decision_chk redirect).
Notation brecv_chunk := (brecv_chunk cert tubid_of decode D parse has_error claimed_of pre_chk post_chk decision_chk redirect).
Notation brecv_all := (brecv_all cert tubid_of decode D parse has_error claimed_of pre_chk post_chk decision_chk redirect).
Notation plain_guard := (plain_guard decode redirect).

(* dataReceived's error handler does not assign receive_phase *)
Lemma rexc_id x : rexc x = x.
Proof. reflexivity. Qed.

Lemma rexc_eval_not_banana : rexc (RP phase_during_evaluate_hello) <> RP PhBanana.
Proof. discriminate. Qed.

(* a header block whose hello passed every check up to and including the identity checks of evaluateNegotiationVersion1 *)
Definition passed_identity (r : role) (my tgt : list Z) (p : presented cert) (hdr : list Z) : Prop :=
  exists d t m, parse hdr = Ok d /\ has_error d = false /\ pre_chk d = Ok tt /\
                handle_hello r my tgt p (claimed_of d) = Accept t m.

(* EvRaise: raise before evaluateHello; EvRaiseEval: raise inside it (th: what becomes of self.theirTubRef) *)
Inductive enc_verdict :=
  | EvRaise (w : string)
  | EvRaiseEval (th : option (list Z) -> option (list Z)) (w : string)
  | EvSwitch (t : list Z)
  | EvWait (t : list Z).

Definition enc_apply (r : role) (tgt : list Z) (st : bstate) (hdr : list Z) (v : enc_verdict) : bstate * bool :=
  match v with
  | EvRaise w => (raised st (b_phase st) (b_their st) w, true)
  | EvRaiseEval th w => (raised st (RP phase_during_evaluate_hello) (th (b_their st)) w, true)
  | EvSwitch t => (switched r tgt st t hdr true, false)
  | EvWait t => ({| b_phase := RP slave_phase_after_accept; b_their := Some t; b_attached := b_attached st;
                    b_buf := b_buf st; b_fail := b_fail st; b_passed := hdr :: b_passed st |}, false)
  end.

Definition enc_verdict_ok (r : role) (my tgt : list Z) (p : presented cert) (hdr : list Z) (v : enc_verdict) : Prop :=
  match v with
  | EvRaise _ => True
  | EvRaiseEval th _ => forall old, th old = old \/ exists crt, leaf p = Some crt /\ th old = Some (tubid_of crt)
  | EvSwitch t | EvWait t =>
      passed_identity r my tgt p hdr /\ key_ok cert tubid_of r tgt p (attach_key (is_client r) tgt t)
  end.

Lemma handle_encrypted_verdict r my tgt p hdr :
  exists v, enc_verdict_ok r my tgt p hdr v /\ forall st, handle_encrypted r my tgt p st hdr = enc_apply r tgt st hdr v.
Proof.
  unfold IdentityBytes.handle_encrypted.
  destruct (peer_from_transport cert p) as [c|w]; [|exists (EvRaise w); split; [exact I|reflexivity]].
  destruct (parse hdr) as [d|w] eqn:EP; [|exists (EvRaise w); split; [exact I|reflexivity]].
  destruct (has_error d) eqn:EE; [exists (EvRaise "RemoteNegotiationError"); split; [exact I|reflexivity]|].
  destruct (pre_chk d) as [[]|w] eqn:EPre; [|exists (EvRaiseEval (fun o => o) w); split; [left|]; reflexivity].
  destruct (handle_hello r my tgt p (claimed_of d)) as [w|t m] eqn:EH.
  { exists (EvRaiseEval (their_after_rejected_evaluation cert tubid_of p (claimed_of d)) w).
    split; [intros old; apply their_after_rejected_cases|reflexivity]. }
  assert (Hok : passed_identity r my tgt p hdr /\ key_ok cert tubid_of r tgt p (attach_key (is_client r) tgt t)).
  { split; [exists d, t, m; auto|exact (hello_key_proven _ _ _ _ _ _ _ _ _ EH)]. }
  destruct m; [destruct (post_chk d) as [u|w]|].
  - exists (EvSwitch t). split; [exact Hok|reflexivity].
  - exists (EvRaiseEval (fun _ => Some t) w). split; [|reflexivity].
    apply handle_hello_bound in EH as (crt & Hl & Ht & _). intros old. right. exists crt. rewrite Ht. auto.
  - exists (EvWait t). split; [exact Hok|reflexivity].
Qed.

Set Implicit Arguments.
Record binv (r : role) (my tgt : list Z) (p : presented cert) (st : bstate) : Prop := {
  I_att : b_attached st = [] \/
          b_phase st = RP PhBanana /\ exists k, b_attached st = [k] /\ key_ok cert tubid_of r tgt p k /\ b_passed st <> [];
  I_dec : b_phase st = RP PhDeciding ->
          (exists t, b_their st = Some t /\ key_ok cert tubid_of r tgt p (attach_key (is_client r) tgt t)) /\ b_passed st <> [];
  I_passed : forall hdr, In hdr (b_passed st) -> passed_identity r my tgt p hdr;
  I_plain : b_phase st = RPlaintext -> b_their st = None /\ b_passed st = [];
  I_entered : b_phase st <> RPlaintext -> exists hdr, plain_guard r my hdr = Ok tt;
  I_live : b_phase st <> RP PhAbandoned }.
Unset Implicit Arguments.

Lemma binv_nothing_attached {r my tgt p st} : binv r my tgt p st -> b_phase st <> RP PhBanana -> b_attached st = [].
Proof. intros I Hnb. destruct (I_att I) as [E|[E _]]; [exact E|contradiction]. Qed.

Lemma binv_same r my tgt p st st' :
  binv r my tgt p st -> b_phase st' = b_phase st -> b_their st' = b_their st -> b_attached st' = b_attached st ->
  b_passed st' = b_passed st -> binv r my tgt p st'.
Proof. intros [] Eph Eth Eat Epa. constructor; rewrite ?Eph, ?Eth, ?Eat, ?Epa; assumption. Qed.

Lemma raised_inv r my tgt p st w : binv r my tgt p st -> binv r my tgt p (raised st (b_phase st) (b_their st) w).
Proof. intros I. apply (binv_same _ _ _ _ st); auto. Qed.

Lemma with_bbuf_inv r my tgt p st b : binv r my tgt p st -> binv r my tgt p (with_bbuf st b).
Proof. intros I. apply (binv_same _ _ _ _ st); auto. Qed.

Lemma binv_encrypted r my tgt p st st' :
  binv r my tgt p st -> (exists hdr, plain_guard r my hdr = Ok tt) -> b_phase st' = RP PhEncrypted -> b_attached st' = [] ->
  b_passed st' = b_passed st -> binv r my tgt p st'.
Proof.
  intros I He Eph Eat Epa. constructor; rewrite ?Eph, ?Eat, ?Epa; try discriminate; [left; reflexivity|apply I|intros _; exact He].
Qed.

Lemma handle_encrypted_inv r my tgt p st hdr :
  binv r my tgt p st -> b_phase st = RP PhEncrypted -> binv r my tgt p (fst (handle_encrypted r my tgt p st hdr)).
Proof.
  intros I Hph.
  assert (Hnil : b_attached st = []) by (apply (binv_nothing_attached I); rewrite Hph; discriminate).
  assert (Hent : exists h, plain_guard r my h = Ok tt) by (apply (I_entered I); rewrite Hph; discriminate).
  assert (Keep : forall ph th w, ph = RP PhEncrypted -> binv r my tgt p (raised st ph th w)).
  { intros ph th w ->. apply (binv_encrypted _ _ _ _ st); [exact I|exact Hent|reflexivity|exact Hnil|reflexivity]. }
  destruct (handle_encrypted_verdict r my tgt p hdr) as (v & Hv & ->).
  destruct v as [w|th w|t|t]; [apply Keep, Hph|apply Keep; reflexivity|destruct Hv as [Hp Hk]..];
    constructor; cbn [enc_apply fst switched b_phase b_their b_attached b_passed];
    try (intros _; exact Hent); try discriminate.
  - (* EvSwitch, I_att *)
    right. rewrite Hnil. split; [reflexivity|]. exists (attach_key (is_client r) tgt t). split; [reflexivity|]. split; [exact Hk|discriminate].
  - (* EvSwitch, I_passed *) intros h [<-|Hh]; [exact Hp|exact (I_passed I h Hh)].
  - (* EvWait, I_att *) left. exact Hnil.
  - (* EvWait, I_dec *) intros _. split; [exists t; auto|discriminate].
  - (* EvWait, I_passed *) intros h [<-|Hh]; [exact Hp|exact (I_passed I h Hh)].
Qed.

Lemma handle_deciding_inv r my tgt p st hdr :
  binv r my tgt p st -> b_phase st = RP PhDeciding -> binv r my tgt p (fst (handle_deciding r tgt st hdr)).
Proof.
  intros I Hph. unfold IdentityBytes.handle_deciding.
  destruct (parse hdr) as [d|w]; [|apply raised_inv, I]. destruct (decision_chk d); [|apply raised_inv, I].
  destruct (I_dec I Hph) as ((t & Ht & Hk) & Hpne). rewrite Ht.
  constructor; cbn [fst switched b_phase b_their b_attached b_passed]; try discriminate.
  - right. rewrite (binv_nothing_attached I) by (rewrite Hph; discriminate). split; [reflexivity|].
    exists (attach_key (is_client r) tgt t). split; [reflexivity|]. split; [exact Hk|exact Hpne].
  - apply I.
  - intros _. apply (I_entered I). rewrite Hph. discriminate.
Qed.

Theorem bhandle_plaintext_exact r my tgt p st hdr :
  b_phase st = RPlaintext ->
  bhandle r my tgt p st hdr =
  match plain_guard r my hdr with
  | Ok _ => (enter_encrypted st, false)
  | Exc w => (raised st (b_phase st) (b_their st) w, true)
  end.
Proof.
  intros H. unfold IdentityBytes.bhandle, IdentityBytes.plain_guard. rewrite dispatch_spec, H. destruct r; reflexivity.
Qed.

Lemma bhandle_inv r my tgt p st hdr :
  binv r my tgt p st -> b_phase st <> RP PhBanana -> binv r my tgt p (fst (bhandle r my tgt p st hdr)).
Proof.
  intros I Hnb. destruct (b_phase st) as [|ph] eqn:Hph.
  - rewrite bhandle_plaintext_exact by exact Hph. destruct (plain_guard r my hdr) as [[]|w] eqn:G; [|apply raised_inv, I].
    apply (binv_encrypted _ _ _ _ st); [exact I|exists hdr; exact G|reflexivity| |reflexivity].
    apply (binv_nothing_attached I). rewrite Hph. discriminate.
  - destruct ph; [| |contradiction|destruct (I_live I Hph)]; unfold IdentityBytes.bhandle; rewrite dispatch_spec, Hph;
      [apply handle_encrypted_inv|apply handle_deciding_inv]; assumption.
Qed.

Lemma bdrain_inv r my tgt p fuel : forall st,
  binv r my tgt p st -> b_phase st <> RP PhBanana -> binv r my tgt p (bdrain fuel r my tgt p st).
Proof.
  induction fuel as [|f IH]; intros st I Hnb; cbn [IdentityBytes.bdrain]; [exact I|]. cbv zeta.
  destruct (header_verdict _ _ =? 0); [apply raised_inv, I|].
  destruct (header_verdict _ _ =? 1); [exact I|].
  destruct (find_term (b_buf st)) as [e|]; [|apply raised_inv, I].
  pose proof (bhandle_inv r my tgt p _ (firstn e (b_buf st)) (with_bbuf_inv _ _ _ _ _ (skipn (e + 4) (b_buf st)) I) Hnb) as I2.
  destruct (bhandle r my tgt p _ _) as [st2 exc]. cbn [fst] in I2.
  destruct exc; [exact I2|].
  destruct (is_banana (b_phase st2)) eqn:EBan; [exact I2|].
  destruct (b_buf st2); [exact I2|].
  apply IH; [exact I2|apply is_banana_false; exact EBan].
Qed.

Lemma brecv_chunk_inv r my tgt p st chunk : binv r my tgt p st -> binv r my tgt p (brecv_chunk r my tgt p st chunk).
Proof.
  intros I. unfold IdentityBytes.brecv_chunk.
  destruct (is_banana (b_phase st)) eqn:EB; cbn [orb]; [exact I|].
  destruct (is_abandoned (b_phase st)); [exact I|].
  apply bdrain_inv; [apply with_bbuf_inv; exact I|]. apply is_banana_false. exact EB.
Qed.

Lemma b_init_inv r my tgt p : binv r my tgt p b_init.
Proof.
  constructor; cbn [b_init b_attached b_their b_phase b_passed]; try discriminate.
  - left. reflexivity.
  - intros h [].
  - intros _. split; reflexivity.
  - intros H. contradiction H. reflexivity.
Qed.

(* THE CLOSED WORLD: connectionMade does not reach switchToBanana -- the model starts with nothing registered.  By computation on the
   translated do_negotiation / connection_made_switches (read from the whole package); a tree in which the non-negotiating branch is
   live makes this lemma, and with it every theorem about brecv_all, fail *)
Lemma bytes_start_is_init r tgt : b_connection_made r tgt = b_init.
Proof. reflexivity. Qed.

(* WHY the closed world is needed (the region the translator excludes): were the non-negotiating branch of connectionMade live, a
   client would register the dialled id before a single byte -- let alone a certificate -- was seen *)
Theorem without_negotiation_refuted : forall tgt,
  b_attached (b_connection_made_with true Client tgt) = [tgt] /\ b_passed (b_connection_made_with true Client tgt) = [].
Proof. intros tgt. split; reflexivity. Qed.

Lemma brecv_all_inv r my tgt p chunks : binv r my tgt p (brecv_all r my tgt p chunks).
Proof.
  apply (fold_left_inv (binv r my tgt p)); [intros st c; apply brecv_chunk_inv|].
  rewrite bytes_start_is_init. apply b_init_inv.
Qed.

(* ARBITRARY BYTES, ANY CHUNKING, from the first byte of the connection: every key ever handed to Tub.brokerAttached is the
   hash of the leaf certificate of this transport and, on a client, the dialled id *)
Theorem bytes_attach_proven r my tgt p chunks k :
  In k (b_attached (brecv_all r my tgt p chunks)) ->
  exists crt, leaf p = Some crt /\ tubid_of crt = k /\ (r = Client -> k = tgt).
Proof.
  destruct (I_att (brecv_all_inv r my tgt p chunks)) as [E|(_ & k' & E & Hk & _)]; rewrite E; [intros []|].
  intros [<-|[]]. exact Hk.
Qed.

(* no brokerAttached before a hello passed evaluateNegotiationVersion1's identity checks: whenever a key was registered, one
   of the header blocks received on this connection parsed, carried no error, passed the earlier checks and its my-tub-id
   passed the identity checks against the leaf certificate *)
Theorem bytes_no_attach_before_identity r my tgt p chunks :
  b_attached (brecv_all r my tgt p chunks) <> [] ->
  exists hdr d t m, parse hdr = Ok d /\ has_error d = false /\ pre_chk d = Ok tt /\
                    handle_hello r my tgt p (claimed_of d) = Accept t m.
Proof.
  intros H. pose proof (brecv_all_inv r my tgt p chunks) as I.
  destruct (I_att I) as [E|(_ & k & _ & _ & Hne)]; [contradiction|].
  destruct (b_passed (brecv_all r my tgt p chunks)) as [|hdr rest] eqn:E; [contradiction Hne; reflexivity|].
  exists hdr. apply (I_passed I). rewrite E. left. reflexivity.
Qed.

(* one connection registers at most one key; and only after it left the negotiation phases *)
Theorem bytes_at_most_one_attach r my tgt p chunks :
  (List.length (b_attached (brecv_all r my tgt p chunks)) <= 1)%nat /\
  (b_phase (brecv_all r my tgt p chunks) <> RP PhBanana -> b_attached (brecv_all r my tgt p chunks) = []).
Proof.
  pose proof (brecv_all_inv r my tgt p chunks) as I. split; [|apply binv_nothing_attached with (1 := I)].
  destruct (I_att I) as [E|(_ & k & E & _)]; rewrite E; repeat constructor.
Qed.

(* while the connection is in the PLAINTEXT phase nothing about the peer is believed *)
Theorem bytes_plaintext_knows_nothing r my tgt p chunks :
  b_phase (brecv_all r my tgt p chunks) = RPlaintext ->
  b_their (brecv_all r my tgt p chunks) = None /\ b_attached (brecv_all r my tgt p chunks) = [].
Proof.
  intros H. pose proof (brecv_all_inv r my tgt p chunks) as I.
  split; [exact (proj1 (I_plain I H))|]. apply (binv_nothing_attached I). rewrite H. discriminate.
Qed.

(* A header block that makes its handler raise (dataReceived's `except Exception`: failureReason recorded, loseConnection)
   leaves the Negotiation object ALIVE until connectionLost arrives; this is all that such a call can change. *)
Definition refused (p : presented cert) (st st' : bstate) : Prop :=
  b_phase st' = b_phase st /\ b_attached st' = b_attached st /\ b_passed st' = b_passed st /\ b_buf st' = b_buf st /\
  b_fail st' <> None /\
  (b_their st' = b_their st \/
   (b_phase st = RP PhEncrypted /\ exists crt, leaf p = Some crt /\ b_their st' = Some (tubid_of crt))).

Lemma raised_refused p st ph th w :
  ph = b_phase st ->
  th = b_their st \/ (b_phase st = RP PhEncrypted /\ exists crt, leaf p = Some crt /\ th = Some (tubid_of crt)) ->
  refused p st (raised st ph th w).
Proof. intros -> Hth. repeat split; [discriminate|exact Hth]. Qed.

Lemma bhandle_refusal r my tgt p st hdr :
  snd (bhandle r my tgt p st hdr) = true -> refused p st (fst (bhandle r my tgt p st hdr)).
Proof.
  assert (Same : forall w, refused p st (raised st (b_phase st) (b_their st) w)).
  { intros w. apply raised_refused; auto. }
  unfold IdentityBytes.bhandle. rewrite dispatch_spec. destruct (b_phase st) as [|[]] eqn:Hph; try (intros _; apply Same).
  - destruct r; cbn [is_client]; [destruct (plaintext_client_guard decode hdr)|destruct (plaintext_server_guard decode my redirect hdr)];
      first [discriminate|intros _; apply Same].
  - assert (Eval : forall th w, (th = b_their st \/ exists crt, leaf p = Some crt /\ th = Some (tubid_of crt)) ->
                     refused p st (raised st (RP phase_during_evaluate_hello) th w)).
    { intros th w Hth. apply raised_refused; [symmetry; exact Hph|]. rewrite Hph. destruct Hth; auto. }
    destruct (handle_encrypted_verdict r my tgt p hdr) as (v & Hv & ->).
    destruct v as [w|th w|t|t]; cbn [enc_apply fst snd]; [|intros _; apply Eval, Hv|discriminate..].
    rewrite Hph. intros _. apply Same.
  - unfold IdentityBytes.handle_deciding. rewrite Hph.
    destruct (parse hdr) as [d|w]; [|intros _; apply Same]. destruct (decision_chk d); [|intros _; apply Same].
    destruct (b_their st); [discriminate|intros _; apply Same].
Qed.

Theorem refusal_changes_nothing_but r my tgt p st hdr st' :
  bhandle r my tgt p st hdr = (st', true) ->
  b_phase st' = b_phase st /\ b_attached st' = b_attached st /\ b_passed st' = b_passed st /\ b_buf st' = b_buf st /\
  b_fail st' <> None /\
  (b_their st' = b_their st \/
   (b_phase st = RP PhEncrypted /\ exists crt, leaf p = Some crt /\ b_their st' = Some (tubid_of crt))).
Proof. intros H. pose proof (bhandle_refusal r my tgt p st hdr) as R. rewrite H in R. exact (R eq_refl). Qed.

(* the ENCRYPTED handler has no memory: what it does with a header block -- refuse, wait for the decision, or register --
   does not depend on earlier failures or on a theirTubRef left behind by an earlier rejected hello; every hello is
   checked from scratch against the leaf certificate *)
Theorem hello_evaluation_is_memoryless r my tgt p st1 st2 hdr :
  b_phase st1 = b_phase st2 -> b_attached st1 = b_attached st2 ->
  snd (handle_encrypted r my tgt p st1 hdr) = snd (handle_encrypted r my tgt p st2 hdr) /\
  b_phase (fst (handle_encrypted r my tgt p st1 hdr)) = b_phase (fst (handle_encrypted r my tgt p st2 hdr)) /\
  b_attached (fst (handle_encrypted r my tgt p st1 hdr)) = b_attached (fst (handle_encrypted r my tgt p st2 hdr)) /\
  (snd (handle_encrypted r my tgt p st1 hdr) = false ->
   b_their (fst (handle_encrypted r my tgt p st1 hdr)) = b_their (fst (handle_encrypted r my tgt p st2 hdr))).
Proof.
  intros Hp Ha. destruct (handle_encrypted_verdict r my tgt p hdr) as (v & _ & E). rewrite !E.
  destruct v; cbn [enc_apply raised switched fst snd b_phase b_attached b_their]; rewrite ?Hp, ?Ha; repeat split; discriminate.
Qed.

(* input alone never ends the life of the Negotiation object: only switchToBanana (hand-over to the Broker) or
   connectionLost (not an input) do *)
Theorem bytes_never_abandoned r my tgt p chunks : b_phase (brecv_all r my tgt p chunks) <> RP PhAbandoned.
Proof. exact (I_live (brecv_all_inv r my tgt p chunks)). Qed.

(* consequently the object keeps reading: whatever was refused before, the next chunk is processed by the same code *)
Theorem bytes_keeps_reading r my tgt p chunks chunk :
  b_phase (brecv_all r my tgt p chunks) <> RP PhBanana ->
  brecv_all r my tgt p (chunks ++ [chunk]) =
  bdrain (S (List.length (b_buf (brecv_all r my tgt p chunks) ++ chunk))) r my tgt p
         (with_bbuf (brecv_all r my tgt p chunks) (b_buf (brecv_all r my tgt p chunks) ++ chunk)).
Proof.
  intros Hnb. unfold IdentityBytes.brecv_all. rewrite fold_left_app. cbn [fold_left].
  fold (brecv_all r my tgt p chunks). unfold IdentityBytes.brecv_chunk.
  pose proof (bytes_never_abandoned r my tgt p chunks) as Hl.
  destruct (is_banana (b_phase (brecv_all r my tgt p chunks))) eqn:EB.
  { apply rphase_eqb_eq in EB. contradiction. }
  destruct (is_abandoned (b_phase (brecv_all r my tgt p chunks))) eqn:EA.
  { apply rphase_eqb_eq in EA. contradiction. }
  reflexivity.
Qed.

(* a block refused by the plaintext guard: exception, and the object is in the PLAINTEXT phase as before (no TLS, no hello sent) *)
Corollary plaintext_refused_stays_plaintext r my tgt p st hdr w :
  b_phase st = RPlaintext -> plain_guard r my hdr = Exc w ->
  snd (bhandle r my tgt p st hdr) = true /\ b_phase (fst (bhandle r my tgt p st hdr)) = RPlaintext.
Proof. intros H G. rewrite (bhandle_plaintext_exact r my tgt p st hdr H), G. split; [reflexivity|exact H]. Qed.

(* ARBITRARY BYTES, ANY CHUNKING: the object is out of the PLAINTEXT phase (TLS started, hello sent, peer's hello looked at, ...)
   only if one of the header blocks received passed this end's plaintext handler *)
Theorem bytes_leaves_plaintext_only_through_guard r my tgt p chunks :
  b_phase (brecv_all r my tgt p chunks) <> RPlaintext -> exists hdr, plain_guard r my hdr = Ok tt.
Proof. exact (I_entered (brecv_all_inv r my tgt p chunks)). Qed.

(* handlePLAINTEXTServer hands the listener only a non-empty id: `if not targetTubID: raise` *)
Lemma server_requested_nonempty hdr req : plaintext_server_requested decode hdr = Ok req -> list_eqb req [] = false.
Proof.
  unfold plaintext_server_requested. cbv zeta. name_strings.
  destruct (nth_error _ 0) as [x|]; [|discriminate]. destruct (negb (prefixb _ x)); [discriminate|].
  destruct (bsplit_ws x) as [|c [|u [|v [|]]]]; try discriminate.
  destruct (negb (prefixb _ u)); [discriminate|]. destruct (decode _) as [s|]; [|discriminate].
  (* the emptiness test computes on nil and on cons, however the source phrases it *)
  destruct s as [|a s]; cbn [list_eqb list_is_nil negb]; [discriminate|].
  try destruct (bsub _ hdr); intros [= <-]; reflexivity.   (* the Upgrade test, where the source keeps it as a branch *)
Qed.

(* handlePLAINTEXTServer reaches sendPlaintextServerAndStartENCRYPTED exactly when the statements before the listener lookup
   produce an id on which the session model's server_lookup (lib/Identity.v: session) succeeds; the listener's redirect table
   plays no part in an acceptance *)
Theorem server_guard_is_server_lookup my hdr :
  plaintext_server_guard decode my redirect hdr = Ok tt <->
  exists req, plaintext_server_requested decode hdr = Ok req /\ server_lookup req my = Ok tt.
Proof.
  unfold plaintext_server_guard.
  destruct (plaintext_server_requested decode hdr) as [req|w] eqn:ER; [|split; [discriminate|intros (req & [=] & _)]].
  assert (E : listener_dispatch my redirect req = Ok tt <-> server_lookup req my = Ok tt).
  { unfold listener_dispatch, server_lookup. name_strings. destruct req; [discriminate (server_requested_nonempty hdr [] ER)|].
    cbn [list_is_nil]. destruct (list_eqb _ my); [split; reflexivity|]. destruct (redirect _); split; discriminate. }
  rewrite E. split; [eauto|]. intros (req' & [= <-] & H). exact H.
Qed.

(* a listener registers a key, or as much as looks at a hello, only on a connection whose GET named this very Tub *)
Theorem bytes_listener_needs_get_for_this_tub my tgt p chunks :
  b_phase (brecv_all Server my tgt p chunks) <> RPlaintext ->
  exists hdr, plaintext_server_requested decode hdr = Ok my /\ server_lookup my my = Ok tt /\ my <> [].
Proof.
  intros H. destruct (bytes_leaves_plaintext_only_through_guard Server my tgt p chunks H) as (hdr & G).
  apply server_guard_is_server_lookup in G as (req & ER & HL). destruct (proj1 (server_lookup_ok _ _) HL) as [-> Hne]. eauto.
Qed.

Corollary bytes_listener_attach_needs_get my tgt p chunks :
  b_attached (brecv_all Server my tgt p chunks) <> [] ->
  exists hdr, plaintext_server_requested decode hdr = Ok my /\ server_lookup my my = Ok tt /\ my <> [].
Proof.
  intros H. apply bytes_listener_needs_get_for_this_tub with (tgt := tgt) (p := p) (chunks := chunks).
  intros E. apply H, (proj2 (bytes_at_most_one_attach Server my tgt p chunks)). rewrite E. discriminate.
Qed.

End BytesProofs.
